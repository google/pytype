(* C10 proofs, part 2: super() lookups, instance dictionaries filled by cooperative __init__ chains, Generic bases. *)
From Coq Require Import List Arith Bool.
From PV Require Import Mro.Model Mro.Proofs Mro.Attr.
Import ListNotations.

Lemma find_ext_in : forall (A : Type) (f g : A -> bool) l,
  (forall x, In x l -> f x = g x) -> find f l = find g l.
Proof.
  induction l as [|h t IH]; simpl; intros Hfg; auto.
  rewrite (Hfg h) by auto. destruct (g h); auto.
Qed.

Lemma mem_app : forall x a b, mem x (a ++ b) = mem x a || mem x b.
Proof. intros. unfold mem. apply existsb_app. Qed.

(* pytype's skip-set walk finds the first definition strictly after [cur]; [pre] = classes already put in the set *)
Lemma lookup_skip_after_gen : forall attrs name cur mro pre,
  NoDup mro -> (forall x, In x pre -> ~ In x mro) ->
  find (fun b => negb (mem b (pre ++ skip_set mro cur)) && defines attrs name b) mro =
  find (defines attrs name) (after cur mro).
Proof.
  induction mro as [|b rest IH]; intros pre Hn Hd; auto.
  apply NoDup_cons_iff in Hn. destruct Hn as [Hb Hr].
  assert (Hpre : forall x, In x (pre ++ [b]) -> ~ In x rest).
  { intros x Hi Hx. apply in_app_or in Hi. destruct Hi as [Hi|[<-|[]]]; auto. apply (Hd x Hi). right. exact Hx. }
  (* b goes into the set first, so it is skipped whether or not it is the calling class *)
  assert (Hskip : mem b (pre ++ skip_set (b :: rest) cur) = true).
  { rewrite mem_app. apply orb_true_iff. right. apply mem_In. simpl. destruct (Nat.eqb b cur); left; reflexivity. }
  cbn [find]. rewrite Hskip. cbn [negb andb skip_set after].
  destruct (Nat.eqb b cur).
  - (* b is the calling class: nothing of the rest is in the set *)
    apply find_ext_in. intros x Hx.
    replace (mem x (pre ++ [b])) with false; auto.
    symmetry. apply mem_false. intros Hi. exact (Hpre x Hi Hx).
  - change (pre ++ b :: skip_set rest cur) with (pre ++ [b] ++ skip_set rest cur). rewrite app_assoc.
    apply IH; auto.
Qed.

Lemma super_lookup_py_after : forall attrs mro cur name,
  NoDup mro -> super_lookup_py attrs mro cur name = find (defines attrs name) (after cur mro).
Proof.
  intros. unfold super_lookup_py, lookup_skip.
  apply (lookup_skip_after_gen attrs name cur mro []); auto.
Qed.

Lemma c_find_index_shift : forall mro cur i, c_find_index mro cur i = i + c_find_index mro cur 0.
Proof.
  induction mro as [|b rest IH]; intros cur i; simpl; auto.
  destruct rest as [|b2 r]; auto.
  destruct (Nat.eqb b cur); auto.
  rewrite (IH cur (S i)), (IH cur 1). rewrite <- plus_n_Sm. reflexivity.
Qed.

Lemma c_find_index_cons : forall b b2 r cur, Nat.eqb b cur = false ->
  c_find_index (b :: b2 :: r) cur 0 = S (c_find_index (b2 :: r) cur 0).
Proof.
  intros b b2 r cur E. cbn [c_find_index]. rewrite E. apply (c_find_index_shift (b2 :: r) cur 1).
Qed.

(* CPython's index walk does the same, for every tuple (no hypothesis) *)
Lemma super_lookup_c_after : forall attrs mro cur name,
  super_lookup_c attrs mro cur name = find (defines attrs name) (after cur mro).
Proof.
  intros attrs mro cur name. unfold super_lookup_c.
  induction mro as [|b rest IH]; auto.
  destruct rest as [|b2 r].
  - simpl. destruct (Nat.eqb b cur); reflexivity.
  - change (after cur (b :: b2 :: r)) with (if Nat.eqb b cur then b2 :: r else after cur (b2 :: r)).
    destruct (Nat.eqb b cur) eqn:E.
    + simpl. rewrite E. reflexivity.
    + rewrite (c_find_index_cons b b2 r cur E). exact IH.
Qed.

Lemma super_lookup_agree_lemma : forall attrs mro cur name,
  NoDup mro -> super_lookup_py attrs mro cur name = super_lookup_c attrs mro cur name.
Proof. intros. rewrite super_lookup_py_after, super_lookup_c_after; auto. Qed.

Lemma after_split : forall c pre post, ~ In c pre -> after c (pre ++ c :: post) = post.
Proof.
  induction pre as [|h t IH]; intros post Hn; simpl.
  - rewrite Nat.eqb_refl. reflexivity.
  - destruct (Nat.eqb_spec h c) as [->|].
    + exfalso. apply Hn. left. reflexivity.
    + apply IH. intros Hi. apply Hn. right. exact Hi.
Qed.

Lemma after_nodup : forall c pre post, NoDup (pre ++ c :: post) -> after c (pre ++ c :: post) = post.
Proof.
  intros c pre post Hn. apply after_split. intros Hi.
  apply (NoDup_remove_2 _ _ _ Hn). apply in_or_app. left. exact Hi.
Qed.

(* the chain of definitions reached by successive super() calls = all definitions, in MRO order, each once;
   [l] = the part of the MRO still ahead *)
Lemma chain_filter_gen : forall attrs name (sl : nat -> option nat) mro,
  NoDup mro ->
  (forall c, sl c = find (defines attrs name) (after c mro)) ->
  forall l pre fuel, mro = pre ++ l -> length l < fuel ->
  chain_from sl fuel (find (defines attrs name) l) = filter (defines attrs name) l.
Proof.
  intros attrs name sl mro Hn Hsl. induction l as [|h t IH]; intros pre fuel Hm Hl.
  - destruct fuel; reflexivity.
  - assert (Hm' : mro = (pre ++ [h]) ++ t) by (rewrite <- app_assoc; exact Hm).
    pose proof (fun fuel' => IH _ fuel' Hm') as IHt.
    simpl. destruct (defines attrs name h).
    + destruct fuel as [|f]; [destruct (Nat.nlt_0_r _ Hl)|]. simpl. f_equal.
      rewrite Hsl, Hm, after_nodup by (rewrite <- Hm; exact Hn).
      apply IHt. apply Nat.succ_lt_mono. exact Hl.
    + apply IHt. apply Nat.lt_succ_l. exact Hl.
Qed.

Lemma super_chain_c_lemma : forall attrs mro name,
  NoDup mro -> super_chain_c attrs mro name = filter (defines attrs name) mro.
Proof.
  intros. unfold super_chain_c, lookup.
  apply (chain_filter_gen attrs name _ mro H) with (pre := []); auto.
  intros c. apply super_lookup_c_after.
Qed.

Lemma super_chain_py_lemma : forall attrs mro name,
  NoDup mro -> super_chain_py attrs mro name = filter (defines attrs name) mro.
Proof.
  intros. unfold super_chain_py, lookup.
  apply (chain_filter_gen attrs name _ mro H) with (pre := []); auto.
  intros c. apply super_lookup_py_after; auto.
Qed.

Lemma mros_c_nodup : forall H c, wf_table H = true -> NoDup (mro_of (table_mros (mros_c H)) c).
Proof.
  intros H c Hw. unfold mro_of.
  destruct (Nat.lt_ge_cases c (length (table_mros (mros_c H)))) as [Hlt|Hge].
  - destruct (mros_c_good H Hw c Hlt) as [m' [E [Hn _]]]. exact Hn.
  - rewrite nth_overflow by exact Hge. constructor.
Qed.

(* super(cur, o).name agrees whenever both sides start from the same class: always for an instance; for a class object
   (classmethod) only when it is the calling class itself *)
Lemma super_agree_lemma : forall dupcheck H attrs o cur name,
  wf_table H = true -> dupcheck || no_dup_bases H = true -> start_py o cur = start_c o ->
  super_py dupcheck H attrs o cur name = super_c H attrs o cur name.
Proof.
  intros dupcheck H attrs o cur name Hw Hn Hs. unfold super_py, super_c, super_attr_py, super_attr_c.
  rewrite mro_agree_gen, Hs by auto. apply super_lookup_agree_lemma, mros_c_nodup. exact Hw.
Qed.


Lemma run_init_ext : forall inits (sl1 sl2 : nat -> option nat) fuel cur,
  (forall c, sl1 c = sl2 c) -> run_init inits sl1 fuel cur = run_init inits sl2 fuel cur.
Proof.
  induction fuel as [|f IH]; intros cur Hs; simpl; auto.
  destruct cur as [c|]; auto.
  rewrite (Hs c). rewrite (IH (sl2 c) Hs). reflexivity.
Qed.

Lemma inst_dict_agree_lemma : forall inits mro n,
  NoDup mro -> inst_dict_py inits mro n = inst_dict_c inits mro n.
Proof.
  intros. unfold inst_dict_py, inst_dict_c. apply run_init_ext.
  intros c. apply super_lookup_agree_lemma; auto.
Qed.

Lemma read_inst_agree_lemma : forall dupcheck H attrs hooks inits c name,
  wf_table H = true -> dupcheck || no_dup_bases H = true ->
  read_inst_py dupcheck H attrs hooks inits c name = read_inst_c H attrs hooks inits c name.
Proof.
  intros. unfold read_inst_py, read_inst_c. rewrite mro_agree_gen by auto.
  rewrite inst_dict_agree_lemma by (apply mros_c_nodup; auto). reflexivity.
Qed.

(* every __init__ among the classes of [l] is written "super().__init__() first, own stores after" (kind 2) *)
Definition all_post (inits : list (nat * list nat)) (l : list nat) : Prop :=
  forall c, In c l -> init_kind inits c = 0 \/ init_kind inits c = 2.

(* what such a chain leaves in the dictionary: the stores of the classes of the MRO that define __init__, LAST class
   first -- so the value read back comes from the FIRST class in MRO order whose __init__ stores the name *)
Fixpoint stores_post (inits : list (nat * list nat)) (l : list nat) : list (nat * nat) :=
  match l with
  | [] => []
  | c :: rest => stores_post inits rest ++
                 (if has_init inits c then map (fun n => (n, c)) (init_names inits c) else [])
  end.

Lemma run_init_S : forall inits sl f c,
  run_init inits sl (S f) (Some c) =
  match init_kind inits c with
  | 1 => map (fun n => (n, c)) (init_names inits c) ++ run_init inits sl f (sl c)
  | 2 => run_init inits sl f (sl c) ++ map (fun n => (n, c)) (init_names inits c)
  | 3 => map (fun n => (n, c)) (init_names inits c)
  | _ => []
  end.
Proof. reflexivity. Qed.

Lemma nth_map_seq : forall (f : nat -> list nat) n c, c < n -> nth c (map f (seq 0 n)) [] = f c.
Proof.
  intros f n c Hc. rewrite (nth_indep _ [] (f 0)) by (rewrite map_length, seq_length; exact Hc).
  rewrite map_nth. rewrite seq_nth by exact Hc. reflexivity.
Qed.

Lemma defines_init_attrs : forall inits n c, c < n -> defines (init_attrs inits n) 0 c = has_init inits c.
Proof.
  intros inits n c Hc. unfold defines, init_attrs.
  rewrite (nth_map_seq (fun c0 => if has_init inits c0 then [0] else []) n c Hc).
  destruct (has_init inits c); reflexivity.
Qed.

(* an __init__ chain in which every __init__ stores after its super() call leaves the stores of the chain, last class first *)
Lemma run_init_chain : forall inits (sl : nat -> option nat) fuel cur,
  (forall c, In c (chain_from sl fuel cur) -> init_kind inits c = 2) ->
  run_init inits sl fuel cur = stores_post inits (chain_from sl fuel cur).
Proof.
  induction fuel as [|f IH]; intros cur Hk; auto.
  destruct cur as [c|]; auto.
  cbn [chain_from] in *. rewrite run_init_S. cbn [stores_post]. unfold has_init.
  rewrite (Hk c (or_introl eq_refl)), IH; auto.
  intros c' Hc'. apply Hk. right. exact Hc'.
Qed.

Lemma stores_post_filter : forall inits (f : nat -> bool) l,
  (forall c, In c l -> f c = has_init inits c) -> stores_post inits (filter f l) = stores_post inits l.
Proof.
  induction l as [|c t IH]; intros Hf; auto.
  cbn [filter stores_post]. rewrite (Hf c (or_introl eq_refl)), <- IH by (intros; apply Hf; right; assumption).
  destruct (has_init inits c) eqn:E; cbn [stores_post]; rewrite ?E, ?app_nil_r; reflexivity.
Qed.

(* the __init__ chain is the super() chain of the name __init__, which visits every class that defines it *)
Lemma inst_dict_post_lemma : forall inits mro n,
  NoDup mro -> (forall c, In c mro -> c < n) -> all_post inits mro ->
  inst_dict_c inits mro n = stores_post inits mro /\ inst_dict_py inits mro n = stores_post inits mro.
Proof.
  intros inits mro n Hn Hlt Hp.
  assert (Hdef : forall c, In c mro -> defines (init_attrs inits n) 0 c = has_init inits c)
    by (intros c Hc; apply defines_init_attrs, Hlt, Hc).
  assert (Hkind : forall c, In c (filter (defines (init_attrs inits n) 0) mro) -> init_kind inits c = 2).
  { intros c Hc. apply filter_In in Hc. destruct Hc as [Hc Hd]. rewrite (Hdef c Hc) in Hd.
    destruct (Hp c Hc) as [K|K]; auto. unfold has_init in Hd. rewrite K in Hd. discriminate. }
  rewrite <- (stores_post_filter inits _ mro Hdef).
  split.
  - rewrite <- (super_chain_c_lemma _ mro 0 Hn). apply run_init_chain.
    intros c Hc. apply Hkind. rewrite <- (super_chain_c_lemma _ mro 0 Hn). exact Hc.
  - rewrite <- (super_chain_py_lemma _ mro 0 Hn). apply run_init_chain.
    intros c Hc. apply Hkind. rewrite <- (super_chain_py_lemma _ mro 0 Hn). exact Hc.
Qed.

(* reading back: the first class in MRO order whose __init__ stores the name *)
Definition stores_name (inits : list (nat * list nat)) (name : nat) (c : nat) : bool :=
  has_init inits c && mem name (init_names inits c).

(* the last store wins *)
Lemma inst_get_app : forall w1 w2 name,
  inst_get (w1 ++ w2) name = match inst_get w2 name with Some c => Some c | None => inst_get w1 name end.
Proof.
  intros. unfold inst_get. rewrite rev_app_distr.
  induction (rev w2) as [|h t IH]; simpl; auto. destruct (Nat.eqb (fst h) name); auto.
Qed.

Lemma inst_get_map_store : forall name c names,
  inst_get (map (fun n => (n, c)) names) name = if mem name names then Some c else None.
Proof.
  intros name c. induction names as [|n t IH]; auto.
  change (map (fun n => (n, c)) (n :: t)) with ([(n, c)] ++ map (fun n => (n, c)) t).
  rewrite inst_get_app, IH. change (mem name (n :: t)) with (Nat.eqb name n || mem name t).
  destruct (mem name t).
  - rewrite orb_true_r. reflexivity.
  - rewrite orb_false_r, Nat.eqb_sym. unfold inst_get. simpl. destruct (Nat.eqb n name); reflexivity.
Qed.

Lemma inst_get_stores_post : forall inits name l,
  inst_get (stores_post inits l) name = find (stores_name inits name) l.
Proof.
  intros inits name. induction l as [|c rest IH]; auto.
  cbn [stores_post find]. rewrite inst_get_app. unfold stores_name at 1.
  destruct (has_init inits c); simpl.
  - rewrite inst_get_map_store. destruct (mem name (init_names inits c)); auto.
  - exact IH.
Qed.

Lemma base2cls_fst : forall flat c d, fst d = c -> fst (base2cls_get flat c d) = c.
Proof.
  induction flat as [|e rest IH]; intros c d Hd; simpl; auto.
  apply IH. destruct (Nat.eqb (fst e) c) eqn:E; auto. apply Nat.eqb_eq in E. exact E.
Qed.

(* mapping the merged classes back through base2cls and projecting again is the identity *)
Lemma base2cls_project : forall flat l, map fst (map (fun c => base2cls_get flat c (c, 0)) l) = l.
Proof.
  intros. rewrite map_map. induction l as [|c t IH]; simpl; auto.
  rewrite base2cls_fst by reflexivity. rewrite IH. reflexivity.
Qed.

Lemma base2cls_project_res : forall flat r,
  map_res (map fst) (map_res (map (fun c => base2cls_get flat c (c, 0))) r) = r.
Proof. intros flat [l| | |]; simpl; auto. f_equal. apply base2cls_project. Qed.

Lemma ident_dup_false : forall bases seen,
  NoDup (map fst (seen ++ bases)) -> ident_dup seen bases = false.
Proof.
  induction bases as [|b rest IH]; intros seen Hn; simpl; auto.
  apply orb_false_iff. split.
  - apply not_true_is_false. intros K. apply existsb_exists in K. destruct K as [e [He Hs]].
    unfold same_obj in Hs. apply andb_true_iff in Hs. destruct Hs as [_ Hs]. apply Nat.eqb_eq in Hs.
    rewrite map_app in Hn. simpl in Hn. apply NoDup_remove_2 in Hn. apply Hn.
    apply in_or_app. left. rewrite Hs. apply in_map. exact He.
  - apply IH. rewrite <- app_assoc. exact Hn.
Qed.

Lemma map_tl : forall (A B : Type) (f : A -> B) l, map f (tl l) = tl (map f l).
Proof. destruct l; reflexivity. Qed.

Lemma gmro_project : forall done doneC e,
  map (map fst) done = doneC -> good_done doneC -> fst e < length doneC ->
  map fst (gmro_of done e) = mro_of doneC (fst e).
Proof.
  intros done doneC e Hp Hg Hlt. unfold gmro_of, mro_of. subst doneC.
  assert (E : map fst (nth (fst e) done []) = nth (fst e) (map (map fst) done) []).
  { change (@nil nat) with (map (@fst nat nat) []). rewrite map_nth. reflexivity. }
  destruct (is_alias e).
  - cbn [map]. rewrite map_tl. unfold gref in *. rewrite E.
    destruct (Hg (fst e) Hlt) as [m' [Em _]]. rewrite Em. reflexivity.
  - exact E.
Qed.

Lemma get_mro_bases_incl : forall w e, In e (get_mro_bases w) -> In e w.
Proof.
  intros w e. unfold get_mro_bases. destruct (existsb _ w); auto.
  intros Hi. apply filter_In in Hi. apply Hi.
Qed.

Lemma py_resolve_wf : forall n w, gwf_bases n w = true -> wf_bases n (py_resolve w) = true.
Proof.
  intros n w Hw. apply forallb_forall. intros x Hx.
  apply in_map_iff in Hx. destruct Hx as [e [<- He]].
  unfold gwf_bases in Hw. rewrite forallb_forall in Hw. apply Hw, get_mro_bases_incl, He.
Qed.

Lemma gmro_map_project : forall done doneC bases,
  map (map fst) done = doneC -> good_done doneC -> wf_bases (length doneC) (map fst bases) = true ->
  map (map fst) (map (gmro_of done) bases) = map (mro_of doneC) (map fst bases).
Proof.
  intros done doneC bases Hp Hg Hw. rewrite !map_map. apply map_ext_in. intros e He.
  apply gmro_project; auto. apply (proj1 (wf_bases_lt _ _) Hw). apply in_map. exact He.
Qed.

(* one class statement: pytype's compute_mro on Generic/parameterised bases, projected to classes, is the plain
   compute_mro -- hence CPython's -- on the classes of the bases kept by get_mro_bases *)
Lemma class_mro_gen_project : forall (done : list (list gref)) doneC written,
  map (map fst) done = doneC -> good_done doneC -> gwf_bases (length doneC) written = true ->
  check_duplicates (py_resolve written) = true ->
  map_res (map fst) (class_mro_gen done (length done) written) =
  class_mro_c doneC (length doneC) (py_resolve written).
Proof.
  intros done doneC written Hp Hg Hw Hd.
  pose proof (py_resolve_wf _ _ Hw) as Hwb.
  rewrite <- (step_agree doneC _ (py_resolve written) Hg (le_n _) Hwb false Hd).
  unfold class_mro_gen. rewrite ident_dup_false by (apply check_duplicates_NoDup; exact Hd).
  rewrite base2cls_project_res.
  unfold class_mro_py, class_mro_py_gen, merge_py. cbn [andb]. f_equal.
  cbn [map]. rewrite map_app. repeat f_equal.
  - rewrite <- Hp. symmetry. apply map_length.
  - apply gmro_map_project; auto.
Qed.

Lemma run_gtable_agree : forall todo (done : list (list gref)) doneC,
  map (map (@fst nat nat)) done = doneC -> good_done doneC ->
  gwf_from (length doneC) todo = true -> no_dup_bases (map py_resolve todo) = true ->
  gproject (run_gtable done todo) = run_table class_mro_c doneC (map py_resolve todo).
Proof.
  induction todo as [|w rest IH]; intros done doneC Hp Hg Hwf Hnd.
  - simpl. rewrite Hp. reflexivity.
  - simpl in Hwf, Hnd. apply andb_true_iff in Hwf. destruct Hwf as [Hw1 Hw2].
    apply andb_true_iff in Hnd. destruct Hnd as [Hn1 Hn2].
    assert (Hlen : length done = length doneC) by (rewrite <- Hp; symmetry; apply map_length).
    pose proof (class_mro_gen_project done doneC w Hp Hg Hw1 Hn1) as Hstep.
    cbn [run_gtable map run_table]. rewrite <- Hstep.
    destruct (class_mro_gen done (length done) w) as [m| | |]; cbn [map_res gproject] in *;
      try (rewrite Hp, Hlen; reflexivity).
    apply IH; auto.
    + unfold gref in *. rewrite map_app, Hp. reflexivity.
    + symmetry in Hstep. apply good_done_snoc; auto.
      exact (step_mro_good doneC _ (py_resolve w) Hg (le_n _) (py_resolve_wf _ _ Hw1) _ Hstep).
    + rewrite last_length. exact Hw2.
Qed.

Lemma generic_rename_lemma : forall G,
  gwf_table G = true -> no_dup_bases (map py_resolve G) = true ->
  gproject (gmros_py G) = gmros_c_py_reading G.
Proof.
  intros. unfold gmros_py, gmros_c_py_reading. apply run_gtable_agree; auto. apply good_done_nil.
Qed.

Lemma generic_agree_partial_lemma : forall G,
  gwf_table G = true -> no_dup_bases (map py_resolve G) = true -> readings_agree G ->
  gproject (gmros_py G) = gmros_c G.
Proof. intros G Hw Hn Hr. rewrite generic_rename_lemma by auto. exact Hr. Qed.

Lemma list_eqb_eq : forall l1 l2, list_eqb l1 l2 = true -> l1 = l2.
Proof.
  induction l1 as [|a t IH]; destruct l2 as [|b t2]; simpl; intros H; try discriminate; auto.
  apply andb_true_iff in H. destruct H as [H1 H2]. apply Nat.eqb_eq in H1. subst. f_equal. auto.
Qed.

(* object; Generic; A(Generic[T]); Bp; X(A[T], Bp); Y(X[T], Bp, Generic[T]) *)
Definition gen_witness : list (list gref) :=
  [[]; [(0, 0)]; [(1, 1)]; [(0, 0)]; [(2, 1); (3, 0)]; [(4, 1); (3, 0); (1, 1)]].
Lemma generic_dropped_refuted_lemma :
  gwf_table gen_witness = true /\ no_dup_bases (map py_resolve gen_witness) = true /\
  table_error (gproject (gmros_py gen_witness)) = None /\ table_error (gmros_c gen_witness) = Some 5.
Proof. vm_compute. repeat split; reflexivity. Qed.

(* object; Generic; A(Generic[T]); E(A[int], A[int]) *)
Definition alias_dup_witness : list (list gref) := [[]; [(0, 0)]; [(1, 1)]; [(2, 2); (2, 2)]].
Lemma alias_duplicate_refuted_lemma :
  gwf_table alias_dup_witness = true /\
  table_error (gproject (gmros_py alias_dup_witness)) = None /\ table_error (gmros_c alias_dup_witness) = Some 3.
Proof. vm_compute. repeat split; reflexivity. Qed.
