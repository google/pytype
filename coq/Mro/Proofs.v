(* C10 proofs over Mro/Model.v.
   Method: both executable algorithms (pytype's list-deleting MergeSequences and CPython's index-vector
   pmerge) are shown equal, step for step and for every fuel, to one specification loop [spec_loop]
   ("take the first head that is in no tail; delete it from every sequence it heads"). *)
From Coq Require Import List Arith Bool.
From PV Require Import Mro.Model.
Import ListNotations.

Lemma mem_In : forall x l, mem x l = true <-> In x l.
Proof.
  unfold mem; intros; rewrite existsb_exists; split.
  - intros [y [Hy He]]. apply Nat.eqb_eq in He. subst; auto.
  - intros Hi. exists x. split; auto. apply Nat.eqb_refl.
Qed.

Lemma mem_false : forall x l, mem x l = false <-> ~ In x l.
Proof. intros. rewrite <- mem_In. symmetry. apply not_true_iff_false. Qed.

Lemma total_len_app : forall a b, total_len (a ++ b) = total_len a + total_len b.
Proof. induction a; simpl; intros; auto. rewrite IHa. apply Nat.add_assoc. Qed.

Definition nodup_each (seqs : list (list nat)) : Prop := Forall (@NoDup nat) seqs.

Lemma dedup_aux_In : forall seq seen x, In x (dedup_aux seen seq) <-> In x seq /\ ~ In x seen.
Proof.
  induction seq as [|s t IH]; intros seen x; simpl.
  - split; [intros [] | intros [[] _]].
  - destruct (IH (s :: seen) x) as [IH1 IH2]. simpl in IH1, IH2.
    destruct (mem s seen) eqn:E; [apply mem_In in E | apply mem_false in E]; simpl; split.
    + intros H. destruct (IH1 H) as [H1 H2]. auto.
    + intros [[<-|H1] H2]; [contradiction|]. apply IH2. split; auto. intros [<-|H3]; contradiction.
    + intros [<-|H]; [auto|]. destruct (IH1 H) as [H1 H2]. auto.
    + intros [[H1|H1] H2]; auto. destruct (Nat.eq_dec s x) as [H|H]; auto.
      right. apply IH2. split; auto. intros [H3|H3]; contradiction.
Qed.

Lemma dedup_aux_nodup : forall seq seen, NoDup (dedup_aux seen seq).
Proof.
  induction seq as [|s t IH]; intros seen; simpl; [constructor|].
  destruct (mem s seen); auto. constructor; auto.
  rewrite dedup_aux_In. intros [_ H]. apply H. left. reflexivity.
Qed.

Lemma dedup_nodup : forall s, NoDup (dedup s).
Proof. intros. apply dedup_aux_nodup. Qed.

Lemma dedup_In : forall s x, In x (dedup s) <-> In x s.
Proof.
  intros. unfold dedup. rewrite dedup_aux_In.
  split; [intros [H _]; exact H | intros H; split; [exact H | intros []]].
Qed.

Lemma dedup_aux_id : forall seq seen,
  NoDup seq -> (forall x, In x seq -> ~ In x seen) -> dedup_aux seen seq = seq.
Proof.
  induction seq as [|s t IH]; intros seen Hn Hd; simpl; auto.
  apply NoDup_cons_iff in Hn. destruct Hn as [Hs Ht].
  rewrite (proj2 (mem_false s seen) (Hd s (or_introl eq_refl))). f_equal. apply IH; auto.
  intros x Hx [<-|H]; auto. exact (Hd x (or_intror Hx) H).
Qed.

Lemma dedup_id : forall s, NoDup s -> dedup s = s.
Proof. intros. apply dedup_aux_id; auto. Qed.

Lemma map_dedup_id : forall seqs, nodup_each seqs -> map dedup seqs = seqs.
Proof. induction 1; simpl; f_equal; auto using dedup_id. Qed.

Lemma map_dedup_nodup : forall seqs, nodup_each (map dedup seqs).
Proof. intros. apply Forall_map, Forall_forall. intros; apply dedup_nodup. Qed.

Definition in_tail (c : nat) (seqs : list (list nat)) : bool := existsb (fun s => mem c (tl s)) seqs.

Fixpoint pick (all todo : list (list nat)) : option nat :=
  match todo with
  | [] => None
  | [] :: rest => pick all rest
  | (c :: _) :: rest => if in_tail c all then pick all rest else Some c
  end.

Fixpoint spec_loop (fuel : nat) (seqs : list (list nat)) (acc : list nat) : res (list nat) :=
  match fuel with
  | O => OutOfFuel
  | S f =>
    if forallb is_nil seqs then Ok (rev acc)
    else match pick seqs seqs with
         | Some c => spec_loop f (remove_heads c seqs) (c :: acc)
         | None => Reject
         end
  end.

Definition spec_merge (acc0 : list nat) (seqs : list (list nat)) : res (list nat) :=
  spec_loop (S (total_len seqs)) seqs (rev acc0).

(* `s is not seq` only exempts the sequence at position [i]; it makes no difference when cand is not in that one's tail *)
Lemma py_in_other_tail_spec : forall c i seqs j,
  (forall k, j + k = i -> mem c (tl (nth k seqs [])) = false) ->
  py_in_other_tail c i j seqs = in_tail c seqs.
Proof.
  induction seqs as [|s rest IH]; intros j Hk; simpl; auto.
  rewrite (IH (S j)).
  2:{ intros k Hjk. apply (Hk (S k)). rewrite <- plus_n_Sm. exact Hjk. }
  f_equal.
  destruct (Nat.eqb_spec j i) as [E|_].
  - specialize (Hk 0). rewrite Nat.add_0_r in Hk. simpl in Hk. rewrite (Hk E). reflexivity.
  - destruct s; simpl; auto. rewrite !andb_true_r. reflexivity.
Qed.

(* no class in the sequences has the SINGLETON attribute (in particular: [no_sing]) *)
Definition no_sing_in (sing : nat -> bool) (seqs : list (list nat)) : Prop :=
  forall s x, In s seqs -> In x s -> sing x = false.

Lemma py_pick_spec : forall sing todo pre,
  no_sing_in sing todo -> nodup_each (pre ++ todo) ->
  py_pick sing (pre ++ todo) (length pre) todo =
  match pick (pre ++ todo) todo with Some c => PickOk c | None => PickNone end.
Proof.
  induction todo as [|seq rest IH]; intros pre Hs Hn; simpl; auto.
  specialize (IH (pre ++ [seq])). rewrite <- app_assoc, last_length in IH. simpl in IH.
  specialize (IH (fun s x H1 => Hs s x (or_intror H1)) Hn).
  destruct seq as [|cand t]; auto.
  rewrite (Hs _ cand (or_introl eq_refl) (or_introl eq_refl)).
  rewrite py_in_other_tail_spec.
  - destruct (in_tail cand (pre ++ (cand :: t) :: rest)); auto.
  - intros k Hk. simpl in Hk. subst k. rewrite nth_middle. apply mem_false.
    apply Forall_app, proj2, Forall_inv, NoDup_cons_iff, proj1 in Hn. exact Hn.
Qed.

Lemma drop_head_nodup : forall c s, NoDup s -> NoDup (drop_head c s).
Proof.
  intros c [|h t] Hn; simpl; auto. destruct (Nat.eqb h c); auto. apply NoDup_cons_iff in Hn. apply Hn.
Qed.

Lemma remove_heads_nodup : forall c seqs, nodup_each seqs -> nodup_each (remove_heads c seqs).
Proof. intros c seqs H. apply Forall_map. revert H. apply Forall_impl, drop_head_nodup. Qed.

Lemma drop_head_incl : forall c s x, In x (drop_head c s) -> In x s.
Proof. intros c [|h t] x; simpl; auto. destruct (Nat.eqb h c); simpl; auto. Qed.

Lemma remove_heads_incl : forall c Y s x,
  In s (remove_heads c Y) -> In x s -> exists s0, In s0 Y /\ In x s0.
Proof.
  intros c Y s x Hs Hx. apply in_map_iff in Hs. destruct Hs as [s0 [<- Hs0]].
  exists s0. split; auto. eapply drop_head_incl; eauto.
Qed.

Lemma remove_heads_no_sing : forall sing c seqs, no_sing_in sing seqs -> no_sing_in sing (remove_heads c seqs).
Proof.
  intros sing c seqs H s x Hs Hx. destruct (remove_heads_incl c seqs s x Hs Hx) as [s0 [Hs0 Hx0]].
  exact (H s0 x Hs0 Hx0).
Qed.

(* without singleton classes the SINGLETON branch is dead, and on duplicate-free sequences `s is not seq` is idle *)
Lemma py_loop_spec : forall sing fuel seqs acc,
  no_sing_in sing seqs -> nodup_each seqs -> py_loop sing fuel seqs acc = spec_loop fuel seqs acc.
Proof.
  induction fuel; intros seqs acc Hs Hn; simpl; auto.
  destruct (forallb is_nil seqs); auto.
  pose proof (py_pick_spec sing seqs [] Hs Hn) as Hp. simpl in Hp. rewrite Hp.
  destruct (pick seqs seqs); auto.
  apply IHfuel; auto using remove_heads_no_sing, remove_heads_nodup.
Qed.

(* what is left of one sequence: the tuple from its `remain` index on *)
Local Definition cur (p : list nat * nat) : list nat := skipn (snd p) (fst p).
Local Definition abs (st : list (list nat * nat)) : list (list nat) := map cur st.

Lemma skipn_S_tl : forall (l : list nat) r, skipn (S r) l = tl (skipn r l).
Proof.
  induction l; intros; simpl.
  - destruct r; reflexivity.
  - destruct r; [reflexivity|]. apply IHl.
Qed.

Lemma skipn_nil_iff : forall (l : list nat) r, skipn r l = [] <-> length l <= r.
Proof. intros. rewrite <- length_zero_iff_nil, skipn_length. apply Nat.sub_0_le. Qed.

Lemma skipn_cons_nth : forall (l : list nat) r, r < length l ->
  skipn r l = nth r l 0 :: skipn (S r) l.
Proof.
  induction l; intros r Hr; [destruct (Nat.nlt_0_r _ Hr)|].
  destruct r; simpl; auto. apply IHl. apply Nat.succ_lt_mono. exact Hr.
Qed.

Lemma tail_contains_abs : forall all c,
  existsb (fun p => tail_contains (fst p) (snd p) c) all = in_tail c (abs all).
Proof.
  induction all as [|[l r] rest IH]; intros; simpl; auto.
  rewrite IH. f_equal. unfold tail_contains, cur. cbn [fst snd]. rewrite skipn_S_tl. reflexivity.
Qed.

Fixpoint count_nil (seqs : list (list nat)) : nat :=
  match seqs with
  | [] => 0
  | s :: rest => (if is_nil s then 1 else 0) + count_nil rest
  end.

Lemma c_scan_spec : forall all todo e,
  c_scan all todo e =
  match pick (abs all) (abs todo) with
  | Some c => ScanFound c
  | None => ScanEnd (e + count_nil (abs todo))
  end.
Proof.
  induction todo as [|[l r] rest IH]; intros e; simpl.
  - rewrite Nat.add_0_r. reflexivity.
  - unfold cur. cbn [fst snd].
    destruct (Nat.leb_spec (length l) r) as [E|E].
    + rewrite (proj2 (skipn_nil_iff l r) E). simpl.
      rewrite IH, <- plus_n_Sm. reflexivity.
    + rewrite (skipn_cons_nth l r E). simpl.
      rewrite tail_contains_abs.
      destruct (in_tail (nth r l 0) (abs all)); auto.
Qed.

Lemma count_nil_le : forall seqs, count_nil seqs <= length seqs.
Proof. induction seqs as [|s rest IH]; simpl; auto. destruct (is_nil s); simpl; auto using le_n_S. Qed.

(* `empty_cnt == to_merge_size` *)
Lemma count_nil_all : forall seqs, Nat.eqb (count_nil seqs) (length seqs) = forallb is_nil seqs.
Proof.
  induction seqs as [|s rest IH]; simpl; auto.
  destruct (is_nil s); simpl; auto.
  apply Nat.eqb_neq. intros E. apply (Nat.nle_succ_diag_l (length rest)).
  rewrite <- E. apply count_nil_le.
Qed.

Lemma pick_all_nil : forall all todo, forallb is_nil todo = true -> pick all todo = None.
Proof.
  induction todo as [|s rest IH]; simpl; auto. destruct s; simpl; auto. discriminate.
Qed.

Lemma c_advance_abs : forall c st, abs (map (c_advance c) st) = remove_heads c (abs st).
Proof.
  unfold abs, remove_heads. intros. rewrite !map_map. apply map_ext.
  intros [l r]. unfold c_advance, cur. simpl.
  destruct (Nat.ltb_spec r (length l)) as [E|E]; simpl.
  - rewrite (skipn_cons_nth l r E). simpl.
    destruct (Nat.eqb (nth r l 0) c); simpl; auto. rewrite <- skipn_cons_nth; auto.
  - rewrite (proj2 (skipn_nil_iff l r) E). reflexivity.
Qed.

Lemma c_loop_spec : forall fuel st acc, c_loop fuel st acc = spec_loop fuel (abs st) acc.
Proof.
  induction fuel; intros; simpl; auto.
  rewrite c_scan_spec. simpl.
  destruct (pick (abs st) (abs st)) eqn:P.
  - (* a candidate was found: not every sequence is exhausted *)
    destruct (forallb is_nil (abs st)) eqn:E.
    + rewrite pick_all_nil in P by exact E. discriminate.
    + rewrite IHfuel, c_advance_abs. reflexivity.
  - rewrite <- (map_length cur st). fold (abs st). rewrite count_nil_all.
    destruct (forallb is_nil (abs st)); reflexivity.
Qed.

Lemma abs_init : forall tm, abs (map (fun t => (t, 0)) tm) = tm.
Proof. unfold abs. intros. rewrite map_map. apply map_id. Qed.

Lemma pmerge_spec : forall acc0 tm, pmerge acc0 tm = spec_merge acc0 tm.
Proof. intros. unfold pmerge, spec_merge. rewrite c_loop_spec, abs_init. reflexivity. Qed.

Lemma merge_py_gen_spec : forall sing seqs,
  no_sing_in sing seqs -> merge_py_gen sing seqs = spec_merge [] (map dedup seqs).
Proof.
  intros sing seqs H. apply py_loop_spec; [|apply map_dedup_nodup].
  intros s x Hs Hx. apply in_map_iff in Hs. destruct Hs as [s0 [<- Hs0]].
  exact (H s0 x Hs0 (proj1 (dedup_In s0 x) Hx)).
Qed.

Lemma merge_py_spec : forall seqs, merge_py seqs = spec_merge [] (map dedup seqs).
Proof. intros. apply merge_py_gen_spec. intros s x _ _. reflexivity. Qed.

(* pytype's MROMerge = CPython's pmerge on the de-duplicated sequences, for ALL inputs *)
Lemma merge_agree_dedup_lemma : forall seqs, merge_py seqs = merge_c (map dedup seqs).
Proof. intros. unfold merge_c. rewrite pmerge_spec. apply merge_py_spec. Qed.

Lemma merge_agree_lemma : forall seqs, nodup_each seqs -> merge_py seqs = merge_c seqs.
Proof. intros. rewrite merge_agree_dedup_lemma, map_dedup_id; auto. Qed.

Lemma drop_head_len : forall c s, length (drop_head c s) <= length s.
Proof. intros c [|h t]; simpl; auto. destruct (Nat.eqb h c); simpl; auto. Qed.

Lemma filter_len : forall (f : nat -> bool) l, length (filter f l) <= length l.
Proof. induction l; simpl; auto. destruct (f a); simpl; auto using le_n_S. Qed.

Lemma total_len_map_le : forall (f : list nat -> list nat) seqs,
  (forall s, length (f s) <= length s) -> total_len (map f seqs) <= total_len seqs.
Proof. intros f seqs Hf. induction seqs; simpl; auto using Nat.add_le_mono. Qed.

Lemma total_len_map_lt : forall (f : list nat -> list nat) seqs s,
  (forall s, length (f s) <= length s) -> In s seqs -> length (f s) < length s ->
  total_len (map f seqs) < total_len seqs.
Proof.
  intros f seqs s Hf. induction seqs as [|s0 rest IH]; simpl; intros Hi Hs; [destruct Hi|].
  destruct Hi as [->|Hi].
  - apply Nat.add_lt_le_mono; auto using total_len_map_le.
  - apply Nat.add_le_lt_mono; auto.
Qed.

Lemma remove_heads_lt : forall c seqs t,
  In (c :: t) seqs -> total_len (remove_heads c seqs) < total_len seqs.
Proof.
  intros c seqs t Hi. apply (total_len_map_lt _ _ (c :: t)); auto using drop_head_len.
  simpl. rewrite Nat.eqb_refl. apply Nat.lt_succ_diag_r.
Qed.

Lemma remove_all_lt : forall c seqs t,
  In (c :: t) seqs -> total_len (remove_all c seqs) < total_len seqs.
Proof.
  intros c seqs t Hi. apply (total_len_map_lt _ _ (c :: t)); auto using filter_len.
  simpl. rewrite Nat.eqb_refl. apply Nat.lt_succ_r, filter_len.
Qed.

Lemma fuel_step : forall a b fuel, a < b -> b < S fuel -> a < fuel.
Proof. intros a b fuel Hab Hb. apply (Nat.lt_le_trans _ _ _ Hab). apply Nat.lt_succ_r. exact Hb. Qed.

Lemma py_pick_head : forall sing all todo i c,
  py_pick sing all i todo = PickOk c \/ py_pick sing all i todo = PickSingleton c ->
  exists t, In (c :: t) todo.
Proof.
  induction todo as [|seq rest IH]; simpl; intros i c H.
  - destruct H; discriminate.
  - assert (Hrest : py_pick sing all (S i) rest = PickOk c \/ py_pick sing all (S i) rest = PickSingleton c ->
                    exists t, In (c :: t) (seq :: rest)).
    { intros H'. destruct (IH _ _ H') as [t' Ht]. exists t'. right. exact Ht. }
    destruct seq as [|cand t]; [exact (Hrest H)|].
    assert (Hcand : cand = c -> exists t0, In (c :: t0) ((cand :: t) :: rest)).
    { intros <-. exists t. left. reflexivity. }
    destruct (sing cand); [apply Hcand; destruct H; congruence|].
    destruct (py_in_other_tail cand i 0 all); [exact (Hrest H) | apply Hcand; destruct H; congruence].
Qed.

Lemma py_loop_fuel : forall sing fuel seqs acc,
  total_len seqs < fuel ->
  py_loop sing fuel seqs acc <> OutOfFuel /\ py_loop sing fuel seqs acc <> Crash.
Proof.
  induction fuel; intros seqs acc Hf; [destruct (Nat.nlt_0_r _ Hf)|]. simpl.
  destruct (forallb is_nil seqs). { split; discriminate. }
  destruct (py_pick sing seqs 0 seqs) eqn:E.
  - destruct (py_pick_head sing seqs seqs 0 c (or_intror E)) as [t Ht].
    apply IHfuel. exact (fuel_step _ _ _ (remove_all_lt c seqs t Ht) Hf).
  - destruct (py_pick_head sing seqs seqs 0 c (or_introl E)) as [t Ht].
    apply IHfuel. exact (fuel_step _ _ _ (remove_heads_lt c seqs t Ht) Hf).
  - split; discriminate.
Qed.

Lemma merge_py_gen_fuel_lemma : forall sing seqs,
  merge_py_gen sing seqs <> OutOfFuel /\ merge_py_gen sing seqs <> Crash.
Proof. intros. apply py_loop_fuel, Nat.lt_succ_diag_r. Qed.

Lemma pick_head : forall all todo c, pick all todo = Some c ->
  (exists t, In (c :: t) todo) /\ in_tail c all = false.
Proof.
  induction todo as [|seq rest IH]; simpl; intros c H; try discriminate.
  assert (Hrest : pick all rest = Some c -> (exists t, In (c :: t) (seq :: rest)) /\ in_tail c all = false).
  { intros H'. destruct (IH _ H') as [[t' Ht] Hn]. split; [exists t'; right; exact Ht | exact Hn]. }
  destruct seq as [|cand t]; auto.
  destruct (in_tail cand all) eqn:E; auto.
  injection H as <-. split; [exists t; left; reflexivity | exact E].
Qed.

Lemma spec_loop_fuel : forall fuel seqs acc,
  total_len seqs < fuel -> spec_loop fuel seqs acc <> OutOfFuel /\ spec_loop fuel seqs acc <> Crash.
Proof.
  induction fuel; intros seqs acc Hf; [destruct (Nat.nlt_0_r _ Hf)|]. simpl.
  destruct (forallb is_nil seqs). { split; discriminate. }
  destruct (pick seqs seqs) eqn:E.
  - destruct (pick_head _ _ _ E) as [[t Ht] _].
    apply IHfuel. exact (fuel_step _ _ _ (remove_heads_lt n seqs t Ht) Hf).
  - split; discriminate.
Qed.

Lemma pmerge_fuel_lemma : forall acc0 tm, pmerge acc0 tm <> OutOfFuel /\ pmerge acc0 tm <> Crash.
Proof. intros. rewrite pmerge_spec. apply spec_loop_fuel, Nat.lt_succ_diag_r. Qed.

(* more fuel does not change a result of the specification loop, to which both merges are equal for every fuel *)
Lemma spec_loop_more_fuel : forall fuel seqs acc k,
  total_len seqs < fuel -> spec_loop (fuel + k) seqs acc = spec_loop fuel seqs acc.
Proof.
  induction fuel; intros seqs acc k Hf; [destruct (Nat.nlt_0_r _ Hf)|]. simpl.
  destruct (forallb is_nil seqs); auto.
  destruct (pick seqs seqs) eqn:E; auto.
  destruct (pick_head _ _ _ E) as [[t Ht] _].
  apply IHfuel. exact (fuel_step _ _ _ (remove_heads_lt n seqs t Ht) Hf).
Qed.

Lemma in_tail_false : forall c seqs, in_tail c seqs = false <-> (forall s, In s seqs -> ~ In c (tl s)).
Proof.
  unfold in_tail. intros. rewrite <- not_true_iff_false, existsb_exists. split.
  - intros H s Hs Hc. apply H. exists s. split; [exact Hs | apply mem_In; exact Hc].
  - intros H [s [Hs Hc]]. exact (H s Hs (proj1 (mem_In _ _) Hc)).
Qed.

Lemma remove_heads_id : forall c Y, (forall s, In s Y -> ~ In c s) -> remove_heads c Y = Y.
Proof.
  induction Y as [|s rest IH]; simpl; intros H; auto.
  rewrite IH by (intros; apply H; auto). f_equal.
  destruct s as [|h t]; simpl; auto.
  destruct (Nat.eqb_spec h c) as [->|]; auto.
  exfalso. apply (H (c :: t)); simpl; auto.
Qed.

Lemma drop_head_notin : forall c s, ~ In c (tl s) -> ~ In c (drop_head c s).
Proof.
  intros c [|h t] Ht; simpl; auto.
  destruct (Nat.eqb_spec h c); auto. intros [E|Hc]; auto.
Qed.

Lemma spec_loop_acc : forall fuel Y acc,
  spec_loop fuel Y acc = match spec_loop fuel Y [] with Ok l => Ok (rev acc ++ l) | r => r end.
Proof.
  induction fuel; intros; simpl; auto.
  destruct (forallb is_nil Y).
  - simpl. rewrite app_nil_r. reflexivity.
  - destruct (pick Y Y) as [c|]; auto.
    rewrite (IHfuel _ (c :: acc)), (IHfuel _ [c]).
    destruct (spec_loop fuel (remove_heads c Y) []); auto.
    simpl. rewrite <- app_assoc. reflexivity.
Qed.

(* what comes out has no repetition (whatever went in) and comes from the sequences *)
Lemma spec_loop_props : forall fuel Y l, spec_loop fuel Y [] = Ok l ->
  NoDup l /\ forall x, In x l -> exists s, In s Y /\ In x s.
Proof.
  induction fuel; intros Y l Hs; simpl in Hs; try discriminate.
  destruct (forallb is_nil Y).
  - injection Hs as <-. split; [constructor | intros x []].
  - destruct (pick Y Y) as [c|] eqn:E; try discriminate.
    destruct (pick_head _ _ _ E) as [[t Ht] Hnt].
    rewrite spec_loop_acc in Hs.
    destruct (spec_loop fuel (remove_heads c Y) []) as [l'| | |] eqn:E'; try discriminate.
    injection Hs as <-. destruct (IHfuel _ _ E') as [Hn Hin]. split.
    + constructor; auto. intros Hc. destruct (Hin c Hc) as [s [Hs' Hcs]].
      apply in_map_iff in Hs'. destruct Hs' as [s0 [<- Hs0]].
      revert Hcs. apply drop_head_notin. apply (in_tail_false c Y); auto.
    + intros x [<-|Hx].
      * exists (c :: t). split; [exact Ht | left; reflexivity].
      * destruct (Hin x Hx) as [s [Hs' Hxs]]. exact (remove_heads_incl c Y s x Hs' Hxs).
Qed.

Lemma spec_loop_head : forall f c t Y acc, in_tail c ((c :: t) :: Y) = false ->
  spec_loop (S f) ((c :: t) :: Y) acc = spec_loop f (t :: remove_heads c Y) (c :: acc).
Proof.
  intros f c t Y acc E. cbn [spec_loop forallb is_nil andb pick]. rewrite E.
  cbn [remove_heads map drop_head]. rewrite Nat.eqb_refl. reflexivity.
Qed.

Lemma spec_cons : forall f c Y acc, (forall s, In s Y -> ~ In c s) ->
  spec_loop (S f) ([c] :: Y) acc = spec_loop f ([] :: Y) (c :: acc).
Proof.
  intros f c Y acc H. rewrite spec_loop_head, remove_heads_id; auto.
  apply in_tail_false. intros s [<-|Hi] Hc; [destruct Hc|].
  apply (H s Hi). destruct s; [destruct Hc | right; exact Hc].
Qed.

Lemma pick_nil_all : forall Y todo, pick ([] :: Y) todo = pick Y todo.
Proof.
  induction todo as [|s rest IH]; simpl; auto. destruct s; auto. rewrite IH. reflexivity.
Qed.

Lemma spec_nil_cons : forall f Y acc, spec_loop f ([] :: Y) acc = spec_loop f Y acc.
Proof.
  induction f; intros; simpl; auto.
  destruct (forallb is_nil Y); auto.
  rewrite pick_nil_all. destruct (pick Y Y); auto.
Qed.

Lemma spec_single : forall m fuel, NoDup m -> length m < fuel -> spec_loop fuel [m; []] [] = Ok m.
Proof.
  induction m as [|h t IH]; intros [|f] Hn Hf; try (destruct (Nat.nlt_0_r _ Hf)).
  - reflexivity.
  - apply NoDup_cons_iff in Hn. destruct Hn as [Hh Ht].
    rewrite spec_loop_head, spec_loop_acc.
    + cbn [remove_heads map drop_head]. rewrite IH; auto. apply Nat.succ_lt_mono. exact Hf.
    + apply in_tail_false. intros s [<-|[<-|[]]]; auto.
Qed.

Lemma pmerge_acc : forall acc0 tm,
  pmerge acc0 tm = match merge_c tm with Ok l => Ok (acc0 ++ l) | r => r end.
Proof.
  intros. unfold merge_c. rewrite !pmerge_spec. unfold spec_merge.
  rewrite spec_loop_acc, rev_involutive. reflexivity.
Qed.

Lemma merge_c_props : forall tm l, merge_c tm = Ok l ->
  NoDup l /\ forall x, In x l -> exists s, In s tm /\ In x s.
Proof. intros tm l. unfold merge_c. rewrite pmerge_spec. apply spec_loop_props. Qed.

(* putting [[self]] in front of the sequences (compute_mro) = starting pmerge with acc = [self] (mro_implementation) *)
Lemma merge_py_self : forall n Y, nodup_each Y -> (forall s, In s Y -> ~ In n s) ->
  merge_py ([n] :: Y) = pmerge [n] Y.
Proof.
  intros n Y Hn Hf. rewrite merge_py_spec, pmerge_spec, map_dedup_id.
  - unfold spec_merge. change (total_len ([n] :: Y)) with (S (total_len Y)).
    rewrite spec_cons by exact Hf. apply spec_nil_cons.
  - constructor; auto. repeat constructor. intros [].
Qed.

(* mro_implementation's fast path for a single base returns what pmerge would *)
Lemma merge_c_single_base : forall b m', NoDup (b :: m') -> merge_c [b :: m'; [b]] = Ok (b :: m').
Proof.
  intros b m' Hn. apply NoDup_cons_iff in Hn. destruct Hn as [Hb Hm].
  unfold merge_c. rewrite pmerge_spec. unfold spec_merge. rewrite spec_loop_head, spec_loop_acc.
  - cbn [remove_heads map drop_head]. rewrite Nat.eqb_refl, spec_single; auto.
    apply Nat.lt_succ_r, Nat.le_add_r.
  - apply in_tail_false. intros s [<-|[<-|[]]]; auto.
Qed.

Definition good_mro (i : nat) (m : list nat) : Prop :=
  exists m', m = i :: m' /\ NoDup m /\ forall x, In x m' -> x < i.
Definition good_done (done : list (list nat)) : Prop :=
  forall i, i < length done -> good_mro i (nth i done []).

Lemma good_done_nil : good_done [].
Proof. intros i Hi. destruct (Nat.nlt_0_r _ Hi). Qed.

Lemma good_done_snoc : forall done m, good_done done -> good_mro (length done) m -> good_done (done ++ [m]).
Proof.
  intros done m Hg Hm i Hi. rewrite last_length in Hi.
  destruct (proj1 (Nat.lt_eq_cases _ _) (proj1 (Nat.lt_succ_r _ _) Hi)) as [Hlt | ->].
  - rewrite app_nth1 by exact Hlt. apply Hg. exact Hlt.
  - rewrite nth_middle. exact Hm.
Qed.

Lemma check_duplicates_NoDup : forall l, check_duplicates l = true <-> NoDup l.
Proof.
  induction l as [|o rest IH]; simpl.
  - split; auto. constructor.
  - rewrite andb_true_iff, negb_true_iff, mem_false, IH. symmetry. apply NoDup_cons_iff.
Qed.

Lemma wf_bases_lt : forall n bases, wf_bases n bases = true <-> (forall b, In b bases -> b < n).
Proof.
  unfold wf_bases. intros. rewrite forallb_forall.
  split; intros H b Hb; apply Nat.ltb_lt; auto.
Qed.

Lemma class_mro_c_dup : forall done self bases,
  check_duplicates bases = false -> class_mro_c done self bases = Reject.
Proof.
  intros done self [|b [|b2 rest]] E; try discriminate.
  unfold class_mro_c. rewrite E. reflexivity.
Qed.

Section ClassStep.
  (* class [n] with [bases], looked at in a table [done] that has at least the classes before it *)
  Variable done : list (list nat).
  Variable n : nat.
  Variable bases : list nat.
  Hypothesis Hgood : good_done done.
  Hypothesis Hle : n <= length done.
  Hypothesis Hwf : wf_bases n bases = true.

  Let Y := map (mro_of done) bases ++ [bases].

  Lemma step_base_good : forall b, In b bases -> good_mro b (mro_of done b).
  Proof.
    intros b Hb. apply Hgood. exact (Nat.lt_le_trans _ _ _ (proj1 (wf_bases_lt _ _) Hwf b Hb) Hle).
  Qed.

  Lemma step_Y_lt : forall s x, In s Y -> In x s -> x < n.
  Proof.
    intros s x Hs Hx. unfold Y in Hs. apply in_app_or in Hs. destruct Hs as [Hs|[<-|[]]].
    - apply in_map_iff in Hs. destruct Hs as [b [<- Hb]].
      pose proof (proj1 (wf_bases_lt _ _) Hwf b Hb) as Hlt.
      destruct (step_base_good b Hb) as [m' [Em [_ Hm]]]. rewrite Em in Hx.
      destruct Hx as [<-|Hx]; auto. exact (Nat.lt_trans _ _ _ (Hm x Hx) Hlt).
    - apply (proj1 (wf_bases_lt _ _) Hwf x Hx).
  Qed.

  Lemma step_self_fresh : forall s, In s Y -> ~ In n s.
  Proof. intros s Hs Hn. exact (Nat.lt_irrefl _ (step_Y_lt s n Hs Hn)). Qed.

  Lemma step_Y_nodup : check_duplicates bases = true -> nodup_each Y.
  Proof.
    intros Hnd. apply Forall_app. split.
    - apply Forall_map, Forall_forall. intros b Hb.
      destruct (step_base_good b Hb) as [m' [_ [Hn _]]]. exact Hn.
    - constructor; auto. apply check_duplicates_NoDup; auto.
  Qed.

  (* pytype's compute_mro (without the duplicate check firing) is pmerge with acc = [self] *)
  Lemma step_py_is_pmerge : check_duplicates bases = true ->
    forall dupcheck, class_mro_py dupcheck done n bases = pmerge [n] Y.
  Proof.
    intros Hnd dupcheck. unfold class_mro_py, class_mro_py_gen. rewrite Hnd, andb_false_r.
    apply merge_py_self; [apply step_Y_nodup; exact Hnd | exact step_self_fresh].
  Qed.

  Lemma step_c_is_pmerge : check_duplicates bases = true -> class_mro_c done n bases = pmerge [n] Y.
  Proof.
    intros Hnd. pose proof step_base_good as Hb. unfold class_mro_c, Y.
    destruct bases as [|b [|b2 rest]]; try (rewrite Hnd; reflexivity).
    destruct (Hb b (or_introl eq_refl)) as [m' [Em [Hn _]]].
    rewrite pmerge_acc. cbn [map app]. rewrite Em in Hn |- *.
    rewrite merge_c_single_base by exact Hn. reflexivity.
  Qed.

  Lemma step_agree : forall dupcheck, dupcheck || check_duplicates bases = true ->
    class_mro_py dupcheck done n bases = class_mro_c done n bases.
  Proof.
    intros dupcheck Hd. destruct (check_duplicates bases) eqn:E.
    - rewrite step_py_is_pmerge, step_c_is_pmerge; auto.
    - rewrite orb_false_r in Hd. subst dupcheck. rewrite class_mro_c_dup by exact E.
      unfold class_mro_py, class_mro_py_gen. rewrite E. reflexivity.
  Qed.

  Lemma step_mro_good : forall m, class_mro_c done n bases = Ok m -> good_mro n m.
  Proof.
    intros m Hm. destruct (check_duplicates bases) eqn:E.
    2:{ rewrite class_mro_c_dup in Hm by exact E. discriminate. }
    rewrite step_c_is_pmerge, pmerge_acc in Hm by exact E.
    destruct (merge_c Y) as [l| | |] eqn:El; try discriminate. injection Hm as <-.
    destruct (merge_c_props _ _ El) as [Hnd Hin].
    exists l. split; [reflexivity|]. split.
    - constructor; auto. intros Hc. destruct (Hin _ Hc) as [s [Hs Hns]]. exact (step_self_fresh s Hs Hns).
    - intros x Hx. destruct (Hin x Hx) as [s [Hs Hxs]]. exact (step_Y_lt s x Hs Hxs).
  Qed.
End ClassStep.

(* one run over the class statements: with the duplicate check ([dupcheck = true]) no hypothesis on the bases is needed *)
Lemma run_table_agree : forall dupcheck todo done,
  good_done done -> wf_table_from (length done) todo = true -> dupcheck || no_dup_bases todo = true ->
  run_table (class_mro_py dupcheck) done todo = run_table class_mro_c done todo /\
  good_done (table_mros (run_table class_mro_c done todo)).
Proof.
  induction todo as [|bases rest IH]; intros done Hg Hwf Hnd; simpl.
  - split; auto.
  - simpl in Hwf, Hnd. apply andb_true_iff in Hwf. destruct Hwf as [Hw1 Hw2].
    rewrite orb_andb_distrib_r in Hnd. apply andb_true_iff in Hnd. destruct Hnd as [Hn1 Hn2].
    rewrite (step_agree done _ bases Hg (le_n _) Hw1 dupcheck Hn1).
    destruct (class_mro_c done (length done) bases) as [m| | |] eqn:E; simpl; auto.
    apply IH; auto.
    + apply good_done_snoc; auto. exact (step_mro_good done _ bases Hg (le_n _) Hw1 m E).
    + rewrite last_length. exact Hw2.
Qed.

Theorem mro_agree_gen : forall dupcheck H,
  wf_table H = true -> dupcheck || no_dup_bases H = true -> mros_py dupcheck H = mros_c H.
Proof. intros. unfold mros_py, mros_c. apply run_table_agree; auto. apply good_done_nil. Qed.

Lemma mro_agree_fixed_lemma : forall H, wf_table H = true -> mros_py true H = mros_c H.
Proof. intros. apply mro_agree_gen; auto. Qed.

Lemma mros_c_good : forall H, wf_table H = true -> good_done (table_mros (mros_c H)).
Proof. intros H Hw. apply (run_table_agree true H [] good_done_nil Hw eq_refl). Qed.

(* neither run ever ends in the model-artefact outcome *)
Lemma run_table_not_bad : forall f,
  (forall d s b, f d s b <> OutOfFuel /\ f d s b <> Crash) ->
  forall todo done m i, run_table f done todo <> TableBad m i.
Proof.
  intros f Hf. induction todo as [|bases rest IH]; intros done m i; simpl; try discriminate.
  destruct (Hf done (length done) bases) as [H1 H2].
  destruct (f done (length done) bases); try discriminate; auto; contradiction.
Qed.

Lemma class_mro_py_total : forall sing dupcheck d s b,
  class_mro_py_gen sing dupcheck d s b <> OutOfFuel /\ class_mro_py_gen sing dupcheck d s b <> Crash.
Proof.
  intros. unfold class_mro_py_gen.
  destruct (dupcheck && negb (check_duplicates b)).
  - split; discriminate.
  - apply merge_py_gen_fuel_lemma.
Qed.

Lemma class_mro_c_total : forall d s b, class_mro_c d s b <> OutOfFuel /\ class_mro_c d s b <> Crash.
Proof.
  intros d s b. destruct (check_duplicates b) eqn:E.
  - unfold class_mro_c. rewrite E. destruct b as [|b1 [|b2 rest]]; try apply pmerge_fuel_lemma.
    split; discriminate.
  - rewrite class_mro_c_dup by exact E. split; discriminate.
Qed.

Lemma class_mro_c_ext : forall d ext n bases,
  wf_bases (length d) bases = true -> class_mro_c (d ++ ext) n bases = class_mro_c d n bases.
Proof.
  intros d ext n bases Hw.
  assert (E : map (mro_of (d ++ ext)) bases = map (mro_of d) bases).
  { apply map_ext_in. intros b Hb. apply app_nth1. exact (proj1 (wf_bases_lt _ _) Hw b Hb). }
  unfold class_mro_c. rewrite E. destruct bases as [|b [|]]; auto. injection E as ->. reflexivity.
Qed.

(* a successful run only appends, and the finished table reproduces each of its classes *)
Lemma run_table_ok : forall todo d0 done,
  run_table class_mro_c d0 todo = TableOk done -> wf_table_from (length d0) todo = true ->
  exists ext, done = d0 ++ ext /\ length ext = length todo /\
    forall k, k < length todo ->
      class_mro_c done (length d0 + k) (nth k todo []) = Ok (nth (length d0 + k) done []).
Proof.
  induction todo as [|bases rest IH]; intros d0 done Hr Hw; simpl in Hr, Hw.
  - injection Hr as <-. exists []. rewrite app_nil_r. repeat split. intros k Hk. destruct (Nat.nlt_0_r _ Hk).
  - apply andb_true_iff in Hw. destruct Hw as [Hw1 Hw2].
    destruct (class_mro_c d0 (length d0) bases) as [m| | |] eqn:E; try discriminate.
    destruct (IH _ _ Hr) as [ext [-> [Hl Hk]]]; [rewrite last_length; exact Hw2|].
    exists (m :: ext). rewrite <- app_assoc. repeat split; simpl; auto.
    intros [|k] Hlt.
    + rewrite Nat.add_0_r, class_mro_c_ext, nth_middle by exact Hw1. exact E.
    + specialize (Hk k (proj2 (Nat.succ_lt_mono _ _) Hlt)). rewrite last_length, <- app_assoc in Hk.
      rewrite <- plus_n_Sm. exact Hk.
Qed.

Lemma wf_table_from_nth : forall H i k,
  wf_table_from i H = true -> k < length H -> wf_bases (i + k) (nth k H []) = true.
Proof.
  induction H as [|b rest IH]; intros i k Hw Hk; simpl in *; [destruct (Nat.nlt_0_r _ Hk)|].
  apply andb_true_iff in Hw. destruct Hw as [H1 H2].
  destruct k.
  - rewrite Nat.add_0_r. exact H1.
  - rewrite <- plus_n_Sm. apply (IH (S i)); auto. apply Nat.succ_lt_mono. exact Hk.
Qed.

Lemma all_some_map_Some : forall (A : Type) (f : A -> list nat) l,
  all_some (map (fun a => Some (f a)) l) = true.
Proof. induction l; simpl; auto. Qed.

Lemma unsome_map_Some : forall (A : Type) (f : A -> list nat) l,
  unsome (map (fun a => Some (f a)) l) = map f l.
Proof. intros. unfold unsome. rewrite map_map. reflexivity. Qed.

Section Pytd.
  Variable H : list (list nat).
  Variable done : list (list nat).
  Hypothesis Hwf : wf_table H = true.
  Hypothesis Hnd : no_dup_bases H = true.
  Hypothesis Hok : mros_c H = TableOk done.

  Let M (t : nat) : list nat := nth t done [].

  Lemma pytd_len : length done = length H.
  Proof. destruct (run_table_ok _ _ _ Hok Hwf) as [ext [-> [Hl _]]]. exact Hl. Qed.

  Lemma pytd_good : good_done done.
  Proof. pose proof (mros_c_good H Hwf) as Hg. rewrite Hok in Hg. exact Hg. Qed.

  Lemma pytd_bases_wf : forall t, t < length H -> wf_bases t (nth t H []) = true.
  Proof. intros t Ht. apply (wf_table_from_nth H 0 t Hwf Ht). Qed.

  Lemma pytd_bases_nodup : forall t, t < length H -> check_duplicates (nth t H []) = true.
  Proof.
    intros t Ht. unfold no_dup_bases in Hnd. rewrite forallb_forall in Hnd. apply Hnd. apply nth_In; auto.
  Qed.

  (* the merge performed inside _ComputeMRO for class t yields the table's MRO of t *)
  Lemma pytd_merge_fact : forall t, t < length H ->
    merge_py ([t] :: map M (nth t H []) ++ [nth t H []]) = Ok (M t).
  Proof.
    intros t Ht.
    destruct (run_table_ok _ _ _ Hok Hwf) as [ext [_ [_ Hk]]]. refine (eq_trans _ (Hk t Ht)).
    assert (Hle : t <= length done) by (rewrite pytd_len; apply Nat.lt_le_incl; exact Ht).
    exact (step_agree done t _ pytd_good Hle (pytd_bases_wf t Ht) false (pytd_bases_nodup t Ht)).
  Qed.

  (* the dict `mros`: a finished class has its MRO from the table, a class being computed is one of [P] *)
  Definition memo_ok (P : nat -> Prop) (m : memo) : Prop :=
    forall k v, memo_get m k = Some v ->
      match v with Some l => k < length H /\ l = M k | None => P k end.

  Lemma memo_get_set : forall m t v k,
    memo_get (memo_set m t v) k = if Nat.eqb t k then Some v else memo_get m k.
  Proof. reflexivity. Qed.

  (* mros[t] = None on entering _ComputeMRO(t) ... *)
  Lemma memo_ok_enter : forall (P : nat -> Prop) m t,
    memo_ok P m -> memo_ok (fun k => P k \/ k = t) (memo_set m t None).
  Proof.
    intros P m t Hm k v Hk. rewrite memo_get_set in Hk. destruct (Nat.eqb_spec t k) as [->|Ne].
    - injection Hk as <-. right. reflexivity.
    - specialize (Hm k v Hk). destruct v; auto.
  Qed.

  (* ... and mros[t] = its MRO on leaving *)
  Lemma memo_ok_leave : forall (P : nat -> Prop) m t, t < length H ->
    memo_ok (fun k => P k \/ k = t) m -> memo_ok P (memo_set m t (Some (M t))).
  Proof.
    intros P m t Ht Hm k v Hk. rewrite memo_get_set in Hk. destruct (Nat.eqb_spec t k) as [->|Ne].
    - injection Hk as <-. auto.
    - specialize (Hm k v Hk). destruct v; auto. destruct Hm as [Hp|Hp]; auto. congruence.
  Qed.

  (* the loop over the bases of class t: every base is below t, every class being computed is t or above, so the
     `mros[base] is None` test never fires *)
  Lemma pytd_bases_loop_ok : forall rec (P : nat -> Prop) t,
    (forall k, P k -> t <= k) ->
    (forall b mros, b < t -> memo_ok P mros ->
       exists mros', rec b mros = Ok (Some (M b), mros') /\ memo_ok P mros') ->
    forall bs mros acc, (forall b, In b bs -> b < t) -> memo_ok P mros ->
    exists mros', pytd_bases_loop rec bs mros acc = Ok (rev acc ++ map (fun b => Some (M b)) bs, mros') /\
                  memo_ok P mros'.
  Proof.
    intros rec P t HP Hrec. induction bs as [|b rest IHb]; intros mros acc Hb Hm; simpl.
    - exists mros. rewrite app_nil_r. auto.
    - assert (Hnext : forall mros1, memo_ok P mros1 ->
                exists mros', pytd_bases_loop rec rest mros1 (Some (M b) :: acc) =
                              Ok (rev acc ++ Some (M b) :: map (fun b => Some (M b)) rest, mros') /\
                              memo_ok P mros').
      { intros mros1 H1. destruct (IHb mros1 (Some (M b) :: acc)) as [m2 [E2 H2]]; auto.
        - intros; apply Hb; simpl; auto.
        - exists m2. rewrite E2. simpl. rewrite <- app_assoc. auto. }
      assert (Hbt : b < t) by (apply Hb; simpl; auto).
      destruct (memo_get mros b) as [[l|]|] eqn:Eb.
      + destruct (Hm b _ Eb) as [_ ->]. apply Hnext; auto.
      + destruct (Nat.lt_irrefl _ (Nat.lt_le_trans _ _ _ Hbt (HP b (Hm b _ Eb)))).
      + destruct (Hrec b mros Hbt Hm) as [m1 [E1 H1]]. rewrite E1. apply Hnext; auto.
  Qed.

  Lemma compute_mro_pytd_ok : forall fuel t (mros : memo) (P : nat -> Prop),
    t < fuel -> t < length H -> (forall k, P k -> t < k) -> memo_ok P mros ->
    exists mros', compute_mro_pytd fuel H t mros = Ok (Some (M t), mros') /\ memo_ok P mros'.
  Proof.
    induction fuel; intros t mros P Hf Ht HP Hm; [destruct (Nat.nlt_0_r _ Hf)|]. simpl.
    destruct (memo_get mros t) as [v|] eqn:Eg.
    - pose proof (Hm t v Eg) as Hv. destruct v as [l|].
      + destruct Hv as [_ ->]. exists mros. split; auto.
      + destruct (Nat.lt_irrefl _ (HP t Hv)).
    - destruct (pytd_bases_loop_ok (compute_mro_pytd fuel H) (fun k => P k \/ k = t) t)
        with (bs := nth t H []) (mros := memo_set mros t None) (acc := @nil (option (list nat)))
        as [m2 [E2 H2]].
      + intros k [Hk | ->]; auto. apply Nat.lt_le_incl; auto.
      + intros b m1 Hb H1. apply IHfuel; auto.
        * apply (Nat.lt_le_trans _ _ _ Hb). apply Nat.lt_succ_r. exact Hf.
        * exact (Nat.lt_trans _ _ _ Hb Ht).
        * intros k [Hk | ->]; auto. exact (Nat.lt_trans _ _ _ Hb (HP k Hk)).
      + apply wf_bases_lt. apply pytd_bases_wf; auto.
      + apply memo_ok_enter; auto.
      + rewrite E2. simpl app. rewrite all_some_map_Some, unsome_map_Some, pytd_merge_fact by auto.
        eexists. split; [reflexivity|]. apply memo_ok_leave; auto.
  Qed.

  Lemma bases_in_mro_loop_ok : forall bs mros acc,
    (forall b, In b bs -> b < length H) -> memo_ok (fun _ => False) mros ->
    bases_in_mro_loop (S (length H)) H bs mros acc = Ok (rev acc ++ map (fun b => Some (M b)) bs).
  Proof.
    induction bs as [|b rest IH]; intros mros acc Hb Hm.
    - simpl. rewrite app_nil_r. reflexivity.
    - cbn [bases_in_mro_loop].
      assert (Hlt : b < length H) by (apply Hb; simpl; auto).
      destruct (compute_mro_pytd_ok (S (length H)) b mros (fun _ => False)) as [m' [E Hm']]; auto.
      + intros k [].
      + rewrite E. rewrite IH; auto.
        * simpl. rewrite <- app_assoc. reflexivity.
        * intros; apply Hb; simpl; auto.
  Qed.

  Lemma get_bases_in_mro_is_merge : forall bases,
    wf_bases (length H) bases = true ->
    get_bases_in_mro H bases = merge_py (map M bases ++ [bases]).
  Proof.
    intros bases Hb. unfold get_bases_in_mro.
    rewrite bases_in_mro_loop_ok.
    - simpl app. rewrite all_some_map_Some, unsome_map_Some. reflexivity.
    - apply wf_bases_lt; auto.
    - intros k v Hk. discriminate.
  Qed.
End Pytd.

Lemma mro_error_iff_lemma : forall dupcheck H i,
  wf_table H = true -> dupcheck || no_dup_bases H = true ->
  (table_error (mros_py dupcheck H) = Some i <-> table_error (mros_c H) = Some i).
Proof. intros. rewrite mro_agree_gen by auto. reflexivity. Qed.

Lemma lookup_agree_lemma : forall dupcheck H attrs c name,
  wf_table H = true -> dupcheck || no_dup_bases H = true ->
  lookup_py dupcheck H attrs c name = lookup_c H attrs c name.
Proof. intros. unfold lookup_py, lookup_c. rewrite mro_agree_gen by auto. reflexivity. Qed.
