(* C15 (4): the compile step composed with the except chain of io.check_or_generate_pyi, over the regenerated
   tables (Generated/C15_Handlers.v: nd_block_starts, int_max_str_digits, the class universe and the chain). *)
From Coq Require Import String.
From Coq Require Import List Arith NArith Bool Lia.
From PV Require Import Io.Model Io.Compile Io.CompileProofs Generated.C15_Handlers Io.Proofs.
Import ListNotations.

Lemma nd_table_wf : wf_nd nd_block_starts = true.
Proof. vm_compute. reflexivity. Qed.

(* the class of each exception the compile step can raise *)
Definition raised_class (r : raised) : nat :=
  match r with
  | RValueError => cls_ValueError
  | RUnicodeEncodeError => cls_UnicodeEncodeError
  | RUnicodeDecodeError => cls_UnicodeDecodeError
  | ROSError => cls_OSError
  | RIndexError => cls_IndexError
  end.

(* what io.check_or_generate_pyi makes of the compile step's result; None = no exception, the analysis goes on.
   `except pyc.CompileError as e: compiler_error = (options.input, e.line, e.error)` *)
Definition io_after_compile (r : pyc_result) (nofail check : bool) : option Model.outcome :=
  match r with
  | PBytes => None
  | PCompileError _ _ l => Some (outcome (Raised cls_CompileError (Some (N.to_nat l))) nofail check)
  | PRaise x => Some (outcome (Raised (raised_class x) None) nofail check)
  end.

Lemma raised_other : forall r, In (raised_class r) other_exception_classes.
Proof. intro r. apply mem_In. destruct r; reflexivity. Qed.

Lemma compile_error_one_error_lemma : forall e f l nofail check,
  io_after_compile (PCompileError e f l) nofail check = Some (ODefault [N.to_nat l] InfoNone).
Proof.
  intros e f l nofail check. cbn [io_after_compile].
  destruct (outcome_classification_lemma (Some (N.to_nat l)) nofail check) as (C & _).
  rewrite (C cls_CompileError (in_eq _ _)). reflexivity.
Qed.

(* end to end for any str(err) without a lone surrogate: the line CompileError.__init__ reads off it is the one reported *)
Lemma compile_exc_one_error : forall nd maxd s e f l nofail check,
  existsb is_surrogate s = false -> compile_error_init nd maxd s = CEok e f l ->
  io_after_compile (compile_native nd maxd (CompExc s)) nofail check = Some (ODefault [N.to_nat l] InfoNone).
Proof.
  intros nd maxd s e f l nofail check Hs E.
  rewrite (compile_native_exc nd maxd s Hs), E. apply compile_error_one_error_lemma.
Qed.

(* a SyntaxError of the code generator with a newline in the message or the file name: still exactly one error,
   but at line 1 *)
Lemma compile_stage_error_newline_lemma : forall msg f d nofail check,
  Compile.no_nl (msg ++ sep_open ++ basename f) = false ->
  existsb is_surrogate (syntax_error_str msg (Some f) (Some d)) = false ->
  d <> [] -> forallb ascii_digit d = true ->
  io_after_compile
    (compile_native nd_block_starts int_max_str_digits (CompExc (syntax_error_str msg (Some f) (Some d))))
    nofail check
  = Some (ODefault [1] InfoNone).
Proof.
  intros msg f d nofail check Nn Hs Dne Da.
  exact (compile_exc_one_error _ _ _ _ _ _ nofail check Hs
           (syntax_error_newline_lemma nd_block_starts int_max_str_digits msg f d nd_table_wf Nn Dne Da)).
Qed.
