(* C15 (5): every logged error carries a line inside the file, from the monitored hypotheses. *)
From Coq Require Import List ZArith Bool Lia.
From PV Require Import Directors.Model Io.ErrLine.
Import ListNotations.
Local Open Scope Z_scope.

(* only frames with an opcode are ever appended to the accumulator *)
Lemma dedup_go_Forall : forall (P : frame -> Prop) stack acc lastl,
  Forall P acc -> (forall fr l, In fr stack -> f_op fr = Some l -> P fr) ->
  Forall P (dedup_go stack acc lastl).
Proof.
  intros P stack. induction stack as [|x rest IH]; intros acc lastl Ha Hs; cbn [dedup_go]; [exact Ha|].
  assert (Hr : forall fr l, In fr rest -> f_op fr = Some l -> P fr) by (intros fr l H; apply Hs; right; exact H).
  destruct (f_op x) as [l|] eqn:E; [|apply IH; assumption].
  assert (Hadd : Forall P (acc ++ [x])).
  { apply Forall_app. split; [exact Ha|]. constructor; [|constructor]. exact (Hs x l (or_introl eq_refl) E). }
  destruct lastl as [l'|]; [destruct (l =? l')|]; apply IH; assumption.
Qed.

Lemma dedup_subset : forall stack fr, In fr (dedup_opcodes stack) -> In fr stack /\ exists l, f_op fr = Some l.
Proof.
  intros stack. apply Forall_forall. unfold dedup_opcodes. apply dedup_go_Forall; [constructor|].
  intros fr l H E. split; [|exists l; exact E].
  destruct (1 <? length stack)%nat; [|exact H]. apply filter_In in H. exact (proj1 H).
Qed.

Lemma last_map_some : forall (l : list frame) fr, last (map Some l) None = Some fr -> In fr l.
Proof.
  intros l. induction l as [|x l IH]; intros fr H; cbn in H; [discriminate|].
  destruct l as [|y l'].
  - cbn in H. injection H as <-. left. reflexivity.
  - right. apply IH. exact H.
Qed.

Lemma last_map_none : forall (l : list frame), last (map Some l) None = None -> l = [].
Proof.
  intros l. induction l as [|x l IH]; intro H; [reflexivity|]. cbn in H.
  destruct l as [|y l']; [discriminate|]. specialize (IH H). discriminate.
Qed.

(* the line comes from an opcode of the stack, or it is 0 and no frame survives the dedup *)
Lemma with_stack_line_cases : forall stack,
  (dedup_opcodes stack = [] /\ with_stack_line stack = 0) \/
  (exists fr, In fr stack /\ f_op fr = Some (with_stack_line stack)).
Proof.
  intros stack. unfold with_stack_line. destruct stack as [|x rest]; [left; split; reflexivity|].
  destruct (last (map Some (dedup_opcodes (x :: rest))) None) as [fr|] eqn:E.
  - apply last_map_some in E. apply dedup_subset in E. destruct E as [Hin [l Hl]].
    right. exists fr. rewrite Hl. split; [exact Hin|reflexivity].
  - left. split; [|reflexivity]. apply last_map_none. exact E.
Qed.

Lemma with_stack_line_in_file : forall n stack,
  ops_in_file n stack -> dedup_opcodes stack <> [] -> 1 <= with_stack_line stack <= n.
Proof.
  intros n stack Hops Hne. destruct (with_stack_line_cases stack) as [[E _] | (fr & Hin & Hl)].
  - contradiction.
  - exact (Hops fr _ Hin Hl).
Qed.

Lemma dict_get_in : forall (k : Z) (d : list (Z * Z)) v, dict_get k d = Some v -> In (k, v) d.
Proof.
  intros k d. induction d as [|[k' v'] d IH]; intros v H; cbn in H; [discriminate|].
  destruct (k =? k') eqn:E.
  - injection H as <-. apply Z.eqb_eq in E. subst. left. reflexivity.
  - right. apply IH. exact H.
Qed.

Lemma bind_Ok : forall {A B} (r : res A) (f : A -> res B) b,
  bind r f = Ok b -> exists a, r = Ok a /\ f a = Ok b.
Proof. intros A B [a|x] f b H; [exists a; split; [reflexivity|exact H]|discriminate]. Qed.

Lemma find_outermost_end : forall br line s en, find_outermost br line = Ok (Some (s, en)) -> In (s, en) (br_s2e br).
Proof.
  intros br line s en H. unfold find_outermost in H.
  destruct (br_starts br) as [|s0 rest]; [discriminate|].
  destruct (negb _ || _); [|discriminate].
  apply bind_Ok in H as (start & _ & H).
  destruct (dict_get start (br_s2e br)) as [en'|] eqn:Eg; [|discriminate].
  destruct (_ && _); [|discriminate].
  injection H as <- <-. exact (dict_get_in _ _ _ Eg).
Qed.

Lemma reported_line_in_file : forall n st rl e line l',
  ranges_in_file n st -> 1 <= line <= n -> reported_line st rl e line = Ok l' -> 1 <= l' <= n.
Proof.
  intros n st rl e line l' Hr Hl H. unfold reported_line in H.
  destruct (_ && _); [|injection H as <-; exact Hl].
  apply bind_Ok in H as ([[s en]|] & Ef & H); [|injection H as <-; exact Hl].
  apply find_outermost_end in Ef. specialize (Hr _ _ Ef).
  destruct (en =? 0); injection H as <-; lia.
Qed.

(* ErrorLog.error: the line of the error before the director's filter *)
Lemma error_line_in_file : forall n stack override,
  ops_in_file n stack ->
  (forall l, override = Some l -> l = 0 \/ 1 <= l <= n) ->
  (dedup_opcodes stack <> [] \/ exists l, override = Some l /\ l <> 0) ->
  1 <= error_line stack override <= n.
Proof.
  intros n stack override Hops Hov Hne. unfold error_line. destruct override as [l|].
  - destruct (Z.eqb_spec l 0) as [->|Hz].
    + destruct Hne as [Hne | (l & E & Hl)]; [exact (with_stack_line_in_file n stack Hops Hne)|].
      injection E as <-. contradiction.
    + destruct (Hov l eq_refl); [contradiction|assumption].
  - destruct Hne as [Hne | (l & E & _)]; [|discriminate].
    exact (with_stack_line_in_file n stack Hops Hne).
Qed.
