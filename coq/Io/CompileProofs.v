(* C15 (4): lemmas about the compile-error path (Io/Compile.v).  Generic in the digit table and in the int() limit. *)
From Coq Require Import List Arith NArith Bool Lia.
From PV Require Import Io.Compile.
Import ListNotations.
Local Open Scope N_scope.

Lemma forallb_rev : forall (p : N -> bool) l, forallb p (rev l) = forallb p l.
Proof.
  intros p l. induction l as [|a l IH]; [reflexivity|].
  cbn [rev]. rewrite forallb_app, IH. cbn. rewrite andb_true_r. apply andb_comm.
Qed.

Lemma no_nl_rev : forall s, no_nl (rev s) = no_nl s.
Proof. intro s. apply forallb_rev. Qed.

Lemma no_nl_app : forall a b, no_nl (a ++ b) = no_nl a && no_nl b.
Proof. intros a b. apply forallb_app. Qed.

Lemma span_spec : forall p s a b, span p s = (a, b) ->
  s = a ++ b /\ forallb p a = true /\ match b with [] => True | c :: _ => p c = false end.
Proof.
  intros p s. induction s as [|c s IH]; intros a b H; cbn in H.
  - injection H as <- <-. auto.
  - destruct (p c) eqn:E.
    + destruct (span p s) as [a1 b1] eqn:E2. injection H as <- <-.
      destruct (IH _ _ eq_refl) as (-> & F & T). cbn. rewrite E, F. auto.
    + injection H as <- <-. cbn. rewrite E. auto.
Qed.

Lemma span_app : forall p a b, forallb p a = true -> match b with [] => True | c :: _ => p c = false end ->
  span p (a ++ b) = (a, b).
Proof.
  intros p a. induction a as [|x a IH]; cbn; intros b H H0.
  - destruct b; cbn; [reflexivity|]. rewrite H0. reflexivity.
  - apply andb_true_iff in H as [H1 H2]. rewrite H1, IH by assumption. reflexivity.
Qed.

Lemma starts_with_spec : forall pre s, starts_with pre s = true -> s = pre ++ skipn (length pre) s.
Proof.
  intros pre. induction pre as [|a pre IH]; intros s H; destruct s; cbn in *; try discriminate; auto.
  apply andb_true_iff in H as [H1 H2]. apply N.eqb_eq in H1. subst. f_equal. auto.
Qed.

Lemma starts_with_app : forall pre s, starts_with pre (pre ++ s) = true.
Proof. intros pre s. induction pre as [|a pre IH]; cbn; auto. rewrite N.eqb_refl. auto. Qed.

Lemma find_sub2_some : forall a b s u v, find_sub2 a b s = Some (u, v) -> s = u ++ a :: b :: v.
Proof.
  intros a b s. induction s as [|x s IH]; intros u v H; cbn in H; [discriminate|].
  destruct ((x =? a) && match s with y :: _ => y =? b | [] => false end) eqn:E.
  - injection H as <- <-. apply andb_true_iff in E as [E1 E2]. destruct s; [discriminate|].
    apply N.eqb_eq in E1, E2. subst. reflexivity.
  - destruct (find_sub2 a b s) as [[u1 v1]|] eqn:E2; [|discriminate]. injection H as <- <-.
    cbn. f_equal. auto.
Qed.

Lemma find_sub2_first : forall a b s u' v', s = u' ++ a :: b :: v' ->
  exists u v, find_sub2 a b s = Some (u, v) /\ (length u <= length u')%nat.
Proof.
  intros a b s. induction s as [|x s IH]; intros u' v' H.
  - destruct u'; discriminate.
  - cbn [find_sub2].
    destruct ((x =? a) && match s with y :: _ => y =? b | [] => false end) eqn:E.
    + exists [], (tl s). split; [reflexivity|]. cbn. lia.
    + destruct u' as [|y u'].
      * cbn in H. injection H as -> ->. rewrite !N.eqb_refl in E. discriminate.
      * cbn in H. injection H as -> ->. destruct (IH u' v' eq_refl) as (u & v & F & L).
        rewrite F. exists (y :: u), v. split; [reflexivity|]. cbn. lia.
Qed.

Lemma find_sub2_none : forall a b s, find_sub2 a b s = None -> forall u v, s <> u ++ a :: b :: v.
Proof.
  intros a b s H u v E. destruct (find_sub2_first a b s u v E) as (u1 & v1 & F & _). congruence.
Qed.

(* The matcher searches the reversed text: an "a b" found there is a "b a" of the text itself ... *)
Lemma find_sub2_rev : forall a b (X u v : text),
  find_sub2 a b (rev X) = Some (u, v) -> X = rev v ++ b :: a :: rev u.
Proof.
  intros a b X u v H. apply find_sub2_some, rev_eq_app in H. rewrite H. cbn [rev].
  rewrite <- !app_assoc. reflexivity.
Qed.

(* ... and the first one there is the last one of the text. *)
Lemma find_sub2_rev_last : forall a b (g1' g2' : text), exists g1 g2,
  find_sub2 a b (rev (g1' ++ b :: a :: g2')) = Some (rev g2, rev g1) /\
  (length g1' <= length g1)%nat /\ g1 ++ b :: a :: g2 = g1' ++ b :: a :: g2'.
Proof.
  intros a b g1' g2'.
  destruct (find_sub2_first a b (rev (g1' ++ b :: a :: g2')) (rev g2') (rev g1')) as (u & v & F & L).
  { rewrite rev_app_distr. cbn [rev]. rewrite <- !app_assoc. reflexivity. }
  exists (rev v), (rev u). rewrite !rev_involutive. split; [exact F|].
  pose proof (find_sub2_rev _ _ _ _ _ F) as E. split; [|symmetry; exact E].
  apply (f_equal (@length N)) in E. rewrite !app_length in E. cbn [length] in E.
  rewrite !rev_length in *. lia.
Qed.

Lemma strip_spec : forall msg br, strip_final_nl_rev (rev msg) = br -> msg = rev br \/ msg = rev br ++ [NL].
Proof.
  intros msg br H. rewrite <- (rev_involutive msg). destruct (rev msg) as [|c t]; cbn [strip_final_nl_rev] in H.
  - subst br. left. reflexivity.
  - destruct (N.eqb_spec c NL) as [->|_]; subst br; [right|left]; reflexivity.
Qed.

(* msg = group1 " (" group2 ", line " digits ")" ["\n"], no "\n" inside groups 1 and 2, at least one digit *)
Definition decomp (nd : list N) (msg g1 g2 d : text) : Prop :=
  (msg = g1 ++ sep_open ++ g2 ++ sep_line ++ d ++ [RP] \/
   msg = (g1 ++ sep_open ++ g2 ++ sep_line ++ d ++ [RP]) ++ [NL]) /\
  no_nl g1 = true /\ no_nl g2 = true /\ d <> [] /\ forallb (is_digit nd) d = true.

Lemma shape_assoc : forall g1 g2 t : text, g1 ++ sep_open ++ g2 ++ t = (g1 ++ sep_open ++ g2) ++ t.
Proof. intros. rewrite <- !app_assoc. reflexivity. Qed.

Lemma decomp_tail : forall nd msg g1 g2 d, decomp nd msg g1 g2 d ->
  exists p, (msg = p ++ sep_line ++ d ++ [RP] \/ msg = (p ++ sep_line ++ d ++ [RP]) ++ [NL]).
Proof.
  intros nd msg g1 g2 d (H & _). exists (g1 ++ sep_open ++ g2). rewrite <- shape_assoc. exact H.
Qed.

Lemma rev_shape_inv : forall dr g2r g1r : text,
  rev (RP :: dr ++ sep_line_rev ++ g2r ++ LP :: SP :: g1r) =
  rev g1r ++ sep_open ++ rev g2r ++ sep_line ++ rev dr ++ [RP].
Proof.
  intros. cbn [rev]. rewrite !rev_app_distr. cbn [rev]. rewrite <- !app_assoc. reflexivity.
Qed.

Lemma re_match_sound : forall nd msg g1 g2 d, re_match nd msg = Some (g1, g2, d) -> decomp nd msg g1 g2 d.
Proof.
  intros nd msg g1 g2 d H. unfold re_match in H.
  destruct (strip_final_nl_rev (rev msg)) as [|c r1] eqn:Eb; [discriminate|].
  destruct (N.eqb_spec c RP) as [->|_]; [|discriminate].
  destruct (span (is_digit nd) r1) as [drev r2] eqn:Es. apply span_spec in Es as (-> & Fd & _).
  destruct drev as [|d0 drev]; [discriminate|].
  destruct (starts_with sep_line_rev r2) eqn:Est; [|discriminate]. apply starts_with_spec in Est.
  destruct (no_nl (skipn 7 r2)) eqn:Enl; [|discriminate].
  destruct (find_sub2 LP SP (skipn 7 r2)) as [[g2r g1r]|] eqn:Ef; [|discriminate].
  apply find_sub2_some in Ef. injection H as <- <- <-.
  change (length sep_line_rev) with 7%nat in Est. rewrite Ef in Est, Enl. subst r2.
  apply strip_spec in Eb. rewrite rev_shape_inv in Eb.
  rewrite no_nl_app in Enl. apply andb_true_iff in Enl as [N2 N1].
  change (decomp nd msg (rev g1r) (rev g2r) (rev (d0 :: drev))).
  unfold decomp. rewrite !no_nl_rev, forallb_rev. repeat split; try assumption.
  intro E. apply (f_equal (@length N)) in E. rewrite rev_length in E. discriminate.
Qed.

(* everything is decided by the text P in front of the digits, which does not end in a digit *)
Lemma re_match_digits : forall nd P d,
  forallb (is_digit nd) d = true -> match rev P with c :: _ => is_digit nd c = false | [] => True end ->
  re_match nd (P ++ d ++ [RP]) =
    match d with
    | [] => None
    | _ :: _ =>
        if starts_with sep_line_rev (rev P) then
          if no_nl (skipn 7 (rev P)) then
            match find_sub2 LP SP (skipn 7 (rev P)) with
            | Some (g2r, g1r) => Some (rev g1r, rev g2r, d)
            | None => None
            end
          else None
        else None
    end.
Proof.
  intros nd P d Dd HP.
  assert (Eb : strip_final_nl_rev (rev (P ++ d ++ [RP])) = RP :: rev d ++ rev P).
  { rewrite app_assoc, rev_unit, rev_app_distr. reflexivity. }
  unfold re_match. rewrite Eb. change (RP =? RP) with true. cbv iota.
  rewrite (span_app (is_digit nd) (rev d) (rev P)) by (rewrite ?forallb_rev; assumption).
  destruct d as [|x d]; [reflexivity|].
  destruct (rev (x :: d)) as [|y ys] eqn:E.
  - apply (f_equal (@length N)) in E. rewrite rev_length in E. discriminate.
  - rewrite <- E, rev_involutive. reflexivity.
Qed.

(* `$` also matches before one final "\n" *)
Lemma re_match_final_nl : forall nd M, re_match nd ((M ++ [RP]) ++ [NL]) = re_match nd (M ++ [RP]).
Proof. intros nd M. unfold re_match. rewrite !rev_unit. reflexivity. Qed.

(* in front of the digits stands ", line ": group 1 and group 2 are cut at the last " (" of the rest *)
Lemma re_match_shape : forall nd X d, is_digit nd SP = false -> d <> [] -> forallb (is_digit nd) d = true ->
  re_match nd (X ++ sep_line ++ d ++ [RP]) =
    if no_nl X then
      match find_sub2 LP SP (rev X) with
      | Some (g2r, g1r) => Some (rev g1r, rev g2r, d)
      | None => None
      end
    else None.
Proof.
  intros nd X d Hsp Dne Dd.
  rewrite app_assoc, re_match_digits, rev_app_distr; [|exact Dd|rewrite rev_app_distr; exact Hsp].
  change (rev sep_line) with sep_line_rev. rewrite starts_with_app.
  change (skipn 7 (sep_line_rev ++ rev X)) with (rev X). rewrite no_nl_rev.
  destruct d; [contradiction|reflexivity].
Qed.

(* the character in front of the digits is not the space of ", line " *)
Lemma re_match_bad_prefix : forall nd Y c d, is_digit nd c = false -> c <> SP ->
  forallb (is_digit nd) d = true -> re_match nd (Y ++ c :: d ++ [RP]) = None.
Proof.
  intros nd Y c d Hc Hsp Dd.
  change (Y ++ c :: d ++ [RP]) with (Y ++ [c] ++ d ++ [RP]).
  rewrite app_assoc, re_match_digits, rev_unit; [|exact Dd|rewrite rev_unit; exact Hc].
  destruct d; [reflexivity|]. cbn [starts_with sep_line_rev].
  destruct (N.eqb_spec 32 c) as [E|_]; [|reflexivity]. exfalso. apply Hsp. symmetry. exact E.
Qed.

(* SyntaxError.__str__ without a file name: "msg (line N)" *)
Lemma re_match_noname : forall nd msg d, is_digit nd SP = false -> forallb (is_digit nd) d = true ->
  re_match nd (msg ++ sep_noname ++ d ++ [RP]) = None.
Proof.
  intros nd msg d Hsp Dd.
  rewrite app_assoc, re_match_digits, rev_app_distr; [|exact Dd|rewrite rev_app_distr; exact Hsp].
  destruct d; reflexivity.
Qed.

Lemma re_match_complete : forall nd msg g1' g2' d', is_digit nd SP = false -> decomp nd msg g1' g2' d' ->
  exists g1 g2, re_match nd msg = Some (g1, g2, d') /\ (length g1' <= length g1)%nat /\
                g1 ++ sep_open ++ g2 = g1' ++ sep_open ++ g2'.
Proof.
  intros nd msg g1' g2' d' Hsp (Hm & N1 & N2 & Dne & Dd).
  assert (E : re_match nd msg = re_match nd ((g1' ++ sep_open ++ g2') ++ sep_line ++ d' ++ [RP])).
  { rewrite <- shape_assoc. destruct Hm as [-> | ->]; [reflexivity|].
    rewrite !app_assoc, re_match_final_nl. reflexivity. }
  rewrite E, re_match_shape, !no_nl_app, N1, N2 by assumption.
  destruct (find_sub2_rev_last LP SP g1' g2') as (g1 & g2 & F & L & S).
  change (no_nl sep_open) with true. change (sep_open ++ g2') with (SP :: LP :: g2'). rewrite F.
  exists g1, g2. rewrite !rev_involutive. repeat split; [exact L|exact S].
Qed.

Lemma re_match_none_iff : forall nd msg, is_digit nd SP = false ->
  (re_match nd msg = None <-> forall g1 g2 d, ~ decomp nd msg g1 g2 d).
Proof.
  intros nd msg Hsp. split.
  - intros H g1 g2 d D. destruct (re_match_complete nd msg g1 g2 d Hsp D) as (a & b & E & _). congruence.
  - intro H. destruct (re_match nd msg) as [[[g1 g2] d]|] eqn:E; [|reflexivity].
    exfalso. exact (H g1 g2 d (re_match_sound _ _ _ _ _ E)).
Qed.

Lemma compile_error_init_fallback : forall nd maxd msg,
  re_match nd msg = None -> compile_error_init nd maxd msg = CEok msg None 1.
Proof. intros nd maxd msg H. unfold compile_error_init. rewrite H. reflexivity. Qed.

Lemma int_refuses_iff : forall maxd d,
  int_refuses maxd d = true <-> (0 < maxd)%nat /\ (maxd < length d)%nat.
Proof. intros maxd d. unfold int_refuses. rewrite andb_true_iff, !Nat.ltb_lt. reflexivity. Qed.

Lemma ascii_digit_in : forall c, ascii_digit c = true -> In c [48; 49; 50; 51; 52; 53; 54; 55; 56; 57].
Proof.
  intros c A. unfold ascii_digit in A. apply andb_true_iff in A as [A1 A2].
  apply N.leb_le in A1. apply N.ltb_lt in A2.
  rewrite <- (N2Nat.id c). apply (in_map N.of_nat (seq 48 10)), in_seq. lia.
Qed.

Lemma wf_nd_spec : forall nd, wf_nd nd = true ->
  is_digit nd SP = false /\ is_digit nd 45 = false /\
  forall c, ascii_digit c = true -> block_of nd c = Some 48.
Proof.
  intros nd H. unfold wf_nd in H.
  apply andb_true_iff in H as [H Ha]. apply andb_true_iff in H as [Hsp Hm].
  apply negb_true_iff in Hsp, Hm. repeat split; [exact Hsp|exact Hm|].
  intros c A. pose proof (proj1 (forallb_forall _ _) Ha c (ascii_digit_in c A)) as Hc. cbv beta in Hc.
  destruct (block_of nd c) as [s|]; [|discriminate].
  apply N.eqb_eq in Hc. subst. reflexivity.
Qed.

Lemma ascii_digits : forall nd d, wf_nd nd = true -> forallb ascii_digit d = true ->
  forallb (is_digit nd) d = true /\ int_of nd d = ascii_value d.
Proof.
  intros nd d W A. destruct (wf_nd_spec nd W) as (_ & _ & Hb).
  assert (F : Forall (fun c => block_of nd c = Some 48) d).
  { apply Forall_forall. intros c Hc. apply Hb. exact (proj1 (forallb_forall _ _) A c Hc). }
  clear A. split.
  - apply forallb_forall. intros c Hc. unfold is_digit. rewrite (proj1 (Forall_forall _ _) F c Hc). reflexivity.
  - unfold int_of, ascii_value. generalize 0. induction F as [|c d Hc _ IH]; intro acc; [reflexivity|].
    cbn [fold_left]. rewrite IH. unfold int_step, digit_val. rewrite Hc. reflexivity.
Qed.

Lemma no_open_split : forall E F g1 g2 : text,
  g1 ++ sep_open ++ g2 = E ++ sep_open ++ F -> (length E <= length g1)%nat ->
  (forall u v, F <> u ++ sep_open ++ v) -> g1 = E /\ g2 = F.
Proof.
  intros E. induction E as [|e E IH]; intros F g1 g2 H L NF.
  - destruct g1 as [|x g1].
    + cbn in H. injection H as ->. auto.
    + exfalso. cbn in H. injection H as -> H.
      destruct g1 as [|y g1].
      * cbn in H. discriminate.
      * cbn in H. injection H as -> H. apply (NF g1 g2). symmetry. exact H.
  - destruct g1 as [|x g1]; [cbn in L; lia|].
    cbn in H. injection H as -> H. cbn in L.
    destruct (IH F g1 g2 H ltac:(lia) NF) as [-> ->]. auto.
Qed.

Lemma last_nonempty : forall (d : text), d <> [] -> exists d0 x, d = d0 ++ [x].
Proof. intros d H. destruct (exists_last H) as (d0 & x & ->). eauto. Qed.

Lemma syntax_error_newline_lemma : forall nd maxd msg f d,
  wf_nd nd = true -> no_nl (msg ++ sep_open ++ basename f) = false ->
  d <> [] -> forallb ascii_digit d = true ->
  compile_error_init nd maxd (syntax_error_str msg (Some f) (Some d)) =
    CEok (syntax_error_str msg (Some f) (Some d)) None 1.
Proof.
  intros nd maxd msg f d W Nn Dne Da. apply compile_error_init_fallback. cbn [syntax_error_str].
  rewrite shape_assoc, re_match_shape, Nn;
    [reflexivity|exact (proj1 (wf_nd_spec _ W))|exact Dne|exact (proj1 (ascii_digits nd d W Da))].
Qed.

Lemma compile_native_surrogate : forall nd maxd s,
  existsb is_surrogate s = true -> compile_native nd maxd (CompExc s) = PRaise RUnicodeEncodeError.
Proof. intros nd maxd s H. unfold compile_native, native_output. rewrite H. reflexivity. Qed.

Lemma compile_native_exc : forall nd maxd s,
  existsb is_surrogate s = false ->
  compile_native nd maxd (CompExc s) =
    match compile_error_init nd maxd s with
    | CEok e f l => PCompileError e f l
    | CEvalue_error => PRaise RValueError
    end.
Proof. intros nd maxd s H. unfold compile_native, native_output. rewrite H. reflexivity. Qed.
