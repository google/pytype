(* C15 (3): proofs about errors.Error._find_all_line_split / _visualize_failed_lines (model in Io/Model.v).
   Everything goes through one fact: line_start s k is a position where the rest of the text splits into the
   lines from k on (line_start_begins); find0_lines then says what the search for "\n" finds there. *)
From Coq Require Import List Arith ZArith Bool Lia.
From PV Require Import Io.Model.
Import ListNotations.

Lemma skipn_skipn' : forall {A} (x y : nat) (l : list A), skipn x (skipn y l) = skipn (y + x) l.
Proof.
  intros A x y. induction y; intro l; [reflexivity|].
  destruct l; [rewrite !skipn_nil; reflexivity|apply IHy].
Qed.

Lemma skipn_S_tail : forall {A} k (ls : list A) l r, skipn k ls = l :: r -> skipn (S k) ls = r.
Proof.
  intros A k ls l r H. change r with (skipn 1 (l :: r)). rewrite <- H, skipn_skipn', Nat.add_1_r. reflexivity.
Qed.

Lemma skipn_nth_cons : forall {A} k (ls : list A) d, k < length ls -> skipn k ls = nth k ls d :: skipn (S k) ls.
Proof.
  intros A k. induction k; intros ls d H; destruct ls; cbn in *; try lia; auto.
  apply IHk. lia.
Qed.

Lemma skipn_app_cons : forall {A} (l : list A) x t, skipn (S (length l)) (l ++ x :: t) = t.
Proof. intros A l x t. induction l; [reflexivity|exact IHl]. Qed.

Lemma slice_plus : forall s i n, slice s i (i + n) = firstn n (skipn i s).
Proof. intros s i n. unfold slice. f_equal. lia. Qed.

Lemma lines_nonempty : forall s, lines s <> [].
Proof.
  induction s as [|c t IH]; cbn [lines]; [discriminate|].
  destruct (c =? NL); [discriminate|].
  destruct (lines t); discriminate.
Qed.

Lemma nlines_pos : forall s, 1 <= nlines s.
Proof.
  intro s. unfold nlines. pose proof (lines_nonempty s). destruct (lines s); [congruence|cbn; lia].
Qed.

(* The first newline ends the first line. *)
Lemma find0_lines : forall s,
  match find0 s with
  | None => lines s = [s]
  | Some j => exists l t, s = l ++ NL :: t /\ j = length l /\ lines s = l :: lines t
  end.
Proof.
  induction s as [|c t IH]; cbn [find0 lines]; [reflexivity|].
  destruct (Nat.eqb_spec c NL) as [->|_].
  - exists [], t. repeat split.
  - destruct (find0 t) as [j|]; cbn [option_map].
    + destruct IH as (l & t' & -> & -> & E). exists (c :: l), t'. rewrite E. repeat split.
    + rewrite IH. reflexivity.
Qed.

Lemma starts_from_S : forall ls k,
  k < length ls -> starts_from ls (S k) = starts_from ls k + S (length (nth k ls [])).
Proof.
  induction ls as [|x xs IH]; intros k H; [inversion H|].
  destruct k; [cbn; lia|].
  change (S (length x) + starts_from xs (S k) = S (length x) + starts_from xs k + S (length (nth k xs []))).
  cbn [length] in H. rewrite IH; lia.
Qed.

Lemma line_start_S : forall s k,
  k < nlines s -> line_start s (S k) = line_start s k + S (length (line_text s k)).
Proof. intros s k. apply starts_from_S. Qed.

(* i is a position from which the text splits into the lines k, k+1, ... *)
Lemma line_begins_inner : forall s k i,
  S k < nlines s -> lines (skipn i s) = skipn k (lines s) ->
  find0 (skipn i s) = Some (length (line_text s k)) /\
  skipn i s = line_text s k ++ NL :: skipn (i + S (length (line_text s k))) s /\
  lines (skipn (i + S (length (line_text s k))) s) = skipn (S k) (lines s).
Proof.
  intros s k i Hk H. unfold nlines in Hk.
  rewrite (skipn_nth_cons k (lines s) []) in H by lia. fold (line_text s k) in H.
  assert (Hr : length (skipn (S k) (lines s)) = length (lines s) - S k) by apply skipn_length.
  set (r := skipn (S k) (lines s)) in *.
  pose proof (find0_lines (skipn i s)) as F. destruct (find0 (skipn i s)) as [j|].
  - destruct F as (l & t & E & -> & L). rewrite H in L. injection L as <- L.
    assert (Et : t = skipn (i + S (length (line_text s k))) s).
    { rewrite <- skipn_skipn', E. symmetry. apply skipn_app_cons. }
    rewrite <- Et, L. repeat split. exact E.
  - rewrite H in F. injection F as _ F. rewrite F in Hr. cbn in Hr. lia.
Qed.

Lemma line_begins_last : forall s k i,
  S k = nlines s -> lines (skipn i s) = skipn k (lines s) ->
  find0 (skipn i s) = None /\ skipn i s = line_text s k.
Proof.
  intros s k i Hk H. unfold nlines in Hk.
  rewrite (skipn_nth_cons k (lines s) []), (@skipn_all2 _ (S k) (lines s)) in H by lia. fold (line_text s k) in H.
  pose proof (find0_lines (skipn i s)) as F. destruct (find0 (skipn i s)) as [j|].
  - destruct F as (l & t & _ & _ & L). rewrite H in L. injection L as _ L.
    symmetry in L. destruct (lines_nonempty t L).
  - rewrite H in F. injection F as <-. split; reflexivity.
Qed.

Lemma line_start_begins : forall s k,
  k < nlines s -> line_start s k <= length s /\ lines (skipn (line_start s k) s) = skipn k (lines s).
Proof.
  intros s k. induction k; intro Hk.
  - split; [apply Nat.le_0_l|reflexivity].
  - destruct IHk as [_ L]; [lia|]. rewrite line_start_S by lia.
    destruct (line_begins_inner s k _ Hk L) as (_ & E & L'). split; [|exact L'].
    apply (f_equal (@length nat)) in E. rewrite skipn_length, app_length in E. cbn [length] in E. lia.
Qed.

Lemma line_start_inner : forall s k, S k < nlines s ->
  find0 (skipn (line_start s k) s) = Some (length (line_text s k)) /\
  skipn (line_start s k) s = line_text s k ++ NL :: skipn (line_start s (S k)) s.
Proof.
  intros s k Hk. rewrite line_start_S by lia.
  destruct (line_begins_inner s k _ Hk (proj2 (line_start_begins s k ltac:(lia)))) as (F & E & _).
  split; assumption.
Qed.

Lemma line_start_last : forall s k, S k = nlines s ->
  find0 (skipn (line_start s k) s) = None /\ skipn (line_start s k) s = line_text s k.
Proof.
  intros s k Hk. exact (line_begins_last s k _ Hk (proj2 (line_start_begins s k ltac:(lia)))).
Qed.

(* the "not found" wrap to index 0 happens only on the last line *)
Lemma next_idx_line : forall s k, S k < nlines s -> next_idx s (line_start s k) = line_start s (S k).
Proof.
  intros s k Hk. unfold next_idx, py_find.
  rewrite (proj1 (line_start_inner s k Hk)), line_start_S; lia.
Qed.

Lemma skip_lines_line : forall s n k,
  k + n < nlines s -> skip_lines s n (line_start s k) = line_start s (k + n).
Proof.
  intros s n. induction n; intros k Hk; cbn [skip_lines].
  - rewrite Nat.add_0_r. reflexivity.
  - rewrite next_idx_line, IHn, Nat.add_succ_r by lia. reflexivity.
Qed.

Lemma collect_lines_line : forall s n k,
  k + n < nlines s ->
  collect_lines s n (line_start s k) = (map (line_start s) (seq (S k) n), line_start s (k + n)).
Proof.
  intros s n. induction n; intros k Hk; cbn [collect_lines seq map].
  - rewrite Nat.add_0_r. reflexivity.
  - rewrite next_idx_line, IHn, Nat.add_succ_r by lia. reflexivity.
Qed.

Lemma line_end : forall s k, k < nlines s ->
  let f := py_find s (line_start s k) in
  (if (f =? -1)%Z then length s else Z.to_nat f) = line_start s k + length (line_text s k).
Proof.
  intros s k Hk. unfold py_find. destruct (line_start_begins s k Hk) as [Hi _].
  destruct (Nat.eq_dec (S k) (nlines s)) as [E|E].
  - destruct (line_start_last s k E) as [-> T]. cbn.
    rewrite <- T, skipn_length. lia.
  - destruct (line_start_inner s k) as [-> _]; [lia|].
    rewrite Nat2Z.id. destruct (line_start s k + length (line_text s k)); reflexivity.
Qed.

Lemma slice_line : forall s k, k < nlines s ->
  slice s (line_start s k) (line_start s k + length (line_text s k)) = line_text s k.
Proof.
  intros s k Hk. rewrite slice_plus.
  destruct (Nat.eq_dec (S k) (nlines s)) as [E|E].
  - rewrite (proj2 (line_start_last s k E)). apply firstn_all.
  - rewrite (proj2 (line_start_inner s k ltac:(lia))), <- (Nat.add_0_r (length _)), firstn_app_2.
    apply app_nil_r.
Qed.
