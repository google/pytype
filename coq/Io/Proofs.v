(* C15 (1) and (2): lemmas over the regenerated tables (Generated/C15_Handlers.v). *)
From Coq Require Import String.
From Coq Require Import List Arith Bool Lia.
From PV Require Import Io.Model Generated.C15_Handlers.
Import ListNotations.

Lemma mem_In : forall c l, existsb (Nat.eqb c) l = true <-> In c l.
Proof.
  intros c l. rewrite existsb_exists. split.
  - intros (x & Hx & E). apply Nat.eqb_eq in E. subst. exact Hx.
  - intro H. exists c. split; [exact H|apply Nat.eqb_refl].
Qed.

Lemma all_rows_ok : forallb row_ok op_table = true.
Proof. vm_compute. reflexivity. Qed.

Lemma all_intrinsics_ok : forallb in_handler intrinsic_table = true.
Proof. vm_compute. reflexivity. Qed.

Lemma versions_covered :
  forallb (fun v => existsb (fun r => existsb (Nat.eqb v) (op_versions r)) op_table) supported_minor_versions = true.
Proof. vm_compute. reflexivity. Qed.

Lemma row_ok_reaches : forall r,
  row_ok r = true -> reaches_vm r = true -> op_class r = true /\ op_handler r = true.
Proof.
  intros r H R. unfold row_ok in H. unfold reaches_vm in R. apply negb_true_iff in R.
  rewrite R in H. apply andb_true_iff. exact H.
Qed.

(* the kinds of exception the property distinguishes, over the generated class universe (SkipFileError is a fifth
   kind, a class of its own) *)
Definition compile_classes : list nat :=
  [cls_CompileError; cls_ConstantError; cls_IndentationError; cls_TabError; cls_ParserSyntaxError; cls_SyntaxError].
Definition usage_classes : list nat := [cls_UsageError].
Definition other_exception_classes : list nat :=
  [cls_Exception; cls_KeyError; cls_RecursionError; cls_AssertionError; cls_VirtualMachineError;
   cls_ConversionError; cls_MemoryError; cls_UnicodeDecodeError; cls_OSError;
   cls_ValueError; cls_UnicodeEncodeError; cls_IndexError].
Definition non_exception_classes : list nat :=
  [cls_KeyboardInterrupt; cls_SystemExit; cls_GeneratorExit; cls_BaseException].

Lemma universe_partition :
  forallb (fun c => existsb (Nat.eqb c)
     (compile_classes ++ usage_classes ++ [cls_SkipFileError] ++ other_exception_classes ++ non_exception_classes))
    class_universe = true.
Proof. vm_compute. reflexivity. Qed.

(* The whole content of the regenerated subclass matrix and clause list, as far as the property goes: the clause
   that catches each class. *)
Lemma chain_table :
  let caught c := find_clause subclass_matrix c except_chain in
  Forall (fun c => caught c = Some ActCompilerError) compile_classes /\
  caught cls_SkipFileError = Some ActSkip /\
  Forall (fun c => caught c = Some ActReraise) usage_classes /\
  Forall (fun c => caught c = Some ActNofailBranch) other_exception_classes /\
  Forall (fun c => caught c = None) non_exception_classes.
Proof. repeat split; repeat constructor. Qed.

Lemma outcome_classification_lemma : forall (line : option nat) (nofail check : bool),
  (forall c, In c compile_classes ->
     outcome (Raised c line) nofail check = ODefault [line_or_0 line] InfoNone) /\
  outcome (Raised cls_SkipFileError line) nofail check = ODefault [] InfoSkip /\
  (forall c, In c usage_classes -> outcome (Raised c line) nofail check = OEscape false) /\
  (forall c, In c other_exception_classes ->
     outcome (Raised c line) nofail check =
       if nofail then ODefault [] (if check then InfoNone else InfoCaught) else OEscape true) /\
  (forall c, In c non_exception_classes -> outcome (Raised c line) nofail check = OEscape false) /\
  outcome Returned nofail check = OResult.
Proof.
  intros line nofail check. destruct chain_table as (T1 & T2 & T3 & T4 & T5).
  rewrite Forall_forall in T1, T3, T4, T5. unfold outcome, outcome_of.
  split; [intros c H; rewrite (T1 c H); reflexivity|].
  split; [rewrite T2; reflexivity|].
  split; [intros c H; rewrite (T3 c H); reflexivity|].
  split; [intros c H; rewrite (T4 c H); reflexivity|].
  split; [intros c H; rewrite (T5 c H); reflexivity|reflexivity].
Qed.

Lemma class_cases : forall c, In c class_universe ->
  In c compile_classes \/ In c usage_classes \/ c = cls_SkipFileError \/
  In c other_exception_classes \/ In c non_exception_classes.
Proof.
  intros c Hc. pose proof (proj1 (forallb_forall _ _) universe_partition c Hc) as U.
  apply mem_In in U.
  apply in_app_or in U as [U|U]; [auto|].
  apply in_app_or in U as [U|U]; [auto|].
  apply in_app_or in U as [U|U]; [destruct U as [<-|[]]; auto|].
  apply in_app_or in U as [U|U]; auto.
Qed.

Lemma compile_error_unique_lemma : forall c line nofail check errs i,
  In c compile_classes ->
  outcome (Raised c line) nofail check = ODefault errs i -> errs = [line_or_0 line] /\ i = InfoNone.
Proof.
  intros c line nofail check errs i Hc H.
  destruct (outcome_classification_lemma line nofail check) as (C & _).
  rewrite (C c Hc) in H. injection H as <- <-. split; reflexivity.
Qed.
