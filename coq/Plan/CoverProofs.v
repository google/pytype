(* C19: completeness of the imports maps — every statement was written for a yielded item, and its map has
   an entry for each module the item was given as a dependency. *)
From Coq Require Import List NArith Bool Arith Lia.
From PV Require Import Plan.Model Plan.Proofs.
Import ListNotations.

Definition has_key (k : N) (im : imports) : Prop := exists p, In (k, p) im.

Lemma dict_set_self : forall k v l, In (k, v) (dict_set k v l).
Proof.
  induction l as [|[k' v'] r IH]; simpl; [left; reflexivity|].
  destruct (k =? k')%N eqn:E.
  - apply N.eqb_eq in E. subst. left; reflexivity.
  - right; exact IH.
Qed.

Lemma dict_set_keeps : forall k v l k0, has_key k0 l -> has_key k0 (dict_set k v l).
Proof.
  induction l as [|[k' v'] r IH]; simpl; intros k0 [p H]; [destruct H|].
  destruct (k =? k')%N eqn:E.
  - destruct H as [H|H].
    + inversion H; subst. exists v. left; reflexivity.
    + exists p. right; exact H.
  - destruct H as [H|H].
    + exists p. left; exact H.
    + destruct (IH k0 (ex_intro _ p H)) as [p' H']. exists p'. right; exact H'.
Qed.

Lemma dict_update_keeps : forall o d k0, has_key k0 d -> has_key k0 (dict_update d o).
Proof.
  unfold dict_update. induction o as [|[k v] r IH]; simpl; intros d k0 H; auto.
  apply IH. apply dict_set_keeps; auto.
Qed.

Lemma gim_keeps : forall deps m2i m2o acc im k0,
  get_imports_map deps m2i m2o acc = Some im -> has_key k0 acc -> has_key k0 im.
Proof.
  induction deps as [|m r IH]; simpl; intros m2i m2o acc im k0 H Hk.
  - inversion H; subst; auto.
  - destruct (lookup m m2o) as [o|]; [|discriminate].
    eapply IH; eauto. apply dict_set_keeps.
    destruct (lookup m m2i); [apply dict_update_keeps|]; auto.
Qed.

Lemma gim_covers : forall deps m2i m2o acc im d,
  get_imports_map deps m2i m2o acc = Some im -> In d deps -> has_key (m_key d) im.
Proof.
  induction deps as [|m r IH]; simpl; intros m2i m2o acc im d H Hin; [destruct Hin|].
  destruct (lookup m m2o) as [o|] eqn:Eo; [|discriminate].
  destruct Hin as [->|Hin].
  - eapply gim_keeps; eauto. exists o. apply dict_set_self.
  - eapply IH; eauto.
Qed.

(* the statement written for item i *)
Definition written_for (t : step) (i : item) : Prop :=
  s_out t = item_out i /\ s_input t = m_full (it_mod i) /\ s_action t = it_act i /\
  forall d, In d (it_deps i) -> has_key (m_key d) (s_imports t).

Lemma plan_written : forall req ss s, setup_build req ss = Some s ->
  forall t, In t (plan s) ->
  exists i, In i (yield_sorted_modules req ss) /\ written_for t i /\ is_default (it_act i) = false.
Proof.
  intros req ss s H.
  apply (run_inv (fun s => forall t, In t (plan s) -> exists i, In i (yield_sorted_modules req ss) /\
                           written_for t i /\ is_default (it_act i) = false) _ _ _ _ H); [|intros t []].
  intros i s1 s2 Hi Hp E.
  destruct (setup_step_cases _ _ _ _ E) as [_ | _ Hd | im ds _ Hnd Hg Hdd]; auto.
  simpl. intros t Hin. apply in_app_or in Hin. destruct Hin as [Hin|[<-|[]]]; auto.
  exists i. split; [exact Hi|]. split; [|exact Hnd]. unfold written_for, item_out. simpl.
  repeat split; auto. intros d Hd. eapply gim_covers; eauto.
Qed.

