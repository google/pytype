(* C19: module names and imports-map keys.  For a file <root>/c1/.../cn.py whose components
   contain no '.', the key _module_to_output_path writes into the imports map is c1/.../cn: exactly the path the
   loader of pytype-single looks up for `import c1.....cn`, a key the reader leaves alone (no extension), and
   path_to_module_name maps the file (and the key) back to the dotted name.  Model: Plan/Text.v. *)
From Coq Require Import List NArith Bool PeanoNat.
From PV Require Import Plan.Model Plan.Text Plan.ReaderProofs.
Import ListNotations.
Local Open Scope N_scope.

Lemma span_not_app : forall c0 x y, ~ In c0 x -> span_not c0 (x ++ c0 :: y) = (x, c0 :: y).
Proof.
  induction x as [|c x IH]; intros y H.
  - simpl. rewrite N.eqb_refl. reflexivity.
  - simpl. destruct (c =? c0) eqn:E.
    + apply N.eqb_eq in E. exfalso. apply H. left; auto.
    + rewrite IH; auto. intro. apply H. right; auto.
Qed.

Lemma span_not_none : forall c0 x, ~ In c0 x -> span_not c0 x = (x, []).
Proof.
  induction x as [|c x IH]; intros H; [reflexivity|].
  simpl. destruct (c =? c0) eqn:E.
  - apply N.eqb_eq in E. exfalso. apply H. left; auto.
  - rewrite IH; auto. intro. apply H. right; auto.
Qed.

Lemma rsplit_at_last : forall c0 a b, ~ In c0 b -> rsplit_at c0 (a ++ c0 :: b) = Some (a, b).
Proof.
  intros c0 a b H. unfold rsplit_at. rewrite rev_app_distr. simpl. rewrite <- app_assoc. simpl.
  rewrite span_not_app; [|rewrite <- in_rev; auto]. rewrite !rev_involutive. reflexivity.
Qed.

Lemma rsplit_at_none : forall c0 s, ~ In c0 s -> rsplit_at c0 s = None.
Proof. intros c0 s H. unfold rsplit_at. rewrite span_not_none; [reflexivity | rewrite <- in_rev; auto]. Qed.

Definition plain_comp (c : str) : Prop := c <> [] /\ forall x, In x c -> x <> c_slash /\ x <> c_dot.

Lemma join_c_snoc : forall s init l, init <> [] -> join_c s (init ++ [l]) = join_c s init ++ s :: l.
Proof.
  induction init as [|c init IH]; intros l H; [congruence|].
  destruct init as [|c2 init].
  - reflexivity.
  - change (join_c s ((c :: c2 :: init) ++ [l])) with (c ++ s :: join_c s ((c2 :: init) ++ [l])).
    rewrite IH by discriminate. change (join_c s (c :: c2 :: init)) with (c ++ s :: join_c s (c2 :: init)).
    rewrite <- app_assoc. reflexivity.
Qed.

Lemma join_c_cons : forall s c cs, cs <> [] -> join_c s (c :: cs) = c ++ s :: join_c s cs.
Proof. intros s c [|c2 cs] H; [congruence | reflexivity]. Qed.

Lemma in_join_c : forall s cs x, In x (join_c s cs) -> x = s \/ exists c, In c cs /\ In x c.
Proof.
  induction cs as [|c cs IH]; intros x H; [destruct H|].
  destruct cs as [|c2 cs].
  - right. exists c. split; [left; reflexivity | exact H].
  - rewrite join_c_cons in H by discriminate. apply in_app_or in H. destruct H as [H|[H|H]].
    + right. exists c. split; [left; reflexivity | exact H].
    + left; auto.
    + destruct (IH x H) as [E|[c' [Hc' Hx]]]; [left; auto | right; exists c'; split; [right; auto | auto]].
Qed.

Lemma replace_join : forall cs, (forall c, In c cs -> plain_comp c) ->
  replace_c c_slash c_dot (join_c c_slash cs) = join_c c_dot cs.
Proof.
  assert (R : forall c, plain_comp c -> replace_c c_slash c_dot c = c).
  { intros c [_ H]. unfold replace_c. rewrite <- (map_id c) at 2. apply map_ext_in. intros x Hx.
    destruct (H x Hx) as [A _]. apply N.eqb_neq in A. rewrite A. reflexivity. }
  induction cs as [|c cs IH]; intros H; [reflexivity|].
  destruct cs as [|c2 cs].
  - simpl. apply R. apply H. left; reflexivity.
  - rewrite !join_c_cons by discriminate. unfold replace_c. rewrite map_app. cbn [map].
    change (c_slash =? c_slash) with true. cbv iota.
    fold (replace_c c_slash c_dot c). fold (replace_c c_slash c_dot (join_c c_slash (c2 :: cs))).
    rewrite R by (apply H; left; reflexivity). rewrite IH; [reflexivity|]. intros x Hx. apply H. right; auto.
Qed.

Lemma replace_id : forall a b s, ~ In a s -> replace_c a b s = s.
Proof.
  intros a b s H. unfold replace_c. rewrite <- (map_id s) at 2. apply map_ext_in. intros x Hx.
  destruct (x =? a) eqn:E; [|reflexivity]. apply N.eqb_eq in E. subst. contradiction.
Qed.

Lemma no_slash_in_dotted : forall cs, (forall c, In c cs -> plain_comp c) -> ~ In c_slash (join_c c_dot cs).
Proof.
  intros cs H Hin. apply in_join_c in Hin. destruct Hin as [E|[c [Hc Hx]]]; [discriminate|].
  destruct (H c Hc) as [_ P]. destruct (P _ Hx). congruence.
Qed.

Lemma comps_last : forall cs : list str, cs <> [] -> (exists l, cs = [l]) \/ (exists init l, init <> [] /\ cs = init ++ [l]).
Proof.
  intros cs H. destruct (exists_last H) as [init [l E]]. destruct init as [|c init].
  - left. exists l. exact E.
  - right. exists (c :: init), l. split; [discriminate | exact E].
Qed.

Lemma plain_no_slash : forall c, plain_comp c -> ~ In c_slash c.
Proof. intros c [_ H] Hin. destruct (H _ Hin). congruence. Qed.
Lemma plain_no_dot : forall c, plain_comp c -> ~ In c_dot c.
Proof. intros c [_ H] Hin. destruct (H _ Hin). congruence. Qed.

Lemma not_all_dots : forall l, plain_comp l -> forallb (fun c => c =? c_dot) l = false.
Proof.
  intros [|x l] [Hn H]; [congruence|]. simpl. destruct (H x (or_introl eq_refl)) as [_ B].
  apply N.eqb_neq in B. rewrite B. reflexivity.
Qed.

(* splitext of  <comps joined by '/'> ++ ext  where ext = '.' :: e and e has no '.' or '/' *)
Lemma splitext_comps : forall cs e, cs <> [] -> (forall c, In c cs -> plain_comp c) ->
  ~ In c_dot e -> ~ In c_slash e ->
  splitext (join_c c_slash cs ++ c_dot :: e) = (join_c c_slash cs, c_dot :: e).
Proof.
  intros cs e Hn H Hd Hs. unfold splitext.
  destruct (comps_last cs Hn) as [[l ->]|[init [l [Hi ->]]]].
  - assert (Pl : plain_comp l) by (apply H; left; reflexivity).
    cbn [join_c]. rewrite (rsplit_at_none c_slash).
    + rewrite rsplit_at_last by exact Hd. rewrite not_all_dots by exact Pl. reflexivity.
    + intro Hin. apply in_app_or in Hin. destruct Hin as [Hin|[Hin|Hin]];
        [apply (plain_no_slash l Pl Hin) | discriminate | contradiction].
  - assert (Pl : plain_comp l) by (apply H; apply in_or_app; right; left; reflexivity).
    rewrite join_c_snoc by exact Hi. rewrite <- app_assoc. cbn [app].
    rewrite rsplit_at_last.
    + rewrite rsplit_at_last by exact Hd. rewrite not_all_dots by exact Pl.
      rewrite <- app_assoc. reflexivity.
    + intro Hin. apply in_app_or in Hin. destruct Hin as [Hin|[Hin|Hin]];
        [apply (plain_no_slash l Pl Hin) | discriminate | contradiction].
Qed.

(* ... and of the key itself: nothing to strip *)
Lemma splitext_key : forall cs, cs <> [] -> (forall c, In c cs -> plain_comp c) ->
  splitext (join_c c_slash cs) = (join_c c_slash cs, []).
Proof.
  intros cs Hn H. unfold splitext.
  destruct (comps_last cs Hn) as [[l ->]|[init [l [Hi ->]]]].
  - assert (Pl : plain_comp l) by (apply H; left; reflexivity).
    cbn [join_c]. rewrite (rsplit_at_none c_slash) by (apply plain_no_slash; auto).
    rewrite (rsplit_at_none c_dot) by (apply plain_no_dot; auto). reflexivity.
  - assert (Pl : plain_comp l) by (apply H; apply in_or_app; right; left; reflexivity).
    rewrite join_c_snoc by exact Hi.
    rewrite rsplit_at_last by (apply plain_no_slash; auto).
    rewrite (rsplit_at_none c_dot) by (apply plain_no_dot; auto). reflexivity.
Qed.

Lemma starts_with_refl : forall s, starts_with s s = true.
Proof. induction s as [|c s IH]; simpl; auto. rewrite N.eqb_refl. exact IH. Qed.

Lemma replace_length : forall a b s, length (replace_c a b s) = length s.
Proof. intros. unfold replace_c. apply map_length. Qed.

Lemma dotted_nonempty : forall cs, cs <> [] -> (forall c, In c cs -> plain_comp c) -> join_c c_dot cs <> [].
Proof.
  intros [|c cs] Hn H; [congruence|]. destruct (H c (or_introl eq_refl)) as [Hc _].
  destruct cs; [exact Hc|]. rewrite join_c_cons by discriminate. destruct c; [congruence | discriminate].
Qed.

Definition s_py : str := [112; 121].

Lemma key_of_comps : forall cs, cs <> [] -> (forall c, In c cs -> plain_comp c) ->
  module_to_output_path (join_c c_slash cs ++ c_dot :: s_py) (join_c c_dot cs) = join_c c_slash cs.
Proof.
  intros cs Hn H. unfold module_to_output_path.
  rewrite splitext_comps; auto; [| intros [E|[E|[]]]; discriminate | intros [E|[E|[]]]; discriminate].
  cbn [fst]. rewrite replace_join by exact H.
  unfold ends_with. rewrite starts_with_refl.
  pose proof (dotted_nonempty cs Hn H) as Hd. destruct (join_c c_dot cs) as [|d0 dr] eqn:E; [congruence|].
  rewrite <- E. unfold last_n.
  rewrite <- (replace_join cs H), replace_length, Nat.sub_diag. reflexivity.
Qed.

Lemma split_join : forall cs, cs <> [] -> (forall c, In c cs -> plain_comp c) ->
  split_c c_dot (join_c c_dot cs) = cs.
Proof.
  assert (S1 : forall c tail, ~ In c_dot c -> split_c c_dot (c ++ c_dot :: tail) = c :: split_c c_dot tail).
  { induction c as [|x c IH]; intros tail H.
    - reflexivity.
    - simpl. destruct (x =? c_dot) eqn:E; [apply N.eqb_eq in E; exfalso; apply H; left; auto|].
      rewrite IH by (intro; apply H; right; auto). reflexivity. }
  assert (S2 : forall c, ~ In c_dot c -> split_c c_dot c = [c]).
  { induction c as [|x c IH]; intros H; [reflexivity|].
    simpl. destruct (x =? c_dot) eqn:E; [apply N.eqb_eq in E; exfalso; apply H; left; auto|].
    rewrite IH by (intro; apply H; right; auto). reflexivity. }
  induction cs as [|c cs IH]; intros Hn H; [congruence|].
  assert (Pc : plain_comp c) by (apply H; left; reflexivity).
  destruct cs as [|c2 cs].
  - cbn [join_c]. apply S2. apply plain_no_dot; auto.
  - rewrite join_c_cons by discriminate. rewrite S1 by (apply plain_no_dot; auto).
    rewrite IH; [reflexivity | discriminate | intros x Hx; apply H; right; auto].
Qed.

Lemma ends_slash_app : forall pre a, a <> [] -> ~ In c_slash a -> ends_with_slash (pre ++ a) = false.
Proof.
  intros pre a Hn H. unfold ends_with_slash. rewrite rev_app_distr.
  destruct (rev a) as [|c r] eqn:E.
  - exfalso. apply Hn. rewrite <- (rev_involutive a), E. reflexivity.
  - simpl. apply N.eqb_neq. intro Ec. apply H. rewrite (in_rev a), E. left; auto.
Qed.

Lemma join2_comp : forall acc c, acc <> [] -> ends_with_slash acc = false -> plain_comp c ->
  join2 acc c = acc ++ c_slash :: c.
Proof.
  intros acc c Ha He [Hn H]. destruct c as [|x c]; [congruence|]. unfold join2.
  destruct (H x (or_introl eq_refl)) as [A _]. apply N.eqb_neq in A. rewrite A, He.
  destruct acc; [congruence | reflexivity].
Qed.

Lemma fold_join2 : forall cs acc, (forall c, In c cs -> plain_comp c) -> acc <> [] -> ends_with_slash acc = false ->
  fold_left join2 cs acc = join_c c_slash (acc :: cs).
Proof.
  induction cs as [|c cs IH]; intros acc H Ha He; [reflexivity|].
  assert (Pc : plain_comp c) by (apply H; left; reflexivity).
  cbn [fold_left]. rewrite join2_comp; auto. rewrite IH.
  - destruct cs as [|c2 cs].
    + reflexivity.
    + rewrite (join_c_cons c_slash (acc ++ c_slash :: c)) by discriminate.
      rewrite (join_c_cons c_slash acc) by discriminate. rewrite (join_c_cons c_slash c) by discriminate.
      rewrite <- app_assoc. reflexivity.
  - intros x Hx. apply H. right; auto.
  - destruct acc; [congruence | discriminate].
  - change (acc ++ c_slash :: c) with (acc ++ [c_slash] ++ c). rewrite app_assoc.
    destruct Pc as [Pn Pc]. apply ends_slash_app; auto. intro Hin. destruct (Pc _ Hin). congruence.
Qed.

Lemma loader_path_comps : forall cs, cs <> [] -> (forall c, In c cs -> plain_comp c) ->
  loader_path (join_c c_dot cs) = join_c c_slash cs.
Proof.
  intros cs Hn H. unfold loader_path. rewrite split_join by auto.
  destruct cs as [|c cs]; [congruence|].
  assert (Pc : plain_comp c) by (apply H; left; reflexivity).
  cbn [fold_left].
  assert (J : join2 [] c = c).
  { destruct Pc as [Pn Pc]. destruct c as [|x c]; [congruence|]. unfold join2.
    destruct (Pc x (or_introl eq_refl)) as [A _]. apply N.eqb_neq in A. rewrite A. reflexivity. }
  rewrite J. apply fold_join2.
  - intros x Hx. apply H. right; auto.
  - destruct Pc; auto.
  - destruct Pc as [Pn Pc]. rewrite <- (app_nil_l c). apply ends_slash_app; auto.
    intro Hin. destruct (Pc _ Hin). congruence.
Qed.

Definition no_init (name : str) : bool := str_eqb (before_sep s_dot_init name) name.

Lemma dirname_comps : forall cs, cs <> [] -> (forall c, In c cs -> plain_comp c) ->
  starts_with s_pardir (dirname (join_c c_slash cs)) = false.
Proof.
  intros cs Hn H.
  unfold dirname. destruct (comps_last cs Hn) as [[l ->]|[init [l [Hin ->]]]].
  - cbn [join_c]. rewrite rsplit_at_none; [reflexivity|]. apply plain_no_slash. apply H. left; reflexivity.
  - rewrite join_c_snoc by exact Hin.
    rewrite rsplit_at_last by (apply plain_no_slash; apply H; apply in_or_app; right; left; reflexivity).
    destruct init as [|c0 init]; [congruence|].
    assert (P0 : plain_comp c0) by (apply H; left; reflexivity).
    destruct P0 as [P0n P0]. destruct c0 as [|x c0]; [congruence|].
    destruct (P0 x (or_introl eq_refl)) as [A B].
    match goal with |- context [forallb _ (?j ++ [c_slash])] => assert (F : exists r, j = x :: r) end.
    { destruct init; [eexists; reflexivity|]. rewrite join_c_cons by discriminate. eexists; reflexivity. }
    destruct F as [r F]. rewrite F. cbn [app forallb].
    rewrite (proj2 (N.eqb_neq _ _) A). cbn [andb].
    (* rstrip_c keeps the first character, which is not a dot *)
    unfold rstrip_c.
    assert (G : exists r', rev (lstrip_c c_slash (rev (x :: r ++ [c_slash]))) = x :: r').
    { assert (L : forall s, exists s', lstrip_c c_slash (s ++ [x]) = s' ++ [x]).
      { induction s as [|y s IHs].
        - exists []. simpl. rewrite (proj2 (N.eqb_neq _ _) A). reflexivity.
        - simpl. destruct (y =? c_slash); [exact IHs | exists (y :: s); reflexivity]. }
      cbn [rev]. destruct (L (rev (r ++ [c_slash]))) as [s' Es]. rewrite Es.
      rewrite rev_app_distr. eexists; reflexivity. }
    destruct G as [r' G]. rewrite G. unfold s_pardir. cbn [starts_with].
    destruct (46 =? x) eqn:E46; [apply N.eqb_eq in E46; exfalso; apply B; symmetry; exact E46 | reflexivity].
Qed.

Lemma dotted_name_of_stem : forall cs, (forall c, In c cs -> plain_comp c) -> no_init (join_c c_dot cs) = true ->
  before_sep s_dot_init (replace_c c_slash c_dot (replace_c c_slash c_dot (join_c c_slash cs))) = join_c c_dot cs.
Proof.
  intros cs H Hi. rewrite replace_join by exact H.
  rewrite (replace_id c_slash c_dot) by (apply no_slash_in_dotted; auto). apply str_eqb_eq, Hi.
Qed.

Theorem key_link_lemma : forall cs, cs <> [] -> (forall c, In c cs -> plain_comp c) ->
  let target := join_c c_slash cs ++ c_dot :: s_py in
  let name := join_c c_dot cs in
  let key := module_to_output_path target name in
  key = join_c c_slash cs /\ key = loader_path name /\ no_ext key = true /\
  (no_init name = true -> path_to_module_name key = Some name).
Proof.
  intros cs Hn H target name key.
  assert (K : key = join_c c_slash cs) by (apply key_of_comps; auto).
  split; [exact K|]. split; [rewrite K; symmetry; apply loader_path_comps; auto|].
  split.
  - rewrite K. unfold no_ext. rewrite splitext_key by auto. apply str_eqb_refl.
  - intros Hi. rewrite K. unfold path_to_module_name.
    rewrite dirname_comps, splitext_key by auto. cbn [is_nil negb andb].
    rewrite dotted_name_of_stem by assumption. reflexivity.
Qed.

(* infer_module splits the file name at the pythonpath entry it chose *)
Lemma starts_with_split : forall p s, starts_with p s = true -> s = p ++ drop_prefix p s.
Proof.
  induction p as [|a p IH]; intros s H; [destruct s; reflexivity|].
  destruct s as [|b s]; [discriminate|]. simpl in H. apply andb_true_iff in H. destruct H as [E H].
  apply N.eqb_eq in E. subst. simpl. rewrite <- IH; auto.
Qed.

Theorem infer_module_split_lemma : forall pythonpath filename,
  let m := infer_module filename pythonpath in
  filename = cm_path m ++ cm_target m /\ cm_name m = path_to_module_name (cm_target m) /\
  (cm_path m = [] \/ (ends_with_slash (cm_path m) = true /\
                      exists p, In p pythonpath /\ (cm_path m = p \/ cm_path m = p ++ [c_slash]))).
Proof.
  intros pp filename. unfold infer_module.
  assert (L : let '(p, f) := infer_module_loop filename pp in
              filename = p ++ f /\ (p = [] \/ (ends_with_slash p = true /\
                exists q, In q pp /\ (p = q \/ p = q ++ [c_slash])))).
  { induction pp as [|q pp IH]; [simpl; auto|]. cbn [infer_module_loop].
    (* an entry that is skipped leaves the result of the rest, found in a longer path list *)
    assert (W : let '(p, f) := infer_module_loop filename pp in
                filename = p ++ f /\ (p = [] \/ (ends_with_slash p = true /\
                  exists q', In q' (q :: pp) /\ (p = q' \/ p = q' ++ [c_slash])))).
    { destruct (infer_module_loop filename pp) as [p f]. destruct IH as [A [B|[B1 [q' [B2 B3]]]]]; [auto|].
      split; [exact A|]. right. split; [exact B1|]. exists q'. split; [right; exact B2 | exact B3]. }
    destruct (is_nil q); [exact W|].
    destruct (starts_with (if ends_with_slash q then q else q ++ [c_slash]) filename) eqn:S; [|exact W].
    split; [apply starts_with_split, S|]. right. destruct (ends_with_slash q) eqn:E.
    - split; [exact E|]. exists q. split; [left; reflexivity | left; reflexivity].
    - split; [unfold ends_with_slash; rewrite rev_app_distr; reflexivity|].
      exists q. split; [left; reflexivity | right; reflexivity]. }
  destruct (infer_module_loop filename pp) as [p f]. destruct L as [A B].
  cbn [cm_path cm_target cm_name]. auto.
Qed.

(* components without blanks and line breaks give keys the .imports reader returns unchanged *)
Theorem key_ok_comps_lemma : forall cs, cs <> [] -> (forall c, In c cs -> plain_comp c) ->
  (forall c x, In c cs -> In x c -> x <> c_sp /\ x <> c_nl /\ x <> c_cr) ->
  (forall c r x, cs = (x :: c) :: r -> py_space x = false) ->
  key_ok (join_c c_slash cs) = true.
Proof.
  intros cs Hn H Hc Hf. unfold key_ok.
  assert (N1 : forall k, k <> c_slash -> (forall c x, In c cs -> In x c -> x <> k) -> no_char k (join_c c_slash cs) = true).
  { intros k Hk Hx. apply no_char_In. intro Hin. apply in_join_c in Hin.
    destruct Hin as [E|[c [Hc1 Hc2]]]; [congruence | exact (Hx c k Hc1 Hc2 eq_refl)]. }
  rewrite (N1 c_sp), (N1 c_nl), (N1 c_cr); try discriminate;
    try (intros c x H1 H2; destruct (Hc c x H1 H2) as [A [B C]]; auto).
  destruct cs as [|c0 cs]; [congruence|]. destruct (H c0 (or_introl eq_refl)) as [P0n _].
  destruct c0 as [|x c0]; [congruence|].
  assert (F : exists r, join_c c_slash (@cons str (x :: c0) cs) = x :: r).
  { destruct cs; [eexists; reflexivity|]. rewrite join_c_cons by discriminate. eexists; reflexivity. }
  destruct F as [r F]. rewrite F. rewrite (Hf c0 cs x eq_refl). reflexivity.
Qed.
