(* C19: PytypeRunner.write_imports followed by imports_map_loader's reader is the identity on the
   imports maps the plan writes.  Model: Plan/Text.v. *)
From Coq Require Import List NArith Bool.
From PV Require Import Plan.Model Plan.Text.
Import ListNotations.
Local Open Scope N_scope.

Lemma str_eqb_eq : forall a b, str_eqb a b = true <-> a = b.
Proof.
  induction a as [|x a IH]; destruct b as [|y b]; simpl; split; intros H; try discriminate; auto.
  - apply andb_true_iff in H. destruct H as [H1 H2]. apply N.eqb_eq in H1. apply IH in H2. congruence.
  - inversion H; subst. rewrite N.eqb_refl. simpl. apply IH. reflexivity.
Qed.

Lemma str_eqb_refl : forall a, str_eqb a a = true.
Proof. intros. apply str_eqb_eq. reflexivity. Qed.

Lemma str_eqb_neq : forall a b, str_eqb a b = false <-> a <> b.
Proof.
  intros a b. split; intros H.
  - intro E. apply str_eqb_eq in E. congruence.
  - destruct (str_eqb a b) eqn:E; auto. apply str_eqb_eq in E. contradiction.
Qed.

Lemma mem_str_In : forall x l, mem_str x l = true <-> In x l.
Proof.
  induction l as [|y r IH]; simpl; split; intros H; try discriminate; try contradiction.
  - apply orb_true_iff in H. destruct H as [H|H]; [left; symmetry; apply str_eqb_eq; auto | right; apply IH; auto].
  - apply orb_true_iff. destruct H as [H|H]; [left; apply str_eqb_eq; auto | right; apply IH; auto].
Qed.

Definition no_char (c0 : N) (s : str) : bool := forallb (fun c => negb (c =? c0)) s.

Lemma no_char_In : forall c0 s, no_char c0 s = true <-> ~ In c0 s.
Proof.
  induction s as [|c s IH]; simpl; split; intros H; auto.
  - apply andb_true_iff in H. destruct H as [H1 H2]. apply negb_true_iff, N.eqb_neq in H1.
    intros [E|E]; [congruence | apply IH in H2; contradiction].
  - apply andb_true_iff. split.
    + apply negb_true_iff, N.eqb_neq. intro E. apply H. left; auto.
    + apply IH. intro E. apply H. right; auto.
Qed.

Lemma no_char_app : forall c0 a b, no_char c0 (a ++ b) = no_char c0 a && no_char c0 b.
Proof. intros. unfold no_char. apply forallb_app. Qed.

(* the hypotheses, as booleans (the check evaluates the same definitions on every written file) *)

(* a key survives when it is non-empty, does not start with a str.isspace() character, and contains no
   space, "\n" or "\r" *)
Definition key_ok (k : str) : bool :=
  match k with [] => false | c :: _ => negb (py_space c) end
  && no_char c_sp k && no_char c_nl k && no_char c_cr k.

(* a value survives when it is non-empty, does not end with a str.isspace() character and contains no "\n"
   or "\r" (spaces, colons, dollars and leading blanks are fine) *)
Definition val_ok (v : str) : bool :=
  match rev v with [] => false | c :: _ => negb (py_space c) end
  && no_char c_nl v && no_char c_cr v.

Definition items_ok (im : items) : bool := forallb (fun kv => key_ok (fst kv) && val_ok (snd kv)) im.

Lemma rev_head : forall (v : str) c r, rev v = c :: r -> v = rev r ++ [c].
Proof. intros v c r H. rewrite <- (rev_involutive v), H. reflexivity. Qed.

Lemma key_ok_parts : forall k, key_ok k = true ->
  (exists c r, k = c :: r /\ py_space c = false) /\
  no_char c_sp k = true /\ no_char c_nl k = true /\ no_char c_cr k = true.
Proof.
  intros k H. unfold key_ok in H. apply andb_prop in H. destruct H as [H Hcr].
  apply andb_prop in H. destruct H as [H Hnl]. apply andb_prop in H. destruct H as [Hh Hsp].
  repeat split; try assumption. destruct k as [|c r]; [discriminate Hh|].
  exists c, r. split; [reflexivity | apply negb_true_iff, Hh].
Qed.

Lemma val_ok_parts : forall v, val_ok v = true ->
  (exists x d, v = x ++ [d] /\ py_space d = false) /\ no_char c_nl v = true /\ no_char c_cr v = true.
Proof.
  intros v H. unfold val_ok in H. apply andb_prop in H. destruct H as [H Hcr].
  apply andb_prop in H. destruct H as [Hh Hnl].
  repeat split; try assumption. destruct (rev v) as [|d r] eqn:E; [discriminate Hh|].
  exists (rev r), d. split; [apply rev_head, E | apply negb_true_iff, Hh].
Qed.

Lemma univ_nl_id : forall s, no_char c_cr s = true -> univ_nl s = s.
Proof.
  induction s as [|c s IH]; simpl; intros H; auto.
  apply andb_true_iff in H. destruct H as [H1 H2]. apply negb_true_iff in H1. rewrite H1.
  rewrite IH; auto.
Qed.

Lemma lines_line : forall l rest, no_char c_nl l = true ->
  lines (l ++ c_nl :: rest) = (l ++ [c_nl]) :: lines rest.
Proof.
  induction l as [|c l IH]; intros rest H.
  - reflexivity.
  - simpl in H. apply andb_true_iff in H. destruct H as [H1 H2]. apply negb_true_iff in H1.
    simpl. rewrite H1. rewrite IH; auto.
Qed.

Lemma lstrip_keep : forall c r, py_space c = false -> lstrip (c :: r) = c :: r.
Proof. intros. simpl. rewrite H. reflexivity. Qed.

Lemma rstrip_nl : forall x c, py_space c = false -> rstrip (x ++ [c] ++ [c_nl]) = x ++ [c].
Proof.
  intros x c H. unfold rstrip. rewrite app_assoc, rev_app_distr. simpl rev at 1. simpl app at 1.
  change (lstrip (c_nl :: rev (x ++ [c]))) with (lstrip (rev (x ++ [c]))).
  rewrite rev_app_distr. simpl. rewrite H. simpl. rewrite rev_involutive. reflexivity.
Qed.

Lemma split1_key : forall k v, no_char c_sp k = true -> split1 (k ++ c_sp :: v) = Some (k, v).
Proof.
  induction k as [|c k IH]; intros v H.
  - reflexivity.
  - simpl in H. apply andb_true_iff in H. destruct H as [H1 H2]. apply negb_true_iff in H1.
    simpl. rewrite H1. rewrite IH; auto.
Qed.

Lemma strip_line : forall k v, key_ok k = true -> val_ok v = true ->
  strip (k ++ c_sp :: v ++ [c_nl]) = k ++ c_sp :: v.
Proof.
  intros k v Hk Hv. destruct (key_ok_parts k Hk) as [[c [r [-> Hc]]] _].
  destruct (val_ok_parts v Hv) as [[x [d [-> Hd]]] _].
  unfold strip. cbn [app]. rewrite lstrip_keep by exact Hc.
  replace (c :: r ++ c_sp :: (x ++ [d]) ++ [c_nl]) with ((c :: r ++ c_sp :: x) ++ [d] ++ [c_nl])
    by (cbn [app]; rewrite <- !app_assoc; reflexivity).
  rewrite rstrip_nl by exact Hd. cbn [app]. rewrite <- app_assoc. reflexivity.
Qed.

Lemma read_items_line : forall k v ls, key_ok k = true -> val_ok v = true ->
  read_items ((k ++ c_sp :: v ++ [c_nl]) :: ls) =
  match read_items ls with Some its => Some ((k, v) :: its) | None => None end.
Proof.
  intros k v ls Hk Hv. cbn [read_items]. rewrite strip_line by assumption.
  destruct (key_ok_parts k Hk) as [[c [r [-> _]]] [Hsp _]]. cbn [app].
  change (c :: r ++ c_sp :: v) with ((c :: r) ++ c_sp :: v). rewrite split1_key by exact Hsp. reflexivity.
Qed.

Lemma write_no_cr : forall im, items_ok im = true -> no_char c_cr (write_imports im) = true.
Proof.
  induction im as [|[k v] im IH]; intros H; [reflexivity|].
  cbn [items_ok forallb fst snd] in H. apply andb_prop in H. destruct H as [H1 H2].
  apply andb_prop in H1. destruct H1 as [Hk Hv].
  destruct (key_ok_parts k Hk) as [_ [_ [_ Kcr]]]. destruct (val_ok_parts v Hv) as [_ [_ Vcr]].
  change (write_imports ((k, v) :: im)) with ((k ++ [c_sp] ++ v ++ [c_nl]) ++ write_imports im).
  rewrite !no_char_app, Kcr, Vcr, (IH H2). reflexivity.
Qed.

Lemma read_write_lines : forall im, items_ok im = true ->
  read_items (lines (write_imports im)) = Some im.
Proof.
  induction im as [|[k v] im IH]; intros H; [reflexivity|].
  cbn [items_ok forallb fst snd] in H. apply andb_prop in H. destruct H as [H1 H2].
  apply andb_prop in H1. destruct H1 as [Hk Hv].
  destruct (key_ok_parts k Hk) as [_ [_ [Knl _]]]. destruct (val_ok_parts v Hv) as [_ [Vnl _]].
  change (write_imports ((k, v) :: im)) with ((k ++ c_sp :: v ++ [c_nl]) ++ write_imports im).
  replace ((k ++ c_sp :: v ++ [c_nl]) ++ write_imports im) with ((k ++ c_sp :: v) ++ c_nl :: write_imports im)
    by (rewrite <- !app_assoc; cbn [app]; rewrite <- app_assoc; reflexivity).
  rewrite lines_line by (change (k ++ c_sp :: v) with (k ++ [c_sp] ++ v); rewrite !no_char_app, Knl, Vnl; reflexivity).
  rewrite <- app_assoc. cbn [app]. rewrite read_items_line by assumption. rewrite (IH H2). reflexivity.
Qed.

Theorem imports_file_roundtrip_lemma : forall im, items_ok im = true ->
  read_from_file (write_imports im) = Some im.
Proof.
  intros im H. unfold read_from_file. rewrite univ_nl_id; [|apply write_no_cr; auto].
  apply read_write_lines; auto.
Qed.

(* the values the plan writes are always fine: join(dir, key + '.pyi' [+ '-1']) and join(dir, 'default.pyi')
   never end in white space; they contain a line break only if the directory or the key does *)

Definition clean (s : str) : bool := no_char c_nl s && no_char c_cr s.

Lemma clean_app : forall a b, clean (a ++ b) = clean a && clean b.
Proof.
  intros. unfold clean. rewrite !no_char_app.
  destruct (no_char c_nl a), (no_char c_nl b), (no_char c_cr a), (no_char c_cr b); reflexivity.
Qed.

Lemma join2_shape : forall a b, b <> [] ->
  exists X, join2 a b = X ++ b /\ (clean a = true -> clean X = true).
Proof.
  intros a b Hb. destruct b as [|c b]; [contradiction|]. unfold join2.
  destruct (c =? c_slash); [exists []; auto|].
  destruct (is_nil a || ends_with_slash a); [exists a; auto|].
  exists (a ++ [c_slash]). split; [rewrite <- app_assoc; reflexivity|].
  intros Ha. rewrite clean_app, Ha. reflexivity.
Qed.

Lemma val_ok_snoc : forall x d, val_ok (x ++ [d]) = negb (py_space d) && clean (x ++ [d]).
Proof. intros. unfold val_ok, clean. rewrite rev_app_distr. cbn [rev app]. symmetry. apply andb_assoc. Qed.

Lemma val_ok_join : forall a b0 d, clean a = true -> clean (b0 ++ [d]) = true -> py_space d = false ->
  val_ok (join2 a (b0 ++ [d])) = true.
Proof.
  intros a b0 d Ha Hb Hd.
  destruct (join2_shape a (b0 ++ [d])) as [X [E HX]]; [destruct b0; discriminate|].
  rewrite E, app_assoc, val_ok_snoc, Hd, <- app_assoc, clean_app, (HX Ha), Hb. reflexivity.
Qed.

Lemma rendered_value_ok : forall pyi_dir imports_dir kstr p,
  clean pyi_dir = true -> clean imports_dir = true ->
  (forall k f, p = PPyi k f -> clean (kstr k) = true) ->
  val_ok (render_path pyi_dir imports_dir kstr p) = true.
Proof.
  intros pd idir kstr p Hp Hi Hk. destruct p as [|k f]; cbn [render_path].
  - change s_default_pyi with ([100; 101; 102; 97; 117; 108; 116; 46; 112; 121] ++ [105]).
    apply val_ok_join; auto.
  - specialize (Hk k f eq_refl). destruct f.
    + replace (kstr k ++ s_pyi ++ s_first) with ((kstr k ++ s_pyi ++ [45]) ++ [49])
        by (rewrite <- !app_assoc; reflexivity).
      apply val_ok_join; auto. rewrite <- !app_assoc. rewrite clean_app, Hk. reflexivity.
    + replace (kstr k ++ s_pyi ++ []) with ((kstr k ++ [46; 112; 121]) ++ [105])
        by (rewrite <- !app_assoc; reflexivity).
      apply val_ok_join; auto. rewrite <- !app_assoc. rewrite clean_app, Hk. reflexivity.
Qed.

Lemma key_ok_clean : forall k, key_ok k = true -> clean k = true.
Proof. intros k H. destruct (key_ok_parts k H) as [_ [_ [A B]]]. unfold clean. rewrite A, B. reflexivity. Qed.

(* _build_multimap and _finalize on a map with distinct extension-free keys other than "%" *)

Definition no_ext (k : str) : bool := str_eqb (fst (splitext k)) k.

Lemma mm_add_fresh : forall k v mm, ~ In k (map fst mm) -> mm_add k v mm = mm ++ [(k, [v])].
Proof.
  induction mm as [|[k' vs] mm IH]; simpl; intros H; auto.
  destruct (str_eqb k k') eqn:E.
  - apply str_eqb_eq in E. exfalso. apply H. left; auto.
  - rewrite IH; auto.
Qed.

Lemma multimap_fold : forall (its : items) acc,
  (forall kv, In kv its -> no_ext (fst kv) = true) ->
  NoDup (map fst acc ++ map fst its) ->
  fold_left (fun mm kv => mm_add (fst (splitext (fst kv))) (snd kv) mm) its acc =
  acc ++ map (fun kv => (fst kv, [snd kv])) its.
Proof.
  induction its as [|[k v] its IH]; intros acc Hne Hnd; simpl.
  - rewrite app_nil_r. reflexivity.
  - assert (E : fst (splitext k) = k).
    { apply str_eqb_eq. apply (Hne (k, v)). left; reflexivity. }
    rewrite E. rewrite mm_add_fresh.
    + rewrite IH.
      * rewrite <- app_assoc. reflexivity.
      * intros kv H. apply Hne. right; auto.
      * rewrite map_app. simpl. rewrite <- app_assoc. simpl. exact Hnd.
    + simpl in Hnd. apply NoDup_remove_2 in Hnd. intro H. apply Hnd. apply in_or_app. left; auto.
Qed.

Lemma build_multimap_distinct : forall its : items,
  (forall kv, In kv its -> no_ext (fst kv) = true) -> NoDup (map fst its) ->
  build_multimap its = map (fun kv => (fst kv, [snd kv])) its.
Proof.
  intros its Hne Hnd. unfold build_multimap. rewrite multimap_fold; auto.
  simpl. rewrite map_map. apply map_ext. intros [k v]. reflexivity.
Qed.

Lemma lookup_str_none : forall {V} k (l : list (str * V)), ~ In k (map fst l) -> lookup_str k l = None.
Proof.
  induction l as [|[k' v] l IH]; simpl; intros H; auto.
  destruct (str_eqb k k') eqn:E.
  - apply str_eqb_eq in E. exfalso. apply H. left; auto.
  - apply IH. intro. apply H. right; auto.
Qed.

Lemma remove_key_absent : forall {V} k (l : list (str * V)), ~ In k (map fst l) -> remove_key k l = l.
Proof.
  induction l as [|[k' v] l IH]; simpl; intros H; auto.
  destruct (str_eqb k k') eqn:E.
  - apply str_eqb_eq in E. exfalso. apply H. left; auto.
  - rewrite IH; auto.
Qed.

Lemma flat_map_nil : forall {A B} (f : A -> list B) l, (forall x, In x l -> f x = []) -> flat_map f l = [].
Proof. induction l as [|x l IH]; simpl; intros H; auto. rewrite H; auto. Qed.

Theorem finalize_exact_lemma : forall abspath devnull (its : items),
  (forall kv, In kv its -> no_ext (fst kv) = true) -> NoDup (map fst its) -> ~ In [c_pct] (map fst its) ->
  exists extra,
    finalize abspath devnull (build_multimap its) =
      (map (fun kv => (fst kv, abspath (snd kv))) its ++ extra, []) /\
    forall e, In e extra -> snd e = devnull /\ ~ In (fst e) (map fst its).
Proof.
  intros ab dn its Hne Hnd Hpct. rewrite build_multimap_distinct; auto.
  unfold finalize.
  assert (K : map fst (map (fun kv : str * str => (fst kv, [snd kv])) its) = map fst its).
  { rewrite map_map. reflexivity. }
  rewrite lookup_str_none by (rewrite K; auto).
  rewrite remove_key_absent by (rewrite K; auto).
  rewrite (flat_map_nil (fun kv : str * list str => tl (snd kv))).
  2:{ intros x Hx. apply in_map_iff in Hx. destruct Hx as [kv [<- _]]. reflexivity. }
  cbv zeta.
  match goal with |- context [map ?f (map ?g its)] =>
    replace (map f (map g its)) with (map (fun kv : str * str => (fst kv, ab (snd kv))) its)
      by (rewrite map_map; reflexivity)
  end.
  eexists. split; [reflexivity|].
  intros e He. apply in_flat_map in He. destruct He as [d [_ He]].
  match type of He with In _ (if ?b then _ else _) => destruct b eqn:M end; [destruct He|].
  destruct He as [<-|[]]. cbn [fst snd]. split; auto.
  intro Hin.
  assert (Hin' : In (join2 d s_init) (map fst (map (fun kv : str * str => (fst kv, ab (snd kv))) its))).
  { rewrite map_map. exact Hin. }
  apply mem_str_In in Hin'. congruence.
Qed.

