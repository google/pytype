(* C19: ninja's reading of one build statement written by write_build_statement gives back exactly the
   strings that went in (Plan/Model.v: render, parse_build). *)
From Coq Require Import List NArith Bool Arith Lia.
From PV Require Import Plan.Model Plan.Proofs.
Import ListNotations.
Local Open Scope N_scope.

(* EatWhitespace is the identity on a text that does not begin with a space *)

Definition no_lead_sp (s : str) : Prop := forall c r, s = c :: r -> c <> c_sp.

Lemma eat_ws_sp : forall r, eat_ws (c_sp :: r) = eat_ws r.
Proof. reflexivity. Qed.

Lemma eat_ws_id : forall s, no_lead_sp s -> eat_ws s = s.
Proof.
  intros [|c r] H; [reflexivity|]. simpl.
  rewrite (proj2 (N.eqb_neq _ _) (H c r eq_refl)). reflexivity.
Qed.

Lemma eat_ws_nonspace : forall c r, c <> c_sp -> eat_ws (c :: r) = c :: r.
Proof. intros c r H. apply eat_ws_id. intros c' r' E. congruence. Qed.

Lemma no_lead_sp_app : forall a X, a <> [] -> no_lead_sp a -> no_lead_sp (a ++ X).
Proof. intros [|c a] X Hn H c' r' E; [congruence|]. injection E as <- _. exact (H c a eq_refl). Qed.

Lemma no_lead_sp_escape : forall s, no_lead_sp (escape s).
Proof.
  intros [|c s] c' r' E; [discriminate|]. rewrite escape_cons in E.
  destruct (esc_special c) eqn:Ec; injection E as <- _; [discriminate | apply esc_special_not in Ec; tauto].
Qed.

Lemma escape_nonempty : forall s, s <> [] -> escape s <> [].
Proof. intros [|c s] H; [congruence|]. rewrite escape_cons. destruct (esc_special c); discriminate. Qed.

Lemma eat_ws_escape : forall s X, s <> [] -> eat_ws (escape s ++ X) = escape s ++ X.
Proof.
  intros s X H. apply eat_ws_id, no_lead_sp_app; [apply escape_nonempty, H | apply no_lead_sp_escape].
Qed.

Definition nonspace_terminator (t : N) : Prop := t = c_colon \/ t = c_pipe \/ t = c_nl.

Lemma nst_path_terminator : forall t, nonspace_terminator t -> path_terminator t.
Proof. unfold nonspace_terminator, path_terminator. tauto. Qed.

Lemma nst_not_space : forall t, nonspace_terminator t -> t <> c_sp.
Proof. intros t [ -> | [ -> | -> ] ]; discriminate. Qed.

Definition good_path (s : str) : Prop := s <> [] /\ forall c, In c s -> path_char c.

(* for concrete strings: the character classes as booleans *)
Definition value_charb (c : N) : bool := negb ((c =? c_nl) || (c =? c_cr) || (c =? c_nul)).
Definition path_charb (c : N) : bool := value_charb c && negb (c =? c_pipe).

Lemma value_charb_ok : forall c, value_charb c = true -> value_char c.
Proof. intros c H. repeat split; intros ->; discriminate H. Qed.

Lemma path_charb_ok : forall c, path_charb c = true -> path_char c.
Proof. intros c H. repeat split; intros ->; discriminate H. Qed.

Lemma good_path_b : forall s, s <> [] -> forallb path_charb s = true -> good_path s.
Proof.
  intros s Hn H. split; [exact Hn|]. intros c Hc. apply path_charb_ok.
  rewrite forallb_forall in H. exact (H c Hc).
Qed.

Lemma lits_nonempty : forall s, s <> [] -> exists a b, lits s = a :: b.
Proof. intros [|c s] H; [congruence|]. simpl. eauto. Qed.

Lemma read_paths_cons : forall x fuel t rest,
  good_path x -> path_terminator t ->
  read_paths (S fuel) (escape x ++ t :: rest) =
  match read_paths fuel (eat_ws (t :: rest)) with
  | None => None
  | Some (ps, rest') => Some (lits x :: ps, rest')
  end.
Proof.
  intros x fuel t rest [Hne Hx] Ht. cbn [read_paths]. rewrite (escape_roundtrip_lemma x t rest Hx Ht).
  destruct (lits_nonempty x Hne) as [a [b ->]]. reflexivity.
Qed.

Lemma read_paths_end : forall fuel t rest, nonspace_terminator t ->
  read_paths (S fuel) (t :: rest) = Some ([], t :: rest).
Proof.
  intros fuel t rest Ht. cbn [read_paths]. unfold lex_path.
  rewrite lex_path_terminator by (apply nst_path_terminator, Ht).
  rewrite eat_ws_nonspace by (apply nst_not_space, Ht). reflexivity.
Qed.

Lemma join_sp_cons : forall (x y : str) r, join_sp (x :: y :: r) = x ++ c_sp :: join_sp (y :: r).
Proof. reflexivity. Qed.

Lemma no_lead_sp_join : forall d ds X, d <> [] -> no_lead_sp (join_sp (map escape (d :: ds)) ++ X).
Proof.
  intros d [|y r] X H; cbn [map]; rewrite ?join_sp_cons, <- ?app_assoc;
    (apply no_lead_sp_app; [apply escape_nonempty, H | apply no_lead_sp_escape]).
Qed.

(* reading a space-separated list of escaped paths up to a terminator that is not a space *)
Lemma read_paths_join : forall ds fuel t rest,
  (length ds < fuel)%nat -> (forall d, In d ds -> good_path d) -> nonspace_terminator t ->
  read_paths fuel (join_sp (map escape ds) ++ t :: rest) = Some (map lits ds, t :: rest).
Proof.
  induction ds as [|x r IH]; intros fuel t rest Hf Hg Ht; (destruct fuel as [|f]; [inversion Hf|]).
  - apply read_paths_end, Ht.
  - assert (IH' := IH f t rest (proj2 (Nat.succ_lt_mono _ _) Hf) (fun d h => Hg d (or_intror h)) Ht).
    destruct r as [|y r'].
    + cbn [map join_sp]. rewrite (read_paths_cons x f t rest (Hg x (or_introl eq_refl)) (nst_path_terminator t Ht)).
      rewrite eat_ws_nonspace by (apply nst_not_space, Ht). cbn [map join_sp app] in IH'. rewrite IH'. reflexivity.
    + cbn [map]. rewrite join_sp_cons, <- app_assoc. cbn [app].
      rewrite (read_paths_cons x f c_sp _ (Hg x (or_introl eq_refl)) (or_introl eq_refl)), eat_ws_sp.
      rewrite eat_ws_id by (apply no_lead_sp_join, Hg; right; left; reflexivity).
      cbn [map] in IH'. rewrite IH'. reflexivity.
Qed.

(* a single path followed by " |": the space is eaten, the '|' ends the list *)
Lemma read_paths_one_sp : forall x fuel t rest,
  (2 <= fuel)%nat -> good_path x -> nonspace_terminator t ->
  read_paths fuel (escape x ++ c_sp :: t :: rest) = Some ([lits x], t :: rest).
Proof.
  intros x fuel t rest Hf Hx Ht. destruct fuel as [|[|f]]; try lia.
  rewrite (read_paths_cons x (S f) c_sp _ Hx (or_introl eq_refl)).
  rewrite eat_ws_sp, eat_ws_nonspace by (apply nst_not_space, Ht).
  rewrite read_paths_end by exact Ht. reflexivity.
Qed.

Definition good_value (s : str) : Prop := forall c, In c s -> value_char c.
Definition ident (a : str) : Prop := a <> [] /\ forall c, In c a -> var_char c = true.

Lemma good_value_b : forall s, forallb value_charb s = true -> good_value s.
Proof. intros s H c Hc. apply value_charb_ok. rewrite forallb_forall in H. exact (H c Hc). Qed.

Lemma read_ident_spec : forall a t r,
  (forall c, In c a -> var_char c = true) -> var_char t = false ->
  read_ident (a ++ t :: r) = (a, eat_ws (t :: r)).
Proof.
  induction a as [|c a IH]; intros t r Ha Ht.
  - simpl app. cbn [read_ident]. rewrite Ht. reflexivity.
  - simpl app. cbn [read_ident]. rewrite (Ha c (or_introl eq_refl)).
    rewrite (IH t r); auto. intros x Hx. apply Ha. right; auto.
Qed.

Lemma ident_imports : ident kw_imports.
Proof. split; [discriminate | apply forallb_forall; reflexivity]. Qed.
Lemma ident_module : ident kw_module.
Proof. split; [discriminate | apply forallb_forall; reflexivity]. Qed.

Lemma no_lead_sp_ident : forall a, ident a -> no_lead_sp a.
Proof. intros a [_ Ha] c r -> ->. discriminate (Ha c_sp (or_introl eq_refl)). Qed.

Lemma read_ident_word : forall a t r, ident a -> var_char t = false ->
  read_ident (eat_ws (c_sp :: a ++ t :: r)) = (a, eat_ws (t :: r)).
Proof.
  intros a t r Ha Ht. rewrite eat_ws_sp.
  rewrite eat_ws_id by (apply no_lead_sp_app; [apply Ha | apply no_lead_sp_ident, Ha]).
  apply read_ident_spec; [apply Ha | exact Ht].
Qed.

Lemma strip_prefix_app : forall p s, strip_prefix p (p ++ s) = Some s.
Proof.
  induction p as [|a p IH]; intros s; [destruct s; reflexivity|].
  simpl. rewrite N.eqb_refl. apply IH.
Qed.

Lemma read_binding_raw : forall name (v : str) toks rest,
  ident name -> lex_value (v ++ c_nl :: rest) = LDone toks rest -> no_lead_sp v ->
  read_binding ([c_sp; c_sp] ++ name ++ [c_sp; c_eq; c_sp] ++ v ++ c_nl :: rest) = Some (name, toks, rest).
Proof.
  intros name v toks rest Hid Hl Hns. unfold read_binding. cbn [app]. change (c_sp =? c_sp) with true. cbv iota.
  rewrite eat_ws_sp, read_ident_word by (exact Hid || reflexivity).
  destruct Hid as [Hn _]. destruct name as [|n0 name]; [congruence|].
  cbn [eat_ws]. change (c_sp =? c_sp) with true. change (c_eq =? c_sp) with false. change (c_eq =? c_eq) with true. cbv iota.
  rewrite eat_ws_sp.
  assert (Ee : eat_ws (v ++ c_nl :: rest) = v ++ c_nl :: rest).
  { destruct v as [|c v']; [reflexivity|]. apply eat_ws_nonspace. exact (Hns c v' eq_refl). }
  rewrite Ee, Hl. reflexivity.
Qed.

Lemma read_binding_escaped : forall name (v : str) rest, ident name -> good_value v ->
  read_binding ([c_sp; c_sp] ++ name ++ [c_sp; c_eq; c_sp] ++ escape v ++ c_nl :: rest) = Some (name, lits v, rest).
Proof.
  intros name v rest Hid Hv. apply read_binding_raw;
    [exact Hid | apply escape_roundtrip_value_lemma, Hv | apply no_lead_sp_escape].
Qed.

(* the module text: escaped (fixed tree) needs nothing more; raw (as found) needs no '$' and no leading space *)
Definition module_ok (esc_mod : bool) (m : str) : Prop :=
  good_value m /\
  (esc_mod = false -> (forall c, In c m -> c <> c_dollar) /\ (forall c r, m = c :: r -> c <> c_sp)).

(* what parse_build does after the explicit inputs: an optional "| implicit inputs" *)
Definition read_implicit (fuel : nat) (s4 : str) : option (list (list tok) * str) :=
  match s4 with
  | p :: s5 =>
    if p =? c_pipe then
      match s5 with
      | q :: _ => if (q =? c_pipe) || (q =? c_at) then None else read_paths fuel (eat_ws s5)
      | [] => None
      end
    else Some ([], s4)
  | [] => None
  end.

Lemma parse_build_stages : forall s s0 outs s2 rule s3 ins s4 imps s7 n1 v1 s8 n2 v2 s9,
  strip_prefix s_build s = Some s0 ->
  read_paths (S (length s)) (eat_ws s0) = Some (outs, c_colon :: s2) ->
  read_ident (eat_ws s2) = (rule, s3) ->
  read_paths (S (length s)) s3 = Some (ins, s4) ->
  read_implicit (S (length s)) s4 = Some (imps, c_nl :: s7) ->
  read_binding s7 = Some (n1, v1, s8) -> read_binding s8 = Some (n2, v2, s9) ->
  parse_build s = Some (Parsed outs rule ins imps [(n1, v1); (n2, v2)], s9).
Proof.
  intros s s0 outs s2 rule s3 ins s4 imps s7 n1 v1 s8 n2 v2 s9 H0 H1 H2 H3 H4 H5 H6.
  unfold parse_build. cbv zeta. rewrite H0, H1, N.eqb_refl, H2, H3.
  unfold read_implicit in H4. rewrite H4, N.eqb_refl, H5, H6. reflexivity.
Qed.

Definition deps_text (ds : list str) : str :=
  match ds with [] => [] | d :: r => [c_sp; c_pipe; c_sp] ++ join_sp (map escape (d :: r)) end.

Lemma render_text : forall esc_mod t rest,
  render esc_mod t ++ rest =
  s_build ++ c_sp :: escape (t_out t) ++ c_colon :: c_sp :: t_action t ++ c_sp :: escape (t_input t) ++
  deps_text (t_deps t) ++ c_nl :: s_imports_eq ++ escape (t_imports t) ++ c_nl ::
  s_module_eq ++ (if esc_mod then escape (t_module t) else t_module t) ++ c_nl :: rest.
Proof.
  intros esc_mod t rest. unfold render. rewrite <- !app_assoc. reflexivity.
Qed.

Lemma join_length : forall ds, (forall d, In d ds -> d <> []) -> (length ds <= length (join_sp (map escape ds)))%nat.
Proof.
  induction ds as [|x r IH]; intros H; [apply Nat.le_0_l|].
  assert (Hx : (1 <= length (escape x))%nat).
  { pose proof (escape_nonempty x (H x (or_introl eq_refl))). destruct (escape x); [congruence | apply le_n_S, Nat.le_0_l]. }
  destruct r as [|y r'].
  - exact Hx.
  - assert (IH' := IH (fun d h => H d (or_intror h))).
    cbn [map]. rewrite join_sp_cons, app_length. cbn [length map] in *. lia.
Qed.

Lemma deps_text_length : forall ds, (forall d, In d ds -> d <> []) -> (length ds <= length (deps_text ds))%nat.
Proof.
  intros [|d0 dr] H; [apply Nat.le_0_l|]. cbn [deps_text length app].
  pose proof (join_length (d0 :: dr) H) as J. cbn [length] in J. unfold str in *. lia.
Qed.

(* the text is long enough to serve as fuel *)
Lemma render_length : forall esc_mod t rest, (forall d, In d (t_deps t) -> d <> []) ->
  (1 + length (t_deps t) <= length (render esc_mod t ++ rest))%nat.
Proof.
  intros esc_mod t rest H. pose proof (deps_text_length (t_deps t) H).
  rewrite render_text. repeat (rewrite app_length; cbn [length]). unfold str in *. lia.
Qed.

Lemma read_inputs : forall fuel inp deps rest,
  (2 <= fuel)%nat -> (length deps < fuel)%nat -> good_path inp -> (forall d, In d deps -> good_path d) ->
  exists s4, read_paths fuel (escape inp ++ deps_text deps ++ c_nl :: rest) = Some ([lits inp], s4) /\
             read_implicit fuel s4 = Some (map lits deps, c_nl :: rest).
Proof.
  intros fuel inp deps rest H2 Hf Hi Hd. destruct deps as [|d0 dr].
  - exists (c_nl :: rest). split; [|reflexivity].
    apply (read_paths_join [inp]); [exact H2 | intros d [<-|[]]; exact Hi | right; right; reflexivity].
  - exists (c_pipe :: c_sp :: join_sp (map escape (d0 :: dr)) ++ c_nl :: rest). split.
    + apply read_paths_one_sp; [exact H2 | exact Hi | right; left; reflexivity].
    + cbn [read_implicit]. change (c_pipe =? c_pipe) with true. change ((c_sp =? c_pipe) || (c_sp =? c_at)) with false.
      cbv iota. rewrite eat_ws_sp.
      rewrite eat_ws_id by (apply no_lead_sp_join, Hd; left; reflexivity).
      apply read_paths_join; [exact Hf | exact Hd | right; right; reflexivity].
Qed.

Theorem build_statement_roundtrip_lemma : forall esc_mod t rest,
  good_path (t_out t) -> good_path (t_input t) -> (forall d, In d (t_deps t) -> good_path d) ->
  ident (t_action t) -> good_value (t_imports t) -> module_ok esc_mod (t_module t) ->
  parse_build (render esc_mod t ++ rest) =
  Some (Parsed [lits (t_out t)] (t_action t) [lits (t_input t)] (map lits (t_deps t))
               [(kw_imports, lits (t_imports t)); (kw_module, lits (t_module t))], rest).
Proof.
  intros esc_mod t rest Ho Hi Hd Ha Hv [Hmv Hmr].
  pose proof (render_length esc_mod t rest (fun d h => proj1 (Hd d h))) as Hlen.
  assert (F2 : (2 <= S (length (render esc_mod t ++ rest)))%nat) by lia.
  assert (Fd : (length (t_deps t) < S (length (render esc_mod t ++ rest)))%nat) by lia.
  clear Hlen.
  destruct (read_inputs _ (t_input t) (t_deps t)
              (s_imports_eq ++ escape (t_imports t) ++ c_nl ::
               s_module_eq ++ (if esc_mod then escape (t_module t) else t_module t) ++ c_nl :: rest) F2 Fd Hi Hd)
    as [s4 [Hin Himp]].
  revert F2 Fd Hin Himp. rewrite render_text. intros F2 Fd Hin Himp.
  eapply parse_build_stages.
  - apply strip_prefix_app.
  - rewrite eat_ws_sp, eat_ws_escape by apply Ho.
    apply (read_paths_join [t_out t]); [exact F2 | intros d [<-|[]]; exact Ho | left; reflexivity].
  - apply read_ident_word; [exact Ha | reflexivity].
  - rewrite eat_ws_sp, eat_ws_escape by apply Hi. exact Hin.
  - exact Himp.
  - apply (read_binding_escaped kw_imports); [exact ident_imports | exact Hv].
  - destruct esc_mod.
    + apply (read_binding_escaped kw_module); [exact ident_module | exact Hmv].
    + destruct (Hmr eq_refl) as [Hnd Hns].
      apply (read_binding_raw kw_module); [exact ident_module | | exact Hns].
      apply raw_value_lemma. intros c Hc. split; [apply Hmv, Hc | apply Hnd, Hc].
Qed.
