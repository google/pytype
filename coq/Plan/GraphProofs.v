(* C19: deps_from_import_graph (Plan/Model.v) turns every well-formed import graph into well-formed
   sorted_sources and keeps every source file of the graph.
   The input is what the model already takes: reversed(import_graph.deps_list()) as a list of
   (files of the node, [files of each dependency node]); a node is one file or a collapsed cycle
   (importlab NodeSet); a file is (id, is_stub, module) with module = resolved_file_to_module(provenance). *)
From Coq Require Import List NArith Bool Arith Lia Relations.
From PV Require Import Plan.Model Plan.Proofs.
Import ListNotations.

Definition graph := list (list gfile * list (list gfile)).

Definition node_sources (node : list gfile) : list module :=
  map g_mod (filter (fun f => negb (g_stub f)) node).

(* the source (non-stub) files of the graph, in order, with multiplicity *)
Definition graph_sources (g : graph) : list module := flat_map (fun nd => node_sources (fst nd)) g.

(* dependency order: every file of every dependency node occurs in an EARLIER node.  This is what
   reversed(topological_sort) of importlab's collapsed graph gives (cycles are inside one node, self
   edges are never added). *)
Fixpoint graph_closed (seen : list gfile) (g : graph) : Prop :=
  match g with
  | [] => True
  | (node, deps) :: r =>
    (forall d, In d deps -> forall f, In f d -> In f seen) /\ graph_closed (seen ++ node) r
  end.

(* well-formed import graph: dependency order, and distinct source files have distinct full paths
   (in particular no source file is listed twice) *)
Definition wf_graph (g : graph) : Prop :=
  NoDup (map m_full (graph_sources g)) /\ graph_closed [] g.

(* boolean version for examples / monitoring *)
Definition gfile_eqb (a b : gfile) : bool :=
  (g_id a =? g_id b)%N && Bool.eqb (g_stub a) (g_stub b) && module_eqb (g_mod a) (g_mod b).
Fixpoint memG (x : gfile) (l : list gfile) : bool :=
  match l with [] => false | y :: r => gfile_eqb x y || memG x r end.
Fixpoint graph_closedb (seen : list gfile) (g : graph) : bool :=
  match g with
  | [] => true
  | (node, deps) :: r =>
    forallb (fun d => forallb (fun f => memG f seen) d) deps && graph_closedb (seen ++ node) r
  end.
Definition wf_graphb (g : graph) : bool :=
  nodupN (map m_full (graph_sources g)) && graph_closedb [] g.

Lemma gfile_eqb_eq : forall a b, gfile_eqb a b = true <-> a = b.
Proof.
  intros [i s m] [i' s' m']. unfold gfile_eqb. simpl.
  rewrite !andb_true_iff, N.eqb_eq, Bool.eqb_true_iff, module_eqb_eq. split.
  - intros [[? ?] ?]; subst; reflexivity.
  - intros H; inversion H; auto.
Qed.

Lemma memG_In : forall x l, memG x l = true <-> In x l.
Proof.
  induction l as [|y r IH]; simpl; [split; [discriminate|tauto]|].
  rewrite orb_true_iff, gfile_eqb_eq, IH. split; intros [H|H]; auto.
Qed.

Lemma graph_closedb_ok : forall g seen, graph_closedb seen g = true -> graph_closed seen g.
Proof.
  induction g as [|[node deps] r IH]; simpl; intros seen H; auto.
  apply andb_true_iff in H. destruct H as [H1 H2]. split; auto.
  intros d Hd f Hf. rewrite forallb_forall in H1. specialize (H1 d Hd).
  rewrite forallb_forall in H1. apply memG_In. auto.
Qed.

Lemma wf_graphb_ok : forall g, wf_graphb g = true -> wf_graph g.
Proof.
  intros g H. unfold wf_graphb in H. apply andb_true_iff in H. destruct H. split.
  - apply nodupN_NoDup; auto.
  - apply graph_closedb_ok; auto.
Qed.

Lemma members_snoc : forall out g d, members (out ++ [(g, d)]) = members out ++ g.
Proof. intros. unfold members. rewrite flat_map_app. simpl. rewrite app_nil_r. reflexivity. Qed.

Lemma deps_closed_snoc : forall out seen0 g d,
  deps_closed seen0 out -> (forall x, In x d -> In x (seen0 ++ members out)) ->
  deps_closed seen0 (out ++ [(g, d)]).
Proof.
  induction out as [|[g1 d1] r IH]; simpl; intros seen0 g d H Hd.
  - split; auto. intros x Hx. specialize (Hd x Hx). rewrite app_nil_r in Hd. exact Hd.
  - destruct H as [H1 H2]. split; auto. apply IH; auto.
    intros x Hx. specialize (Hd x Hx). unfold members in *. simpl in Hd. rewrite <- app_assoc. exact Hd.
Qed.

Lemma unique_sub : forall l seen f, In f (unique_gfiles l seen) -> In f l.
Proof.
  induction l as [|a r IH]; simpl; intros seen f H; auto.
  destruct (memN (g_id a) seen).
  - right. eapply IH; eauto.
  - destruct H as [H|H]; auto. right. eapply IH; eauto.
Qed.

Lemma fold_left_inv : forall {A B} (P : A -> Prop) (f : A -> B -> A) l,
  (forall a b, P a -> P (f a b)) -> forall a, P a -> P (fold_left f l a).
Proof. induction l as [|b r IH]; simpl; intros Hs a Ha; auto. Qed.

Definition sub (M : list module) (v : list module) : Prop := forall x, In x v -> In x M.
Definition map_sub (M : list module) (m : list (N * list module)) : Prop := forall k, sub M (sget k m).

Lemma sub_app : forall M a b, sub M a -> sub M b -> sub M (a ++ b).
Proof. intros M a b Ha Hb x Hx. apply in_app_or in Hx. destruct Hx; auto. Qed.

Lemma map_sub_cons : forall M m k v, map_sub M m -> sub M v -> map_sub M ((k, v) :: m).
Proof. intros M m k v Hm Hv k0. simpl. destruct (k0 =? k)%N; auto. Qed.

Lemma dfig_node_step : forall s2d out node deps seen,
  (forall d, In d deps -> forall f, In f d -> In f seen) ->
  (forall f, In f seen -> g_stub f = false -> In (g_mod f) (members out)) ->
  map_sub (members out) s2d ->
  deps_closed [] out ->
  let r := dfig_node (s2d, out) (node, deps) in
  members (snd r) = members out ++ node_sources node /\
  deps_closed [] (snd r) /\
  map_sub (members (snd r)) (fst r) /\
  (forall f, In f (seen ++ node) -> g_stub f = false -> In (g_mod f) (members (snd r))).
Proof.
  intros s2d out node deps seen Hdeps Hseen Hmap Hclosed.
  set (M := members out).
  set (flat := unique_gfiles (concat deps) []).
  set (stub_deps := filter g_stub flat).
  set (source_deps := map g_mod (filter (fun f => negb (g_stub f)) flat)).
  assert (Hflat : forall f, In f flat -> In f seen).
  { intros f Hf. apply unique_sub in Hf. apply in_concat in Hf. destruct Hf as [d [Hd Hf]]. eapply Hdeps; eauto. }
  assert (Hsd : sub M source_deps).
  { intros x Hx. unfold source_deps in Hx. apply in_map_iff in Hx. destruct Hx as [f [<- Hf]].
    apply filter_In in Hf. destruct Hf as [Hf Hs]. apply negb_true_iff in Hs. apply Hseen; auto. }
  set (stepf := fun (m : list (N * list module)) (stub : gfile) =>
                  let v0 := sget (g_id stub) m ++ source_deps in
                  let v := fold_left (fun v sd => v ++ sget (g_id sd) ((g_id stub, v) :: m)) stub_deps v0 in
                  (g_id stub, v) :: m).
  set (s2d' := fold_left stepf (filter g_stub node) s2d).
  assert (Hmap' : map_sub M s2d').
  { unfold s2d'. apply (fold_left_inv (map_sub M)); auto.
    intros m stub Hm. unfold stepf. apply map_sub_cons; auto.
    apply (fold_left_inv (sub M)).
    - intros v sd Hv. apply sub_app; auto. apply (map_sub_cons M m (g_id stub) v Hm Hv).
    - apply sub_app; auto. }
  set (sd := fold_left (fun v stub => v ++ sget (g_id stub) s2d') stub_deps source_deps).
  assert (Hsdsub : sub M sd).
  { unfold sd. apply (fold_left_inv (sub M)); auto. intros v stub Hv. apply sub_app; auto. }
  assert (Er : dfig_node (s2d, out) (node, deps) =
               match node_sources node with
               | [] => (s2d', out)
               | _ => (s2d', out ++ [(node_sources node, sd)])
               end) by reflexivity.
  intro r. subst r. rewrite Er.
  assert (Hnode : forall f, In f node -> g_stub f = false -> In (g_mod f) (node_sources node)).
  { intros f Hf Hs. unfold node_sources. apply in_map. apply filter_In. split; auto. rewrite Hs. reflexivity. }
  destruct (node_sources node) as [|s0 srest] eqn:Esrc; cbn [fst snd].
  - rewrite app_nil_r. repeat split; auto.
    intros f Hf Hs. apply in_app_or in Hf. destruct Hf as [Hf|Hf]; [apply Hseen; auto|].
    exfalso. apply (Hnode f Hf Hs).
  - rewrite members_snoc. fold M. repeat split.
    + apply deps_closed_snoc; auto.
    + intros k x Hx. apply in_or_app. left. apply (Hmap' k x Hx).
    + intros f Hf Hs. apply in_app_or in Hf. apply in_or_app. destruct Hf as [Hf|Hf].
      * left. apply Hseen; auto.
      * right. apply Hnode; auto.
Qed.

Lemma dfig_fold : forall g seen s2d out,
  graph_closed seen g ->
  (forall f, In f seen -> g_stub f = false -> In (g_mod f) (members out)) ->
  map_sub (members out) s2d ->
  deps_closed [] out ->
  let r := fold_left dfig_node g (s2d, out) in
  members (snd r) = members out ++ graph_sources g /\ deps_closed [] (snd r).
Proof.
  induction g as [|[node deps] rest IH]; intros seen s2d out Hg Hseen Hmap Hcl.
  - simpl. rewrite app_nil_r. auto.
  - simpl in Hg. destruct Hg as [Hd Hrest].
    destruct (dfig_node_step s2d out node deps seen Hd Hseen Hmap Hcl) as [E [C [Mp S]]].
    cbn [fold_left].
    destruct (dfig_node (s2d, out) (node, deps)) as [s2d1 out1] eqn:En. cbn [fst snd] in *.
    destruct (IH (seen ++ node) s2d1 out1 Hrest S Mp C) as [E2 C2].
    split; auto. rewrite E2, E. unfold graph_sources. cbn [flat_map fst]. rewrite app_assoc. reflexivity.
Qed.

(* the modules of the produced groups are exactly the source files of the graph, in order *)
Lemma deps_members_lemma : forall g, graph_closed [] g ->
  members (deps_from_import_graph g) = graph_sources g.
Proof.
  intros g H. unfold deps_from_import_graph.
  destruct (dfig_fold g [] [] [] H) as [E _]; simpl; auto; try tauto.
  intros k x [].
Qed.

Lemma deps_output_wf_lemma : forall g, wf_graph g -> wf (deps_from_import_graph g).
Proof.
  intros g [Hn Hc]. split.
  - rewrite deps_members_lemma; auto.
  - unfold deps_from_import_graph.
    destruct (dfig_fold g [] [] [] Hc) as [_ C]; simpl; auto; try tauto.
    intros k x [].
Qed.

(* nothing is dropped: every source file of every node is a member of some group *)
Lemma deps_complete_lemma : forall g node deps f,
  graph_closed [] g -> In (node, deps) g -> In f node -> g_stub f = false ->
  In (g_mod f) (members (deps_from_import_graph g)).
Proof.
  intros g node deps f Hc Hn Hf Hs. rewrite deps_members_lemma; auto.
  unfold graph_sources. apply in_flat_map. exists (node, deps). split; auto.
  simpl. unfold node_sources. apply in_map. apply filter_In. split; auto. rewrite Hs. reflexivity.
Qed.
