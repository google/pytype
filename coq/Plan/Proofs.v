(* C19: proofs about the plan construction (get_module_action, yield_sorted_modules, setup_build) and about
   escape_ninja_path read back by ninja's lexer (Plan/Model.v). *)
From Coq Require Import List NArith Bool Arith Lia Relations.
From PV Require Import Plan.Model.
Import ListNotations.

Lemma kind_eqb_eq : forall a b, kind_eqb a b = true <-> a = b.
Proof. destruct a, b; simpl; split; congruence. Qed.

Lemma module_eqb_eq : forall a b, module_eqb a b = true <-> a = b.
Proof.
  intros a b. split.
  - intros H. unfold module_eqb in H.
    apply andb_prop in H. destruct H as [H He]. apply andb_prop in H. destruct H as [H Hy].
    apply andb_prop in H. destruct H as [H Hf]. apply andb_prop in H. destruct H as [H Hk].
    apply andb_prop in H. destruct H as [H Hn]. apply andb_prop in H. destruct H as [Hp Ht].
    apply N.eqb_eq in Hp, Ht, Hn, Hf, Hy. apply kind_eqb_eq in Hk. apply eqb_prop in He.
    destruct a, b; simpl in *. congruence.
  - intros ->. unfold module_eqb. rewrite !N.eqb_refl, eqb_reflx. destruct (m_kind b); reflexivity.
Qed.

Lemma module_eqb_refl : forall a, module_eqb a a = true.
Proof. intros; apply module_eqb_eq; reflexivity. Qed.

Lemma module_eqb_neq : forall a b, module_eqb a b = false <-> a <> b.
Proof.
  intros a b; destruct (module_eqb a b) eqn:E.
  - apply module_eqb_eq in E; split; [discriminate | congruence].
  - split; [|reflexivity]. intros _ H. apply module_eqb_eq in H. congruence.
Qed.

Lemma path_eqb_eq : forall a b, path_eqb a b = true <-> a = b.
Proof.
  destruct a as [|k f], b as [|k' f']; simpl; try (split; congruence).
  rewrite andb_true_iff, N.eqb_eq, Bool.eqb_true_iff. split.
  - intros [? ?]; subst; reflexivity.
  - intros H; inversion H; auto.
Qed.

Lemma memN_In : forall x l, memN x l = true <-> In x l.
Proof.
  induction l as [|y r IH]; simpl; [split; [discriminate|tauto]|].
  rewrite orb_true_iff, N.eqb_eq, IH. split; intros [H|H]; auto.
Qed.

Lemma memM_In : forall x l, memM x l = true <-> In x l.
Proof.
  induction l as [|y r IH]; simpl; [split; [discriminate|tauto]|].
  rewrite orb_true_iff, module_eqb_eq, IH. split; intros [H|H]; auto.
Qed.

Lemma lookup_cons_eq : forall {V} m (v : V) l, lookup m ((m, v) :: l) = Some v.
Proof. intros; simpl; rewrite module_eqb_refl; reflexivity. Qed.

Lemma lookup_cons_neq : forall {V} m m' (v : V) l, m <> m' -> lookup m ((m', v) :: l) = lookup m l.
Proof. intros; simpl. apply module_eqb_neq in H. rewrite H. reflexivity. Qed.

Lemma dict_set_in : forall k v l e, In e (dict_set k v l) -> e = (k, v) \/ In e l.
Proof.
  induction l as [|[k' v'] r IH]; simpl; intros e H.
  - destruct H as [H|[]]; auto.
  - destruct (k =? k')%N eqn:E.
    + apply N.eqb_eq in E; subst. destruct H as [H|H]; auto.
    + destruct H as [H|H]; auto. destruct (IH _ H); auto.
Qed.

Lemma dict_update_in : forall o d e, In e (dict_update d o) -> In e d \/ In e o.
Proof.
  unfold dict_update. induction o as [|[k v] r IH]; simpl; intros d e H; auto.
  apply IH in H. destruct H as [H|H]; auto.
  apply dict_set_in in H. destruct H as [H|H]; auto.
Qed.

Lemma gim_entries : forall deps m2i m2o acc im e,
  get_imports_map deps m2i m2o acc = Some im -> In e im ->
  In e acc \/
  exists d, In d deps /\
    ((exists imd, lookup d m2i = Some imd /\ In e imd) \/ (lookup d m2o = Some (snd e) /\ fst e = m_key d)).
Proof.
  induction deps as [|m r IH]; simpl; intros m2i m2o acc im e H Hin.
  - inversion H; subst; auto.
  - destruct (lookup m m2o) as [o|] eqn:Eo; [|discriminate].
    specialize (IH _ _ _ _ _ H Hin). destruct IH as [Ha | [d [Hd Hx]]].
    + apply dict_set_in in Ha. destruct Ha as [Ha|Ha].
      * subst e. right. exists m. split; auto.
      * destruct (lookup m m2i) as [imd|] eqn:Ei.
        -- apply dict_update_in in Ha. destruct Ha as [Ha|Ha]; auto.
           right. exists m. split; auto. left. exists imd; auto.
        -- auto.
    + right. exists d. split; auto.
Qed.

Lemma gim_some : forall deps m2i m2o acc,
  (forall d, In d deps -> lookup d m2o <> None) -> get_imports_map deps m2i m2o acc <> None.
Proof.
  induction deps as [|m r IH]; simpl; intros m2i m2o acc H; [discriminate|].
  destruct (lookup m m2o) eqn:E; [|exfalso; apply (H m); auto].
  apply IH. intros; apply H; auto.
Qed.

Lemma dd_some : forall deps m2o,
  (forall d, In d deps -> lookup d m2o <> None) -> declared_deps deps m2o <> None.
Proof.
  induction deps as [|m r IH]; simpl; intros m2o H; [discriminate|].
  destruct (lookup m m2o) eqn:E; [|exfalso; apply (H m); auto].
  specialize (IH m2o). destruct (declared_deps r m2o); [discriminate|].
  exfalso; apply IH; auto.
Qed.

Lemma dd_covers : forall deps m2o ds d o,
  declared_deps deps m2o = Some ds -> In d deps -> lookup d m2o = Some o -> o <> PDefault -> In o ds.
Proof.
  induction deps as [|m r IH]; simpl; intros m2o ds d o H Hin Hl Hne; [tauto|].
  destruct (lookup m m2o) as [om|] eqn:Em; [|discriminate].
  destruct (declared_deps r m2o) as [ds'|] eqn:Ed; [|discriminate].
  inversion H; subst; clear H.
  destruct Hin as [->|Hin].
  - rewrite Hl in Em; inversion Em; subst.
    destruct (path_eqb om PDefault) eqn:E; [apply path_eqb_eq in E; congruence | left; reflexivity].
  - specialize (IH _ _ _ _ Ed Hin Hl Hne).
    destruct (path_eqb om PDefault); auto. right; auto.
Qed.

Lemma dd_sound : forall deps m2o ds p,
  declared_deps deps m2o = Some ds -> In p ds ->
  p <> PDefault /\ exists d, In d deps /\ lookup d m2o = Some p.
Proof.
  induction deps as [|m r IH]; simpl; intros m2o ds p H Hin.
  - inversion H; subst; destruct Hin.
  - destruct (lookup m m2o) as [om|] eqn:Em; [|discriminate].
    destruct (declared_deps r m2o) as [ds'|] eqn:Ed; [|discriminate].
    inversion H; subst; clear H.
    destruct (path_eqb om PDefault) eqn:E.
    + destruct (IH _ _ _ Ed Hin) as [? [d [? ?]]]. split; auto. exists d; auto.
    + destruct Hin as [<-|Hin].
      * split. { intro Hc. subst. simpl in E. discriminate. } exists m; auto.
      * destruct (IH _ _ _ Ed Hin) as [? [d [? ?]]]. split; auto. exists d; auto.
Qed.

Lemma sys_action_lemma : forall req m,
  is_sys (m_kind m) = true -> m_ext m = false -> get_module_action req m = GENERATE_DEFAULT.
Proof. intros req m H1 H2. unfold get_module_action. rewrite H1, H2. reflexivity. Qed.

Lemma check_action_lemma : forall req m,
  get_module_action req m = CHECK -> In (m_full m) req /\ (is_sys (m_kind m) = false \/ m_ext m = true).
Proof.
  intros req m H. unfold get_module_action in H.
  destruct (m_ext m); destruct (is_sys (m_kind m)); simpl in H; try discriminate;
    (destruct (memN (m_full m) req) eqn:E; [|discriminate]); apply memN_In in E; auto.
Qed.

Definition analysed (req : list N) (m : module) : bool := negb (is_default (get_module_action req m)).

(* the two loops over an import cycle: the first pass (CHECK turned into INFER) and the second pass
   (modules with a default stub left out) *)
Definition first_act (req : list N) (m : module) : action :=
  if is_check (get_module_action req m) then INFER else get_module_action req m.
Definition firsts (req : list N) (d : list module) (l : list module) : list item :=
  map (fun m => (m, first_act req m, d, FIRST_PASS)) l.
Definition seconds (req : list N) (d2 : list module) (l : list module) : list item :=
  flat_map (fun m => if analysed req m then [(m, get_module_action req m, d2, SECOND_PASS)] else []) l.

Lemma flat_map_map : forall {A B C} (g : A -> B) (f : B -> list C) l,
  flat_map f (map g l) = flat_map (fun x => f (g x)) l.
Proof. induction l as [|a l IH]; simpl; [reflexivity | rewrite IH; reflexivity]. Qed.

Lemma yield_group_eq : forall req g d,
  yield_group req (g, d) =
  match g with
  | [m] => [(m, get_module_action req m, d, SINGLE_PASS)]
  | _ => firsts req d g ++ seconds req (d ++ g) g
  end.
Proof.
  intros req g d. destruct g as [|m [|m2 r]]; [reflexivity | reflexivity |].
  set (g := m :: m2 :: r). set (modules := map (fun m => (m, get_module_action req m)) g).
  transitivity
    (map (fun ma : module * action => (fst ma, (if is_check (snd ma) then INFER else snd ma), d, FIRST_PASS)) modules ++
     flat_map (fun ma : module * action =>
                 if is_default (snd ma) then [] else [(fst ma, snd ma, d ++ map fst modules, SECOND_PASS)]) modules);
    [reflexivity|].
  unfold modules, firsts, seconds. rewrite !map_map, flat_map_map, map_id. f_equal.
  apply flat_map_ext. intros x. unfold analysed. cbn [fst snd]. destruct (is_default (get_module_action req x)); reflexivity.
Qed.

Lemma in_firsts : forall req d g i, In i (firsts req d g) <-> exists m, In m g /\ i = (m, first_act req m, d, FIRST_PASS).
Proof. intros. unfold firsts. rewrite in_map_iff. split; intros [m [H1 H2]]; exists m; auto. Qed.

Lemma in_seconds : forall req d2 g i, In i (seconds req d2 g) <->
  exists m, In m g /\ analysed req m = true /\ i = (m, get_module_action req m, d2, SECOND_PASS).
Proof.
  intros. unfold seconds. rewrite in_flat_map. split; intros [m [Hm H]]; exists m; (split; [exact Hm|]).
  - destruct (analysed req m); [destruct H as [<-|[]]; auto | destruct H].
  - destruct H as [-> ->]. left; reflexivity.
Qed.

Definition group_item (req : list N) (g d : list module) (i : item) : Prop :=
  In (it_mod i) g /\
  match it_stage i with
  | SECOND_PASS => it_deps i = d ++ g /\ length g <> 1
  | FIRST_PASS => it_deps i = d /\ length g <> 1
  | SINGLE_PASS => it_deps i = d /\ length g = 1
  end /\
  it_act i = (if is_first (it_stage i) then first_act req (it_mod i) else get_module_action req (it_mod i)) /\
  (it_stage i = SECOND_PASS -> analysed req (it_mod i) = true).

Lemma in_cycle : forall req g d i, length g <> 1 ->
  In i (firsts req d g ++ seconds req (d ++ g) g) -> group_item req g d i.
Proof.
  intros req g d i Hl Hi. apply in_app_or in Hi. destruct Hi as [Hi|Hi].
  - apply in_firsts in Hi. destruct Hi as [m [Hm ->]]. repeat split; auto. intros E. discriminate E.
  - apply in_seconds in Hi. destruct Hi as [m [Hm [Ha ->]]]. repeat split; auto.
Qed.

Lemma in_yield_group : forall req g d i, In i (yield_group req (g, d)) -> group_item req g d i.
Proof.
  intros req g d i H. rewrite yield_group_eq in H. destruct g as [|m [|m2 r]].
  - apply in_cycle; [discriminate | exact H].
  - destruct H as [<-|[]]. repeat split; auto; [left; reflexivity | intros E; discriminate E].
  - apply in_cycle; [discriminate | exact H].
Qed.

Definition item_ok (req : list N) (i : item) : Prop :=
  is_default (it_act i) = is_default (get_module_action req (it_mod i)) /\
  (is_first (it_stage i) = true -> is_check (it_act i) = false) /\
  (is_first (it_stage i) = false -> it_act i = get_module_action req (it_mod i)).

Lemma in_yield : forall req ss i, In i (yield_sorted_modules req ss) <-> exists gd, In gd ss /\ In i (yield_group req gd).
Proof. intros. apply in_flat_map. Qed.

Lemma yield_ok : forall req ss i, In i (yield_sorted_modules req ss) -> item_ok req i.
Proof.
  intros req ss i H. apply in_yield in H. destruct H as [[g d] [_ H]].
  destruct (in_yield_group _ _ _ _ H) as [_ [_ [Ha _]]]. unfold item_ok. rewrite Ha. unfold first_act.
  destruct (is_first (it_stage i)); [destruct (get_module_action req (it_mod i))|]; repeat split; auto; discriminate.
Qed.

Lemma run_app : forall req a b s,
  run req (a ++ b) s = match run req a s with Some s' => run req b s' | None => None end.
Proof.
  induction a as [|i r IH]; simpl; intros b s; [reflexivity|].
  destruct (setup_step req s i); [apply IH | reflexivity].
Qed.

Lemma run_inv : forall (P : st -> Prop) req items s s',
  run req items s = Some s' ->
  (forall i s1 s2, In i items -> P s1 -> setup_step req s1 i = Some s2 -> P s2) -> P s -> P s'.
Proof.
  induction items as [|i r IH]; simpl; intros s s' H Hstep Hs.
  - inversion H; subst; exact Hs.
  - destruct (setup_step req s i) as [s1|] eqn:E; [|discriminate].
    apply (IH _ _ H); [intros j s2 s3 Hj; apply Hstep; right; exact Hj | apply (Hstep i s s1); auto].
Qed.

(* the output and the imports file of the statement written for an item *)
Definition item_out (i : item) : path := PPyi (m_key (it_mod i)) (is_first (it_stage i)).
Definition item_file (i : item) : impfile := (m_name (it_mod i), is_first (it_stage i)).

Inductive step_to (req : list N) (s : st) (i : item) : st -> Prop :=
| step_skip : all_requested_done req (files s) = true -> step_to req s i s
| step_default : all_requested_done req (files s) = false -> is_default (it_act i) = true ->
    step_to req s i (St (files s) (m2imp s) ((it_mod i, PDefault) :: m2out s) (plan s) (store s))
| step_write : forall im ds,
    all_requested_done req (files s) = false -> is_default (it_act i) = false ->
    get_imports_map (it_deps i) (m2imp s) (m2out s) [] = Some im ->
    declared_deps (it_deps i) (m2out s) = Some ds ->
    step_to req s i
      (St (if is_first (it_stage i) then files s else m_full (it_mod i) :: files s)
          ((it_mod i, im) :: m2imp s) ((it_mod i, item_out i) :: m2out s)
          (plan s ++ [Step (item_out i) (it_act i) (m_full (it_mod i)) ds (item_file i) im (m_name (it_mod i))])
          ((item_file i, im) :: store s)).

Lemma setup_step_cases : forall req s i s', setup_step req s i = Some s' -> step_to req s i s'.
Proof.
  intros req s [[[m a] deps] stg] s' H. unfold setup_step in H.
  destruct (all_requested_done req (files s)) eqn:Ed; [injection H as <-; apply step_skip, Ed|].
  destruct (is_default a) eqn:Ea; [injection H as <-; apply step_default; assumption|].
  destruct (get_imports_map deps (m2imp s) (m2out s) []) as [im|] eqn:Eg; [|discriminate].
  destruct (declared_deps deps (m2out s)) as [ds|] eqn:Edd; [|discriminate].
  injection H as <-. apply (step_write req s (m, a, deps, stg) im ds); assumption.
Qed.

Lemma step_plan : forall req s i s1, setup_step req s i = Some s1 ->
  (plan s1 = plan s /\ store s1 = store s) \/
  exists t, plan s1 = plan s ++ [t] /\ store s1 = (s_impfile t, s_imports t) :: store s /\
            s_out t = item_out i /\ s_impfile t = item_file i.
Proof.
  intros req s i s1 E.
  destruct (setup_step_cases _ _ _ _ E); [left; auto | left; auto | right; eexists; repeat split].
Qed.

Definition anc (p : list step) : step -> step -> Prop := clos_trans step (dep_edge p).

Lemma dep_edge_mono : forall p t a b, dep_edge p a b -> dep_edge (p ++ [t]) a b.
Proof. intros p t a b [H1 [H2 H3]]. repeat split; auto; apply in_or_app; auto. Qed.

Lemma anc_mono : forall p t a b, anc p a b -> anc (p ++ [t]) a b.
Proof.
  intros p t a b H. induction H.
  - apply t_step. apply dep_edge_mono; auto.
  - eapply t_trans; eauto.
Qed.

Definition entry_ok (p : list step) (t : step) (e : N * path) : Prop :=
  snd e = PDefault \/ exists t', In t' p /\ s_out t' = snd e /\ anc p t' t.

Record inv (req : list N) (s : st) : Prop := {
  inv_imp : forall m im, lookup m (m2imp s) = Some im ->
            exists t, In t (plan s) /\ s_imports t = im /\ lookup m (m2out s) = Some (s_out t);
  inv_out : forall m p, lookup m (m2out s) = Some p -> p <> PDefault -> exists t, In t (plan s) /\ s_out t = p;
  inv_act : forall m, lookup m (m2imp s) <> None -> is_default (get_module_action req m) = false;
  inv_nd  : forall t, In t (plan s) -> s_out t <> PDefault;
  inv_ent : forall t e, In t (plan s) -> In e (s_imports t) -> entry_ok (plan s) t e }.

Lemma inv0 : forall req, inv req st0.
Proof.
  intros req. constructor; simpl; intros; try discriminate; try tauto.
Qed.

Lemma entry_ok_mono : forall p t0 t e, entry_ok p t e -> entry_ok (p ++ [t0]) t e.
Proof.
  intros p t0 t e [H|[t' [H1 [H2 H3]]]]; [left; exact H|].
  right. exists t'. split; [apply in_or_app; left; exact H1 | split; [exact H2 | apply anc_mono, H3]].
Qed.

Lemma inv_write : forall req s m fs t st',
  inv req s -> is_default (get_module_action req m) = false -> s_out t <> PDefault ->
  (forall e, In e (s_imports t) -> entry_ok (plan s ++ [t]) t e) ->
  inv req (St fs ((m, s_imports t) :: m2imp s) ((m, s_out t) :: m2out s) (plan s ++ [t]) st').
Proof.
  intros req s m fs t st' [Hi Ho Ha Hn He] Hm Ht Hent.
  assert (Hlast : In t (plan s ++ [t])) by (apply in_or_app; right; left; reflexivity).
  constructor; cbn [m2imp m2out plan lookup].
  - intros m' im' Hl. destruct (module_eqb m' m).
    + injection Hl as <-. exists t. auto.
    + destruct (Hi _ _ Hl) as [t0 [H1 H2]]. exists t0. split; [apply in_or_app; left; exact H1 | exact H2].
  - intros m' p Hl Hne. destruct (module_eqb m' m).
    + injection Hl as <-. exists t. auto.
    + destruct (Ho _ _ Hl Hne) as [t0 [H1 H2]]. exists t0. split; [apply in_or_app; left; exact H1 | exact H2].
  - intros m' Hl. destruct (module_eqb m' m) eqn:E; [apply module_eqb_eq in E; subst m'; exact Hm | exact (Ha _ Hl)].
  - intros t0 Hin. apply in_app_or in Hin. destruct Hin as [Hin|[<-|[]]]; [exact (Hn _ Hin) | exact Ht].
  - intros t0 e Hin He0. apply in_app_or in Hin.
    destruct Hin as [Hin|[<-|[]]]; [apply entry_ok_mono, (He _ _ Hin He0) | exact (Hent e He0)].
Qed.

Lemma inv_step : forall req s i s',
  item_ok req i -> inv req s -> setup_step req s i = Some s' -> inv req s'.
Proof.
  intros req s i s' [Hk _] Hinv Hs.
  destruct (setup_step_cases _ _ _ _ Hs) as [_ | _ Hd | im ds _ Hnd Hg Hdd]; auto.
  - (* generate default *)
    destruct Hinv as [Hi Ho Ha Hn He]. constructor; simpl; auto.
    + intros m im Hl. destruct (Hi _ _ Hl) as [t [H1 [H2 H3]]].
      exists t. repeat split; auto.
      destruct (module_eqb m (it_mod i)) eqn:E; auto.
      apply module_eqb_eq in E. subst m.
      assert (lookup (it_mod i) (m2imp s) <> None) by congruence.
      apply Ha in H. congruence.
    + intros m p Hl Hne. destruct (module_eqb m (it_mod i)) eqn:E.
      * inversion Hl; congruence.
      * eauto.
  - (* a build statement: each entry of its imports map comes from a dependency d, either out of d's own map
       (an ancestor of d's statement, which is declared) or as d's output (declared) *)
    set (t := Step (item_out i) (it_act i) (m_full (it_mod i)) ds (item_file i) im (m_name (it_mod i))).
    apply (inv_write req s (it_mod i) _ t); [exact Hinv | congruence | discriminate |].
    destruct Hinv as [Hi Ho Ha Hn He]. intros e He0.
    assert (Hedge : forall d t0, In d (it_deps i) -> In t0 (plan s) -> lookup d (m2out s) = Some (s_out t0) ->
                    dep_edge (plan s ++ [t]) t0 t).
    { intros d t0 Hd Hin Hl. repeat split.
      - apply in_or_app; auto.
      - apply in_or_app; right; left; reflexivity.
      - simpl. eapply dd_covers; eauto. }
    destruct (gim_entries _ _ _ _ _ _ Hg He0) as [[] | [d [Hd [[imd [Hl Hin]] | [Hl Hk']]]]].
    + destruct (Hi _ _ Hl) as [t0 [H1 [H2 H3]]]. subst imd.
      destruct (He _ _ H1 Hin) as [Hdef | [t' [H4 [H5 H6]]]]; [left; auto|].
      right. exists t'. split; [apply in_or_app; auto|]. split; auto.
      eapply t_trans; [apply anc_mono; eauto|]. apply t_step. eapply Hedge; eauto.
    + destruct (path_eqb (snd e) PDefault) eqn:Ep; [left; apply path_eqb_eq; auto|].
      assert (snd e <> PDefault) by (intro Hc; apply path_eqb_eq in Hc; congruence).
      destruct (Ho _ _ Hl H) as [t0 [H1 H2]].
      right. exists t0. split; [apply in_or_app; auto|]. split; auto.
      apply t_step. eapply Hedge; eauto. rewrite H2; auto.
Qed.

Lemma imports_entries_produced_lemma : forall req ss s,
  setup_build req ss = Some s ->
  forall t k p, In t (plan s) -> In (k, p) (s_imports t) ->
  p = PDefault \/ exists t', In t' (plan s) /\ s_out t' = p /\ clos_trans step (dep_edge (plan s)) t' t.
Proof.
  intros req ss s H t k p Hin He. unfold setup_build in H.
  assert (Hinv : inv req s).
  { apply (run_inv (inv req) _ _ _ _ H); [|apply inv0].
    intros i s1 s2 Hi Hs E. exact (inv_step _ _ _ _ (yield_ok _ _ _ Hi) Hs E). }
  destruct (inv_ent _ _ Hinv _ _ Hin He) as [Hd|Hx]; auto.
Qed.

(* A (parallel) schedule gives every statement a start and a finish time; the build tool starts a
   statement only when every statement producing one of its declared inputs has finished. *)
Definition respects (p : list step) (start finish : step -> nat) : Prop :=
  (forall t, In t p -> start t <= finish t) /\
  (forall a b, dep_edge p a b -> finish a <= start b).

Lemma anc_finishes_before : forall p start finish a b,
  respects p start finish -> anc p a b -> finish a <= start b.
Proof.
  intros p start finish a b [Hle Hdep] H. induction H as [a b H | a c b H1 IH1 H2 IH2].
  - apply Hdep; auto.
  - assert (In c p).
    { clear -H2. induction H2 as [x y [? [? ?]] | ]; auto. }
    specialize (Hle c H). lia.
Qed.

Lemma any_schedule_safe_lemma : forall req ss s start finish,
  setup_build req ss = Some s -> respects (plan s) start finish ->
  forall t k p, In t (plan s) -> In (k, p) (s_imports t) -> p <> PDefault ->
  exists t', In t' (plan s) /\ s_out t' = p /\ finish t' <= start t.
Proof.
  intros req ss s start finish H Hr t k p Hin He Hne.
  destruct (imports_entries_produced_lemma _ _ _ H _ _ _ Hin He) as [Hd | [t' [H1 [H2 H3]]]]; [congruence|].
  exists t'. repeat split; auto. eapply anc_finishes_before; eauto.
Qed.

(* sequential schedules: any linearisation in which every declared dependency comes first *)
Definition topological (p sigma : list step) : Prop :=
  forall l1 t l2, sigma = l1 ++ t :: l2 -> forall t', dep_edge p t' t -> In t' l1.

Lemma anc_occurs_before : forall p sigma, topological p sigma ->
  forall a b, anc p a b -> forall l1 l2, sigma = l1 ++ b :: l2 -> In a l1.
Proof.
  intros p sigma Ht a b H. induction H as [a b H | a c b H1 IH1 H2 IH2]; intros l1 l2 Hs.
  - eapply Ht; eauto.
  - specialize (IH2 _ _ Hs). apply in_split in IH2. destruct IH2 as [la [lb ->]].
    rewrite <- app_assoc in Hs. simpl in Hs.
    specialize (IH1 _ _ Hs). apply in_or_app; auto.
Qed.

(* declared dependencies point backwards in the file *)

Fixpoint deps_back (pre l : list step) : Prop :=
  match l with
  | [] => True
  | t :: r => (forall p, In p (s_deps t) -> exists t', In t' pre /\ s_out t' = p) /\ deps_back (pre ++ [t]) r
  end.

Lemma deps_back_snoc : forall l pre t,
  deps_back pre l -> (forall p, In p (s_deps t) -> exists t', In t' (pre ++ l) /\ s_out t' = p) ->
  deps_back pre (l ++ [t]).
Proof.
  induction l as [|x r IH]; simpl; intros pre t H Ht.
  - split; auto. intros p Hp. rewrite app_nil_r in Ht. auto.
  - destruct H as [H1 H2]. split; auto. apply IH; auto.
    intros p Hp. rewrite <- app_assoc. simpl. auto.
Qed.

Lemma deps_back_split : forall a pre l t b,
  deps_back pre l -> l = a ++ t :: b -> forall p, In p (s_deps t) -> exists t', In t' (pre ++ a) /\ s_out t' = p.
Proof.
  induction a as [|x r IH]; simpl; intros pre l t b H -> p Hp.
  - destruct H as [H _]. rewrite app_nil_r. auto.
  - destruct H as [_ H]. destruct (IH _ _ _ _ H eq_refl _ Hp) as [t' [H1 H2]].
    exists t'. split; auto. rewrite <- app_assoc in H1. exact H1.
Qed.

Lemma back_step : forall req s i s',
  inv req s -> deps_back [] (plan s) -> setup_step req s i = Some s' -> deps_back [] (plan s').
Proof.
  intros req s i s' Hinv Hb Hs.
  destruct (setup_step_cases _ _ _ _ Hs) as [_ | _ Hd | im ds _ Hnd Hg Hdd]; auto.
  simpl. apply deps_back_snoc; auto. simpl.
  intros p Hp. destruct (dd_sound _ _ _ _ Hdd Hp) as [Hne [d [_ Hl]]].
  destruct (inv_out _ _ Hinv _ _ Hl Hne) as [t' [H1 H2]]. exists t'; auto.
Qed.

Lemma plan_deps_back : forall req ss s, setup_build req ss = Some s -> deps_back [] (plan s).
Proof.
  intros req ss s H.
  apply (run_inv (fun s => inv req s /\ deps_back [] (plan s)) _ _ _ _ H); [|split; [apply inv0 | exact I]].
  intros i s1 s2 Hi [Hinv Hb] E. split; [exact (inv_step _ _ _ _ (yield_ok _ _ _ Hi) Hinv E) | exact (back_step _ _ _ _ Hinv Hb E)].
Qed.

Fixpoint index_of (x : path) (l : list path) : nat :=
  match l with [] => 0 | y :: r => if path_eqb x y then 0 else S (index_of x r) end.

Lemma index_of_in_app : forall x l1 l2, In x l1 -> index_of x (l1 ++ l2) = index_of x l1 /\ index_of x l1 < length l1.
Proof.
  induction l1 as [|y r IH]; simpl; intros l2 H; [tauto|].
  destruct (path_eqb x y) eqn:E; [split; [reflexivity|lia]|].
  destruct H as [->|H]; [assert (path_eqb x x = true) by (apply path_eqb_eq; reflexivity); congruence|].
  destruct (IH l2 H). split; lia.
Qed.

Lemma index_of_first : forall x l1 l2, ~ In x l1 -> index_of x (l1 ++ x :: l2) = length l1.
Proof.
  induction l1 as [|y r IH]; simpl; intros l2 H.
  - assert (path_eqb x x = true) by (apply path_eqb_eq; reflexivity). rewrite H0. reflexivity.
  - destruct (path_eqb x y) eqn:E; [apply path_eqb_eq in E; subst; tauto|].
    rewrite IH; auto.
Qed.

Lemma edge_rank : forall p, deps_back [] p -> NoDup (map s_out p) ->
  forall a b, dep_edge p a b -> index_of (s_out a) (map s_out p) < index_of (s_out b) (map s_out p).
Proof.
  intros p Hb Hnd a b [Ha [Hbn He]].
  apply in_split in Hbn. destruct Hbn as [l1 [l2 Hp]].
  destruct (deps_back_split _ _ _ _ _ Hb Hp _ He) as [t' [H1 H2]]. simpl in H1.
  rewrite Hp in *. rewrite map_app in *. simpl in *.
  assert (Hin : In (s_out a) (map s_out l1)) by (rewrite <- H2; apply in_map; auto).
  destruct (index_of_in_app _ _ (s_out b :: map s_out l2) Hin) as [E1 E2]. rewrite E1.
  rewrite index_of_first.
  - rewrite map_length in E2. rewrite map_length. exact E2.
  - apply NoDup_remove_2 in Hnd. intro Hc. apply Hnd. apply in_or_app; auto.
Qed.

Definition file_rank (p : list step) (t : step) : nat := index_of (s_out t) (map s_out p).

Lemma file_order_respects_lemma : forall req ss s,
  setup_build req ss = Some s -> NoDup (map s_out (plan s)) ->
  respects (plan s) (file_rank (plan s)) (fun t => S (file_rank (plan s) t)) /\
  respects (plan s) (fun t => 2 * file_rank (plan s) t) (fun t => 2 * file_rank (plan s) t + 1).
Proof.
  intros req ss s H Hnd. pose proof (plan_deps_back _ _ _ H) as Hb.
  split; split; intros.
  - lia.
  - pose proof (edge_rank _ Hb Hnd _ _ H0). unfold file_rank. lia.
  - lia.
  - pose proof (edge_rank _ Hb Hnd _ _ H0). unfold file_rank. lia.
Qed.

(* a cycle would finish before it starts in the file order *)
Lemma plan_acyclic_lemma : forall req ss s,
  setup_build req ss = Some s -> NoDup (map s_out (plan s)) ->
  forall t, ~ clos_trans step (dep_edge (plan s)) t t.
Proof.
  intros req ss s H Hnd t Hc. destruct (file_order_respects_lemma _ _ _ H Hnd) as [R _].
  pose proof (anc_finishes_before _ _ _ t t R Hc) as Hlt. cbv beta in Hlt. lia.
Qed.

(* outputs are unique when _module_to_output_path is injective on the modules *)

Inductive subseq {A} : list A -> list A -> Prop :=
| sub_nil : subseq [] []
| sub_skip : forall x l1 l2, subseq l1 l2 -> subseq l1 (x :: l2)
| sub_take : forall x l1 l2, subseq l1 l2 -> subseq (x :: l1) (x :: l2).

Lemma subseq_in : forall {A} (l1 l2 : list A), subseq l1 l2 -> forall x, In x l1 -> In x l2.
Proof. induction 1; simpl; intros y Hy; auto. destruct Hy; auto. Qed.

Lemma subseq_nodup : forall {A} (l1 l2 : list A), subseq l1 l2 -> NoDup l2 -> NoDup l1.
Proof.
  induction 1; intros Hn; auto.
  - inversion Hn; auto.
  - inversion Hn; subst. constructor; auto. intro Hc. apply H2. eapply subseq_in; eauto.
Qed.

Lemma subseq_nil_l : forall {A} (l : list A), subseq [] l.
Proof. induction l; constructor; auto. Qed.

Lemma run_outs : forall req items s s', run req items s = Some s' ->
  exists l, map s_out (plan s') = map s_out (plan s) ++ l /\ subseq l (map item_out items).
Proof.
  induction items as [|i r IH]; simpl; intros s s' H.
  - inversion H; subst. exists []. rewrite app_nil_r. split; [reflexivity|constructor].
  - destruct (setup_step req s i) as [s1|] eqn:E; [|discriminate].
    destruct (IH _ _ H) as [l [H1 H2]].
    destruct (step_plan _ _ _ _ E) as [[Ep _] | [t [Ep [_ [Eo _]]]]]; rewrite Ep in H1.
    + exists l. split; [exact H1 | apply sub_skip, H2].
    + rewrite map_app, <- app_assoc in H1. cbn [map app] in H1. rewrite Eo in H1.
      exists (item_out i :: l). split; [exact H1 | apply sub_take, H2].
Qed.

Lemma nodup_app : forall {A} (l1 l2 : list A),
  NoDup l1 -> NoDup l2 -> (forall x, In x l1 -> ~ In x l2) -> NoDup (l1 ++ l2).
Proof.
  induction l1 as [|a r IH]; simpl; intros l2 H1 H2 Hd; auto.
  inversion H1; subst. constructor.
  - intro Hc. apply in_app_or in Hc. destruct Hc; [tauto|]. eapply Hd; eauto.
  - apply IH; auto.
Qed.

Lemma nodup_app_inv : forall {A} (l1 l2 : list A),
  NoDup (l1 ++ l2) -> NoDup l1 /\ NoDup l2 /\ (forall x, In x l1 -> ~ In x l2).
Proof.
  induction l1 as [|a r IH]; simpl; intros l2 H.
  - repeat split; auto. constructor.
  - inversion H; subst. destruct (IH _ H3) as [Ha [Hb Hc]]. repeat split; auto.
    + constructor; auto. intro Hx. apply H2. apply in_or_app; auto.
    + intros x [->|Hx]; auto. intro Hx. apply H2. apply in_or_app; auto.
Qed.

Lemma nodup_map_filter : forall {A B} (f : A -> B) (P : A -> bool) l, NoDup (map f l) -> NoDup (map f (filter P l)).
Proof.
  induction l as [|a r IH]; simpl; intros H; auto.
  inversion H; subst. destruct (P a); simpl; auto. constructor; auto.
  intro Hc. apply H2. apply in_map_iff in Hc. destruct Hc as [x [Hx Hin]].
  apply filter_In in Hin. destruct Hin. apply in_map_iff. exists x; auto.
Qed.

Lemma NoDup_map_inj : forall {A B} (f : A -> B) l, (forall x y, f x = f y -> x = y) -> NoDup l -> NoDup (map f l).
Proof.
  intros A B f l Hf. induction 1 as [|a l Ha _ IH]; simpl; constructor; [|exact IH].
  intro Hc. apply in_map_iff in Hc. destruct Hc as [x [E Hx]]. apply Hf in E. subst x. exact (Ha Hx).
Qed.

Lemma map_flat_map : forall {A B C} (f : B -> C) (g : A -> list B) l,
  map f (flat_map g l) = flat_map (fun x => map f (g x)) l.
Proof. induction l as [|a l IH]; simpl; [reflexivity | rewrite map_app, IH; reflexivity]. Qed.

Lemma NoDup_flat_map_key : forall {X Y K} (h : X -> list Y) (key : Y -> K) (keys : X -> list K) l,
  (forall x, NoDup (keys x) -> NoDup (h x)) -> (forall x y, In y (h x) -> In (key y) (keys x)) ->
  NoDup (flat_map keys l) -> NoDup (flat_map h l).
Proof.
  intros X Y K h key keys l Hn Hk. induction l as [|a l IH]; simpl; intros H; [constructor|].
  apply nodup_app_inv in H. destruct H as [H1 [H2 H3]].
  apply nodup_app; [apply Hn, H1 | apply IH, H2 |].
  intros y Hy1 Hy2. apply in_flat_map in Hy2. destruct Hy2 as [x [Hx Hy2]].
  apply (H3 (key y)); [apply Hk, Hy1 | apply in_flat_map; exists x; split; [exact Hx | apply Hk, Hy2]].
Qed.

(* an item is identified by a key of its module and by whether it is a first pass *)
Definition item_label {A} (f : module -> A) (i : item) : A * bool := (f (it_mod i), is_first (it_stage i)).

Lemma firsts_labels : forall {A} (f : module -> A) req d l,
  map (item_label f) (firsts req d l) = map (fun m => (f m, true)) l.
Proof. intros. unfold firsts. rewrite map_map. reflexivity. Qed.

Lemma seconds_labels : forall {A} (f : module -> A) req d2 l,
  map (item_label f) (seconds req d2 l) = map (fun m => (f m, false)) (filter (analysed req) l).
Proof.
  induction l as [|a l IH]; [reflexivity|]. unfold seconds in *. cbn [flat_map filter].
  destruct (analysed req a); cbn [map app]; rewrite IH; reflexivity.
Qed.

Lemma group_labels_nodup : forall {A} (f : module -> A) req gd,
  NoDup (map f (fst gd)) -> NoDup (map (item_label f) (yield_group req gd)).
Proof.
  intros A f req [g d] H. cbn [fst] in H. rewrite yield_group_eq.
  assert (P : forall (b : bool) l, NoDup (map f l) -> NoDup (map (fun m => (f m, b)) l)).
  { intros b l Hl. rewrite <- (map_map f (fun k => (k, b))). apply NoDup_map_inj; [|exact Hl].
    intros x y E. injection E as E. exact E. }
  assert (C : NoDup (map (item_label f) (firsts req d g ++ seconds req (d ++ g) g))).
  { rewrite map_app, firsts_labels, seconds_labels.
    apply nodup_app; [apply P, H | apply P, nodup_map_filter, H |].
    intros x H1 H2. apply in_map_iff in H1. apply in_map_iff in H2.
    destruct H1 as [a [<- _]]. destruct H2 as [b [Hb _]]. discriminate Hb. }
  destruct g as [|m [|m2 r]]; [exact C | repeat constructor; simpl; tauto | exact C].
Qed.

Lemma yield_labels_nodup : forall {A} (f : module -> A) req ss,
  NoDup (map f (members ss)) -> NoDup (map (item_label f) (yield_sorted_modules req ss)).
Proof.
  intros A f req ss. unfold members, yield_sorted_modules. rewrite !map_flat_map.
  apply (NoDup_flat_map_key _ fst); [intros gd; apply group_labels_nodup|].
  intros [g d] y Hy. apply in_map_iff in Hy. destruct Hy as [i [<- Hi]].
  apply (in_map f _ (it_mod i)). apply (in_yield_group _ _ _ _ Hi).
Qed.

Lemma outputs_unique_lemma : forall req ss s,
  setup_build req ss = Some s -> NoDup (map m_key (members ss)) -> NoDup (map s_out (plan s)).
Proof.
  intros req ss s H Hk. unfold setup_build in H.
  destruct (run_outs _ _ _ _ H) as [l [H1 H2]]. simpl in H1. rewrite H1.
  apply (subseq_nodup _ _ H2).
  rewrite <- (map_map (item_label m_key) (fun kb => PPyi (fst kb) (snd kb))).
  apply NoDup_map_inj; [|apply yield_labels_nodup, Hk].
  intros [k b] [k' b'] E. injection E as -> ->. reflexivity.
Qed.

(* every requested, analysable file gets exactly one CHECK statement *)

Definition fin (i : item) : bool := negb (is_first (it_stage i)) && negb (is_default (it_act i)).
Definition final_for (f : N) (i : item) : bool := fin i && (m_full (it_mod i) =? f)%N.

Lemma final_for_true : forall f i, final_for f i = true ->
  is_first (it_stage i) = false /\ is_default (it_act i) = false /\ m_full (it_mod i) = f.
Proof.
  intros f i H. apply andb_prop in H. destruct H as [H Hf]. apply andb_prop in H. destruct H as [H1 H2].
  apply negb_true_iff in H1, H2. apply N.eqb_eq in Hf. auto.
Qed.

Lemma checks_of_snoc : forall f p t,
  checks_of f (p ++ [t]) = checks_of f p + (if is_check (s_action t) && (s_input t =? f)%N then 1 else 0).
Proof.
  intros. unfold checks_of. rewrite filter_app, app_length. simpl.
  destruct (is_check (s_action t) && (s_input t =? f)%N); reflexivity.
Qed.

Lemma all_done_in : forall req fs f, all_requested_done req fs = true -> In f req -> In f fs.
Proof.
  intros req fs f H Hin. unfold all_requested_done in H. rewrite forallb_forall in H.
  apply memN_In. apply H; auto.
Qed.

Lemma step_nonfinal : forall req f s i s1,
  setup_step req s i = Some s1 -> item_ok req i -> final_for f i = false ->
  checks_of f (plan s1) = checks_of f (plan s) /\ (In f (files s1) -> In f (files s)).
Proof.
  intros req f s i s1 Hs [_ [Hf _]] Hnf.
  destruct (setup_step_cases _ _ _ _ Hs) as [_ | _ Hd | im ds _ Hnd Hg Hdd]; auto.
  simpl. rewrite checks_of_snoc. simpl.
  unfold final_for, fin in Hnf. rewrite Hnd in Hnf. simpl in Hnf. rewrite andb_true_r in Hnf.
  destruct (is_first (it_stage i)) eqn:E1; simpl in *.
  - rewrite (Hf eq_refl). simpl. split; [lia|auto].
  - rewrite Hnf. rewrite andb_false_r. split; [lia|].
    intros [H|H]; auto. apply N.eqb_neq in Hnf. congruence.
Qed.

Lemma step_final : forall req f s i s1,
  setup_step req s i = Some s1 -> final_for f i = true -> In f req -> ~ In f (files s) ->
  checks_of f (plan s1) = checks_of f (plan s) + (if is_check (it_act i) then 1 else 0).
Proof.
  intros req f s i s1 Hs Hfin Hreq Hnin.
  destruct (final_for_true _ _ Hfin) as [H1 [H2 H3]].
  destruct (setup_step_cases _ _ _ _ Hs) as [Hd | _ Hd | im ds _ Hnd Hg Hdd].
  - exfalso. apply Hnin. eapply all_done_in; eauto.
  - congruence.
  - simpl. rewrite checks_of_snoc. simpl. rewrite H3, N.eqb_refl, andb_true_r. reflexivity.
Qed.

Lemma run_nonfinal : forall req f items s s',
  run req items s = Some s' -> (forall i, In i items -> item_ok req i) ->
  (forall i, In i items -> final_for f i = false) ->
  checks_of f (plan s') = checks_of f (plan s) /\ (In f (files s') -> In f (files s)).
Proof.
  induction items as [|i r IH]; simpl; intros s s' H Hok Hnf.
  - inversion H; auto.
  - destruct (setup_step req s i) as [s1|] eqn:E; [|discriminate].
    destruct (step_nonfinal req f _ _ _ E (Hok _ (or_introl eq_refl)) (Hnf _ (or_introl eq_refl))) as [A B].
    destruct (IH _ _ H (fun i h => Hok i (or_intror h)) (fun i h => Hnf i (or_intror h))) as [C D].
    split; [congruence | auto].
Qed.

Lemma group_check_item : forall req g d m, In m g -> get_module_action req m = CHECK ->
  exists i, In i (yield_group req (g, d)) /\ it_mod i = m /\ is_first (it_stage i) = false /\ it_act i = CHECK.
Proof.
  intros req g d m Hin Ha. rewrite yield_group_eq.
  assert (C : exists i, In i (firsts req d g ++ seconds req (d ++ g) g) /\
                        it_mod i = m /\ is_first (it_stage i) = false /\ it_act i = CHECK).
  { exists (m, get_module_action req m, d ++ g, SECOND_PASS). split; [|auto].
    apply in_or_app. right. apply in_seconds. exists m. unfold analysed. rewrite Ha. auto. }
  destruct g as [|m1 [|m2 r]]; [exact C | | exact C].
  destruct Hin as [<-|[]]. exists (m1, get_module_action req m1, d, SINGLE_PASS). simpl. auto.
Qed.

Lemma yield_check_item : forall req ss m, In m (members ss) -> get_module_action req m = CHECK ->
  exists i, In i (yield_sorted_modules req ss) /\
            it_mod i = m /\ is_first (it_stage i) = false /\ it_act i = CHECK.
Proof.
  intros req ss m Hin Ha. unfold members in Hin. apply in_flat_map in Hin. destruct Hin as [[g d] [Hg Hm]].
  destruct (group_check_item req g d m Hm Ha) as [i [Hi H]].
  exists i. split; [apply in_yield; exists (g, d); auto | exact H].
Qed.

(* The items are pre ++ i0 :: post with i0 the final item of the file.  Distinct full paths make i0 the only
   item labelled (file, false), so neither pre nor post writes a CHECK for the file or marks it done;
   when i0 is reached the file is still pending, so the step is not skipped and writes the one CHECK. *)
Lemma checked_once_lemma : forall req ss s m,
  setup_build req ss = Some s -> NoDup (map m_full (members ss)) ->
  In m (members ss) -> get_module_action req m = CHECK ->
  checks_of (m_full m) (plan s) = 1.
Proof.
  intros req ss s m H Hnd Hin Ha. unfold setup_build in H.
  pose proof (proj1 (check_action_lemma _ _ Ha)) as Hreq.
  pose proof (yield_labels_nodup m_full req ss Hnd) as Hl.
  pose proof (yield_ok req ss) as Hok.
  destruct (yield_check_item req ss m Hin Ha) as [i0 [Hi0 [Hm [Hf Hc]]]].
  apply in_split in Hi0. destruct Hi0 as [pre [post E]]. rewrite E in *.
  assert (Hnf : forall j, In j (pre ++ post) -> final_for (m_full m) j = false).
  { intros j Hj. destruct (final_for (m_full m) j) eqn:Fj; [|reflexivity]. exfalso.
    rewrite map_app in Hl. cbn [map] in Hl. apply NoDup_remove_2 in Hl. apply Hl. rewrite <- map_app.
    replace (item_label m_full i0) with (item_label m_full j); [apply in_map, Hj|].
    destruct (final_for_true _ _ Fj) as [F1 [_ F2]].
    unfold item_label. rewrite F1, F2, Hm, Hf. reflexivity. }
  assert (Hfin : final_for (m_full m) i0 = true).
  { unfold final_for, fin. rewrite Hf, Hc, Hm, N.eqb_refl. reflexivity. }
  rewrite run_app in H. destruct (run req pre st0) as [s1|] eqn:R1; [|discriminate]. cbn [run] in H.
  destruct (setup_step req s1 i0) as [s2|] eqn:E2; [|discriminate].
  destruct (run_nonfinal req (m_full m) _ _ _ R1) as [C1 F1];
    [intros j h; apply Hok, in_or_app; left; exact h | intros j h; apply Hnf, in_or_app; left; exact h|].
  destruct (run_nonfinal req (m_full m) _ _ _ H) as [C3 _];
    [intros j h; apply Hok, in_or_app; right; right; exact h | intros j h; apply Hnf, in_or_app; right; exact h|].
  rewrite C3, (step_final _ _ _ _ _ E2 Hfin Hreq F1), C1, Hc. reflexivity.
Qed.

(* well-formed sorted_sources never raise KeyError *)

Definition covered (req : list N) (s : st) (l : list module) : Prop :=
  all_requested_done req (files s) = true \/ forall x, In x l -> lookup x (m2out s) <> None.

Lemma covered_weaken : forall req s l l', covered req s l -> (forall x, In x l' -> In x l) -> covered req s l'.
Proof. intros req s l l' [H|H] Hi; [left; auto | right; auto]. Qed.

Lemma step_covered : forall req s l i,
  covered req s l -> (forall d, In d (it_deps i) -> In d l) ->
  exists s1, setup_step req s i = Some s1 /\ covered req s1 (l ++ [it_mod i]).
Proof.
  intros req s l [[[m a] deps] stg] Hc Hd. unfold it_deps, it_mod in *. simpl in *.
  destruct (all_requested_done req (files s)) eqn:Ed.
  - exists s. split; [reflexivity | left; auto].
  - destruct Hc as [Hc|Hc]; [congruence|].
    assert (Hnew : forall (o : path) x, In x (l ++ [m]) -> lookup x ((m, o) :: m2out s) <> None).
    { intros o x Hx. simpl. destruct (module_eqb x m) eqn:E; [discriminate|].
      apply in_app_or in Hx. destruct Hx as [Hx|[<-|[]]]; auto.
      rewrite module_eqb_refl in E. discriminate. }
    destruct (is_default a).
    + eexists. split; [reflexivity|]. right. simpl. apply Hnew.
    + pose proof (gim_some deps (m2imp s) (m2out s) [] (fun d h => Hc d (Hd d h))) as G.
      pose proof (dd_some deps (m2out s) (fun d h => Hc d (Hd d h))) as D.
      destruct (get_imports_map deps (m2imp s) (m2out s) []); [|congruence].
      destruct (declared_deps deps (m2out s)); [|congruence].
      eexists. split; [reflexivity|]. right. simpl. apply Hnew.
Qed.

Fixpoint deps_ok (l : list module) (items : list item) : Prop :=
  match items with
  | [] => True
  | i :: r => (forall d, In d (it_deps i) -> In d l) /\ deps_ok (l ++ [it_mod i]) r
  end.

Lemma deps_ok_mono : forall items l l', (forall x, In x l -> In x l') -> deps_ok l items -> deps_ok l' items.
Proof.
  induction items as [|i r IH]; simpl; intros l l' Hi H; auto.
  destruct H as [H1 H2]. split; auto.
  apply (IH (l ++ [it_mod i])); auto.
  intros x Hx. apply in_app_or in Hx. apply in_or_app. destruct Hx; auto.
Qed.

Lemma deps_ok_app : forall a l b, deps_ok l a -> deps_ok (l ++ map it_mod a) b -> deps_ok l (a ++ b).
Proof.
  induction a as [|i r IH]; simpl; intros l b Ha Hb.
  - rewrite app_nil_r in Hb. exact Hb.
  - destruct Ha as [H1 H2]. split; auto. apply IH; auto.
    rewrite <- app_assoc. simpl. exact Hb.
Qed.

Lemma run_covered : forall req items s l,
  covered req s l -> deps_ok l items ->
  exists s', run req items s = Some s' /\ covered req s' (l ++ map it_mod items).
Proof.
  induction items as [|i r IH]; simpl; intros s l Hc Hd.
  - exists s. rewrite app_nil_r. auto.
  - destruct Hd as [H1 H2]. destruct (step_covered _ _ _ _ Hc H1) as [s1 [E C1]]. rewrite E.
    destruct (IH _ _ C1 H2) as [s' [R C']]. exists s'. split; auto.
    rewrite <- app_assoc in C'. exact C'.
Qed.

Lemma deps_ok_forall : forall items l,
  (forall i, In i items -> forall d, In d (it_deps i) -> In d l) -> deps_ok l items.
Proof.
  induction items as [|i r IH]; simpl; intros l H; [exact I|]. split; [apply H; left; reflexivity|].
  apply IH. intros j Hj d Hd. apply in_or_app. left. exact (H j (or_intror Hj) d Hd).
Qed.

Lemma firsts_mods : forall req d g, map it_mod (firsts req d g) = g.
Proof. intros. unfold firsts. rewrite map_map. apply map_id. Qed.

Lemma group_deps_ok : forall req g d seen, (forall x, In x d -> In x seen) ->
  deps_ok seen (yield_group req (g, d)) /\ (forall x, In x g -> In x (map it_mod (yield_group req (g, d)))).
Proof.
  intros req g d seen H. rewrite yield_group_eq.
  assert (C : deps_ok seen (firsts req d g ++ seconds req (d ++ g) g) /\
              (forall x, In x g -> In x (map it_mod (firsts req d g ++ seconds req (d ++ g) g)))).
  { split.
    - apply deps_ok_app; apply deps_ok_forall; intros i Hi x Hx.
      + apply in_firsts in Hi. destruct Hi as [m [_ ->]]. apply H, Hx.
      + apply in_seconds in Hi. destruct Hi as [m [_ [_ ->]]]. rewrite firsts_mods.
        apply in_app_or in Hx. apply in_or_app. destruct Hx; auto.
    - intros x Hx. rewrite map_app, firsts_mods. apply in_or_app. left. exact Hx. }
  destruct g as [|m [|m2 r]]; [exact C | | exact C].
  split; [split; [exact H | exact I] | intros x Hx; exact Hx].
Qed.

Lemma run_all : forall req ss s seen,
  deps_closed seen ss -> covered req s seen -> exists s', run req (yield_sorted_modules req ss) s = Some s'.
Proof.
  induction ss as [|[g d] r IH]; intros s seen Hd Hc.
  - exists s. reflexivity.
  - simpl in Hd. destruct Hd as [Hd1 Hd2].
    unfold yield_sorted_modules. cbn [flat_map]. rewrite run_app.
    destruct (group_deps_ok req g d seen Hd1) as [Ho Hm].
    destruct (run_covered _ _ _ _ Hc Ho) as [s1 [R C]]. rewrite R.
    apply (IH s1 (seen ++ g)); auto.
    eapply covered_weaken; eauto. intros x Hx. apply in_app_or in Hx. apply in_or_app. destruct Hx; auto.
Qed.

Lemma no_keyerror_lemma : forall req ss, deps_closed [] ss -> setup_build req ss <> None.
Proof.
  intros req ss H. unfold setup_build.
  destruct (run_all req ss st0 [] H) as [s' E]; [right; intros x [] | congruence].
Qed.

(* an .imports file still holds what its statement wrote when module names are distinct *)

Lemma impfile_eqb_eq : forall a b, impfile_eqb a b = true <-> a = b.
Proof.
  intros [n f] [n' f']. unfold impfile_eqb. simpl. rewrite andb_true_iff, N.eqb_eq, Bool.eqb_true_iff.
  split; [intros [? ?]; subst; reflexivity | intros H; inversion H; auto].
Qed.

Lemma run_store : forall req items s s', run req items s = Some s' ->
  (forall t, In t (plan s) -> store_get (s_impfile t) (store s) = Some (s_imports t)) ->
  (forall t, In t (plan s) -> ~ In (s_impfile t) (map item_file items)) ->
  NoDup (map item_file items) ->
  forall t, In t (plan s') -> store_get (s_impfile t) (store s') = Some (s_imports t).
Proof.
  induction items as [|i r IH]; simpl; intros s s' H Hst Hfresh Hnd.
  - inversion H; subst; auto.
  - destruct (setup_step req s i) as [s1|] eqn:E; [|discriminate].
    inversion Hnd as [|? ? Hni Hnr]; subst.
    destruct (step_plan _ _ _ _ E) as [[Ep Es] | [t0 [Ep [Es [_ Ef]]]]];
      (apply (IH _ _ H); [rewrite Ep, Es | rewrite Ep | exact Hnr]).
    + exact Hst.
    + intros t Hin Hc. exact (Hfresh t Hin (or_intror Hc)).
    + (* the file just written is the newest binding; the statements before it wrote other files *)
      intros t Hin. cbn [store_get]. apply in_app_or in Hin. destruct Hin as [Hin|[<-|[]]].
      * destruct (impfile_eqb (s_impfile t) (s_impfile t0)) eqn:Eq; [|exact (Hst t Hin)].
        apply impfile_eqb_eq in Eq. destruct (Hfresh t Hin). left. congruence.
      * rewrite (proj2 (impfile_eqb_eq _ _) eq_refl). reflexivity.
    + intros t Hin Hc. apply in_app_or in Hin. destruct Hin as [Hin|[<-|[]]].
      * exact (Hfresh t Hin (or_intror Hc)).
      * rewrite Ef in Hc. exact (Hni Hc).
Qed.

(* escape_ninja_path followed by ninja's lexer is the identity *)

Local Open Scope N_scope.

(* a path survives when it has no newline, CR, '|' or NUL; a value when it has no newline, CR, NUL *)
Definition path_char (c : N) : Prop := c <> c_nl /\ c <> c_cr /\ c <> c_pipe /\ c <> c_nul.
Definition value_char (c : N) : Prop := c <> c_nl /\ c <> c_cr /\ c <> c_nul.
Definition path_terminator (c : N) : Prop := c = c_sp \/ c = c_colon \/ c = c_pipe \/ c = c_nl.

Lemma lex_cons : forall p m c r,
  lex p m (c :: r) =
  match lstep1 p m c with
  | Cont e m' => lcons e (lex p m' r)
  | StopBefore e => LDone e (c :: r)
  | StopAfter e => LDone e r
  | StopBeforeCR => LDone [] (c_cr :: c :: r)
  | LErr => LFail
  end.
Proof. reflexivity. Qed.

Lemma lstep0_text : forall p c,
  c <> c_dollar -> c <> c_nul -> c <> c_cr -> c <> c_nl ->
  (p = true -> c <> c_sp /\ c <> c_colon /\ c <> c_pipe) ->
  lstep0 p c = Cont [TLit c] M0.
Proof.
  intros p c H1 H2 H3 H4 H5. unfold lstep0.
  rewrite (proj2 (N.eqb_neq _ _) H1), (proj2 (N.eqb_neq _ _) H2), (proj2 (N.eqb_neq _ _) H3),
          (proj2 (N.eqb_neq _ _) H4).
  destruct p; [|destruct ((c =? c_sp) || (c =? c_colon) || (c =? c_pipe)); reflexivity].
  destruct (H5 eq_refl) as [A [B C]].
  rewrite (proj2 (N.eqb_neq _ _) A), (proj2 (N.eqb_neq _ _) B), (proj2 (N.eqb_neq _ _) C). reflexivity.
Qed.

Lemma lex_text : forall p c r,
  c <> c_dollar -> c <> c_nul -> c <> c_cr -> c <> c_nl ->
  (p = true -> c <> c_sp /\ c <> c_colon /\ c <> c_pipe) ->
  lex p M0 (c :: r) = lcons [TLit c] (lex p M0 r).
Proof. intros. rewrite lex_cons. unfold lstep1. rewrite lstep0_text; auto. Qed.

Lemma lcons_nil : forall r, lcons [] r = r.
Proof. destruct r; reflexivity. Qed.

Lemma lex_escaped : forall p c r, c = c_dollar \/ c = c_sp \/ c = c_colon ->
  lex p M0 (c_dollar :: c :: r) = lcons [TLit c] (lex p M0 r).
Proof.
  intros p c r [ -> | [ -> | -> ] ];
    match goal with |- _ = ?R => transitivity (lcons [] R); [reflexivity | apply lcons_nil] end.
Qed.

Lemma escape_cons : forall c s, escape (c :: s) = (if esc_special c then [c_dollar; c] else [c]) ++ escape s.
Proof. reflexivity. Qed.

Lemma esc_special_cases : forall c, esc_special c = true -> c = c_nl \/ c = c_sp \/ c = c_colon \/ c = c_dollar.
Proof.
  intros c H. unfold esc_special in H.
  destruct (N.eqb_spec c c_nl); [auto|]. destruct (N.eqb_spec c c_sp); [auto|].
  destruct (N.eqb_spec c c_colon); [auto|]. destruct (N.eqb_spec c c_dollar); [auto 6 | discriminate H].
Qed.

Lemma esc_special_not : forall c, esc_special c = false -> c <> c_nl /\ c <> c_sp /\ c <> c_colon /\ c <> c_dollar.
Proof.
  intros c H. repeat split; intros ->; discriminate H.
Qed.

Lemma lcons_cons : forall t ts r, lcons [t] (lcons ts r) = lcons (t :: ts) r.
Proof. destruct r; reflexivity. Qed.

(* a run of characters that need no escaping *)
Lemma lex_text_run : forall p s tail,
  (forall c, In c s -> value_char c /\ c <> c_dollar /\ (p = true -> c <> c_sp /\ c <> c_colon /\ c <> c_pipe)) ->
  lex p M0 (s ++ tail) = lcons (lits s) (lex p M0 tail).
Proof.
  induction s as [|c s IH]; intros tail Hg; [symmetry; apply lcons_nil|].
  destruct (Hg c (or_introl eq_refl)) as [[G1 [G2 G3]] [G4 G5]].
  cbn [app lits map]. rewrite lex_text by auto. rewrite (IH tail (fun x h => Hg x (or_intror h))).
  apply lcons_cons.
Qed.

Lemma escape_roundtrip_gen : forall p s tail,
  (forall c, In c s -> value_char c /\ (p = true -> c <> c_pipe)) ->
  lex p M0 (escape s ++ tail) = lcons (lits s) (lex p M0 tail).
Proof.
  induction s as [|c s IH]; intros tail Hg; [symmetry; apply lcons_nil|].
  rewrite escape_cons. destruct (Hg c (or_introl eq_refl)) as [[G1 [G2 G3]] G4].
  assert (IH' := IH tail (fun x h => Hg x (or_intror h))).
  destruct (esc_special c) eqn:E; cbn [app lits map].
  - apply esc_special_cases in E. destruct E as [E|E]; [congruence|].
    rewrite lex_escaped by tauto. rewrite IH'. apply lcons_cons.
  - apply esc_special_not in E. destruct E as [E1 [E2 [E3 E4]]].
    rewrite lex_text by auto. rewrite IH'. apply lcons_cons.
Qed.

Lemma lex_path_terminator : forall t rest, path_terminator t -> lex true M0 (t :: rest) = LDone [] (t :: rest).
Proof. intros t rest [ -> | [ -> | [ -> | -> ] ] ]; reflexivity. Qed.

Lemma escape_roundtrip_lemma : forall s t rest,
  (forall c, In c s -> path_char c) -> path_terminator t ->
  lex_path (escape s ++ t :: rest) = LDone (lits s) (t :: rest).
Proof.
  intros s t rest Hg Ht. unfold lex_path.
  rewrite escape_roundtrip_gen.
  - rewrite (lex_path_terminator t rest Ht). simpl. rewrite app_nil_r. reflexivity.
  - intros c Hc. destruct (Hg c Hc) as [A [B [C D]]]. repeat split; auto.
Qed.

Lemma escape_roundtrip_value_lemma : forall s rest,
  (forall c, In c s -> value_char c) ->
  lex_value (escape s ++ c_nl :: rest) = LDone (lits s) rest.
Proof.
  intros s rest Hg. unfold lex_value.
  rewrite escape_roundtrip_gen.
  - simpl. rewrite app_nil_r. reflexivity.
  - intros c Hc. split; [auto | discriminate].
Qed.

(* `module = <name>` is written without escaping: it survives only without '$' *)
Lemma raw_value_lemma : forall s rest,
  (forall c, In c s -> value_char c /\ c <> c_dollar) ->
  lex_value (s ++ c_nl :: rest) = LDone (lits s) rest.
Proof.
  intros s rest Hg. unfold lex_value. rewrite lex_text_run.
  - simpl. rewrite app_nil_r. reflexivity.
  - intros c Hc. destruct (Hg c Hc) as [A B]. split; [exact A|]. split; [exact B|]. intros E. discriminate E.
Qed.

Lemma eval_lits : forall env s, eval_toks env (lits s) = s.
Proof. induction s as [|c s IH]; simpl; [reflexivity|]. rewrite IH. reflexivity. Qed.

Local Close Scope N_scope.

Lemma nodupN_NoDup : forall l, nodupN l = true -> NoDup l.
Proof.
  induction l as [|x r IH]; simpl; intros H; [constructor|].
  apply andb_true_iff in H. destruct H as [H1 H2]. constructor; auto.
  intro Hc. apply memN_In in Hc. rewrite Hc in H1. discriminate.
Qed.

Lemma deps_closedb_ok : forall ss seen, deps_closedb seen ss = true -> deps_closed seen ss.
Proof.
  induction ss as [|[g d] r IH]; simpl; intros seen H; auto.
  apply andb_true_iff in H. destruct H as [H1 H2]. split; auto.
  intros x Hx. rewrite forallb_forall in H1. apply memM_In. auto.
Qed.

Lemma wfb_wf : forall ss, wfb ss = true -> wf ss.
Proof.
  intros ss H. unfold wfb in H. apply andb_true_iff in H. destruct H. split.
  - apply nodupN_NoDup; auto.
  - apply deps_closedb_ok; auto.
Qed.
