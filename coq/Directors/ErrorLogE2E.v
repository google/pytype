(* C03 — vocabulary of the error-log theorems of Props/C03.v: the errors a trailing disable=E on line L is
   about ([is_target]), and the filters and history of the witness that the frame theorem needs "copied
   records hold no error of this file" ([wt], [wf], [wf'], [wops]). *)
From Coq Require Import ZArith List Bool Arith NArith Lia.
From PV Require Import Directors.Model Directors.Spec Directors.ErrorLog.
Import ListNotations.
Open Scope Z_scope.

Definition is_target (L : Z) (E : N) (e : err) : Prop :=
  e_same_file e = true /\ e_name e = E /\ exists lr, e_line e = Some lr /\ eff_line lr = L.

Definition wt (e : err) : bool :=
  e_same_file e && (e_name e =? 1)%N && match e_line e with Some l => l =? 5 | None => false end.
Definition wf : flt := fun e => Ok (true, e_line e).
Definition wf' : flt := fun e => Ok (negb (wt e), e_line e).
Definition wops : list lop :=
  [LCheckpoint; LAdd (mkErr true (Some 5) 1%N false); LRevert; LCopyRec (mkP true 9 false)].

