(* C03 — proofs about the error-log model (Directors/ErrorLog.v). *)
From Coq Require Import ZArith List Bool Arith NArith Lia.
From PV Require Import Generated.C03_ErrorClasses Directors.Model Directors.ErrorLog.
Import ListNotations.
Open Scope Z_scope.
Arguments add1 : simpl never.

Lemma add1_some_inv : forall f errors e es, add1 (Some f) errors e = Ok es ->
  es = errors \/ exists e', es = errors ++ [e'] /\ accepted f e'.
Proof.
  intros f errors e es H. unfold add1 in H. destruct (f e) as [[b l]|x] eqn:F; simpl in H; [|discriminate H].
  destruct b; inversion H; subst; [right|left; reflexivity].
  exists (set_eline e l). split; [reflexivity|]. exists e. simpl. split; [exact F|reflexivity].
Qed.

(* the four logging operations append to the errors logged since the innermost open checkpoint; the other
   three move that boundary or replace the filter *)
Definition appends (rec : list err) (o : lop) : option (option flt -> list err -> res (list err)) :=
  match o with
  | LAdd e => Some (fun f es => add1 f es e)
  | LAddAt e line => Some (fun f es => add1 f es (at_line e line))
  | LCopyRec p => Some (fun f es => copy_all f es rec p)
  | LCopyFrom es0 p => Some (fun f es => copy_all f es es0 p)
  | LSetFilter _ | LCheckpoint | LRevert => None
  end.

Lemma step_appends : forall st o a, appends (l_rec st) o = Some a ->
  step st o = bind (a (l_filter st) (l_errors st)) (fun es => Ok (with_errors st es)).
Proof. intros st o a H. destruct o; try discriminate; injection H as <-; reflexivity. Qed.

Lemma sstep_appends : forall ss o a, appends (s_rec ss) o = Some a ->
  sstep ss o = bind (a (s_filter ss) (s_top ss)) (fun t => Ok (with_top ss t)).
Proof. intros ss o a H. destruct o; try discriminate; injection H as <-; reflexivity. Qed.

Section Invariant.
Variable f : flt.
Variable Q : err -> Prop.
Hypothesis QA : forall e, accepted f e -> Q e.

Lemma add1_Q : forall errors e es, Forall Q errors -> add1 (Some f) errors e = Ok es -> Forall Q es.
Proof.
  intros errors e es HQ H. apply add1_some_inv in H as [->|(e' & -> & A)]; [exact HQ|].
  apply Forall_app. split; [exact HQ|]. constructor; [apply QA; exact A|constructor].
Qed.

Lemma copy_all_Q : forall es errors p out, Forall Q errors -> copy_all (Some f) errors es p = Ok out -> Forall Q out.
Proof.
  induction es as [|e r IH]; intros errors p out HQ H; simpl in H.
  - inversion H; subst; exact HQ.
  - destruct (add1 (Some f) errors (at_pos p (e_name e))) as [a|x] eqn:A; simpl in H; [|discriminate H].
    eapply IH; [|exact H]. eapply add1_Q; eauto.
Qed.

Lemma appends_Q : forall rec o a errors es, appends rec o = Some a ->
  Forall Q errors -> a (Some f) errors = Ok es -> Forall Q es.
Proof.
  intros rec o a errors es H HQ. destruct o; try discriminate; injection H as <-;
    [apply add1_Q | apply add1_Q | apply copy_all_Q | apply copy_all_Q]; exact HQ.
Qed.

Lemma step_Q : forall st o st', l_filter st = Some f -> is_setfilter o = false ->
  Forall Q (l_errors st) -> step st o = Ok st' -> l_filter st' = Some f /\ Forall Q (l_errors st').
Proof.
  intros st o st' HF NS HQ H. destruct (appends (l_rec st) o) as [a|] eqn:A.
  - rewrite (step_appends _ _ _ A), HF in H.
    destruct (a (Some f) (l_errors st)) as [es|x] eqn:E; [|discriminate H]. injection H as <-.
    split; [exact HF | exact (appends_Q _ _ _ _ _ A HQ E)].
  - destruct o; try discriminate; simpl in H.
    + injection H as <-. split; [exact HF | exact HQ].
    + destruct (l_cps st) as [|p r]; injection H as <-; (split; [exact HF|]); [exact HQ|].
      simpl. rewrite <- (firstn_skipn p (l_errors st)) in HQ. apply Forall_app in HQ. apply HQ.
Qed.

Lemma run_Q : forall ops st st', l_filter st = Some f -> no_setfilter ops ->
  Forall Q (l_errors st) -> run st ops = Ok st' -> Forall Q (l_errors st').
Proof.
  induction ops as [|o r IH]; intros st st' HF NS HQ H; simpl in H.
  - inversion H; subst; exact HQ.
  - destruct (step st o) as [s1|x] eqn:S; simpl in H; [|discriminate H].
    inversion NS; subst. destruct (step_Q _ _ _ HF H2 HQ S) as [HF1 HQ1]. eapply IH; eauto.
Qed.
End Invariant.

Lemma log_invariant_lemma : forall f errs cps rec ops st,
  no_setfilter ops -> run (mkL errs (Some f) cps rec) ops = Ok st ->
  Forall (fun e => In e errs \/ accepted f e) (l_errors st).
Proof.
  intros f errs cps rec ops st NS H.
  eapply (run_Q f (fun e => In e errs \/ accepted f e)); [| |exact NS| |exact H].
  - intros e A. right. exact A.
  - reflexivity.
  - simpl. apply Forall_forall. intros e I. left. exact I.
Qed.

Lemma run_adds : forall pre a rest,
  run (mkL a None [] []) (map LAdd pre ++ rest) = run (mkL (a ++ pre) None [] []) rest.
Proof.
  induction pre as [|e r IH]; intros a rest; simpl.
  - rewrite app_nil_r. reflexivity.
  - unfold add1, with_errors. simpl. rewrite IH. rewrite <- app_assoc. reflexivity.
Qed.

Lemma program_run : forall pre f post,
  run l_empty (program_history pre f post) = run (mkL pre (Some f) [] []) post.
Proof.
  intros. unfold program_history, l_empty. rewrite run_adds. simpl. reflexivity.
Qed.

Lemma program_invariant_lemma : forall pre f post st,
  no_setfilter post -> run l_empty (program_history pre f post) = Ok st ->
  Forall (fun e => In e pre \/ accepted f e) (l_errors st).
Proof.
  intros pre f post st NS H. rewrite program_run in H. eapply log_invariant_lemma; eauto.
Qed.

Lemma director_filter_inv : forall st rl e0 b lr, filter_error st rl e0 = Ok (b, Some lr) ->
  e_same_file e0 = true -> exists l0, e_line e0 = Some l0 /\ reported_line st rl e0 l0 = Ok lr.
Proof.
  intros st rl e0 b lr H SF. unfold filter_error in H. destruct (e_line e0) as [l0|]; [|discriminate H].
  rewrite SF in H. simpl in H. exists l0. split; [reflexivity|].
  destruct (reported_line st rl e0 l0) as [l1|x]; simpl in H; [|discriminate H]. inversion H; subst. reflexivity.
Qed.

Lemma accepted_clear : forall st rl e, accepted (filter_error st rl) e -> clear_of st e.
Proof.
  intros st rl e (e0 & H & EQ). unfold filter_error in H.
  destruct (e_line e0) as [l0|] eqn:EL.
  - destruct (e_same_file e0) eqn:SF; simpl in H.
    + destruct (reported_line st rl e0 l0) as [l1|x]; simpl in H; [|discriminate H].
      inversion H as [[H1 H2]]. right. right. exists l1. split; [symmetry; exact H2|].
      rewrite EQ. simpl.
      apply andb_true_iff in H1 as [H1 C]. apply andb_true_iff in H1 as [A B].
      apply negb_true_iff in A, B, C. auto.
    + left. rewrite EQ. simpl. exact SF.
  - inversion H. right. left. symmetry. assumption.
Qed.

Fixpoint cps_of (below : list (list err)) : list nat :=
  match below with [] => [] | b :: r => length (base_of (b :: r)) :: cps_of r end.

Definition repr (st : lstate) (ss : sstate) : Prop :=
  l_errors st = flat ss /\ l_filter st = s_filter ss /\ l_rec st = s_rec ss /\ l_cps st = cps_of (s_below ss).

Lemma add1_app : forall f pre t e,
  add1 f (pre ++ t) e = match add1 f t e with Ok t1 => Ok (pre ++ t1) | Raise x => Raise x end.
Proof.
  intros f pre t e. unfold add1. destruct f as [g|]; simpl.
  - destruct (g e) as [[b l]|x]; simpl; [|reflexivity]. destruct b; simpl; [rewrite app_assoc|]; reflexivity.
  - rewrite app_assoc. reflexivity.
Qed.

Lemma copy_all_app : forall f es pre t p,
  copy_all f (pre ++ t) es p = match copy_all f t es p with Ok t1 => Ok (pre ++ t1) | Raise x => Raise x end.
Proof.
  induction es as [|e r IH]; intros pre t p; simpl; [reflexivity|].
  rewrite add1_app. destruct (add1 f t (at_pos p (e_name e))) as [t1|x]; simpl; [apply IH|reflexivity].
Qed.

Lemma appends_app : forall rec o a, appends rec o = Some a -> forall f pre t,
  a f (pre ++ t) = match a f t with Ok t1 => Ok (pre ++ t1) | Raise x => Raise x end.
Proof.
  intros rec o a H f pre t. destruct o; try discriminate; injection H as <-;
    [apply add1_app | apply add1_app | apply copy_all_app | apply copy_all_app].
Qed.

Lemma step_sstep : forall st ss o st1, repr st ss -> step st o = Ok st1 ->
  exists ss1, sstep ss o = Ok ss1 /\ repr st1 ss1.
Proof.
  intros [errs fl cps rec] [top below sf srec] o st1 (E & F & R & C) H. simpl in E, F, R, C. subst fl rec.
  unfold flat in E. simpl in E. subst errs.
  destruct (appends srec o) as [a|] eqn:A.
  - rewrite (step_appends (mkL (base_of below ++ top) sf cps srec) o a A) in H.
    rewrite (sstep_appends (mkS top below sf srec) o a A). cbn [l_filter l_errors s_filter s_top] in *.
    rewrite (appends_app _ _ _ A) in H. destruct (a sf top) as [t1|x]; [|discriminate H]. injection H as <-.
    eexists; split; [reflexivity|]. repeat split; assumption.
  - destruct o; try discriminate; simpl in H |- *.
    + injection H as <-. eexists; split; [reflexivity|]. repeat split; assumption.
    + injection H as <-. eexists; split; [reflexivity|]. unfold repr, flat; simpl.
      rewrite app_nil_r. repeat split. rewrite C. reflexivity.
    + destruct below as [|b r]; simpl in C; subst cps; injection H as <-; (eexists; split; [reflexivity|]).
      * repeat split.
      * unfold repr, flat; simpl.
        rewrite firstn_app, Nat.sub_diag, firstn_all, skipn_app, Nat.sub_diag, skipn_all. simpl.
        rewrite app_nil_r. repeat split.
Qed.

Lemma run_srun : forall ops st ss st1, repr st ss -> run st ops = Ok st1 ->
  exists ss1, srun ss ops = Ok ss1 /\ repr st1 ss1.
Proof.
  induction ops as [|o r IH]; intros st ss st1 R H; simpl in H |- *.
  - inversion H; subst. eauto.
  - destruct (step st o) as [s1|x] eqn:S; simpl in H; [|discriminate H].
    destruct (step_sstep _ _ _ _ R S) as (ss1 & SS & R1). rewrite SS. simpl. eapply IH; eauto.
Qed.

Lemma dropped_refl : forall tgt a, dropped tgt a a.
Proof. induction a; constructor; auto. Qed.

Lemma dropped_app : forall tgt a' a b' b, dropped tgt a' a -> dropped tgt b' b -> dropped tgt (a' ++ b') (a ++ b).
Proof. intros tgt a' a b' b H. induction H; intro HB; simpl; [exact HB|constructor; auto|constructor; auto]. Qed.

Lemma dropped_none : forall tgt a' a, dropped tgt a' a -> Forall (fun e => tgt e = false) a -> a' = a.
Proof.
  intros tgt a' a H. induction H; intro F; [reflexivity| |].
  - inversion F; subst. f_equal. auto.
  - inversion F; subst. congruence.
Qed.

Lemma dropped_filter : forall tgt a' a, dropped tgt a' a ->
  filter (fun e => negb (tgt e)) a' = filter (fun e => negb (tgt e)) a.
Proof.
  intros tgt a' a H. induction H; simpl; [reflexivity| |].
  - rewrite IHdropped. reflexivity.
  - rewrite H. simpl. exact IHdropped.
Qed.

Lemma filter_none : forall (tgt : err -> bool) a, Forall (fun e => tgt e = false) a ->
  filter (fun e => negb (tgt e)) a = a.
Proof.
  induction a; intro F; simpl; [reflexivity|]. inversion F; subst. rewrite H1. simpl. f_equal. auto.
Qed.

Section Frame.
Variable tgt : err -> bool.
Variables f f' : flt.
Hypothesis TS : forall e, tgt e = true -> e_same_file e = true.
Hypothesis N : narrows tgt f f'.

Lemma add1_rel : forall t' t e t1 t1', dropped tgt t' t ->
  add1 (Some f) t e = Ok t1 -> add1 (Some f') t' e = Ok t1' -> dropped tgt t1' t1.
Proof.
  intros t' t e t1 t1' D H H'. unfold add1 in H, H'.
  destruct (f e) as [[b l]|x] eqn:F; simpl in H; [|discriminate H].
  destruct (N e b l F) as [F'|(B & F' & T)]; rewrite F' in H'; simpl in H'.
  - destruct b; inversion H; inversion H'; subst; [|exact D].
    apply dropped_app; [exact D|apply dropped_refl].
  - subst b. inversion H; inversion H'; subst. rewrite <- (app_nil_r t1').
    apply dropped_app; [exact D|]. apply dr_drop; [exact T|constructor].
Qed.

Lemma copy_all_rel : forall es t' t p t1 t1', dropped tgt t' t ->
  copy_all (Some f) t es p = Ok t1 -> copy_all (Some f') t' es p = Ok t1' -> dropped tgt t1' t1.
Proof.
  induction es as [|e r IH]; intros t' t p t1 t1' D H H'; simpl in H, H'.
  - inversion H; inversion H'; subst; exact D.
  - destruct (add1 (Some f) t (at_pos p (e_name e))) as [a|x] eqn:A; simpl in H; [|discriminate H].
    destruct (add1 (Some f') t' (at_pos p (e_name e))) as [a'|x] eqn:A'; simpl in H'; [|discriminate H'].
    eapply IH; [|exact H|exact H']. eapply add1_rel; [exact D|exact A|exact A'].
Qed.

Definition srel (ss' ss : sstate) : Prop :=
  dropped tgt (s_top ss') (s_top ss) /\ Forall2 (dropped tgt) (s_below ss') (s_below ss) /\
  dropped tgt (s_rec ss') (s_rec ss) /\ s_filter ss = Some f /\ s_filter ss' = Some f'.

Lemma appends_rel : forall rec o a t' t t1 t1', appends rec o = Some a -> dropped tgt t' t ->
  a (Some f) t = Ok t1 -> a (Some f') t' = Ok t1' -> dropped tgt t1' t1.
Proof.
  intros rec o a t' t t1 t1' H D. destruct o; try discriminate; injection H as <-;
    [apply (add1_rel _ _ _ _ _ D) | apply (add1_rel _ _ _ _ _ D) |
     apply (copy_all_rel _ _ _ _ _ _ D) | apply (copy_all_rel _ _ _ _ _ _ D)].
Qed.

Lemma sstep_rel : forall ss' ss o s1 s1', srel ss' ss -> is_setfilter o = false ->
  match o with LCopyRec _ => Forall (fun e => e_same_file e = false) (s_rec ss) | _ => True end ->
  sstep ss o = Ok s1 -> sstep ss' o = Ok s1' -> srel s1' s1.
Proof.
  intros [top' below' sf' rec'] [top below sf rec] o s1 s1' (T & B & R & F & F') NS CF H H'.
  simpl in T, B, R, F, F', CF. subst sf sf'.
  destruct (appends rec o) as [a|] eqn:A.
  - assert (A' : appends rec' o = Some a).
    { destruct o; try exact A.
      (* a record that is copied holds no error of this file, hence none of tgt *)
      rewrite (dropped_none _ _ _ R); [exact A|]. eapply Forall_impl; [|exact CF]. intros x SF.
      destruct (tgt x) eqn:TA; [|reflexivity]. apply TS in TA. congruence. }
    rewrite (sstep_appends (mkS top below (Some f) rec) o a A) in H.
    rewrite (sstep_appends (mkS top' below' (Some f') rec') o a A') in H'. cbn [s_filter s_top] in H, H'.
    destruct (a (Some f) top) as [t1|x] eqn:E; [|discriminate H].
    destruct (a (Some f') top') as [t1'|x] eqn:E'; [|discriminate H'].
    injection H as <-. injection H' as <-.
    split; [exact (appends_rel _ _ _ _ _ _ _ A T E E')|]. repeat split; assumption.
  - destruct o; try discriminate; simpl in H, H'.
    + injection H as <-. injection H' as <-. repeat split; auto; constructor; auto.
    + inversion B; subst; injection H as <-; injection H' as <-; repeat split; auto.
Qed.

Lemma srun_rel : forall ops ss' ss s1 s1', srel ss' ss -> no_setfilter ops -> copies_foreign ss ops ->
  srun ss ops = Ok s1 -> srun ss' ops = Ok s1' -> srel s1' s1.
Proof.
  induction ops as [|o r IH]; intros ss' ss s1 s1' R NS CF H H'; simpl in H, H'.
  - inversion H; inversion H'; subst. exact R.
  - destruct (sstep ss o) as [a|x] eqn:S; simpl in H; [|discriminate H].
    destruct (sstep ss' o) as [a'|x] eqn:S'; simpl in H'; [|discriminate H'].
    inversion NS; subst. simpl in CF. destruct CF as [CF1 CF2]. rewrite S in CF2.
    eapply IH; [|exact H3|exact CF2|exact H|exact H']. eapply sstep_rel; eauto.
Qed.

Lemma base_rel : forall b' b, Forall2 (dropped tgt) b' b -> dropped tgt (base_of b') (base_of b).
Proof. intros b' b H. induction H; simpl; [constructor|apply dropped_app; auto]. Qed.

Lemma report_frame_lemma : forall a a' rec ops st st',
  dropped tgt a' a -> no_setfilter ops -> copies_foreign (mkS a [] (Some f) rec) ops ->
  run (mkL a (Some f) [] rec) ops = Ok st -> run (mkL a' (Some f') [] rec) ops = Ok st' ->
  dropped tgt (l_errors st') (l_errors st).
Proof.
  intros a a' rec ops st st' D NS CF H H'.
  destruct (run_srun ops (mkL a (Some f) [] rec) (mkS a [] (Some f) rec) st) as (s1 & S & R1);
    [repeat split|exact H|].
  destruct (run_srun ops (mkL a' (Some f') [] rec) (mkS a' [] (Some f') rec) st') as (s1' & S' & R1');
    [repeat split|exact H'|].
  assert (srel s1' s1) as (T & B & _).
  { eapply srun_rel; [|exact NS|exact CF|exact S|exact S'].
    unfold srel; simpl; repeat split; auto; try apply dropped_refl; constructor. }
  destruct R1 as (-> & _). destruct R1' as (-> & _). unfold flat.
  apply dropped_app; [apply base_rel; exact B|exact T].
Qed.
End Frame.
