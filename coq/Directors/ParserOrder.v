(* C03 — the parser model's group dict: what _add_structured_comment_group returns, as a list; the order
   invariant (keys distinct, ascending by start line, ranges non-empty); with it, that every group holds the
   right comments and that no comment is lost or duplicated among the statement-range groups. *)
From Coq Require Import ZArith List Bool Arith NArith Lia Sorting.Sorted Sorting.Permutation.
From PV Require Import Directors.Model Directors.Parser Directors.ParserSpec Directors.ParserProofs.
Import ListNotations.
Open Scope Z_scope.

Definition keys (d : groups) : list key := map fst d.
Definition kle (a b : key) : Prop := k_s a <= k_s b.
Definition ksorted (ks : list key) : Prop := StronglySorted kle ks.
Definition wfk (k : key) : Prop := k_s k <= k_e k.

Lemma NoDup_app_r : forall {A} (a b : list A), NoDup (a ++ b) -> NoDup b.
Proof. induction a; simpl; intros b H; [assumption|]. inversion H; auto. Qed.
Lemma NoDup_app_l : forall {A} (a b : list A), NoDup (a ++ b) -> NoDup a.
Proof.
  induction a; simpl; intros b H; [constructor|]. inversion H; subst. constructor; [|eauto].
  intro I. apply H2. apply in_or_app. auto.
Qed.
Lemma NoDup_app_disj : forall {A} (a b : list A) x, NoDup (a ++ b) -> In x a -> In x b -> False.
Proof.
  induction a; simpl; intros b x H I J; [contradiction|]. inversion H; subst. destruct I as [->|I]; [|eauto].
  apply H2. apply in_or_app. auto.
Qed.

Lemma keys_app : forall a b, keys (a ++ b) = keys a ++ keys b.
Proof. intros. apply map_app. Qed.

Lemma keys_replace : forall k v d, keys (od_replace k v d) = keys d.
Proof. induction d as [|[k' v'] r IH]; simpl; [reflexivity|]. destruct (key_eqb k k'); simpl; congruence. Qed.

Lemma keys_filter : forall f d, keys (filter (fun kv => f (fst kv)) d) = filter f (keys d).
Proof. induction d as [|[k v] r IH]; simpl; [reflexivity|]. destruct (f k); simpl; rewrite IH; reflexivity. Qed.

Lemma od_has_In : forall k d, od_has k d = true <-> In k (keys d).
Proof.
  unfold od_has. induction d as [|[k' v] r IH]; simpl; [split; [discriminate | intros []]|].
  destruct (key_eqb k k') eqn:E.
  - apply key_eqb_eq in E. subst. split; auto.
  - rewrite IH. split; [auto|]. intros [->|H]; [rewrite key_eqb_refl in E; discriminate | exact H].
Qed.

Lemma od_get_notin : forall k d, ~ In k (keys d) -> od_get k d = None.
Proof.
  intros k d N. pose proof (od_has_In k d) as H. unfold od_has in H.
  destruct (od_get k d); [exfalso; apply N, H; reflexivity | reflexivity].
Qed.

Lemma od_get_app : forall K a b, od_get K (a ++ b) = match od_get K a with Some v => Some v | None => od_get K b end.
Proof. induction a as [|[k' v'] r IH]; simpl; intros; [reflexivity|]. destruct (key_eqb K k'); auto. Qed.

Lemma od_del_notin : forall k d, ~ In k (keys d) -> od_del k d = d.
Proof.
  induction d as [|[k' v'] r IH]; simpl; intros N; [reflexivity|].
  destruct (key_eqb k k') eqn:E.
  - apply key_eqb_eq in E. subst. exfalso. apply N. auto.
  - simpl. f_equal. apply IH. intro I. apply N. auto.
Qed.

Lemma od_get_mid : forall k v a b, ~ In k (keys a) -> od_get k (a ++ (k, v) :: b) = Some v.
Proof. intros. rewrite od_get_app, od_get_notin by assumption. simpl. rewrite key_eqb_refl. reflexivity. Qed.

Lemma od_del_mid : forall k v a b, ~ In k (keys a) -> ~ In k (keys b) -> od_del k (a ++ (k, v) :: b) = a ++ b.
Proof.
  intros k v a b Na Nb. unfold od_del. rewrite filter_app. simpl. rewrite key_eqb_refl. simpl.
  fold (od_del k a) (od_del k b). rewrite !od_del_notin by assumption. reflexivity.
Qed.

Lemma od_move_mid : forall k v a b, ~ In k (keys a) -> ~ In k (keys b) ->
  od_move_to_end k (a ++ (k, v) :: b) = a ++ b ++ [(k, v)].
Proof.
  intros. unfold od_move_to_end. rewrite od_get_mid, od_del_mid by assumption. apply app_assoc_reverse.
Qed.

Lemma od_replace_app_has : forall k v a b, od_has k a = true -> od_replace k v (a ++ b) = od_replace k v a ++ b.
Proof.
  unfold od_has. induction a as [|[k' v'] r IH]; simpl; intros b H; [discriminate|].
  destruct (key_eqb k k'); [reflexivity|]. rewrite IH by exact H. reflexivity.
Qed.

Lemma NoDup_app_intro : forall {A} (a b : list A), NoDup a -> NoDup b ->
  (forall x, In x a -> In x b -> False) -> NoDup (a ++ b).
Proof.
  induction a as [|x r IH]; simpl; intros b Ha Hb H; [assumption|]. inversion Ha; subst.
  constructor; [|apply IH; eauto]. intro I. apply in_app_or in I as [I|I]; [contradiction|eauto].
Qed.

Lemma NoDup_mid : forall k v (a b : groups), NoDup (keys (a ++ (k, v) :: b)) ->
  ~ In k (keys a) /\ ~ In k (keys b) /\ NoDup (keys (a ++ b ++ [(k, v)])).
Proof.
  intros k v a b N. rewrite keys_app in N. simpl in N. apply NoDup_remove in N as [N1 N2].
  split; [intro I; apply N2, in_or_app; auto|]. split; [intro I; apply N2, in_or_app; auto|].
  rewrite app_assoc, keys_app.
  apply NoDup_app_intro; [rewrite keys_app; exact N1 | repeat constructor; intros [] |].
  intros x I [<-|[]]. apply N2. rewrite <- keys_app. exact I.
Qed.

Lemma fold_move_block : forall M P Y, NoDup (keys (P ++ M ++ Y)) ->
  fold_left (fun d k => od_move_to_end k d) (keys M) (P ++ M ++ Y) = P ++ Y ++ M.
Proof.
  induction M as [|[k v] M IH]; intros P Y N; simpl; [rewrite app_nil_r; reflexivity|].
  cbn [app] in N. destruct (NoDup_mid k v P (M ++ Y) N) as (NP & NM & N').
  rewrite od_move_mid by assumption. rewrite <- app_assoc in N' |- *.
  rewrite IH by exact N'. rewrite <- app_assoc. reflexivity.
Qed.

Lemma absorb_all_block : forall K (f : key -> bool) S P Y ng,
  NoDup (keys (P ++ S ++ Y)) -> ~ In K (keys S) ->
  absorb_all K (keys (filter (fun kv => f (fst kv)) S)) (P ++ S ++ Y) ng =
  (P ++ filter (fun kv => negb (f (fst kv))) S ++ Y, ng ++ flat_map snd (filter (fun kv => f (fst kv)) S)).
Proof.
  induction S as [|[k v] S IH]; intros P Y ng N NK; simpl; [rewrite app_nil_r; reflexivity|].
  cbn [app] in N. assert (NK' : ~ In K (keys S)) by (intro I; apply NK; right; exact I).
  destruct (f k); simpl.
  - destruct (NoDup_mid k v P (S ++ Y) N) as (NP & NS & N').
    assert (E : key_eqb k K = false).
    { destruct (key_eqb k K) eqn:E; [|reflexivity]. apply key_eqb_eq in E. subst. exfalso. apply NK. left. reflexivity. }
    rewrite E, od_get_mid, od_del_mid by assumption.
    rewrite IH; [rewrite <- app_assoc; reflexivity | | exact NK'].
    rewrite app_assoc, keys_app in N'. apply NoDup_app_l in N'. exact N'.
  - assert (E : P ++ (k, v) :: S ++ Y = (P ++ [(k, v)]) ++ S ++ Y) by (rewrite <- app_assoc; reflexivity).
    rewrite E in N |- *. rewrite (IH _ _ _ N NK'), <- !app_assoc. reflexivity.
Qed.

Definition cond1 (base : bool) (s e : Z) (k : key) : bool := base && (s <=? k_s k) && (k_e k <=? e).
Definition taken (base : bool) (s e : Z) (k : key) : bool := cond1 base s e k || (s <? k_s k).
Definition absorbed (base : bool) (s e : Z) (k : key) : bool := cond1 base s e k && negb (k_call k).
Definition notabs (base : bool) (s e : Z) (k : key) : bool := negb (absorbed base s e k).

Fixpoint scanned (rk : list key) (base : bool) (s e : Z) : list key :=
  match rk with
  | [] => []
  | k :: r => if taken base s e k then k :: scanned r base s e else []
  end.

Arguments cond1 : simpl never.
Arguments taken : simpl never.
Arguments absorbed : simpl never.
Arguments notabs : simpl never.

Lemma scan_keys_spec : forall rd base s e,
  scan_keys rd base s e = (filter (absorbed base s e) (scanned (keys rd) base s e),
                           filter (notabs base s e) (scanned (keys rd) base s e)).
Proof.
  induction rd as [|[k v] r IH]; simpl; intros; [reflexivity|].
  fold (keys r). change (base && (s <=? k_s k) && (k_e k <=? e)) with (cond1 base s e k).
  destruct (cond1 base s e k) eqn:C1.
  - assert (TK : taken base s e k = true) by (unfold taken; rewrite C1; reflexivity).
    assert (A : absorbed base s e k = negb (k_call k)) by (unfold absorbed; rewrite C1; reflexivity).
    assert (N : notabs base s e k = k_call k) by (unfold notabs; rewrite A; apply negb_involutive).
    rewrite TK. simpl. rewrite A, N, IH. destruct (k_call k); reflexivity.
  - assert (A : absorbed base s e k = false) by (unfold absorbed; rewrite C1; reflexivity).
    assert (N : notabs base s e k = true) by (unfold notabs; rewrite A; reflexivity).
    assert (TK : taken base s e k = (s <? k_s k)) by (unfold taken; rewrite C1; reflexivity).
    rewrite TK. destruct (s <? k_s k); simpl; [|reflexivity]. rewrite A, N, IH. reflexivity.
Qed.

Lemma scanned_split : forall rk base s e, exists rest,
  rk = scanned rk base s e ++ rest /\ match rest with [] => True | k :: _ => k_s k <= s end.
Proof.
  induction rk as [|k r IH]; simpl; intros.
  - exists []. auto.
  - destruct (taken base s e k) eqn:T.
    + destruct (IH base s e) as (rest & E & H). exists rest. simpl. rewrite <- E. auto.
    + exists (k :: r). split; [reflexivity|]. unfold taken in T. apply orb_false_iff in T as [_ T]. lia.
Qed.

Lemma scanned_ge : forall rk base s e, Forall (fun k => s <= k_s k) (scanned rk base s e).
Proof.
  induction rk as [|k r IH]; simpl; intros; [constructor|].
  destruct (taken base s e k) eqn:T; [|constructor]. constructor; [|apply IH].
  unfold taken, cond1 in T. apply orb_true_iff in T as [T|T]; [|lia].
  apply andb_true_iff in T as [T _]. apply andb_true_iff in T as [_ T]. lia.
Qed.

Lemma ksorted_app : forall a b, ksorted a -> ksorted b ->
  (forall x y, In x a -> In y b -> kle x y) -> ksorted (a ++ b).
Proof.
  induction a as [|x r IH]; simpl; intros b A B H; [assumption|].
  inversion A; subst. constructor.
  - apply IH; auto.
  - apply Forall_app. split; [assumption|]. apply Forall_forall. intros y Hy. apply H; auto.
Qed.
Lemma ksorted_app_inv : forall a b, ksorted (a ++ b) ->
  ksorted a /\ ksorted b /\ (forall x y, In x a -> In y b -> kle x y).
Proof.
  induction a as [|x r IH]; simpl; intros b H.
  - split; [constructor|]. split; [assumption|]. intros ? ? [].
  - inversion H; subst. destruct (IH _ H2) as (A & B & C). apply Forall_app in H3 as [F1 F2].
    split; [constructor; assumption|]. split; [assumption|].
    intros x0 y [->|I] Hy; [rewrite Forall_forall in F2; auto | auto].
Qed.
Lemma ksorted_filter : forall f l, ksorted l -> ksorted (filter f l).
Proof.
  induction 1; simpl; [constructor|]. destruct (f a); [|assumption].
  constructor; [assumption|]. apply Forall_forall. intros y Hy. apply filter_In in Hy as [Hy _].
  rewrite Forall_forall in H0. auto.
Qed.
Lemma ksorted_rev_inv : forall x rest, ksorted (rev (x :: rest)) -> forall y, In y rest -> k_s y <= k_s x.
Proof.
  intros x rest H y Hy. simpl in H. apply ksorted_app_inv in H as (_ & _ & C).
  apply C; [apply -> in_rev; assumption | left; reflexivity].
Qed.

Lemma ssorted_snoc : forall {A} (R : A -> A -> Prop) l a,
  StronglySorted R l -> Forall (fun x => R x a) l -> StronglySorted R (l ++ [a]).
Proof.
  induction l as [|x r IH]; simpl; intros a S F; [constructor; constructor|].
  inversion S; subst. inversion F; subst. constructor; [apply IH; assumption|].
  apply Forall_app. split; [assumption|constructor; [assumption|constructor]].
Qed.
Lemma ksorted_rev_desc : forall l, ksorted l -> StronglySorted (fun a b => k_s b <= k_s a) (rev l).
Proof.
  induction 1; simpl; [constructor|]. apply ssorted_snoc; [assumption|].
  apply Forall_rev. exact H0.
Qed.

Lemma filter_rev' : forall {A} (f : A -> bool) l, filter f (rev l) = rev (filter f l).
Proof.
  induction l as [|x r IH]; simpl; [reflexivity|]. rewrite filter_app, IH. simpl.
  destruct (f x); simpl; [reflexivity|apply app_nil_r].
Qed.
Lemma NoDup_filter_mid : forall {A} (f : A -> bool) (a b c : list A),
  NoDup (a ++ b ++ c) -> NoDup (a ++ filter f b ++ c).
Proof.
  intros A f a b c N. induction a as [|x a IH]; simpl in *.
  - induction b as [|y b IHb]; simpl in *; [exact N|]. apply NoDup_cons_iff in N as [NI N].
    destruct (f y); [|auto]. constructor; [|auto]. intro I. apply NI.
    apply in_app_or in I as [I|I]; apply in_or_app; [left; apply filter_In in I; apply I | right; exact I].
  - apply NoDup_cons_iff in N as [NI N]. constructor; [|auto]. intro I. apply NI.
    apply in_app_or in I as [I|I]; apply in_or_app; [left; exact I | right].
    apply in_app_or in I as [I|I]; apply in_or_app; [left; apply filter_In in I; apply I | right; exact I].
Qed.

(* _add_structured_comment_group after its scan: [S] is the scanned tail of the dict, [Y] the new key if it
   was appended.  The entries of S whose key satisfies [f] are absorbed into the new group, the others end up
   behind it, in their old order. *)
Lemma add_group_tail : forall K (f : key -> bool) P S Y, NoDup (keys (P ++ S ++ Y)) -> ~ In K (keys S) ->
  od_has K (P ++ Y) = true ->
  (let '(d2, ng) := absorb_all K (keys (filter (fun kv => f (fst kv)) S)) (P ++ S ++ Y) [] in
   let d3 := fold_left (fun d k => od_move_to_end k d) (keys (filter (fun kv => negb (f (fst kv))) S)) d2 in
   if od_has K d3 then od_replace K ng d3 else d3) =
  od_replace K (flat_map snd (filter (fun kv => f (fst kv)) S)) (P ++ Y) ++ filter (fun kv => negb (f (fst kv))) S.
Proof.
  intros K f P S Y N NK HK. rewrite (absorb_all_block K f S P Y [] N NK). cbn [app].
  rewrite fold_move_block.
  - rewrite app_assoc, od_has_app, HK. apply od_replace_app_has. exact HK.
  - rewrite !keys_app in *. rewrite (keys_filter (fun k => negb (f k))). apply NoDup_filter_mid. exact N.
Qed.

Lemma keys_set : forall k v d, keys (od_set k v d) = if od_has k d then keys d else keys d ++ [k].
Proof. intros. unfold od_set. destruct (od_has k d); [apply keys_replace | apply keys_app]. Qed.

Definition tinv (d : groups) : Prop :=
  NoDup (keys d) /\ ksorted (keys d) /\ Forall wfk (keys d).

Lemma keys_rev : forall d, keys (rev d) = rev (keys d).
Proof. intros. unfold keys. apply map_rev. Qed.

Lemma in_keys_set : forall k K v a, In k (keys a) \/ k = K -> In k (keys (od_set K v a)).
Proof.
  intros k K v a H. rewrite keys_set. destruct (od_has K a) eqn:E.
  - destruct H as [H| ->]; [exact H | apply od_has_In; exact E].
  - apply in_or_app. destruct H as [H| ->]; [left; exact H | right; left; reflexivity].
Qed.

(* with ascending starts the reverse search cannot miss an existing equal statement range *)
Lemma find_false_new : forall rd s e,
  StronglySorted (fun a b => k_s b <= k_s a) (keys rd) -> Forall wfk (keys rd) ->
  find_containing rd s e = false -> ~ In (mkK false s e) (keys rd).
Proof.
  induction rd as [|[k v] r IH]; simpl; intros s e S W F; [intros []|].
  apply StronglySorted_inv in S as [S' SF]. apply Forall_cons_iff in W as [Wk W'].
  destruct (k_call k) eqn:KC.
  - intros [E|I]; [subst k; discriminate KC | exact (IH s e S' W' F I)].
  - destruct ((k_s k <=? s) && (e <=? k_e k)) eqn:C; [discriminate|]. intros [E|I].
    + subst k. simpl in C. rewrite !Z.leb_refl in C. discriminate.
    + destruct (k_e k <? s) eqn:C2; [|exact (IH s e S' W' F I)]. apply Z.ltb_lt in C2.
      rewrite Forall_forall in SF. specialize (SF _ I). simpl in SF. unfold wfk in Wk. lia.
Qed.

Lemma scanned_call_gt : forall rk s e, Forall (fun k => s < k_s k) (scanned rk false s e).
Proof.
  induction rk as [|k r IH]; simpl; intros; [constructor|].
  destruct (taken false s e k) eqn:TK; [|constructor]. constructor; [|apply IH].
  unfold taken, cond1 in TK. simpl in TK. apply Z.ltb_lt. exact TK.
Qed.

Section AddGroup.
  Variables (d : groups) (base : bool) (s e : Z).
  Hypothesis T : tinv d.
  Let K := mkK (negb base) s e.
  Let absb (kv : key * list pcomment) : bool := absorbed base s e (fst kv).

  (* the reverse scan takes the tail of the dict that starts at or after s *)
  Lemma scanned_tail : exists Pre Suf, d = Pre ++ Suf /\ keys Suf = rev (scanned (keys (rev d)) base s e) /\
    Forall (fun k => k_s k <= s) (keys Pre) /\ Forall (fun k => s <= k_s k) (keys Suf).
  Proof.
    destruct (scanned_split (keys (rev d)) base s e) as (rest & E & H).
    rewrite keys_rev in E. apply (f_equal (@rev key)) in E. rewrite rev_involutive, rev_app_distr in E.
    destruct (map_eq_app _ _ _ _ E) as (Pre & Suf & ED & EP & ES). exists Pre, Suf.
    split; [exact ED|]. split; [rewrite <- keys_rev in ES; exact ES|]. split.
    - fold (keys Pre) in EP. rewrite EP. apply Forall_rev. destruct rest as [|x r]; constructor; [assumption|].
      destruct T as (_ & S & _). rewrite E in S. apply ksorted_app_inv in S as (S1 & _ & _).
      apply Forall_forall. intros y Hy. pose proof (ksorted_rev_inv x r S1 y Hy). lia.
    - fold (keys Suf) in ES. rewrite ES. apply Forall_rev, scanned_ge.
  Qed.

  Lemma notfound_new : base = true -> find_containing (rev d) s e = false -> ~ In K (keys d).
  Proof.
    intros B F. unfold K. rewrite B. simpl. destruct T as (N & S & W). intro I.
    apply (find_false_new (rev d) s e); [| |exact F|]; rewrite keys_rev.
    - apply ksorted_rev_desc. assumption.
    - apply Forall_rev. assumption.
    - apply -> in_rev. exact I.
  Qed.

  Lemma add_group_explicit : (base && find_containing (rev d) s e) = false ->
    exists Pre Suf, d = Pre ++ Suf /\
      Forall (fun k => k_s k <= s) (keys Pre) /\ Forall (fun k => s <= k_s k) (keys Suf) /\ ~ In K (keys Suf) /\
      add_group d base s e =
      od_replace K (flat_map snd (filter absb Suf)) (od_set K [] Pre) ++ filter (fun kv => negb (absb kv)) Suf.
  Proof.
    intros NF. destruct scanned_tail as (Pre & Suf & ED & ES & FP & FS). exists Pre, Suf.
    assert (NK : ~ In K (keys Suf)).
    { destruct (bool_dec base true) as [B|B]; [|apply not_true_is_false in B]; rewrite B in NF.
      - intro I. apply (notfound_new B NF). rewrite ED, keys_app. apply in_or_app. right. exact I.
      - (* a call key: the scan took only keys that start after s *)
        intro I. rewrite ES, B in I. apply in_rev in I. pose proof (scanned_call_gt (keys (rev d)) s e) as G.
        rewrite Forall_forall in G. specialize (G _ I). unfold K in G. simpl in G. lia. }
    split; [exact ED|]. split; [exact FP|]. split; [exact FS|]. split; [exact NK|].
    destruct T as (ND & _ & _). rewrite ED in ND.
    unfold add_group. rewrite NF, scan_keys_spec. fold K. cbv iota beta.
    rewrite <- !filter_rev', <- ES.
    change (filter (notabs base s e) (keys Suf)) with (filter (fun k => negb (absorbed base s e k)) (keys Suf)).
    rewrite <- (keys_filter (absorbed base s e)), <- (keys_filter (fun k => negb (absorbed base s e k))). rewrite ED. unfold od_set. rewrite od_has_app.
    destruct (od_has K Pre) eqn:HP; simpl.
    - rewrite (od_replace_app_has K [] Pre Suf HP).
      pose proof (add_group_tail K (absorbed base s e) (od_replace K [] Pre) Suf []) as H.
      rewrite !app_nil_r in H. apply H; [rewrite keys_app, keys_replace, <- keys_app; exact ND | exact NK |].
      rewrite od_has_replace. exact HP.
    - assert (HS : od_has K Suf = false).
      { destruct (od_has K Suf) eqn:E; [apply od_has_In in E; contradiction | reflexivity]. }
      rewrite HS. cbv iota. replace ((Pre ++ Suf) ++ [(K, [])]) with (Pre ++ Suf ++ [(K, [])]) by apply app_assoc.
      apply (add_group_tail K (absorbed base s e)); [| exact NK |].
      + rewrite !app_assoc, keys_app. apply NoDup_app_intro; [exact ND | repeat constructor; intros [] |].
        intros x I [<-|[]]. rewrite keys_app in I. apply in_app_or in I as [I|I]; [|contradiction].
        apply (proj2 (od_has_In _ _)) in I. cbn [fst] in I. congruence.
      + rewrite od_has_app. unfold od_has at 2. simpl. rewrite key_eqb_refl. apply orb_true_r.
  Qed.

  Hypothesis Hse : s <= e.

  Lemma add_group_tinv : tinv (add_group d base s e).
  Proof.
    destruct (base && find_containing (rev d) s e) eqn:NF.
    { unfold add_group. rewrite NF. exact T. }
    destruct (add_group_explicit NF) as (Pre & Suf & ED & FP & FS & NK & ->).
    destruct T as (ND & SD & WD). rewrite ED, keys_app in ND, SD, WD.
    apply ksorted_app_inv in SD as (SP & SS & _). apply Forall_app in WD as [WP WS].
    (* the keys in front: those of Pre and K, all starting at or before s *)
    assert (X : NoDup (keys (od_set K [] Pre)) /\ ksorted (keys (od_set K [] Pre)) /\
                Forall wfk (keys (od_set K [] Pre)) /\
                forall x, In x (keys (od_set K [] Pre)) -> k_s x <= s /\ (In x (keys Pre) \/ x = K)).
    { rewrite keys_set. destruct (od_has K Pre) eqn:HP.
      - split; [exact (NoDup_app_l _ _ ND)|]. split; [exact SP|]. split; [exact WP|].
        intros x I. rewrite Forall_forall in FP. auto.
      - split; [|split; [|split]].
        + apply NoDup_app_intro; [exact (NoDup_app_l _ _ ND) | repeat constructor; intros [] |].
          intros x I [<-|[]]. apply od_has_In in I. congruence.
        + apply ssorted_snoc; [exact SP|]. eapply Forall_impl; [|exact FP]. intros x Hx. exact Hx.
        + apply Forall_app. split; [exact WP | repeat constructor; exact Hse].
        + intros x I. apply in_app_or in I as [I|[<-|[]]]; [|simpl; split; [lia | auto]].
          rewrite Forall_forall in FP. auto. }
    destruct X as (XN & XS & XW & XI).
    unfold tinv, absb. rewrite keys_app, keys_replace, (keys_filter (fun k => negb (absorbed base s e k))).
    split; [|split].
    - apply NoDup_app_intro; [exact XN | apply NoDup_filter; exact (NoDup_app_r _ _ ND) |].
      intros x I J. apply filter_In in J as [J _]. destruct (XI x I) as [_ [IP| ->]]; [|contradiction].
      exact (NoDup_app_disj _ _ x ND IP J).
    - apply ksorted_app; [exact XS | apply ksorted_filter; exact SS |].
      intros x y I J. apply filter_In in J as [J _]. rewrite Forall_forall in FS. unfold kle.
      specialize (FS y J). destruct (XI x I) as [L _]. lia.
    - apply Forall_app. split; [exact XW|]. apply Forall_forall. intros x J. apply filter_In in J as [J _].
      rewrite Forall_forall in WS. auto.
  Qed.
End AddGroup.

Lemma tinv_replace : forall k v d, tinv d -> tinv (od_replace k v d).
Proof. intros. unfold tinv. rewrite keys_replace. assumption. Qed.

(* _process_structured_comments only calls _add_structured_comment_group, on a range that holds a comment
   line, and extends the group of a call range *)
Lemma psc_loop_preserves : forall (J : groups -> Prop) b,
  (forall d s e, s <= e -> J d -> J (add_group d b s e)) ->
  (b = false -> forall k v d, k_call k = true -> J d -> J (od_replace k v d)) ->
  forall it s e have d, J d -> J (psc_loop it b s e have d).
Proof.
  intros J b Hadd Hrep. induction it as [|[l cs] r IH]; simpl; intros s e have d T; [assumption|].
  destruct (Z.ltb_spec e l) as [_|C1]; [assumption|]. destruct (Z.ltb_spec l s) as [_|C2]; [apply IH; assumption|].
  apply IH.
  assert (T1 : J (if negb have || b then add_group d b s e else d)).
  { destruct (negb have || b); [apply Hadd; [lia | assumption] | assumption]. }
  destruct b; [assumption|]. destruct (od_get _ _); [apply Hrep; [reflexivity | reflexivity | assumption] | assumption].
Qed.

(* the first comment line inside (s, e) that the loop reaches makes it call _add_structured_comment_group
   on (s, e) itself *)
Lemma psc_loop_reaches : forall (J P : groups -> Prop) b s e,
  (forall it have d, J d -> J (psc_loop it b s e have d)) ->
  (b = false -> forall v d, J d -> J (od_replace (mkK true s e) v d)) ->
  (forall d, P d -> s <= e -> J (add_group d b s e)) ->
  forall it d, reach s e it = true -> P d -> J (psc_loop it b s e false d).
Proof.
  intros J P b s e Hloop Hrep Hnew. induction it as [|[l cs] r IH]; simpl; intros d R HP; [discriminate|].
  destruct (e <? l) eqn:C1; [discriminate|]. destruct (l <? s) eqn:C2; [apply IH; assumption|]. simpl.
  apply Hloop. assert (H : J (add_group d b s e)) by (apply Hnew; [exact HP | lia]).
  destruct b; [exact H|]. destruct (od_get _ _); [apply Hrep; [reflexivity | exact H] | exact H].
Qed.

Lemma psc_loop_tinv : forall it b s e have d, tinv d -> tinv (psc_loop it b s e have d).
Proof.
  intros it b. apply (psc_loop_preserves tinv b).
  - intros. apply add_group_tinv; assumption.
  - intros. apply tinv_replace. assumption.
Qed.

Lemma tinv_stable : visit_stable (fun v => tinv (v_groups v)).
Proof. apply stable_groups. intros raw d b s e. apply psc_loop_tinv. Qed.

Lemma init_tinv : forall raw, raw_ok raw -> tinv (v_groups (init_state raw)).
Proof.
  intros raw R. simpl. unfold raw_ok in R.
  assert (G : forall r b, raw_sorted_from b r ->
            tinv (map (fun lc => (mkK false (fst lc) (fst lc), snd lc)) r) /\
            Forall (fun k => b < k_s k) (keys (map (fun lc => (mkK false (fst lc) (fst lc), snd lc)) r))).
  { induction r as [|[l cs] r IH]; simpl; intros b H.
    - split; [split; [constructor|split; constructor]|constructor].
    - destruct H as (H1 & _ & H3). destruct (IH _ H3) as [(N & S & W) F]. split.
      + split; [|split].
        * constructor; [|assumption]. intro I. rewrite Forall_forall in F. specialize (F _ I). simpl in F. lia.
        * constructor; [assumption|]. eapply Forall_impl; [|exact F]. unfold kle. simpl. intros; lia.
        * constructor; [unfold wfk; simpl; lia|assumption].
      + constructor; [simpl; assumption|]. eapply Forall_impl; [|exact F]. simpl. intros; lia. }
  apply (G raw 0 R).
Qed.

Lemma od_del_replace : forall k v d, od_del k (od_replace k v d) = od_del k d.
Proof.
  induction d as [|[k' v'] r IH]; simpl; [reflexivity|].
  destruct (key_eqb k k') eqn:E; simpl; rewrite E; simpl; [reflexivity | f_equal; exact IH].
Qed.

Lemma od_get_replace : forall k v d, od_has k d = true -> od_get k (od_replace k v d) = Some v.
Proof.
  unfold od_has. induction d as [|[k' v'] r IH]; simpl; [discriminate|].
  destruct (key_eqb k k') eqn:E; simpl; rewrite E; [reflexivity | exact IH].
Qed.

Lemma Forall_od_del : forall (P : key * list pcomment -> Prop) k d, Forall P d -> Forall P (od_del k d).
Proof.
  intros P k d F. apply Forall_forall. intros x Hx. apply filter_In in Hx as [Hx _].
  rewrite Forall_forall in F. auto.
Qed.

Lemma Forall_od_del_inv : forall (P : key * list pcomment -> Prop) k g d,
  NoDup (keys d) -> od_get k d = Some g -> P (k, g) -> Forall P (od_del k d) -> Forall P d.
Proof.
  intros P k g d N G HP F. destruct (od_get_split _ _ _ G) as (a & b & -> & Na).
  assert (Ia : ~ In k (keys a)).
  { intro I. apply od_has_In in I. unfold od_has in I. rewrite Na in I. discriminate. }
  destruct (NoDup_mid k g a b N) as (_ & Ib & _). rewrite od_del_mid in F by assumption.
  apply Forall_app in F as [Fa Fb]. apply Forall_app. split; [exact Fa | constructor; assumption].
Qed.

Lemma filter_absorbed_call : forall s e (S : groups), filter (fun kv => absorbed false s e (fst kv)) S = [].
Proof. induction S as [|x S IH]; [reflexivity|]. simpl. unfold absorbed at 1, cond1. simpl. exact IH. Qed.

(* the groups: every call-range group is exact, every statement-range group holds comments of its lines *)
Section GroupOk.
  Variable raw0 : rawmap.
  Let ok := group_ok raw0.

  Lemma od_replace_ok : forall k v d, Forall ok d -> ok (k, v) -> Forall ok (od_replace k v d).
  Proof.
    induction d as [|[k' v'] r IH]; simpl; intros F O; [constructor|].
    inversion F; subst. destruct (key_eqb k k') eqn:E.
    - apply key_eqb_eq in E. subst. constructor; assumption.
    - constructor; auto.
  Qed.
  Lemma od_set_ok : forall k v d, Forall ok d -> ok (k, v) -> Forall ok (od_set k v d).
  Proof.
    intros. unfold od_set. destruct (od_has k d).
    - apply od_replace_ok; assumption.
    - apply Forall_app. split; [assumption | constructor; [assumption | constructor]].
  Qed.

  Definition jinv (d : groups) : Prop := tinv d /\ Forall ok d.

  Lemma add_group_base_ok : forall d s e, tinv d -> Forall ok d -> Forall ok (add_group d true s e).
  Proof.
    intros d s e T F. destruct (find_containing (rev d) s e) eqn:NF.
    { unfold add_group. simpl. rewrite NF. exact F. }
    destruct (add_group_explicit d true s e T NF) as (Pre & Suf & ED & _ & _ & _ & ->).
    rewrite ED in F. apply Forall_app in F as [FP FS]. rewrite Forall_forall in FS. apply Forall_app. split.
    - apply od_replace_ok; [apply od_set_ok; [exact FP | constructor] |].
      (* what is absorbed are statement-range groups inside (s, e) *)
      unfold ok, group_ok. simpl. apply Forall_forall. intros c Hc.
      apply in_flat_map in Hc as ([k v] & Hkv & Hc). apply filter_In in Hkv as [Hkv A]. simpl in A, Hc.
      unfold absorbed, cond1 in A. simpl in A. apply andb_true_iff in A as [A KC].
      apply andb_true_iff in A as [A1 A2]. apply negb_true_iff in KC.
      specialize (FS _ Hkv). unfold ok, group_ok in FS. simpl in FS. rewrite KC, Forall_forall in FS.
      destruct (FS _ Hc) as [R I]. split; [|exact I].
      unfold in_range in *. apply andb_true_iff in R as [R1 R2]. apply andb_true_iff. split; lia.
    - apply Forall_forall. intros x Hx. apply filter_In in Hx as [Hx _]. auto.
  Qed.

  Lemma psc_loop_base_ok : forall it s e have d, jinv d -> jinv (psc_loop it true s e have d).
  Proof.
    apply (psc_loop_preserves jinv true); [|discriminate].
    intros d s e Hse [T F]. split; [apply add_group_tinv | apply add_group_base_ok]; assumption.
  Qed.

  Section CallLoop.
    Variables s e : Z.
    Let K := mkK true s e.
    (* the group of K is g, everything else is fine *)
    Definition cst (g : list pcomment) (d : groups) : Prop :=
      tinv d /\ od_get K d = Some g /\ Forall ok (od_del K d).

    Lemma cst_replace : forall g g' d, cst g d -> cst g' (od_replace K g' d).
    Proof.
      intros g g' d (T & G & F). split; [apply tinv_replace; exact T|]. split.
      - apply od_get_replace. unfold od_has. rewrite G. reflexivity.
      - rewrite od_del_replace. exact F.
    Qed.

    Lemma cst_ok : forall g d, cst g d -> ok (K, g) -> jinv d.
    Proof.
      intros g d (T & G & F) O. split; [exact T|]. exact (Forall_od_del_inv _ K g d (proj1 T) G O F).
    Qed.

    Lemma add_group_call_cst : forall d, jinv d -> s <= e -> cst [] (add_group d false s e).
    Proof.
      intros d [T F] Hse. split; [apply add_group_tinv; assumption|].
      destruct (add_group_explicit d false s e T eq_refl) as (Pre & Suf & ED & _ & _ & _ & ->).
      simpl negb. fold K. rewrite (filter_absorbed_call s e Suf). cbn [flat_map]. rewrite ED in F. apply Forall_app in F as [FP FS].
      assert (HK : od_has K (od_set K [] Pre) = true) by (apply od_has_In, in_keys_set; auto).
      split; [rewrite od_get_app, od_get_replace by exact HK; reflexivity|].
      unfold od_del. rewrite filter_app. apply Forall_app. split.
      - fold (od_del K (od_replace K [] (od_set K [] Pre))). rewrite od_del_replace.
        unfold od_set. destruct (od_has K Pre); [rewrite od_del_replace; apply Forall_od_del; exact FP|].
        unfold od_del. rewrite filter_app. apply Forall_app. split; [apply (Forall_od_del _ K Pre FP)|].
        simpl. rewrite key_eqb_refl. constructor.
      - apply Forall_forall. intros x Hx. apply filter_In in Hx as [Hx _]. apply filter_In in Hx as [Hx _].
        rewrite Forall_forall in FS. auto.
    Qed.

    Lemma loop_have : forall it g d, cst g d -> cst (extend_new g (vis s e it)) (psc_loop it false s e true d).
    Proof.
      induction it as [|[l cs] r IH]; simpl; intros g d S; [assumption|].
      destruct (e <? l); [assumption|]. destruct (l <? s); [apply IH; assumption|]. simpl.
      fold K. rewrite (proj1 (proj2 S)), extend_new_app. apply IH. apply (cst_replace g). exact S.
    Qed.

    Lemma loop_nohave : forall it d, jinv d ->
      psc_loop it false s e false d = d \/ cst (extend_new [] (vis s e it)) (psc_loop it false s e false d).
    Proof.
      induction it as [|[l cs] r IH]; simpl; intros d J; [auto|].
      destruct (e <? l) eqn:C1; [auto|]. destruct (l <? s) eqn:C2; [apply IH; assumption|]. simpl. right.
      assert (S : cst [] (add_group d false s e)) by (apply add_group_call_cst; [exact J | lia]).
      fold K. rewrite (proj1 (proj2 S)), extend_new_app. apply loop_have. apply (cst_replace []). exact S.
    Qed.

    Lemma psc_loop_call_ok : forall t d, raw_ok raw0 -> Forall (fun lc => snd lc = []) t ->
      jinv d -> jinv (psc_loop (raw0 ++ t) false s e false d).
    Proof.
      intros t d R Te J. destruct (loop_nohave (raw0 ++ t) d J) as [E|S]; [rewrite E; exact J|].
      eapply cst_ok; [exact S|]. unfold ok, group_ok. simpl. unfold call_content.
      rewrite (vis_sorted s e raw0 0 t R Te). reflexivity.
    Qed.
  End CallLoop.

  Definition inv (v : vstate) : Prop := rinv raw0 v /\ jinv (v_groups v).

  Hypothesis Hraw : raw_ok raw0.

  Lemma inv_stable : visit_stable inv.
  Proof.
    split; [|split].
    - intros v b s e [(t & R & Te) J]. split; [exists t; auto|]. unfold psc. simpl. rewrite R.
      destruct b; [apply psc_loop_base_ok | apply psc_loop_call_ok]; assumption.
    - intros v n i b [X J]. split; [apply sig_end_ext; exact X | exact J].
    - intros v v' R G [X J]. unfold inv, rinv. rewrite R, G. exact (conj X J).
  Qed.

  Lemma init_inv : inv (init_state raw0).
  Proof.
    split; [exists []; rewrite app_nil_r; auto|]. split; [apply init_tinv; exact Hraw|]. simpl.
    assert (G : forall r b, raw_sorted_from b r -> (forall c, In c (all_comments r) -> In c (all_comments raw0)) ->
              Forall ok (map (fun lc => (mkK false (fst lc) (fst lc), snd lc)) r)).
    { induction r as [|[l cs] r IH]; simpl; intros b0 Hs Sub; [constructor|].
      destruct Hs as (H1 & H2 & H3). constructor.
      - unfold ok, group_ok. simpl. apply Forall_forall. intros c Hc. split.
        + rewrite Forall_forall in H2. rewrite (H2 _ Hc). unfold in_range. lia.
        + apply Sub. apply in_or_app. auto.
      - eapply IH; [exact H3|]. intros c Hc. apply Sub. apply in_or_app. auto. }
    eapply (G raw0 0); [exact Hraw | auto].
  Qed.

  Lemma parse_inv : forall body, inv (parse raw0 body).
  Proof. intros body. apply (stable_visit_all inv inv_stable), init_inv. Qed.
End GroupOk.

Theorem parse_groups_ok : forall raw body, raw_ok raw -> Forall (group_ok raw) (v_groups (parse raw body)).
Proof. intros raw body H. apply (parse_inv raw H body). Qed.

Lemma parse_event_lines : forall raw body k v c, raw_ok raw ->
  In (k, v) (v_groups (parse raw body)) -> In c v ->
  k_s k <= pc_line c <= k_e k /\ In c (all_comments raw) /\ (k_call k = true -> directive_like c = true).
Proof.
  intros raw body k v c R I C.
  pose proof (parse_groups_ok raw body R) as F. rewrite Forall_forall in F. specialize (F _ I).
  unfold group_ok in F. simpl in F. destruct (k_call k) eqn:KC.
  - subst v. apply call_content_props in C as (A & B & D); [|assumption].
    unfold in_range in A. apply andb_true_iff in A as [A1 A2]. split; [lia|]. auto.
  - rewrite Forall_forall in F. destruct (F _ C) as [A B].
    unfold in_range in A. apply andb_true_iff in A as [A1 A2]. split; [lia|]. split; [assumption|discriminate].
Qed.

(* no comment is lost or duplicated among the statement-range groups *)
Definition bc (d : groups) : list pcomment :=
  flat_map snd (filter (fun kv => negb (k_call (fst kv))) d).

Lemma bc_cons : forall k v d, bc ((k, v) :: d) = if k_call k then bc d else v ++ bc d.
Proof. intros. unfold bc. simpl. destruct (k_call k); reflexivity. Qed.
Lemma bc_app : forall a b, bc (a ++ b) = bc a ++ bc b.
Proof. intros. unfold bc. rewrite filter_app, flat_map_app. reflexivity. Qed.

Lemma bc_replace_call : forall k v d, k_call k = true -> bc (od_replace k v d) = bc d.
Proof.
  induction d as [|[k' v'] r IH]; simpl; intros KC; [reflexivity|].
  destruct (key_eqb k k') eqn:E.
  - apply key_eqb_eq in E. subst k'. rewrite !bc_cons, KC. reflexivity.
  - rewrite !bc_cons, IH by assumption. reflexivity.
Qed.

Lemma bc_set_call : forall K v d, k_call K = true -> bc (od_set K v d) = bc d.
Proof.
  intros K v d H. unfold od_set. destruct (od_has K d); [apply bc_replace_call; exact H|].
  rewrite bc_app, bc_cons, H. apply app_nil_r.
Qed.

Lemma bc_absorbed_split : forall base s e S,
  Permutation (flat_map snd (filter (fun kv => absorbed base s e (fst kv)) S) ++
               bc (filter (fun kv => negb (absorbed base s e (fst kv))) S)) (bc S).
Proof.
  induction S as [|[k v] S IH]; simpl; [reflexivity|]. destruct (absorbed base s e k) eqn:A; simpl.
  - unfold absorbed in A. apply andb_true_iff in A as [_ A]. apply negb_true_iff in A.
    rewrite bc_cons, A, <- app_assoc. apply Permutation_app_head. exact IH.
  - rewrite !bc_cons. destruct (k_call k); [exact IH|].
    etransitivity; [apply Permutation_app_swap_app|]. apply Permutation_app_head. exact IH.
Qed.

Lemma add_group_perm : forall d base s e, tinv d -> Permutation (bc (add_group d base s e)) (bc d).
Proof.
  intros d base s e T.
  destruct (base && find_containing (rev d) s e) eqn:NF.
  { unfold add_group. rewrite NF. reflexivity. }
  destruct (add_group_explicit d base s e T NF) as (Pre & Suf & ED & _ & _ & _ & ->). rewrite ED in *.
  rewrite !bc_app. destruct base; simpl in NF |- *.
  - (* a statement range: the key is new, its group holds what was absorbed *)
    assert (NP : ~ In (mkK false s e) (keys Pre)).
    { intro I. apply (notfound_new _ true s e T eq_refl NF). rewrite keys_app. apply in_or_app. auto. }
    unfold od_set. destruct (od_has (mkK false s e) Pre) eqn:HP; [apply od_has_In in HP; contradiction|].
    rewrite od_replace_app_none by (apply od_get_notin; exact NP). simpl. rewrite key_eqb_refl.
    rewrite bc_app, bc_cons. simpl. rewrite app_nil_r, <- app_assoc.
    apply Permutation_app_head, bc_absorbed_split.
  - (* a call range absorbs nothing *)
    rewrite bc_replace_call, bc_set_call by reflexivity. apply Permutation_app_head.
    replace (filter (fun _ => true) Suf) with Suf; [reflexivity|].
    clear. induction Suf; simpl; congruence.
Qed.

Definition pinv (C : list pcomment) (d : groups) : Prop := tinv d /\ Permutation (bc d) C.

Lemma psc_loop_pinv : forall C it b s e have d, pinv C d -> pinv C (psc_loop it b s e have d).
Proof.
  intros C it b. apply (psc_loop_preserves (pinv C) b).
  - intros d0 s0 e0 Hse [T Q]. split; [apply add_group_tinv; assumption|].
    etransitivity; [apply add_group_perm; assumption | exact Q].
  - intros _ k v d0 KC [T Q]. split; [apply tinv_replace; assumption|]. rewrite bc_replace_call; assumption.
Qed.

Lemma bc_init : forall raw, bc (v_groups (init_state raw)) = all_comments raw.
Proof.
  intros raw. simpl. unfold all_comments. induction raw as [|[l cs] r IH]; simpl; [reflexivity|].
  rewrite bc_cons. simpl. rewrite IH. reflexivity.
Qed.

Theorem parse_partition : forall raw body, raw_ok raw ->
  Permutation (bc (v_groups (parse raw body))) (all_comments raw).
Proof.
  intros raw body R. apply (stable_visit_all _ (stable_groups _ (fun it d b s e => psc_loop_pinv (all_comments raw) it b s e false d))).
  split; [apply init_tinv; assumption|]. rewrite bc_init. reflexivity.
Qed.

Lemma bc_In : forall c d, In c (bc d) -> exists k v, In (k, v) d /\ k_call k = false /\ In c v.
Proof.
  intros c d H. unfold bc in H. apply in_flat_map in H as ([k v] & H1 & H2).
  apply filter_In in H1 as [H1 H3]. simpl in *. apply negb_true_iff in H3. eauto.
Qed.

(* every comment of the file sits in a statement-range group whose range contains its line *)
Theorem parse_base_containment : forall raw body c, raw_ok raw -> In c (all_comments raw) ->
  exists k v, In (k, v) (v_groups (parse raw body)) /\ k_call k = false /\ In c v /\
              k_s k <= pc_line c <= k_e k.
Proof.
  intros raw body c R I.
  pose proof (parse_partition raw body R) as P. apply Permutation_sym in P.
  apply (Permutation_in _ P) in I. apply bc_In in I as (k & v & I1 & KC & I2).
  exists k, v. repeat split; try assumption; apply (parse_event_lines raw body k v c R I1 I2).
Qed.

(* the same for the Director's input: every comment yields a statement-range event around its line *)
Theorem parse_base_event : forall raw body c, raw_ok raw -> In c (all_comments raw) ->
  exists ev, In ev (events_of (director_groups (parse raw body))) /\ ev_call ev = false /\
             ev_comment ev = pc_c c /\ ev_start ev <= c_line (pc_c c) <= ev_end ev.
Proof.
  intros raw body c R I. destruct (parse_base_containment raw body c R I) as (k & v & I1 & KC & I2 & Rg).
  exists (mkE (k_call k) (k_s k) (k_e k) (pc_c c)). split; [|rewrite KC; auto].
  unfold events_of, director_groups. apply in_flat_map. exists (to_group (k, v)). split.
  - apply in_map. assumption.
  - unfold to_group. simpl. apply in_map. apply in_map. assumption.
Qed.
