(* C03 — the parser model (Directors/Parser.v): induction over the tree, what every visit method preserves,
   the fields that only collect items, and which comments a _process_structured_comments loop looks at. *)
From Coq Require Import ZArith List Bool Arith NArith Lia.
From PV Require Import Directors.Model Directors.Parser Directors.ParserSpec.
Import ListNotations.
Open Scope Z_scope.

Section NodeInd.
  Variable P : node -> Prop.
  Hypothesis H : forall n, Forall P (kids_of n) -> P n.
  Fixpoint node_ind' (n : node) : P n :=
    let go := fix go (l : list node) : Forall P l :=
      match l with
      | [] => Forall_nil P
      | x :: r => @Forall_cons _ P x r (node_ind' x) (go r)
      end in
    H n (match n return Forall P (kids_of n) with
         | NCall _ _ k | NStmt _ _ k | NAnn _ _ _ k | NReturn _ _ k | NTry _ k | NWith _ _ _ _ k
         | NMatch _ _ _ k | NClass _ _ k | NFunc _ k => go k
         end).
End NodeInd.

Lemma visit_eq : forall v n,
  visit v n = leave (call_visitor (fold_left visit (kids_of n) (enter v n)) n) n.
Proof. intros v n. destruct n; reflexivity. Qed.

Lemma fold_visit_ind : forall (Q : vstate -> Prop) l,
  Forall (fun x => forall v, Q v -> Q (visit v x)) l -> forall v, Q v -> Q (fold_left visit l v).
Proof. induction 1; simpl; auto. Qed.

Lemma psc_returns : forall v b s e, v_returns (psc v b s e) = v_returns v.
Proof. reflexivity. Qed.
Lemma psc_fr : forall v b s e, v_fr (psc v b s e) = v_fr v.
Proof. reflexivity. Qed.

Lemma visit_decorators_rf : forall decs v l,
  v_returns (visit_decorators v l decs) = v_returns v /\ v_fr (visit_decorators v l decs) = v_fr v.
Proof.
  unfold visit_decorators. induction decs as [|d r IH]; intros v l; simpl; [auto|].
  destruct (IH (dec_step l v d) l) as [A B]. rewrite A, B. split; reflexivity.
Qed.

Lemma visit_def_rf : forall v l decs,
  v_returns (visit_def v l decs) = v_returns v /\ v_fr (visit_def v l decs) = v_fr v.
Proof. intros. unfold visit_def. simpl. apply visit_decorators_rf. Qed.

Lemma fold_psc_rf : forall (types : list (Z * Z)) v,
  v_returns (fold_left (fun v t => psc v true (fst t) (snd t)) types v) = v_returns v /\
  v_fr (fold_left (fun v t => psc v true (fst t) (snd t)) types v) = v_fr v.
Proof. induction types; intros; simpl; auto. destruct (IHtypes (psc v true (fst a) (snd a))). auto. Qed.

Definition own_return (n : node) : list Z := match n with NReturn s _ _ => [s] | _ => [] end.
Definition own_func (n : node) : list (Z * Z) := match n with NFunc f _ => [(fstart f, f_end f)] | _ => [] end.

(* the signature range of _visit_function_def: its end line and the raw comments after the scan *)
Definition sig_scan (f : fdef) (raw : rawmap) : Z * rawmap :=
  let me := match f_returns_end f with
            | Some r => r
            | None => match f_last_arg_end f with Some a => a | None => f_lineno f end
            end in
  if f_body_lineno f <=? me then (me, raw)
  else sig_end (Z.to_nat (f_body_lineno f - me)) me (f_body_lineno f) raw.

Lemma visit_function_def_eq : forall v f,
  visit_function_def v f =
  let sc := sig_scan f (v_raw v) in
  let v2 := visit_def (psc (set_raw v (snd sc)) true (f_lineno f) (fst sc)) (f_lineno f) (f_decs f) in
  mkV (v_raw v2) (v_groups v2) (zd_set (fstart f) (f_end f) (v_fr v2)) (v_blocks v2) (v_returns v2) (v_depth v2)
      (v_defs_start v2) (v_decorators v2) (v_var_annots v2)
      (v_param_annots v2 ++ [(f_lineno f, f_end f)]) (v_matches v2).
Proof.
  intros v f. unfold visit_function_def, sig_scan. cbv zeta.
  destruct (if f_body_lineno f <=? _ then _ else _). reflexivity.
Qed.

Lemma visit_function_def_rf : forall v f,
  v_returns (visit_function_def v f) = v_returns v /\
  v_fr (visit_function_def v f) = zd_set (fstart f) (f_end f) (v_fr v).
Proof.
  intros v f. rewrite visit_function_def_eq. cbv zeta. cbn [v_returns v_fr].
  destruct (visit_def_rf (psc (set_raw v (snd (sig_scan f (v_raw v)))) true (f_lineno f) (fst (sig_scan f (v_raw v))))
              (f_lineno f) (f_decs f)) as [A B].
  rewrite A, B. split; reflexivity.
Qed.

Lemma call_visitor_returns : forall v n, v_returns (call_visitor v n) = v_returns v ++ own_return n.
Proof.
  intros v n. destruct n; simpl; try (rewrite app_nil_r; reflexivity).
  - destruct has_value; simpl; rewrite app_nil_r; reflexivity.
  - reflexivity.
  - rewrite app_nil_r. apply fold_psc_rf.
  - rewrite app_nil_r. destruct (v_depth v =? 1); reflexivity.
  - rewrite app_nil_r. apply visit_def_rf.
  - rewrite app_nil_r. apply visit_function_def_rf.
Qed.

Definition set_items (items : list (Z * Z)) (d : list (Z * Z)) : list (Z * Z) :=
  fold_left (fun d p => zd_set (fst p) (snd p) d) items d.

Lemma call_visitor_fr : forall v n, v_fr (call_visitor v n) = set_items (own_func n) (v_fr v).
Proof.
  intros v n. destruct n; simpl; try reflexivity.
  - destruct has_value; reflexivity.
  - apply fold_psc_rf.
  - destruct (v_depth v =? 1); reflexivity.
  - apply visit_def_rf.
  - apply visit_function_def_rf.
Qed.

Lemma returns_of_eq : forall n, returns_of n = flat_map returns_of (kids_of n) ++ own_return n.
Proof. destruct n; simpl; try rewrite app_nil_r; reflexivity. Qed.
Lemma funcs_of_eq : forall n, funcs_of n = flat_map funcs_of (kids_of n) ++ own_func n.
Proof. destruct n; simpl; try rewrite app_nil_r; reflexivity. Qed.

(* a field that enter/leave do not touch and to which every visit method applies its own items, in
   post-order: after the visit of a tree all the items of the tree have been applied *)
Section Field.
  Variables (S X : Type) (get : vstate -> S) (act : list X -> S -> S) (own tree : node -> list X).
  Hypothesis act_nil : forall s, act [] s = s.
  Hypothesis act_app : forall a b s, act (a ++ b) s = act b (act a s).
  Hypothesis tree_eq : forall n, tree n = flat_map tree (kids_of n) ++ own n.
  Hypothesis get_enter : forall v n, get (enter v n) = get v.
  Hypothesis get_leave : forall v n, get (leave v n) = get v.
  Hypothesis get_call : forall v n, get (call_visitor v n) = act (own n) (get v).

  Lemma fold_visit_field : forall l,
    Forall (fun n => forall v, get (visit v n) = act (tree n) (get v)) l ->
    forall v, get (fold_left visit l v) = act (flat_map tree l) (get v).
  Proof.
    induction 1 as [|n l Hn _ IH]; intros v; simpl; [symmetry; apply act_nil|].
    rewrite IH, Hn, act_app. reflexivity.
  Qed.

  Lemma visit_field : forall n v, get (visit v n) = act (tree n) (get v).
  Proof.
    apply (node_ind' (fun n => forall v, get (visit v n) = act (tree n) (get v))).
    intros n IH v. rewrite visit_eq, tree_eq, get_leave, get_call, (fold_visit_field _ IH), get_enter, act_app.
    reflexivity.
  Qed.

  Lemma visit_all_field : forall l v, get (fold_left visit l v) = act (flat_map tree l) (get v).
  Proof. intros l. apply fold_visit_field, Forall_forall. intros n _. apply visit_field. Qed.
End Field.

(* The visit methods are compositions of _process_structured_comments calls, the signature scan (which only
   grows the defaultdict of raw comments) and updates of fields the comment machinery never reads. *)
Definition visit_stable (Q : vstate -> Prop) : Prop :=
  (forall v b s e, Q v -> Q (psc v b s e)) /\
  (forall v n i b, Q v -> Q (set_raw v (snd (sig_end n i b (v_raw v))))) /\
  (forall v v', v_raw v' = v_raw v -> v_groups v' = v_groups v -> Q v -> Q v').

(* a property of the groups alone only has to survive _process_structured_comments *)
Lemma stable_groups : forall J : groups -> Prop,
  (forall raw d b s e, J d -> J (psc_loop raw b s e false d)) -> visit_stable (fun v => J (v_groups v)).
Proof.
  intros J H. split; [|split].
  - intros v b s e Hv. apply H. exact Hv.
  - intros v n i b Hv. exact Hv.
  - intros v v' _ G Hv. rewrite G. exact Hv.
Qed.

Section Stable.
  Variable Q : vstate -> Prop.
  Hypothesis HQ : visit_stable Q.

  Lemma stable_psc : forall v b s e, Q v -> Q (psc v b s e).
  Proof. apply HQ. Qed.
  Lemma stable_same : forall v v', v_raw v' = v_raw v -> v_groups v' = v_groups v -> Q v -> Q v'.
  Proof. apply HQ. Qed.

  Lemma stable_dec_step : forall l v d, Q v -> Q (dec_step l v d).
  Proof. intros l v d H. eapply stable_same; [| |apply (stable_psc v true (fst d) (snd d) H)]; reflexivity. Qed.
  Lemma stable_decorators : forall decs v l, Q v -> Q (visit_decorators v l decs).
  Proof. unfold visit_decorators. induction decs; simpl; intros; auto using stable_dec_step. Qed.
  Lemma stable_def : forall v l decs, Q v -> Q (visit_def v l decs).
  Proof. intros. eapply stable_same; [| |apply stable_decorators; eassumption]; reflexivity. Qed.

  Lemma stable_sig : forall v f, Q v -> Q (set_raw v (snd (sig_scan f (v_raw v)))).
  Proof.
    intros v f H. unfold sig_scan. cbv zeta. destruct (f_body_lineno f <=? _).
    - eapply stable_same; [| |exact H]; reflexivity.
    - apply HQ. exact H.
  Qed.

  Lemma stable_function_def : forall v f, Q v -> Q (visit_function_def v f).
  Proof.
    intros v f H. rewrite visit_function_def_eq.
    eapply stable_same; [| |apply stable_def, stable_psc, stable_sig; exact H]; reflexivity.
  Qed.

  Lemma stable_fold_psc : forall (types : list (Z * Z)) v, Q v ->
    Q (fold_left (fun v t => psc v true (fst t) (snd t)) types v).
  Proof. induction types; simpl; intros; auto using stable_psc. Qed.

  Lemma stable_enter : forall v n, Q v -> Q (enter v n).
  Proof. intros v n H. destruct n; try exact H. eapply stable_same; [| |exact H]; reflexivity. Qed.
  Lemma stable_leave : forall v n, Q v -> Q (leave v n).
  Proof. intros v n H. destruct n; try exact H. eapply stable_same; [| |exact H]; reflexivity. Qed.

  Lemma stable_call_visitor : forall v n, Q v -> Q (call_visitor v n).
  Proof.
    intros v n H. destruct n; simpl.
    - apply stable_psc; assumption.
    - apply stable_psc; assumption.
    - destruct has_value; [|assumption]. apply stable_psc. eapply stable_same; [| |exact H]; reflexivity.
    - apply stable_psc. eapply stable_same; [| |exact H]; reflexivity.
    - apply stable_fold_psc; assumption.
    - apply stable_psc. destruct (v_depth v =? 1); [|assumption]. eapply stable_same; [| |exact H]; reflexivity.
    - eapply stable_same; [| |exact H]; reflexivity.
    - apply stable_def; assumption.
    - apply stable_function_def; assumption.
  Qed.

  Lemma stable_visit : forall n v, Q v -> Q (visit v n).
  Proof.
    apply (node_ind' (fun n => forall v, Q v -> Q (visit v n))).
    intros n IH v H. rewrite visit_eq. apply stable_leave, stable_call_visitor.
    apply (fold_visit_ind Q _ IH). apply stable_enter. assumption.
  Qed.

  Lemma stable_visit_all : forall l v, Q v -> Q (fold_left visit l v).
  Proof. intros l. apply fold_visit_ind, Forall_forall. intros n _. apply stable_visit. Qed.
End Stable.

(* in a fold of steps, one of which creates and all of which preserve *)
Lemma fold_creates : forall {A} (pre post : vstate -> Prop) (step : vstate -> A -> vstate) (xs : list A) (x : A),
  In x xs -> (forall v a, pre v -> pre (step v a)) -> (forall v a, post v -> post (step v a)) ->
  (forall v, pre v -> post (step v x)) -> forall v, pre v -> post (fold_left step xs v).
Proof.
  intros A pre post step xs x I Hp Hq Hc. induction xs as [|a r IH]; simpl; intros v P; [contradiction|].
  destruct I as [->|I]; [|apply IH; [assumption | apply Hp; assumption]].
  generalize (step v x) (Hc v P). clear -Hq. induction r; simpl; auto.
Qed.

(* one request [x] among those of the tree: every visit keeps [pre] and [post], and the visit method of the
   node that owns [x] establishes [post] *)
Section Creates.
  Variables (pre post : vstate -> Prop) (X : Type) (own tree : node -> list X) (x : X).
  Hypothesis Hpre : visit_stable pre.
  Hypothesis Hpost : visit_stable post.
  Hypothesis tree_eq : forall n, tree n = flat_map tree (kids_of n) ++ own n.
  Hypothesis Hown : forall v n, pre v -> In x (own n) -> post (call_visitor v n).

  Lemma fold_visit_creates : forall l,
    Forall (fun n => forall v, pre v -> In x (tree n) -> post (visit v n)) l ->
    forall v, pre v -> In x (flat_map tree l) -> post (fold_left visit l v).
  Proof.
    intros l F v P I. apply in_flat_map in I as (n & Hn & Hx). rewrite Forall_forall in F.
    apply (fold_creates pre post visit l n Hn); [| | intros v0 P0; apply F; assumption | exact P].
    - intros v0 a. apply (stable_visit pre Hpre).
    - intros v0 a. apply (stable_visit post Hpost).
  Qed.

  Lemma visit_creates : forall n v, pre v -> In x (tree n) -> post (visit v n).
  Proof.
    apply (node_ind' (fun n => forall v, pre v -> In x (tree n) -> post (visit v n))).
    intros n IH v P I. rewrite visit_eq. apply (stable_leave post Hpost).
    pose proof (stable_enter pre Hpre v n P) as PE.
    rewrite tree_eq in I. apply in_app_or in I as [I|I].
    - apply (stable_call_visitor post Hpost). apply (fold_visit_creates _ IH); assumption.
    - apply Hown; [|exact I]. apply (stable_visit_all pre Hpre). exact PE.
  Qed.

  Lemma visit_all_creates : forall l v, pre v -> In x (flat_map tree l) -> post (fold_left visit l v).
  Proof. intros l. apply fold_visit_creates, Forall_forall. intros n _. apply visit_creates. Qed.
End Creates.

Lemma key_eqb_eq : forall a b, key_eqb a b = true -> a = b.
Proof.
  intros [c1 s1 e1] [c2 s2 e2]. unfold key_eqb; simpl. intro H.
  apply andb_true_iff in H as [H H3]. apply andb_true_iff in H as [H1 H2].
  apply Bool.eqb_prop in H1. apply Z.eqb_eq in H2. apply Z.eqb_eq in H3. subst. reflexivity.
Qed.
Lemma key_eqb_refl : forall a, key_eqb a a = true.
Proof. intros [c s e]. unfold key_eqb; simpl. rewrite Bool.eqb_reflx, !Z.eqb_refl. reflexivity. Qed.

Lemma od_replace_app_none : forall k v a b, od_get k a = None -> od_replace k v (a ++ b) = a ++ od_replace k v b.
Proof.
  induction a as [|[k' v'] r IH]; simpl; intros; [reflexivity|].
  destruct (key_eqb k k'); [discriminate|]. f_equal. auto.
Qed.

Lemma od_get_split : forall k d v, od_get k d = Some v ->
  exists a b, d = a ++ (k, v) :: b /\ od_get k a = None.
Proof.
  induction d as [|[k' v'] r IH]; simpl; intros v H; [discriminate|].
  destruct (key_eqb k k') eqn:E.
  - apply key_eqb_eq in E. inversion H. subst. exists [], r. auto.
  - destruct (IH _ H) as (a & b & -> & N). exists ((k', v') :: a), b. simpl. rewrite E. auto.
Qed.

(* the raw comments during the visit: those of the tokenizer plus the empty entries the signature scan added *)
Section Raw.
  Variable raw0 : rawmap.

  Definition rinv (v : vstate) : Prop :=
    exists t, v_raw v = raw0 ++ t /\ Forall (fun lc => snd lc = []) t.

  Lemma touch_ext : forall l raw, (exists t, raw = raw0 ++ t /\ Forall (fun lc => snd lc = []) t) ->
    exists t, raw_touch l raw = raw0 ++ t /\ Forall (fun lc => snd lc = []) t.
  Proof.
    intros l raw (t & -> & T). unfold raw_touch. destruct (raw_get l (raw0 ++ t)); [eauto|].
    exists (t ++ [(l, [])]). rewrite app_assoc. split; [reflexivity|]. apply Forall_app. split; [assumption|].
    constructor; [reflexivity|constructor].
  Qed.

  Lemma sig_end_ext : forall n i b raw, (exists t, raw = raw0 ++ t /\ Forall (fun lc => snd lc = []) t) ->
    exists t, snd (sig_end n i b raw) = raw0 ++ t /\ Forall (fun lc => snd lc = []) t.
  Proof.
    induction n; simpl; intros i b raw H; [assumption|].
    destruct (existsb _ _); simpl; [apply touch_ext; assumption|]. apply IHn. apply touch_ext. assumption.
  Qed.

End Raw.

Section Loop.
  Variables s e : Z.

  (* the comments the loop looks at *)
  Fixpoint vis (it : rawmap) : list pcomment :=
    match it with
    | [] => []
    | (l, cs) :: r => if e <? l then [] else if l <? s then vis r else cs ++ vis r
    end.

  Lemma extend_new_app : forall cs g rest, extend_new g (cs ++ rest) = extend_new (extend_new g cs) rest.
  Proof.
    induction cs as [|c r IH]; simpl; intros; [reflexivity|].
    destruct (directive_like c && negb (pc_mem c g)); apply IH.
  Qed.

  Lemma sorted_above : forall r b, raw_sorted_from b r -> Forall (fun lc => b < fst lc) r.
  Proof.
    induction r as [|[l cs] r IH]; simpl; intros b H; [constructor|].
    destruct H as (H1 & _ & H3). constructor; [assumption|].
    eapply Forall_impl; [|apply IH; exact H3]. simpl. intros; lia.
  Qed.

  Lemma vis_sorted : forall r0 b t, raw_sorted_from b r0 -> Forall (fun lc => snd lc = []) t ->
    vis (r0 ++ t) = flat_map snd (filter (fun lc => in_range s e (fst lc)) r0).
  Proof.
    induction r0 as [|[l cs] r IH]; simpl; intros b t H T.
    - induction T as [|[l cs] t Hx T IHT]; simpl; [reflexivity|]. simpl in Hx. subst cs.
      destruct (e <? l); [reflexivity|]. destruct (l <? s); assumption.
    - destruct H as (H1 & _ & H3). unfold in_range at 1. simpl.
      destruct (e <? l) eqn:C1.
      + assert (Z : (l <=? e) = false) by lia. rewrite Z, andb_false_r.
        pose proof (sorted_above _ _ H3) as A. clear IH H3.
        induction r as [|[l2 c2] r IHr]; simpl; [reflexivity|]. inversion A; subst. simpl in *.
        unfold in_range. simpl. assert (Z2 : (l2 <=? e) = false) by lia. rewrite Z2, andb_false_r. auto.
      + destruct (l <? s) eqn:C2.
        * assert (Z : (s <=? l) = false) by lia. rewrite Z. simpl. eapply IH; eassumption.
        * assert (Z : (s <=? l) = true) by lia. assert (Z2 : (l <=? e) = true) by lia. rewrite Z, Z2. simpl.
          f_equal. eapply IH; eassumption.
  Qed.

End Loop.

Lemma extend_new_In : forall cs g c, In c (extend_new g cs) -> In c g \/ (In c cs /\ directive_like c = true).
Proof.
  induction cs as [|x r IH]; simpl; intros g c H; [auto|].
  destruct (directive_like x && negb (pc_mem x g)) eqn:E.
  - apply IH in H as [H|[H D]]; [|auto]. apply in_app_or in H as [H|[H|[]]]; [auto|]. subst x.
    apply andb_true_iff in E as [E _]. auto.
  - apply IH in H as [H|[H D]]; auto.
Qed.

Lemma raw_lines : forall r b l cs c, raw_sorted_from b r -> In (l, cs) r -> In c cs -> pc_line c = l.
Proof.
  induction r as [|[l0 cs0] r IH]; simpl; intros b l cs c H I C; [contradiction|].
  destruct H as (_ & H2 & H3). destruct I as [I|I].
  - inversion I; subst. rewrite Forall_forall in H2. auto.
  - eapply IH; eassumption.
Qed.

Lemma call_content_props : forall raw s e c, raw_ok raw -> In c (call_content raw s e) ->
  in_range s e (pc_line c) = true /\ directive_like c = true /\ In c (all_comments raw).
Proof.
  intros raw s e c R H. unfold call_content in H. apply extend_new_In in H as [[]|[H D]].
  apply in_flat_map in H as ([l cs] & H1 & H2). apply filter_In in H1 as [H1 H3]. simpl in *.
  rewrite (raw_lines _ _ _ _ _ R H1 H2). split; [assumption|]. split; [assumption|].
  unfold all_comments. apply in_flat_map. exists (l, cs). auto.
Qed.

Lemma od_has_app : forall k a b, od_has k (a ++ b) = od_has k a || od_has k b.
Proof.
  unfold od_has. induction a as [|[k' v'] r IH]; simpl; intros; [reflexivity|].
  destruct (key_eqb k k'); [reflexivity|apply IH].
Qed.
Lemma od_has_replace : forall K k v d, od_has K (od_replace k v d) = od_has K d.
Proof.
  unfold od_has. induction d as [|[k' v'] r IH]; simpl; [reflexivity|].
  destruct (key_eqb k k'); simpl; destruct (key_eqb K k'); auto.
Qed.
(* whether _process_structured_comments, on a range (s, e), reaches a comment line of the range *)
Section Reach.
  Variables s e : Z.

  Fixpoint reach (it : rawmap) : bool :=
    match it with
    | [] => false
    | (l, _) :: r => if e <? l then false else if l <? s then reach r else true
    end.

  Lemma reach_sorted : forall r0 b t l cs, raw_sorted_from b r0 -> In (l, cs) r0 -> in_range s e l = true ->
    reach (r0 ++ t) = true.
  Proof.
    induction r0 as [|[l0 cs0] r IH]; simpl; intros b t l cs H I R; [contradiction|].
    destruct H as (H1 & _ & H3). unfold in_range in R. apply andb_true_iff in R as [R1 R2].
    destruct I as [I|I].
    - inversion I; subst. assert (Z1 : (e <? l) = false) by lia. assert (Z2 : (l <? s) = false) by lia.
      rewrite Z1, Z2. reflexivity.
    - pose proof (sorted_above _ _ H3) as A. rewrite Forall_forall in A. specialize (A _ I). simpl in A.
      assert (Z1 : (e <? l0) = false) by lia. rewrite Z1. destruct (l0 <? s); [|reflexivity].
      eapply IH; [exact H3 | exact I |]. unfold in_range. apply andb_true_iff. split; assumption.
  Qed.
End Reach.

Definition own_call (n : node) : list (Z * Z) := match n with NCall s e _ => [(s, e)] | _ => [] end.

Lemma calls_of_eq : forall n, calls_of n = flat_map calls_of (kids_of n) ++ own_call n.
Proof. destruct n; simpl; try rewrite app_nil_r; reflexivity. Qed.
