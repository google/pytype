(* C03 — adding a trailing comment to the source only ADDS (range, comment) events to the parser's output:
   erasing a trailing comment text from the tokenizer's map commutes with the whole visitor. *)
From Coq Require Import ZArith List Bool Arith NArith Lia.
From PV Require Import Directors.Model Directors.Spec Directors.Parser Directors.ParserSpec Directors.ParserProofs Directors.ParserOrder.
Import ListNotations.
Open Scope Z_scope.

Section Erase.
  Variable c : pcomment.
  Hypothesis Hopen : pc_open c = false.

  Definition keepb (x : pcomment) : bool := negb (pc_eqb x c).
  Definition er (v : list pcomment) : list pcomment := filter keepb v.
  Definition ef (kv : key * list pcomment) : key * list pcomment := (fst kv, er (snd kv)).
  Definition erd (d : groups) : groups := map ef d.
  Definition erraw (raw : rawmap) : rawmap := map (fun lc => (fst lc, er (snd lc))) raw.

  Lemma er_app : forall a b, er (a ++ b) = er a ++ er b.
  Proof. intros. apply filter_app. Qed.

  Lemma od_get_erd : forall k d, od_get k (erd d) = option_map er (od_get k d).
  Proof. induction d as [|[k' v] r IH]; simpl; [reflexivity|]. destruct (key_eqb k k'); [reflexivity|exact IH]. Qed.
  Lemma od_has_erd : forall k d, od_has k (erd d) = od_has k d.
  Proof. intros. unfold od_has. rewrite od_get_erd. destruct (od_get k d); reflexivity. Qed.
  Lemma od_replace_erd : forall k v d, od_replace k (er v) (erd d) = erd (od_replace k v d).
  Proof. induction d as [|[k' v'] r IH]; simpl; [reflexivity|]. destruct (key_eqb k k'); simpl; [reflexivity|rewrite IH; reflexivity]. Qed.
  Lemma od_set_erd : forall k v d, od_set k (er v) (erd d) = erd (od_set k v d).
  Proof.
    intros. unfold od_set. rewrite od_has_erd. destruct (od_has k d); [apply od_replace_erd|].
    unfold erd. rewrite map_app. reflexivity.
  Qed.
  Lemma od_del_erd : forall k d, od_del k (erd d) = erd (od_del k d).
  Proof.
    unfold od_del. induction d as [|[k' v'] r IH]; simpl; [reflexivity|].
    destruct (key_eqb k k'); simpl; [exact IH|rewrite IH; reflexivity].
  Qed.
  Lemma od_move_erd : forall k d, od_move_to_end k (erd d) = erd (od_move_to_end k d).
  Proof.
    intros. unfold od_move_to_end. rewrite od_get_erd. destruct (od_get k d); simpl; [|reflexivity].
    rewrite od_del_erd. unfold erd. rewrite map_app. reflexivity.
  Qed.
  Lemma fold_move_erd : forall ks d,
    fold_left (fun d k => od_move_to_end k d) ks (erd d) = erd (fold_left (fun d k => od_move_to_end k d) ks d).
  Proof. induction ks; simpl; intros; [reflexivity|]. rewrite od_move_erd. apply IHks. Qed.

  Lemma find_erd : forall rd s e, find_containing (map ef rd) s e = find_containing rd s e.
  Proof.
    induction rd as [|[k v] r IH]; simpl; intros; [reflexivity|].
    destruct (k_call k); [apply IH|]. destruct ((k_s k <=? s) && (e <=? k_e k)); [reflexivity|].
    destruct (k_e k <? s); [reflexivity|apply IH].
  Qed.
  Lemma scan_erd : forall rd b s e, scan_keys (map ef rd) b s e = scan_keys rd b s e.
  Proof.
    induction rd as [|[k v] r IH]; simpl; intros; [reflexivity|]. rewrite <- IH. reflexivity.
  Qed.

  Lemma absorb_erd : forall newk ks d ng,
    absorb_all newk ks (erd d) (er ng) =
    (erd (fst (absorb_all newk ks d ng)), er (snd (absorb_all newk ks d ng))).
  Proof.
    induction ks as [|k r IH]; simpl; intros; [reflexivity|].
    rewrite od_del_erd, od_get_erd.
    replace (er ng ++ (if key_eqb k newk then er ng else match option_map er (od_get k d) with Some v => v | None => [] end))
      with (er (ng ++ (if key_eqb k newk then ng else match od_get k d with Some v => v | None => [] end))).
    - apply IH.
    - rewrite er_app. destruct (key_eqb k newk); [reflexivity|]. destruct (od_get k d); reflexivity.
  Qed.

  Lemma add_group_erd : forall d b s e, add_group (erd d) b s e = erd (add_group d b s e).
  Proof.
    intros. unfold add_group.
    assert (F : find_containing (rev (erd d)) s e = find_containing (rev d) s e)
      by (unfold erd; rewrite <- map_rev; apply find_erd).
    assert (S : scan_keys (rev (erd d)) b s e = scan_keys (rev d) b s e)
      by (unfold erd; rewrite <- map_rev; apply scan_erd).
    rewrite F, S.
    destruct (b && find_containing (rev d) s e); [reflexivity|].
    destruct (scan_keys (rev d) b s e) as [ab mv].
    change (@nil pcomment) with (er []) at 1 2.
    rewrite od_set_erd, absorb_erd.
    destruct (absorb_all (mkK (negb b) s e) (rev ab) (od_set (mkK (negb b) s e) [] d) []) as [d2 ng]. simpl.
    rewrite fold_move_erd, od_has_erd.
    destruct (od_has _ _); [apply od_replace_erd|reflexivity].
  Qed.

  Lemma pc_eqb_sym : forall a b, pc_eqb a b = pc_eqb b a.
  Proof.
    intros. unfold pc_eqb. rewrite (Z.eqb_sym (pc_line a)), (N.eqb_sym (pc_data a)).
    destruct (pc_open a), (pc_open b); reflexivity.
  Qed.
  Lemma pc_eqb_trans_false : forall x y, pc_eqb x c = true -> pc_eqb y c = false -> pc_eqb y x = false.
  Proof.
    unfold pc_eqb. intros x y H1 H2.
    apply andb_true_iff in H1 as [H1 O1]. apply andb_true_iff in H1 as [L1 D1].
    apply Z.eqb_eq in L1. apply N.eqb_eq in D1. apply Bool.eqb_prop in O1. rewrite L1, D1, O1. exact H2.
  Qed.
  Lemma er_cons : forall x r, er (x :: r) = if pc_eqb x c then er r else x :: er r.
  Proof. intros x r. unfold er, keepb. simpl. destruct (pc_eqb x c); reflexivity. Qed.

  Lemma pc_mem_er : forall x g, pc_eqb x c = false -> pc_mem x (er g) = pc_mem x g.
  Proof.
    induction g as [|y r IH]; intros H; [reflexivity|].
    rewrite er_cons. destruct (pc_eqb y c) eqn:E; simpl.
    - rewrite (pc_eqb_trans_false y x E H). apply IH. exact H.
    - rewrite IH by exact H. reflexivity.
  Qed.
  Lemma extend_new_er : forall cs g, extend_new (er g) (er cs) = er (extend_new g cs).
  Proof.
    induction cs as [|x r IH]; intros g; [reflexivity|].
    rewrite er_cons. destruct (pc_eqb x c) eqn:E; simpl.
    - destruct (directive_like x && negb (pc_mem x g)); [|apply IH].
      rewrite <- IH, er_app, er_cons, E, app_nil_r. reflexivity.
    - rewrite pc_mem_er by exact E.
      destruct (directive_like x && negb (pc_mem x g)); [|apply IH].
      rewrite <- IH, er_app, er_cons, E. reflexivity.
  Qed.

  Lemma psc_loop_erd : forall it b s e have d,
    psc_loop (erraw it) b s e have (erd d) = erd (psc_loop it b s e have d).
  Proof.
    induction it as [|[l cs] r IH]; simpl; intros; [reflexivity|].
    destruct (e <? l); [reflexivity|]. destruct (l <? s); [apply IH|].
    replace (if negb have || b then add_group (erd d) b s e else erd d)
      with (erd (if negb have || b then add_group d b s e else d))
      by (destruct (negb have || b); [rewrite add_group_erd|]; reflexivity).
    destruct b; [apply IH|].
    rewrite od_get_erd. destruct (od_get (mkK true s e) _) as [g|]; simpl; [|apply IH].
    rewrite extend_new_er, od_replace_erd. apply IH.
  Qed.

  Definition erv (v : vstate) : vstate :=
    mkV (erraw (v_raw v)) (erd (v_groups v)) (v_fr v) (v_blocks v) (v_returns v) (v_depth v) (v_defs_start v)
        (v_decorators v) (v_var_annots v) (v_param_annots v) (v_matches v).

  Lemma psc_erv : forall v b s e, psc (erv v) b s e = erv (psc v b s e).
  Proof. intros. unfold psc, erv. simpl. rewrite psc_loop_erd. reflexivity. Qed.

  Lemma dec_step_erv : forall l v d, dec_step l (erv v) d = erv (dec_step l v d).
  Proof. intros. unfold dec_step. rewrite psc_erv. reflexivity. Qed.
  Lemma visit_decorators_erv : forall decs v l, visit_decorators (erv v) l decs = erv (visit_decorators v l decs).
  Proof. unfold visit_decorators. induction decs; simpl; intros; [reflexivity|]. rewrite dec_step_erv. apply IHdecs. Qed.
  Lemma visit_def_erv : forall v l decs, visit_def (erv v) l decs = erv (visit_def v l decs).
  Proof. intros. unfold visit_def. rewrite visit_decorators_erv. reflexivity. Qed.

  Lemma raw_get_erraw : forall i raw, raw_get i (erraw raw) = option_map er (raw_get i raw).
  Proof. induction raw as [|[k v] r IH]; simpl; [reflexivity|]. destruct (k =? i); [reflexivity|exact IH]. Qed.
  Lemma raw_touch_erraw : forall i raw, raw_touch i (erraw raw) = erraw (raw_touch i raw).
  Proof.
    intros. unfold raw_touch. rewrite raw_get_erraw. destruct (raw_get i raw); simpl; [reflexivity|].
    unfold erraw. rewrite map_app. reflexivity.
  Qed.
  Lemma typeopen_er : forall cs,
    existsb (fun x => is_type_tool x && pc_open x) (er cs) = existsb (fun x => is_type_tool x && pc_open x) cs.
  Proof.
    induction cs as [|x r IH]; [reflexivity|].
    rewrite er_cons. destruct (pc_eqb x c) eqn:E; simpl.
    - assert (O : pc_open x = false).
      { unfold pc_eqb in E. apply andb_true_iff in E as [_ E]. apply Bool.eqb_prop in E. rewrite E. exact Hopen. }
      rewrite O, andb_false_r. simpl. exact IH.
    - rewrite IH. reflexivity.
  Qed.
  Lemma sig_end_erraw : forall n i b raw,
    sig_end n i b (erraw raw) = (fst (sig_end n i b raw), erraw (snd (sig_end n i b raw))).
  Proof.
    induction n; simpl; intros; [reflexivity|].
    rewrite raw_touch_erraw, raw_get_erraw.
    replace (existsb (fun c0 => is_type_tool c0 && pc_open c0)
               match option_map er (raw_get i (raw_touch i raw)) with Some cs => cs | None => [] end)
      with (existsb (fun c0 => is_type_tool c0 && pc_open c0)
               match raw_get i (raw_touch i raw) with Some cs => cs | None => [] end).
    - destruct (existsb _ _); [reflexivity|apply IHn].
    - destruct (raw_get i (raw_touch i raw)); simpl; [symmetry; apply typeopen_er|reflexivity].
  Qed.

  Lemma sig_scan_erraw : forall f raw,
    sig_scan f (erraw raw) = (fst (sig_scan f raw), erraw (snd (sig_scan f raw))).
  Proof.
    intros. unfold sig_scan. cbv zeta. destruct (f_body_lineno f <=? _); [reflexivity | apply sig_end_erraw].
  Qed.

  Lemma set_raw_erv : forall v raw, set_raw (erv v) (erraw raw) = erv (set_raw v raw).
  Proof. reflexivity. Qed.

  Lemma visit_function_def_erv : forall v f, visit_function_def (erv v) f = erv (visit_function_def v f).
  Proof.
    intros. rewrite !visit_function_def_eq. cbv zeta. change (v_raw (erv v)) with (erraw (v_raw v)).
    rewrite sig_scan_erraw. generalize (sig_scan f (v_raw v)). intros [en raw1]. cbn [fst snd].
    rewrite set_raw_erv, psc_erv, visit_def_erv. reflexivity.
  Qed.

  Lemma fold_psc_erv : forall (types : list (Z * Z)) v,
    fold_left (fun v t => psc v true (fst t) (snd t)) types (erv v) =
    erv (fold_left (fun v t => psc v true (fst t) (snd t)) types v).
  Proof. induction types; simpl; intros; [reflexivity|]. rewrite psc_erv. apply IHtypes. Qed.

  Lemma call_visitor_erv : forall v n, call_visitor (erv v) n = erv (call_visitor v n).
  Proof.
    intros v n. destruct n; simpl.
    - apply psc_erv.
    - apply psc_erv.
    - destruct has_value; [|reflexivity]. rewrite <- psc_erv. reflexivity.
    - rewrite <- psc_erv. reflexivity.
    - apply fold_psc_erv.
    - rewrite <- psc_erv. destruct (v_depth v =? 1); reflexivity.
    - reflexivity.
    - apply visit_def_erv.
    - apply visit_function_def_erv.
  Qed.

  Lemma enter_erv : forall v n, enter (erv v) n = erv (enter v n).
  Proof. intros v n. destruct n; reflexivity. Qed.
  Lemma leave_erv : forall v n, leave (erv v) n = erv (leave v n).
  Proof. intros v n. destruct n; reflexivity. Qed.

  Lemma fold_visit_erv : forall l, Forall (fun n => forall v, visit (erv v) n = erv (visit v n)) l ->
    forall v, fold_left visit l (erv v) = erv (fold_left visit l v).
  Proof. induction 1 as [|n l Hn _ IH]; simpl; intros; [reflexivity|]. rewrite Hn. apply IH. Qed.

  Lemma visit_erv : forall n v, visit (erv v) n = erv (visit v n).
  Proof.
    apply (node_ind' (fun n => forall v, visit (erv v) n = erv (visit v n))).
    intros n IH v. rewrite !visit_eq, enter_erv, (fold_visit_erv _ IH), call_visitor_erv. apply leave_erv.
  Qed.

  Lemma init_erv : forall raw, init_state (erraw raw) = erv (init_state raw).
  Proof. intros. unfold init_state, erv, erraw, erd. simpl. rewrite !map_map. reflexivity. Qed.

  Theorem parse_erase : forall raw body, parse (erraw raw) body = erv (parse raw body).
  Proof.
    intros. unfold parse, visit_all. rewrite init_erv.
    apply fold_visit_erv, Forall_forall. intros n _. apply visit_erv.
  Qed.
End Erase.

Lemma inserted_filter : forall {A} (p : A -> bool) l,
  inserted (fun x => p x = false) (filter p l) l (filter (fun x => negb (p x)) l).
Proof.
  induction l as [|x r IH]; simpl; [constructor|].
  destruct (p x) eqn:E; simpl; [apply ins_keep; exact IH|apply ins_add; [exact E|exact IH]].
Qed.
Lemma inserted_map_in : forall {A B} (f : A -> B) (P : A -> Prop) (Q : B -> Prop) D D' Ad,
  inserted P D D' Ad -> (forall x, In x D' -> P x -> Q (f x)) ->
  inserted Q (map f D) (map f D') (map f Ad).
Proof.
  induction 1; simpl; intros HQ; [constructor| |].
  - apply ins_keep. apply IHinserted. intros; apply HQ; auto.
  - apply ins_add; [apply HQ; auto|]. apply IHinserted. intros; apply HQ; auto.
Qed.

Definition pevents (d : groups) : list (key * pcomment) :=
  flat_map (fun kv => map (fun x => (fst kv, x)) (snd kv)) d.
Definition to_event (kx : key * pcomment) : event :=
  mkE (k_call (fst kx)) (k_s (fst kx)) (k_e (fst kx)) (pc_c (snd kx)).

Lemma events_pevents : forall d, events_of (map to_group d) = map to_event (pevents d).
Proof.
  unfold events_of, pevents. induction d as [|[k v] r IH]; simpl; [reflexivity|].
  rewrite map_app, IH. f_equal. unfold to_group. simpl. rewrite !map_map. reflexivity.
Qed.

Lemma pevents_erd : forall c d, pevents (erd c d) = filter (fun kx => keepb c (snd kx)) (pevents d).
Proof.
  intros c. unfold pevents. induction d as [|[k v] r IH]; simpl; [reflexivity|].
  rewrite filter_app, IH. f_equal. unfold er. clear IH.
  induction v as [|x v IHv]; simpl; [reflexivity|]. destruct (keepb c x); simpl; rewrite IHv; reflexivity.
Qed.

Lemma pevents_In : forall d k x, In (k, x) (pevents d) -> exists v, In (k, v) d /\ In x v.
Proof.
  unfold pevents. intros d k x H. apply in_flat_map in H as ([k' v] & H1 & H2). simpl in H2.
  apply in_map_iff in H2 as (y & E & H3). inversion E; subst. eauto.
Qed.

Lemma parse_trailing_inserted : forall raw' body c, raw_ok raw' -> pc_open c = false ->
  (forall x, In x (all_comments raw') -> pc_eqb x c = true -> pc_c x = pc_c c) ->
  exists Ad,
    inserted (fun ev => ev_comment ev = pc_c c /\ ev_start ev <= c_line (pc_c c) <= ev_end ev)
             (events_of (director_groups (parse (erraw c raw') body)))
             (events_of (director_groups (parse raw' body))) Ad.
Proof.
  intros raw' body c R O Hd. unfold director_groups.
  rewrite (parse_erase c O raw' body). simpl v_groups. rewrite !events_pevents, pevents_erd.
  eexists. eapply inserted_map_in; [apply inserted_filter|].
  intros [k x] I E. simpl in E. unfold keepb in E. apply negb_false_iff in E.
  apply pevents_In in I as (v & I1 & I2).
  destruct (parse_event_lines raw' body k v x R I1 I2) as (Rg & A & _).
  simpl. rewrite (Hd x A E). split; [reflexivity|].
  assert (L : pc_line x = pc_line c).
  { unfold pc_eqb in E. apply andb_true_iff in E as [E _]. apply andb_true_iff in E as [E _]. apply Z.eqb_eq. exact E. }
  unfold pc_line in L. rewrite <- L. exact Rg.
Qed.
