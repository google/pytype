(* C03 — every statement range of the tree that holds a comment line is covered by a statement-range group of
   the visitor's output (the range itself or a larger one that absorbed it); every call range that holds one
   has its group. *)
From Coq Require Import ZArith List Bool Arith NArith Lia Sorting.Sorted Sorting.Permutation.
From PV Require Import Directors.Model Directors.Parser Directors.ParserSpec Directors.ParserProofs Directors.ParserOrder.
Import ListNotations.
Open Scope Z_scope.

(* the end of a function signature as _visit_function_def computes it, read off the tokenizer's comment map *)
Definition eff_comments (raw : rawmap) (i : Z) : list pcomment :=
  match raw_get i raw with Some cs => cs | None => [] end.
Fixpoint sig_spec (raw : rawmap) (n : nat) (i body_lineno : Z) : Z :=
  match n with
  | O => body_lineno - 1
  | S m => if existsb (fun c => is_type_tool c && pc_open c) (eff_comments raw i) then i - 1
           else sig_spec raw m (i + 1) body_lineno
  end.
Definition sig_line (raw : rawmap) (f : fdef) : Z :=
  let maybe_end := match f_returns_end f with
                   | Some r => r
                   | None => match f_last_arg_end f with Some a => a | None => f_lineno f end
                   end in
  if f_body_lineno f <=? maybe_end then maybe_end
  else sig_spec raw (Z.to_nat (f_body_lineno f - maybe_end)) maybe_end (f_body_lineno f).

(* the statement ranges the visitor asks for *)
Definition own_reqs (raw : rawmap) (n : node) : list (Z * Z) :=
  match n with
  | NStmt s e _ | NReturn s e _ => [(s, e)]
  | NAnn s e hv _ => if hv then [(s, e)] else []
  | NWith s _ ve ce _ => [(s, match ve with Some x => x | None => ce end)]
  | NTry types _ => types
  | NClass _ decs _ => decs
  | NFunc f _ => (f_lineno f, sig_line raw f) :: f_decs f
  | NCall _ _ _ | NMatch _ _ _ _ => []
  end.
Fixpoint reqs_of (raw : rawmap) (n : node) : list (Z * Z) :=
  let kids := match n with
              | NCall _ _ k | NStmt _ _ k | NAnn _ _ _ k | NReturn _ _ k | NTry _ k | NWith _ _ _ _ k
              | NMatch _ _ _ k | NClass _ _ k | NFunc _ k => flat_map (reqs_of raw) k
              end in
  kids ++ own_reqs raw n.

Definition covers (s e : Z) (d : groups) : Prop :=
  exists k, In k (keys d) /\ k_call k = false /\ k_s k <= s /\ e <= k_e k.

Lemma reqs_of_eq : forall raw n, reqs_of raw n = flat_map (reqs_of raw) (kids_of n) ++ own_reqs raw n.
Proof. destruct n; reflexivity. Qed.

Lemma find_true_covers : forall rd s e, find_containing rd s e = true -> covers s e rd.
Proof.
  induction rd as [|[k v] r IH]; simpl; intros s e F; [discriminate|].
  assert (L : covers s e r -> covers s e ((k, v) :: r)).
  { intros (k0 & I & H). exists k0. split; [right; exact I|exact H]. }
  destruct (k_call k) eqn:KC; [auto|].
  destruct ((k_s k <=? s) && (e <=? k_e k)) eqn:C.
  - apply andb_true_iff in C as [C1 C2]. exists k. simpl. repeat split; auto; lia.
  - destruct (k_e k <? s); [discriminate|auto].
Qed.

Lemma covers_rev : forall s e d, covers s e (rev d) -> covers s e d.
Proof. intros s e d (k & I & H). exists k. split; [|exact H]. rewrite keys_rev in I. apply in_rev in I. exact I. Qed.

Lemma add_group_newkey : forall d s e, tinv d -> s <= e -> covers s e (add_group d true s e).
Proof.
  intros d s e T Hse. destruct (find_containing (rev d) s e) eqn:F.
  - unfold add_group. simpl. rewrite F. apply covers_rev. apply find_true_covers. exact F.
  - destruct (add_group_explicit d true s e T F) as (Pre & Suf & _ & _ & _ & _ & ->).
    exists (mkK false s e). split; [|simpl; repeat split; lia].
    rewrite keys_app, keys_replace. apply in_or_app. left. apply in_keys_set. right. reflexivity.
Qed.

Lemma add_group_covers : forall d base s' e' s e, tinv d -> s' <= e' -> covers s e d ->
  covers s e (add_group d base s' e').
Proof.
  intros d base s' e' s e T Hse (k0 & I0 & KC & A & B).
  destruct (base && find_containing (rev d) s' e') eqn:NF.
  { unfold add_group. rewrite NF. exists k0. auto. }
  destruct (add_group_explicit d base s' e' T NF) as (Pre & Suf & ED & _ & _ & _ & ->).
  rewrite ED, keys_app in I0. unfold covers.
  rewrite keys_app, keys_replace, (keys_filter (fun k => negb (absorbed base s' e' k))).
  apply in_app_or in I0 as [I0|I0].
  - exists k0. split; [apply in_or_app; left; apply in_keys_set; left; exact I0 | auto].
  - destruct (absorbed base s' e' k0) eqn:AB.
    + (* the covering group is absorbed by the new, larger one *)
      unfold absorbed, cond1 in AB. apply andb_true_iff in AB as [AB _].
      apply andb_true_iff in AB as [AB C3]. apply andb_true_iff in AB as [-> C2].
      exists (mkK false s' e'). split; [apply in_or_app; left; apply in_keys_set; right; reflexivity|].
      simpl. repeat split; lia.
    + exists k0. split; [|auto]. apply in_or_app. right. apply filter_In. rewrite AB. auto.
Qed.

Definition cinv (s e : Z) (d : groups) : Prop := tinv d /\ covers s e d.

Lemma covers_replace : forall s e k v d, covers s e d -> covers s e (od_replace k v d).
Proof. intros s e k v d (k0 & I & H). exists k0. rewrite keys_replace. auto. Qed.

Lemma psc_loop_cinv : forall s e it b s' e' have d, cinv s e d -> cinv s e (psc_loop it b s' e' have d).
Proof.
  intros s e it b. apply (psc_loop_preserves (cinv s e) b).
  - intros d s' e' Hse [T Q]. split; [apply add_group_tinv | apply add_group_covers]; assumption.
  - intros _ k v d _ [T Q]. split; [apply tinv_replace | apply covers_replace]; assumption.
Qed.

Lemma cinv_stable : forall s e, visit_stable (fun v => cinv s e (v_groups v)).
Proof. intros s e. apply stable_groups. intros raw d b s' e'. apply psc_loop_cinv. Qed.

(* the request itself: as soon as the loop reaches a comment line inside the range the range is covered *)
Lemma psc_loop_creates : forall s e it d, tinv d -> reach s e it = true ->
  cinv s e (psc_loop it true s e false d).
Proof.
  intros s e it d T R. apply (psc_loop_reaches (cinv s e) tinv true s e) with (5 := T); [| discriminate | | exact R].
  - intros. apply psc_loop_cinv. assumption.
  - intros d0 T0 Hse. split; [apply add_group_tinv | apply add_group_newkey]; assumption.
Qed.

(* the signature scan reads the comments of the tokenizer's map: the entries it adds are empty *)
Section SigEnd.
  Variable raw0 : rawmap.

  Lemma raw_get_app : forall i (a b : rawmap),
    raw_get i (a ++ b) = match raw_get i a with Some c => Some c | None => raw_get i b end.
  Proof. induction a as [|[k v] r IH]; simpl; intros; [reflexivity|]. destruct (k =? i); auto. Qed.
  Lemma raw_get_empties : forall i (t : rawmap) c, Forall (fun lc => snd lc = []) t -> raw_get i t = Some c -> c = [].
  Proof.
    induction t as [|[k v] r IH]; simpl; intros c F G; [discriminate|]. inversion F; subst. simpl in *.
    destruct (k =? i); [inversion G; subst; reflexivity|auto].
  Qed.
  Lemma eff_touch : forall i t, Forall (fun lc => snd lc = []) t ->
    match raw_get i (raw_touch i (raw0 ++ t)) with Some c => c | None => [] end = eff_comments raw0 i.
  Proof.
    intros i t T. unfold raw_touch, eff_comments.
    destruct (raw_get i (raw0 ++ t)) as [c|] eqn:G.
    - rewrite G. rewrite raw_get_app in G. destruct (raw_get i raw0); [inversion G; reflexivity|].
      apply (raw_get_empties i t c T G).
    - rewrite raw_get_app, G. simpl. rewrite Z.eqb_refl.
      rewrite raw_get_app in G. destruct (raw_get i raw0); [discriminate|reflexivity].
  Qed.
  Lemma sig_end_fst : forall n i b raw, (exists t, raw = raw0 ++ t /\ Forall (fun lc => snd lc = []) t) ->
    fst (sig_end n i b raw) = sig_spec raw0 n i b.
  Proof.
    induction n; simpl; intros i b raw X; [reflexivity|].
    pose proof X as (t & -> & T). rewrite (eff_touch i t T).
    destruct (existsb _ (eff_comments raw0 i)); [reflexivity|].
    apply IHn. apply touch_ext. exists t. auto.
  Qed.
  Lemma sig_scan_fst : forall f raw, (exists t, raw = raw0 ++ t /\ Forall (fun lc => snd lc = []) t) ->
    fst (sig_scan f raw) = sig_line raw0 f.
  Proof.
    intros f raw X. unfold sig_scan, sig_line. cbv zeta.
    destruct (f_body_lineno f <=? _); [reflexivity | apply sig_end_fst; exact X].
  Qed.
End SigEnd.

Section Covered.
  Variable raw0 : rawmap.
  Hypothesis Hraw : raw_ok raw0.
  Variables s e l : Z.
  Variable cs : list pcomment.
  Hypothesis Hl : In (l, cs) raw0.
  Hypothesis Hr : in_range s e l = true.

  Definition pre (v : vstate) : Prop := inv raw0 v.
  Definition post (v : vstate) : Prop := cinv s e (v_groups v).

  Lemma pre_stable : visit_stable pre.
  Proof. apply inv_stable. exact Hraw. Qed.

  Lemma psc_creates : forall v, pre v -> post (psc v true s e).
  Proof.
    intros v [(t & R & Te) [T _]]. unfold post, psc. simpl. rewrite R.
    apply psc_loop_creates; [assumption|]. eapply reach_sorted; eassumption.
  Qed.

  Lemma decorators_create : forall decs ln v, In (s, e) decs -> pre v -> post (visit_decorators v ln decs).
  Proof.
    intros decs ln v I P. unfold visit_decorators.
    apply (fold_creates pre post (dec_step ln) decs (s, e) I); [| | |assumption].
    - intros. apply (stable_dec_step pre pre_stable). assumption.
    - intros. apply (stable_dec_step post (cinv_stable s e)). assumption.
    - intros v0 P0. apply (psc_creates v0 P0).
  Qed.

  Lemma call_visitor_creates : forall v n, pre v -> In (s, e) (own_reqs raw0 n) -> post (call_visitor v n).
  Proof.
    intros v n P I. destruct n; simpl in I; try contradiction.
    - destruct I as [I|[]]. injection I as -> ->. apply psc_creates. assumption.
    - destruct has_value; [|contradiction]. destruct I as [I|[]]. injection I as -> ->.
      apply psc_creates. eapply (stable_same pre pre_stable); [| |exact P]; reflexivity.
    - destruct I as [I|[]]. injection I as -> ->.
      apply psc_creates. eapply (stable_same pre pre_stable); [| |exact P]; reflexivity.
    - apply (fold_creates pre post (fun v t => psc v true (fst t) (snd t)) types (s, e) I); [| | |assumption].
      + intros. apply (stable_psc pre pre_stable). assumption.
      + intros. apply (stable_psc post (cinv_stable s e)). assumption.
      + intros v0 P0. apply (psc_creates v0 P0).
    - destruct I as [I|[]]. injection I as -> He. simpl. rewrite He. apply psc_creates.
      destruct (v_depth v =? 1); [eapply (stable_same pre pre_stable); [| |exact P]; reflexivity | exact P].
    - apply (decorators_create decs lineno v I P).
    - (* a function: the signature range, whose end the scan computes, then the decorators *)
      simpl. rewrite visit_function_def_eq. unfold post. cbv zeta. cbn [v_groups].
      pose proof (stable_sig pre pre_stable v f P) as P1.
      destruct I as [I|I].
      + injection I as Hs He. rewrite (sig_scan_fst raw0 f (v_raw v)), Hs, He; [|apply P].
        apply (stable_decorators post (cinv_stable _ _)). apply psc_creates. exact P1.
      + apply (decorators_create (f_decs f) (f_lineno f) _ I). apply (stable_psc pre pre_stable). exact P1.
  Qed.
End Covered.

Theorem parse_statement_covered : forall raw body s e l cs, raw_ok raw ->
  In (s, e) (flat_map (reqs_of raw) body) -> In (l, cs) raw -> in_range s e l = true ->
  covers s e (v_groups (parse raw body)).
Proof.
  intros raw body s e l cs R I Hl Hr.
  apply (visit_all_creates (pre raw) (post s e) _ (own_reqs raw) (reqs_of raw) (s, e)
           (pre_stable raw R) (cinv_stable s e) (reqs_of_eq raw)
           (call_visitor_creates raw R s e l cs Hl Hr)); [|exact I].
  apply init_inv. exact R.
Qed.

(* a call range with a comment line inside it gets a group, and keeps it: a call key is never absorbed *)
Lemma add_group_keeps_call : forall K d b s e, tinv d -> k_call K = true -> In K (keys d) ->
  In K (keys (add_group d b s e)).
Proof.
  intros K d b s e T KC I. destruct (b && find_containing (rev d) s e) eqn:NF.
  { unfold add_group. rewrite NF. exact I. }
  destruct (add_group_explicit d b s e T NF) as (Pre & Suf & ED & _ & _ & _ & ->).
  rewrite ED, keys_app in I. rewrite keys_app, keys_replace, (keys_filter (fun k => negb (absorbed b s e k))).
  apply in_or_app. apply in_app_or in I as [I|I]; [left; apply in_keys_set; left; exact I | right].
  apply filter_In. split; [exact I|]. unfold absorbed. rewrite KC, andb_false_r. reflexivity.
Qed.

Definition hinv (K : key) (d : groups) : Prop := tinv d /\ In K (keys d).

Lemma psc_loop_hinv : forall K, k_call K = true ->
  forall it b s e have d, hinv K d -> hinv K (psc_loop it b s e have d).
Proof.
  intros K KC it b. apply (psc_loop_preserves (hinv K) b).
  - intros d s e Hse [T I]. split; [apply add_group_tinv | apply add_group_keeps_call]; assumption.
  - intros _ k v d _ [T I]. split; [apply tinv_replace; assumption | rewrite keys_replace; exact I].
Qed.

Lemma loop_creates : forall s e it d, tinv d -> reach s e it = true ->
  hinv (mkK true s e) (psc_loop it false s e false d).
Proof.
  intros s e it d T R. apply (psc_loop_reaches (hinv (mkK true s e)) tinv false s e) with (5 := T); [| | | exact R].
  - intros. apply psc_loop_hinv; [reflexivity | assumption].
  - intros _ v d0 [T0 I0]. split; [apply tinv_replace; exact T0 | rewrite keys_replace; exact I0].
  - intros d0 T0 Hse. split; [apply add_group_tinv; assumption|].
    destruct (add_group_explicit d0 false s e T0 eq_refl) as (Pre & Suf & _ & _ & _ & _ & ->).
    rewrite keys_app, keys_replace. apply in_or_app. left. apply in_keys_set. right. reflexivity.
Qed.

(* statement-range groups that do not share a line *)
Definition base_disjoint (d : groups) : Prop :=
  forall k1 k2, In k1 (keys d) -> In k2 (keys d) -> k_call k1 = false -> k_call k2 = false -> k1 <> k2 ->
    k_e k1 < k_s k2 \/ k_e k2 < k_s k1.

Lemma parse_comment_with_statement : forall raw body s e l cs c, raw_ok raw ->
  In (s, e) (flat_map (reqs_of raw) body) -> In (l, cs) raw -> In c cs -> in_range s e l = true ->
  base_disjoint (v_groups (parse raw body)) ->
  exists k v, In (k, v) (v_groups (parse raw body)) /\ k_call k = false /\ In c v /\ k_s k <= s /\ e <= k_e k.
Proof.
  intros raw body s e l cs c R I Hl Hc Hr D.
  assert (Lc : pc_line c = l) by (eapply raw_lines; eassumption).
  assert (Ac : In c (all_comments raw)) by (unfold all_comments; apply in_flat_map; exists (l, cs); auto).
  destruct (parse_base_containment raw body c R Ac) as (k & v & I1 & KC & I2 & Rg).
  destruct (parse_statement_covered raw body s e l cs R I Hl Hr) as (k' & I' & KC' & A & B).
  exists k, v. split; [assumption|]. split; [assumption|]. split; [assumption|].
  unfold in_range in Hr. apply andb_true_iff in Hr as [H1 H2].
  destruct (key_eqb k k') eqn:E.
  - apply key_eqb_eq in E. subst k'. split; assumption.
  - exfalso. assert (NE : k <> k') by (intro; subst; rewrite key_eqb_refl in E; discriminate).
    assert (Ik : In k (keys (v_groups (parse raw body)))) by (apply in_map_iff; exists (k, v); auto).
    destruct (D k k' Ik I' KC KC' NE); lia.
Qed.

Definition base_disjointb (d : groups) : bool :=
  forallb (fun k1 => forallb (fun k2 =>
    k_call k1 || k_call k2 || key_eqb k1 k2 || (k_e k1 <? k_s k2) || (k_e k2 <? k_s k1)) (keys d)) (keys d).
Lemma base_disjointb_sound : forall d, base_disjointb d = true -> base_disjoint d.
Proof.
  intros d H k1 k2 I1 I2 C1 C2 NE. unfold base_disjointb in H.
  rewrite forallb_forall in H. specialize (H _ I1). rewrite forallb_forall in H. specialize (H _ I2).
  rewrite C1, C2 in H. simpl in H.
  destruct (key_eqb k1 k2) eqn:E; [apply key_eqb_eq in E; contradiction|]. simpl in H.
  apply orb_true_iff in H as [H|H]; [left|right]; lia.
Qed.
