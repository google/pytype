(* C03 — lemmas about the director model (coq/Directors/Model.v).  Property theorems: Props/C03.v. *)
From Coq Require Import ZArith List Bool Arith NArith Lia Sorting.Sorted.
From PV Require Import Generated.C03_ErrorClasses Directors.Model Directors.Spec.
Import ListNotations.
Open Scope Z_scope.

Definition count_le (a : list Z) (x : Z) : nat := length (filter (fun t => t <=? x) a).

Lemma count_le_cons : forall h t x,
  count_le (h :: t) x = if h <=? x then S (count_le t x) else count_le t x.
Proof. intros. unfold count_le. simpl. destruct (h <=? x); reflexivity. Qed.

Lemma count_le_app : forall a b x, count_le (a ++ b) x = (count_le a x + count_le b x)%nat.
Proof. intros. unfold count_le. rewrite filter_app, app_length. reflexivity. Qed.

Lemma count_le_length : forall a x, (count_le a x <= length a)%nat.
Proof.
  induction a as [|h t IH]; intros x; [apply le_n|].
  rewrite count_le_cons. specialize (IH x). destruct (h <=? x); simpl; lia.
Qed.

Lemma count_le_all : forall t l, Forall (fun x => x <= l) t -> count_le t l = length t.
Proof.
  induction 1 as [|h t Hh _ IH]; [reflexivity|].
  rewrite count_le_cons, IH. apply Z.leb_le in Hh. rewrite Hh. reflexivity.
Qed.

Lemma count_le_none : forall t l, Forall (fun x => l < x) t -> count_le t l = 0%nat.
Proof.
  induction 1 as [|h t Hh _ IH]; [reflexivity|].
  rewrite count_le_cons, IH. apply Z.leb_gt in Hh. rewrite Hh. reflexivity.
Qed.

(* in a sorted list the elements <= x are the first [count_le a x] ones *)
Lemma sorted_nth_le : forall a x, StronglySorted Z.lt a ->
  forall i, (i < length a)%nat -> nth i a 0 <= x <-> (i < count_le a x)%nat.
Proof.
  induction 1 as [|h t _ IH Hall]; intros i Hi; simpl in Hi; [lia|].
  rewrite count_le_cons. destruct (Z.leb_spec h x) as [Hh|Hh].
  - destruct i as [|i]; simpl; [lia|]. rewrite IH; lia.
  - assert (Hn : count_le t x = 0%nat).
    { apply count_le_none. eapply Forall_impl; [|exact Hall]. intros y Hy. simpl in Hy. lia. }
    destruct i as [|i]; simpl; [lia|]. rewrite IH; lia.
Qed.

Lemma mid_bounds : forall lo hi, (lo < hi -> lo <= (lo + hi) / 2 < hi)%nat.
Proof.
  intros lo hi H. split; [apply Nat.div_le_lower_bound | apply Nat.div_lt_upper_bound]; lia.
Qed.

Lemma bisect_right_go_count : forall a x, StronglySorted Z.lt a ->
  forall fuel lo hi, (hi - lo < fuel)%nat -> (lo <= count_le a x <= hi)%nat -> (hi <= length a)%nat ->
  bisect_right_go fuel a x lo hi = count_le a x.
Proof.
  intros a x Hs. induction fuel as [|f IH]; intros lo hi Hf Hc Hh; [lia|].
  cbn [bisect_right_go]. destruct (Nat.ltb_spec lo hi) as [Hlt|Hge]; [|lia].
  pose proof (mid_bounds lo hi Hlt) as Hmid. generalize dependent ((lo + hi) / 2)%nat. intros mid Hmid.
  assert (Hn : nth mid a 0 <= x <-> (mid < count_le a x)%nat) by (apply sorted_nth_le; [exact Hs | lia]).
  destruct (Z.ltb_spec x (nth mid a 0)); apply IH; lia.
Qed.

Lemma bisect_right_count : forall a x, StronglySorted Z.lt a -> bisect_right a x = count_le a x.
Proof.
  intros a x Hs. pose proof (count_le_length a x).
  apply bisect_right_go_count; [exact Hs | lia | lia | apply le_n].
Qed.

Definition sem (ls : lineset) (l : Z) : bool := Nat.odd (count_le (ls_trans ls) l).

Definition inv_b (b : Z) (ls : lineset) : Prop :=
  StronglySorted Z.lt (ls_trans ls) /\ Forall (fun t => t <= b) (ls_trans ls).

Lemma inv_b_weaken : forall b b' ls, b <= b' -> inv_b b ls -> inv_b b' ls.
Proof.
  intros b b' ls Hb [Hs Ha]. split; auto. eapply Forall_impl; [|exact Ha]. simpl. intros. lia.
Qed.

Lemma inv_b_empty : forall b, inv_b b ls_empty.
Proof. intros. split; constructor. Qed.

Lemma contains_sem : forall ls l, StronglySorted Z.lt (ls_trans ls) ->
  contains ls l = match dict_get l (ls_lines ls) with Some b => b | None => sem ls l end.
Proof. intros ls l Hs. unfold contains, sem. rewrite bisect_right_count; auto. Qed.

(* start_range reads and writes the transition list only *)
Definition trans_step (t : list Z) (p : Z) (m : bool) : res (list Z) :=
  if p <? last t (-1) then Raise ValueError
  else if Bool.eqb m (Nat.odd (length t)) then Ok t
  else if p =? last t (-1) then match t with [] => Raise IndexError | _ => Ok (removelast t) end
  else Ok (t ++ [p]).

Lemma start_range_trans : forall lines t p m,
  start_range (mkLS lines t) p m = bind (trans_step t p m) (fun t' => Ok (mkLS lines t')).
Proof.
  intros. unfold start_range, trans_step. cbn [ls_trans ls_lines].
  destruct (p <? _); [reflexivity|]. destruct (Bool.eqb _ _); [reflexivity|].
  destruct (p =? _); [destruct t|]; reflexivity.
Qed.

Lemma start_range_ok : forall ls p m ls', start_range ls p m = Ok ls' ->
  ls_lines ls' = ls_lines ls /\ trans_step (ls_trans ls) p m = Ok (ls_trans ls').
Proof.
  intros [lines t] p m ls'. rewrite start_range_trans. cbn [ls_trans ls_lines].
  destruct (trans_step t p m); simpl; [|discriminate]. intros [= <-]. split; reflexivity.
Qed.

Lemma sorted_snoc : forall t p,
  StronglySorted Z.lt (t ++ [p]) <-> StronglySorted Z.lt t /\ Forall (fun x => x < p) t.
Proof.
  induction t as [|h t IH]; intros p; simpl.
  - split; [split; constructor | repeat constructor].
  - split.
    + intros H. apply StronglySorted_inv in H as [H Hh]. apply IH in H as [H1 H2].
      apply Forall_app in Hh as [Hh Hp]. apply Forall_inv in Hp. repeat constructor; assumption.
    + intros [H Hp]. apply StronglySorted_inv in H as [H Hh]. apply Forall_cons_iff in Hp as [Hp Ht].
      constructor; [apply IH; auto|]. apply Forall_app. auto.
Qed.

Lemma odd_count_snoc : forall t p l, Forall (fun x => x <= p) t ->
  Nat.odd (count_le (t ++ [p]) l) =
  if p <=? l then negb (Nat.odd (length t)) else Nat.odd (count_le t l).
Proof.
  intros t p l Ht. rewrite count_le_app, count_le_cons. destruct (Z.leb_spec p l) as [Hp|Hp].
  - rewrite count_le_all.
    + change (count_le [] l) with 0%nat. rewrite Nat.add_1_r, Nat.odd_succ, <- Nat.negb_odd. reflexivity.
    + eapply Forall_impl; [|exact Ht]. intros x Hx. simpl in Hx. lia.
  - rewrite Nat.add_0_r. reflexivity.
Qed.

Lemma sorted_le_last : forall t, StronglySorted Z.lt t -> forall x d, In x t -> x <= last t d.
Proof.
  intros t Hs x d Hin. destruct (exists_last (l:=t)) as (t0 & a & ->); [intros ->; inversion Hin|].
  rewrite last_last. apply sorted_snoc in Hs as [_ Hlt].
  apply in_app_or in Hin as [Hin|[<-|[]]]; [|lia].
  rewrite Forall_forall in Hlt. specialize (Hlt _ Hin). lia.
Qed.

Lemma eqb_false_negb : forall a b, Bool.eqb a b = false -> a = negb b.
Proof. intros [] []; simpl; congruence. Qed.

Lemma last_le : forall t d p, Forall (fun x => x <= p) t -> d <= p -> last t d <= p.
Proof.
  induction 1 as [|h t Hh Ht IH]; intros Hd; [exact Hd|].
  destruct t; [exact Hh | apply IH; exact Hd].
Qed.

Lemma trans_step_sem : forall t b p m, 0 <= b -> b <= p ->
  StronglySorted Z.lt t -> Forall (fun x => x <= b) t ->
  exists t', trans_step t p m = Ok t' /\ StronglySorted Z.lt t' /\ Forall (fun x => x <= p) t' /\
    forall l, Nat.odd (count_le t' l) = if p <=? l then m else Nat.odd (count_le t l).
Proof.
  intros t b p m Hb Hbp Hs Hall. unfold trans_step.
  assert (HallP : Forall (fun x => x <= p) t).
  { eapply Forall_impl; [|exact Hall]. intros x Hx. simpl in Hx. lia. }
  pose proof (last_le t (-1) p HallP) as Hlast.
  destruct (Z.ltb_spec p (last t (-1))) as [E1|_]; [lia|].
  destruct (Bool.eqb m (Nat.odd (length t))) eqn:E2.
  - (* redundant: from p on the parity is that of the whole list already *)
    apply eqb_prop in E2. exists t. repeat split; auto.
    intros l. destruct (Z.leb_spec p l) as [E3|_]; [|reflexivity].
    rewrite count_le_all; [auto|]. eapply Forall_impl; [|exact HallP]. intros x Hx. simpl in Hx. lia.
  - apply eqb_false_negb in E2. destruct (Z.eqb_spec p (last t (-1))) as [E3|E3].
    + (* cancel: p is the last transition *)
      destruct t as [|h t1]; [simpl in E3; lia|]. cbv iota.
      destruct (exists_last (l:=h :: t1)) as (t0 & a & E); [discriminate|].
      rewrite E in *. rewrite last_last in E3. subst a. rewrite removelast_last.
      apply sorted_snoc in Hs as [Hs0 Hlt]. apply Forall_app in HallP as [HallP _].
      exists t0. repeat split; auto. intros l. rewrite (odd_count_snoc t0 p l HallP).
      rewrite app_length, Nat.add_1_r, Nat.odd_succ, <- Nat.negb_odd, negb_involutive in E2.
      destruct (Z.leb_spec p l) as [E4|_]; [|reflexivity].
      rewrite count_le_all; [symmetry; exact E2|].
      eapply Forall_impl; [|exact HallP]. intros x Hx. simpl in Hx. lia.
    + (* a new transition after all others *)
      exists (t ++ [p]). split; [destruct t; reflexivity|]. split; [|split].
      * apply sorted_snoc. split; [exact Hs|]. apply Forall_forall. intros x Hx.
        pose proof (sorted_le_last t Hs x (-1) Hx). lia.
      * apply Forall_app. split; [exact HallP | repeat constructor; lia].
      * intros l. rewrite (odd_count_snoc t p l HallP).
        destruct (p <=? l); [symmetry; exact E2 | reflexivity].
Qed.

Lemma start_range_sem : forall ls b p m, 0 <= b -> b <= p -> inv_b b ls ->
  exists ls', start_range ls p m = Ok ls' /\ ls_lines ls' = ls_lines ls /\ inv_b p ls' /\
              forall l, sem ls' l = if p <=? l then m else sem ls l.
Proof.
  intros [lines t] b p m Hb Hbp [Hs Hall]. cbn [ls_trans] in Hs, Hall.
  destruct (trans_step_sem t b p m Hb Hbp Hs Hall) as (t' & E & Hs' & Hall' & Hsem).
  exists (mkLS lines t'). rewrite start_range_trans, E. repeat split; assumption.
Qed.

Lemma run_ops_lines : forall ops ls ls', run_ops ls ops = Ok ls' ->
  forall l, dict_get l (ls_lines ls') =
            match last_set ops l with Some v => Some v | None => dict_get l (ls_lines ls) end.
Proof.
  induction ops as [|o r IH]; intros ls ls' H l; simpl in H.
  - inversion H. reflexivity.
  - destruct o as [l' m|p m]; simpl in H.
    + rewrite (IH _ _ H l). simpl. destruct (last_set r l); auto.
      destruct (l =? l'); reflexivity.
    + destruct (start_range ls p m) as [ls1|x] eqn:E; simpl in H; [|discriminate].
      rewrite (IH _ _ H l). apply start_range_ok in E as [-> _]. reflexivity.
Qed.

Fixpoint last_bound (b : Z) (ops : list lsop) : Z :=
  match ops with
  | [] => b
  | OSet _ _ :: r => last_bound b r
  | ORange p _ :: r => last_bound p r
  end.

Lemma last_bound_ge : forall ops b, mono_from b ops -> b <= last_bound b ops.
Proof.
  induction ops as [|o r IH]; intros b H; simpl in *; [lia|].
  destruct o; [apply IH; assumption|]. destruct H. specialize (IH _ H0). lia.
Qed.

Lemma run_ops_sem : forall ops ls b, 0 <= b -> inv_b b ls -> mono_from b ops ->
  exists ls', run_ops ls ops = Ok ls' /\ inv_b (last_bound b ops) ls' /\
    forall l, sem ls' l = match range_last ops l with Some m => m | None => sem ls l end.
Proof.
  induction ops as [|o r IH]; intros ls b Hb Hinv Hm.
  - exists ls. split; [reflexivity|]. split; [exact Hinv | reflexivity].
  - destruct o as [l' m|p m]; simpl in Hm.
    + apply (IH (set_line ls l' m) b Hb Hinv Hm).
    + destruct Hm as [Hbp Hm].
      destruct (start_range_sem ls b p m Hb Hbp Hinv) as (ls1 & E & _ & Hinv1 & Hsem1).
      destruct (IH ls1 p) as (ls' & H1 & H3 & H4); auto; [lia|].
      exists ls'. simpl. rewrite E. split; [exact H1|]. split; [exact H3|].
      intros l. rewrite H4, Hsem1. destruct (range_last r l); [|destruct (p <=? l)]; reflexivity.
Qed.

Definition rl_or (ops : list lsop) (l : Z) : bool :=
  match range_last ops l with Some m => m | None => false end.

Lemma run_from_empty : forall ops ls, mono_from 0 ops -> run_ops ls_empty ops = Ok ls ->
  inv_b (last_bound 0 ops) ls /\ (forall l, sem ls l = rl_or ops l) /\
  (forall l, dict_get l (ls_lines ls) = last_set ops l).
Proof.
  intros ops ls Hm Hr.
  destruct (run_ops_sem ops ls_empty 0 (Z.le_refl 0) (inv_b_empty 0) Hm) as (ls' & H1 & H3 & H4).
  rewrite Hr in H1. injection H1 as <-. split; [exact H3|]. split.
  - intros l. rewrite H4. reflexivity.
  - intros l. rewrite (run_ops_lines _ _ _ Hr l). destruct (last_set ops l); reflexivity.
Qed.

Lemma contains_from_empty : forall ops ls l, mono_from 0 ops -> run_ops ls_empty ops = Ok ls ->
  contains ls l = match last_set ops l with Some b => b | None => rl_or ops l end.
Proof.
  intros ops ls l Hm Hr. destruct (run_from_empty _ _ Hm Hr) as (Hi & Hs & Hd).
  rewrite contains_sem; [|apply Hi]. rewrite Hd, Hs. reflexivity.
Qed.

Inductive target := TIgn | TDis (n : N).
Definition ls_of (st : dstate) (T : target) : lineset :=
  match T with TIgn => d_ignore st | TDis n => dis_get (d_dis st) n end.

Definition name_ops (ic : bool) (s line : Z) (op dis : bool) (n : N) : list lsop :=
  if accepted_name n && keep ic n then
    if op then [ORange line dis]
    else if negb (adjust_line line n s =? line)
         then [OSet line dis; OSet (adjust_line line n s) dis]
         else [OSet (adjust_line line n s) dis]
  else [].

Definition names_ops (ic : bool) (s line : Z) (op dis : bool) (names : list N) (m : N) : list lsop :=
  flat_map (fun n => if (m =? n)%N then name_ops ic s line op dis n else []) names.

Fixpoint cmds_ops (ic : bool) (s line : Z) (op : bool) (cmds : list cmd) (m : N) : list lsop :=
  match cmds with
  | [] => []
  | CDisable ns :: r => names_ops ic s line op true (nodup_n ns) m ++ cmds_ops ic s line op r m
  | CEnable ns :: r => names_ops ic s line op false (nodup_n ns) m ++ cmds_ops ic s line op r m
  | CNoop :: r => cmds_ops ic s line op r m
  | CRaise :: _ => []
  end.

Definition event_ops (ev : event) (T : target) : list lsop :=
  let c := ev_comment ev in
  match c_body c, T with
  | TypeIgnore, TIgn =>
    if c_open c then [ORange (c_line c) true] else [OSet (c_line c) true; OSet (ev_start ev) true]
  | Pytype cmds, TDis m => cmds_ops (ev_call ev) (ev_start ev) (c_line c) (c_open c) cmds m
  | _, _ => []
  end.

Definition events_ops (evs : list event) (T : target) : list lsop :=
  flat_map (fun ev => event_ops ev T) evs.

Definition global_ops (names : list N) (T : target) : list lsop :=
  match T with
  | TIgn => []
  | TDis m => flat_map (fun n => if (m =? n)%N then [ORange 0 true] else []) names
  end.

Definition all_ops (g : list N) (evs : list event) (T : target) : list lsop :=
  global_ops g T ++ events_ops evs T.

Lemma run_ops_app : forall a b ls, run_ops ls (a ++ b) = bind (run_ops ls a) (fun ls' => run_ops ls' b).
Proof.
  induction a as [|o r IH]; intros b ls; simpl; [reflexivity|].
  destruct (apply_op ls o); simpl; auto.
Qed.

(* [tracks get r start ops]: the computation [r], begun where line set [x] is [start x], has applied the
   history [ops x] to every line set [x]; it raises exactly when one of these histories does *)
Definition tracks {A X} (get : A -> X -> lineset) (r : res A) (start : X -> lineset)
    (ops : X -> list lsop) : Prop :=
  match r with
  | Ok a => forall x, run_ops (start x) (ops x) = Ok (get a x)
  | Raise e => exists x, run_ops (start x) (ops x) = Raise e
  end.

Lemma tracks_ext : forall {A X} (get : A -> X -> lineset) r start o o',
  (forall x, o x = o' x) -> tracks get r start o -> tracks get r start o'.
Proof.
  intros A X get [a|e] start o o' E H; simpl in *.
  - intros x. rewrite <- E. apply H.
  - destruct H as [x Hx]. exists x. rewrite <- E. exact Hx.
Qed.

Lemma tracks_bind : forall {A B X} (getA : A -> X -> lineset) (getB : B -> X -> lineset)
    r (f : A -> res B) start o1 o2,
  tracks getA r start o1 -> (forall a, tracks getB (f a) (getA a) o2) ->
  tracks getB (bind r f) start (fun x => o1 x ++ o2 x).
Proof.
  intros A B X getA getB [a|e] f start o1 o2 H1 H2; simpl in *.
  - specialize (H2 a). destruct (f a) as [b|e]; simpl in *.
    + intros x. rewrite run_ops_app, H1. apply H2.
    + destruct H2 as [x Hx]. exists x. rewrite run_ops_app, H1. exact Hx.
  - destruct H1 as [x Hx]. exists x. rewrite run_ops_app, Hx. reflexivity.
Qed.

(* a computation on the disables alone, seen from the whole state *)
Lemma tracks_dis : forall {A} (r : res A) (gd : A -> N -> lineset) (ig : lineset) start ops,
  tracks gd r start ops ->
  tracks (fun a T => match T with TIgn => ig | TDis m => gd a m end) r
         (fun T => match T with TIgn => ig | TDis m => start m end)
         (fun T => match T with TIgn => [] | TDis m => ops m end).
Proof.
  intros A [a|e] gd ig start ops H; simpl in *.
  - intros [|m]; [reflexivity | apply H].
  - destruct H as [m Hm]. exists (TDis m). exact Hm.
Qed.

Lemma start_range_tracks : forall d n p m,
  tracks (fun ls x => dis_get (dis_set d n ls) x) (start_range (dis_get d n) p m) (dis_get d)
         (fun x => if (x =? n)%N then [ORange p m] else []).
Proof.
  intros d n p m. destruct (start_range (dis_get d n) p m) as [ls|e] eqn:E; simpl.
  - intros x. destruct (N.eqb_spec x n) as [->|_]; [simpl; rewrite E|]; reflexivity.
  - exists n. rewrite N.eqb_refl. simpl. rewrite E. reflexivity.
Qed.

Lemma process_name_tracks : forall ic s line op dis d n,
  tracks dis_get (process_name ic s line op dis d n) (dis_get d)
         (fun m => if (m =? n)%N then name_ops ic s line op dis n else []).
Proof.
  intros ic s line op dis d n. unfold process_name, name_ops.
  destruct (accepted_name n); [|intros m; destruct (m =? n)%N; reflexivity].
  destruct (keep ic n); [|intros m; destruct (m =? n)%N; reflexivity].
  destruct op; simpl.
  - eapply tracks_ext; [|apply (tracks_bind _ _ _ _ _ _ (fun _ => []) (start_range_tracks d n line dis))].
    + intros x. apply app_nil_r.
    + intros ls x. reflexivity.
  - intros m. cbn [dis_set dis_get]. destruct (N.eqb_spec m n) as [->|_]; [|reflexivity].
    destruct (negb (adjust_line line n s =? line)); reflexivity.
Qed.

Lemma process_names_tracks : forall ic s line op dis names d,
  tracks dis_get (process_names ic s line op dis names d) (dis_get d) (names_ops ic s line op dis names).
Proof.
  induction names as [|n r IH]; intros d; [intros m; reflexivity|].
  apply (tracks_bind _ _ _ _ _ _ _ (process_name_tracks ic s line op dis d n) IH).
Qed.

Lemma process_cmds_tracks : forall ic s line op cmds d,
  tracks dis_get (process_cmds ic s line op cmds d) (dis_get d) (cmds_ops ic s line op cmds).
Proof.
  induction cmds as [|c r IH]; intros d; [intros m; reflexivity|].
  destruct c as [ns|ns| |].
  - apply (tracks_bind _ _ _ _ _ _ _ (process_names_tracks ic s line op true (nodup_n ns) d) IH).
  - apply (tracks_bind _ _ _ _ _ _ _ (process_names_tracks ic s line op false (nodup_n ns) d) IH).
  - apply IH.
  - intros m. reflexivity.
Qed.

Lemma adjust_end_ok : forall fr e s, has_end fr e = true -> exists fr', adjust_end fr e s = Ok fr'.
Proof.
  intros fr e s H. unfold has_end, adjust_end in *. destruct (dict_get e (br_e2s fr)); [eauto | discriminate].
Qed.

Lemma process_event_tracks : forall st ev, tracks ls_of (process_event st ev) (ls_of st) (event_ops ev).
Proof.
  intros st ev. unfold process_event.
  eapply tracks_ext; [|eapply (tracks_bind ls_of ls_of _ _ _ (event_ops ev) (fun _ => []))].
  - intros T. apply app_nil_r.
  - (* the comment *)
    unfold event_ops. destruct (c_body (ev_comment ev)) as [| |cmds].
    + destruct (c_open (ev_comment ev)); [|intros [|n]; reflexivity].
      destruct (start_range (d_ignore st) (c_line (ev_comment ev)) true) as [ig|e] eqn:E; simpl.
      * intros [|n]; simpl; [rewrite E|]; reflexivity.
      * exists TIgn. simpl. rewrite E. reflexivity.
    + intros [|n]; reflexivity.
    + eapply tracks_ext; [|eapply (tracks_bind _ ls_of _ _ _ _ (fun _ => []));
                           [apply (tracks_dis _ dis_get (d_ignore st)), process_cmds_tracks|]].
      * intros [|n]; apply app_nil_r.
      * intros d' [|n]; reflexivity.
  - (* the function-range adjustment touches no line set and cannot raise *)
    intros st1. destruct (negb (ev_call ev) && has_end (d_fr st1) (ev_end ev)) eqn:Eg; [|intros T; reflexivity].
    apply andb_true_iff in Eg as [_ Eg].
    destruct (adjust_end_ok _ _ (ev_start ev) Eg) as [fr' ->]. intros [|n]; reflexivity.
Qed.

Lemma process_events_tracks : forall evs st, tracks ls_of (process_events st evs) (ls_of st) (events_ops evs).
Proof.
  induction evs as [|ev r IH]; intros st; [intros T; reflexivity|].
  apply (tracks_bind _ _ _ _ _ _ _ (process_event_tracks st ev) IH).
Qed.

Lemma global_disable_tracks : forall names d,
  tracks dis_get (global_disable names d) (dis_get d) (fun m => global_ops names (TDis m)).
Proof.
  induction names as [|n r IH]; intros d; [intros m; reflexivity|].
  apply (tracks_bind _ _ _ _ _ _ _ (start_range_tracks d n 0 true) (fun ls => IH (dis_set d n ls))).
Qed.

(* every line set of the final state is the result of a history of _LineSet calls that is a function of the
   parser's output alone *)
Lemma build_tracks : forall g fr evs,
  tracks ls_of (build_events g fr evs) (ls_of (mkD ls_empty [] (mk_branges fr))) (all_ops g evs).
Proof.
  intros g fr evs. unfold build_events.
  eapply tracks_ext; [|eapply (tracks_bind _ ls_of _ _ _ _ (events_ops evs));
                       [apply (tracks_dis _ dis_get ls_empty), (global_disable_tracks g [])|]].
  - intros [|m]; reflexivity.
  - intros d. eapply tracks_ext; [|apply process_events_tracks]. reflexivity.
Qed.

(* the function-range component evolves independently of the line sets *)
Definition fr_step (fr : branges) (ev : event) : res branges :=
  if negb (ev_call ev) && has_end fr (ev_end ev) then adjust_end fr (ev_end ev) (ev_start ev) else Ok fr.

Fixpoint fr_steps (fr : branges) (evs : list event) : res branges :=
  match evs with
  | [] => Ok fr
  | ev :: r => bind (fr_step fr ev) (fun fr' => fr_steps fr' r)
  end.

Lemma process_event_fr : forall st ev st', process_event st ev = Ok st' ->
  fr_step (d_fr st) ev = Ok (d_fr st').
Proof.
  intros st ev st' H. unfold process_event in H.
  match type of H with bind ?X _ = _ => destruct X as [st1|x] eqn:E1; simpl in H; [|discriminate] end.
  assert (Hfr : d_fr st1 = d_fr st).
  { destruct (c_body (ev_comment ev)) as [| |cmds].
    - destruct (c_open (ev_comment ev)); [destruct (start_range _ _ _); [|discriminate]|];
        injection E1 as <-; reflexivity.
    - injection E1 as <-. reflexivity.
    - destruct (process_cmds _ _ _ _ _ _); [|discriminate]. injection E1 as <-. reflexivity. }
  unfold fr_step. rewrite <- Hfr.
  destruct (negb (ev_call ev) && has_end (d_fr st1) (ev_end ev)).
  - destruct (adjust_end (d_fr st1) (ev_end ev) (ev_start ev)); [|discriminate]. injection H as <-. reflexivity.
  - injection H as <-. reflexivity.
Qed.

Lemma process_events_fr : forall evs st st', process_events st evs = Ok st' ->
  fr_steps (d_fr st) evs = Ok (d_fr st').
Proof.
  induction evs as [|ev r IH]; intros st st' H; simpl in H.
  - injection H as <-. reflexivity.
  - destruct (process_event st ev) as [st1|x] eqn:E; [|discriminate].
    simpl. rewrite (process_event_fr _ _ _ E). apply IH. exact H.
Qed.

Lemma build_ops : forall g fr evs st, build_events g fr evs = Ok st ->
  (forall T, run_ops ls_empty (all_ops g evs T) = Ok (ls_of st T)) /\
  fr_steps (mk_branges fr) evs = Ok (d_fr st).
Proof.
  intros g fr evs st H. split.
  - pose proof (build_tracks g fr evs) as Ht. rewrite H in Ht.
    intros [|m]; [exact (Ht TIgn) | exact (Ht (TDis m))].
  - unfold build_events in H. destruct (global_disable g []); [|discriminate].
    apply (process_events_fr _ _ _ H).
Qed.

(* converse of the decomposition: the construction raises only if some line-set history raises *)
Lemma build_raise : forall g fr evs x, build_events g fr evs = Raise x ->
  exists T, run_ops ls_empty (all_ops g evs T) = Raise x.
Proof.
  intros g fr evs x H. pose proof (build_tracks g fr evs) as Ht. rewrite H in Ht.
  destruct Ht as [[|m] Ht]; eauto.
Qed.

Lemma events_ops_app : forall a b T, events_ops (a ++ b) T = events_ops a T ++ events_ops b T.
Proof. intros. unfold events_ops. apply flat_map_app. Qed.

Lemma events_ops_cons : forall ev b T, events_ops (ev :: b) T = event_ops ev T ++ events_ops b T.
Proof. reflexivity. Qed.

Lemma all_ops_app : forall g a b T, all_ops g (a ++ b) T = all_ops g a T ++ events_ops b T.
Proof. intros. unfold all_ops. rewrite events_ops_app, app_assoc. reflexivity. Qed.

Lemma all_ops_mid : forall g a ev b T,
  all_ops g (a ++ ev :: b) T = all_ops g a T ++ event_ops ev T ++ events_ops b T.
Proof. intros. rewrite all_ops_app. reflexivity. Qed.

Lemma mem_n_in : forall x l, mem_n x l = true <-> In x l.
Proof.
  intros. unfold mem_n. rewrite existsb_exists. split.
  - intros (y & Hy & E). apply N.eqb_eq in E. subst. exact Hy.
  - intros H. exists x. split; [exact H | apply N.eqb_refl].
Qed.

Lemma in_name_ops : forall ic s line op dis n o, In o (name_ops ic s line op dis n) ->
  accepted_name n && keep ic n = true /\
  match o with
  | ORange p v => op = true /\ p = line /\ v = dis
  | OSet l v => op = false /\ v = dis /\ (l = line \/ l = adjust_line line n s)
  end.
Proof.
  intros ic s line op dis n o. unfold name_ops.
  destruct (accepted_name n && keep ic n); [|intros []]. intros H. split; [reflexivity|].
  destruct op; [destruct H as [<-|[]]; auto|].
  destruct (negb (adjust_line line n s =? line)); [destruct H as [<-|H]; [auto|]|]; destruct H as [<-|[]]; auto.
Qed.

Lemma in_names_ops : forall ic s line op dis names m o, In o (names_ops ic s line op dis names m) ->
  In m names /\ In o (name_ops ic s line op dis m).
Proof.
  intros ic s line op dis names m o H. apply in_flat_map in H as (n & Hn & Ho).
  destruct (N.eqb_spec m n) as [->|_]; [auto | destruct Ho].
Qed.

(* an operation on class m's line set comes from a disable= or enable= option naming m; one that
   enables, from an enable= *)
Lemma in_cmds_ops : forall ic s line op cmds m o, In o (cmds_ops ic s line op cmds m) ->
  exists dis, In o (name_ops ic s line op dis m) /\ existsb (cmd_mentions m) cmds = true /\
              (dis = false -> existsb (cmd_enables m) cmds = true).
Proof.
  induction cmds as [|c r IH]; intros m o H; [destruct H|].
  assert (Hr : In o (cmds_ops ic s line op r m) ->
          exists dis, In o (name_ops ic s line op dis m) /\ existsb (cmd_mentions m) (c :: r) = true /\
                      (dis = false -> existsb (cmd_enables m) (c :: r) = true)).
  { intros Hr. destruct (IH m o Hr) as (dis & Ho & Hm & He). exists dis. simpl. rewrite Hm.
    split; [exact Ho|]. split; [apply orb_true_r|]. intros Hd. rewrite (He Hd). apply orb_true_r. }
  destruct c as [ns|ns| |]; simpl in H; [| |exact (Hr H)|destruct H]; apply in_app_or in H as [H|H]; auto;
    apply in_names_ops in H as [Hm Ho]; apply nodup_In, mem_n_in in Hm.
  - exists true. simpl. rewrite Hm. split; [exact Ho|]. split; [reflexivity | discriminate].
  - exists false. simpl. rewrite Hm. auto.
Qed.

(* every operation of one comment: stand-alone comments start ranges at their own line, the others write
   single lines; only a directive naming the class touches that class, only a trailing enable= writes False *)
Lemma in_event_ops : forall ev T o, In o (event_ops ev T) ->
  match o with
  | ORange p v =>
    c_open (ev_comment ev) = true /\ p = c_line (ev_comment ev) /\
    match T with TIgn => v = true | TDis E => open_directive_of E (ev_comment ev) = true end
  | OSet l v =>
    c_open (ev_comment ev) = false /\
    match T with TIgn => v = true | TDis E => v = false -> trailing_enable_of E (ev_comment ev) = true end
  end.
Proof.
  intros ev T o. unfold event_ops, open_directive_of, trailing_enable_of.
  destruct (c_body (ev_comment ev)) as [| |cmds], T as [|E]; try (intros []).
  - destruct (c_open (ev_comment ev)); [intros [<-|[]] | intros [<-|[<-|[]]]]; auto.
  - intros H. apply in_cmds_ops in H as (dis & Ho & Hm & He). apply in_name_ops in Ho as [_ Ho].
    destruct o as [l v|p v].
    + destruct Ho as (-> & -> & _). split; [reflexivity|]. exact He.
    + destruct Ho as (-> & -> & _). auto.
Qed.

Definition sets_to (v : bool) (ops : list lsop) : Prop :=
  Forall (fun o => match o with OSet _ m => m = v | ORange _ _ => True end) ops.
Definition sets_only (ops : list lsop) : Prop :=
  Forall (fun o => match o with OSet _ _ => True | ORange _ _ => False end) ops.
Definition ranges_at (p : Z) (ops : list lsop) : Prop :=
  Forall (fun o => exists m, o = ORange p m) ops.

Lemma event_ops_noenable : forall ev E, trailing_enable_of E (ev_comment ev) = false ->
  sets_to true (event_ops ev (TDis E)).
Proof.
  intros ev E H. apply Forall_forall. intros [l v|p v] Ho; [|exact I].
  apply in_event_ops in Ho as [_ Ho]. destruct v; [reflexivity|]. rewrite Ho in H; [discriminate | reflexivity].
Qed.

Lemma event_ops_ign_true : forall ev, sets_to true (event_ops ev TIgn).
Proof.
  intros ev. apply Forall_forall. intros [l v|p v] Ho; [|exact I]. apply in_event_ops in Ho. apply Ho.
Qed.

Lemma event_ops_shape_open : forall ev T, c_open (ev_comment ev) = true ->
  ranges_at (c_line (ev_comment ev)) (event_ops ev T).
Proof.
  intros ev T H. apply Forall_forall. intros [l v|p v] Ho; apply in_event_ops in Ho.
  - destruct Ho as [Ho _]. congruence.
  - destruct Ho as (_ & -> & _). eauto.
Qed.

Lemma event_ops_shape_closed : forall ev T, c_open (ev_comment ev) = false -> sets_only (event_ops ev T).
Proof.
  intros ev T H. apply Forall_forall. intros [l v|p v] Ho; [exact I|].
  apply in_event_ops in Ho as [Ho _]. congruence.
Qed.

Lemma event_ops_no_open_directive : forall ev E, open_directive_of E (ev_comment ev) = false ->
  sets_only (event_ops ev (TDis E)).
Proof.
  intros ev E H. apply Forall_forall. intros [l v|p v] Ho; [exact I|].
  apply in_event_ops in Ho as (_ & _ & Ho). congruence.
Qed.

Lemma events_ops_Forall : forall (Pev : event -> Prop) (Q : lsop -> Prop) T D,
  (forall ev, Pev ev -> Forall Q (event_ops ev T)) -> Forall Pev D -> Forall Q (events_ops D T).
Proof.
  intros Pev Q T D H HD. apply Forall_flat_map. eapply Forall_impl; [exact H | exact HD].
Qed.

Lemma events_ops_noenable : forall D E,
  Forall (fun ev => trailing_enable_of E (ev_comment ev) = false) D ->
  sets_to true (events_ops D (TDis E)).
Proof. intros D E. apply events_ops_Forall. intros ev. apply event_ops_noenable. Qed.

Lemma events_ops_ign_true : forall D, sets_to true (events_ops D TIgn).
Proof.
  intros D. apply (events_ops_Forall (fun _ => True)); [intros ev _; apply event_ops_ign_true|].
  apply Forall_forall. auto.
Qed.

Lemma events_ops_no_open_directive : forall D E,
  Forall (fun ev => open_directive_of E (ev_comment ev) = false) D -> sets_only (events_ops D (TDis E)).
Proof. intros D E. apply events_ops_Forall. intros ev. apply event_ops_no_open_directive. Qed.

Lemma trailing_disable_ops : forall ev L E n, ev_comment ev = trailing_disable L E ->
  event_ops ev (TDis n) =
  if (n =? E)%N then name_ops (ev_call ev) (ev_start ev) L false true E else [].
Proof.
  intros ev L E n H. unfold event_ops. rewrite H. cbn. unfold names_ops. cbn.
  rewrite !app_nil_r. reflexivity.
Qed.

Lemma standalone_event_ops : forall s e L E (dis : bool) T,
  accepted_name E = true ->
  event_ops (mkE false s e (mkC L (Pytype [if dis then CDisable [E] else CEnable [E]]) true)) T =
  match T with TDis n => if (n =? E)%N then [ORange L dis] else [] | TIgn => [] end.
Proof.
  intros s e L E dis T Hacc. unfold event_ops. cbn. destruct T as [|n]; [destruct dis; reflexivity|].
  destruct dis; cbn; unfold names_ops; cbn; rewrite !app_nil_r;
    (destruct (n =? E)%N; [|reflexivity]); unfold name_ops; rewrite Hacc; reflexivity.
Qed.

Lemma filter_error_unfold : forall st rl e l0 lr,
  e_same_file e = true -> e_line e = Some l0 -> reported_line st rl e l0 = Ok lr ->
  filter_error st rl e =
  Ok (negb (contains (d_ignore st) (eff_line lr))
      && negb (contains (dis_get (d_dis st) all_errors) (eff_line lr))
      && negb (contains (dis_get (d_dis st) (e_name e)) (eff_line lr)), Some lr).
Proof.
  intros st rl e l0 lr H1 H2 H3. unfold filter_error. rewrite H2, H1, H3. reflexivity.
Qed.

Lemma filter_error_silenced : forall st rl e l0 lr,
  e_same_file e = true -> e_line e = Some l0 -> reported_line st rl e l0 = Ok lr ->
  (exists T, (T = TIgn \/ T = TDis all_errors \/ T = TDis (e_name e)) /\
             contains (ls_of st T) (eff_line lr) = true) ->
  filter_error st rl e = Ok (false, Some lr).
Proof.
  intros st rl e l0 lr H1 H2 H3 (T & HT & Hc). rewrite (filter_error_unfold _ _ _ _ _ H1 H2 H3).
  destruct HT as [-> | [-> | ->]]; simpl in Hc; rewrite Hc; simpl; rewrite ?andb_false_r; reflexivity.
Qed.

Lemma filter_error_same : forall st st' rl e l0 lr,
  e_same_file e = true -> e_line e = Some l0 ->
  reported_line st rl e l0 = Ok lr -> reported_line st' rl e l0 = Ok lr ->
  (forall T, T = TIgn \/ T = TDis all_errors \/ T = TDis (e_name e) ->
             contains (ls_of st' T) (eff_line lr) = contains (ls_of st T) (eff_line lr)) ->
  filter_error st' rl e = filter_error st rl e.
Proof.
  intros st st' rl e l0 lr H1 H2 H3 H3' Hc.
  rewrite (filter_error_unfold _ _ _ _ _ H1 H2 H3), (filter_error_unfold _ _ _ _ _ H1 H2 H3').
  pose proof (Hc TIgn) as C1. pose proof (Hc (TDis all_errors)) as C2. pose proof (Hc (TDis (e_name e))) as C3.
  simpl in C1, C2, C3. rewrite C1, C2, C3; auto.
Qed.

Lemma plain_reported : forall st rl e l0, plain_error rl e l0 -> reported_line st rl e l0 = Ok l0.
Proof. intros st rl e l0 H. unfold reported_line, plain_error in *. rewrite H. reflexivity. Qed.

Lemma last_set_app : forall a b l,
  last_set (a ++ b) l = match last_set b l with Some v => Some v | None => last_set a l end.
Proof.
  induction a as [|o r IH]; intros b l; simpl.
  - destruct (last_set b l); reflexivity.
  - destruct o as [l' m|p m]; rewrite IH; destruct (last_set b l); reflexivity.
Qed.

Lemma sets_to_last : forall v ops l w, sets_to v ops -> last_set ops l = Some w -> w = v.
Proof.
  induction ops as [|o r IH]; intros l w H E; simpl in E; [discriminate|].
  apply Forall_cons_iff in H as [Ho Hr]. destruct o as [l' m|p m]; [|eapply IH; eauto].
  destruct (last_set r l) eqn:E2; [injection E as <-; eapply IH; eauto|].
  destruct (l =? l'); [congruence | discriminate].
Qed.

Lemma contains_dict : forall ls l b, dict_get l (ls_lines ls) = Some b -> contains ls l = b.
Proof. intros. unfold contains. rewrite H. reflexivity. Qed.

(* a per-line True written by one event survives when everything after it writes True only *)
Lemma contains_written : forall g D1 cev D2 T ls l,
  run_ops ls_empty (all_ops g (D1 ++ cev :: D2) T) = Ok ls ->
  last_set (event_ops cev T) l = Some true -> sets_to true (events_ops D2 T) ->
  contains ls l = true.
Proof.
  intros g D1 cev D2 T ls l Hr Hc H2. apply contains_dict. rewrite (run_ops_lines _ _ _ Hr).
  rewrite all_ops_app, events_ops_cons, !last_set_app, Hc.
  destruct (last_set (events_ops D2 T) l) as [w|] eqn:E2; [|reflexivity].
  rewrite (sets_to_last _ _ _ _ H2 E2). reflexivity.
Qed.

Lemma silences_lemma : forall g fr rl D1 D2 cev st e l0 lr L E,
  ev_comment cev = trailing_disable L E ->
  accepted_name E = true -> keep (ev_call cev) E = true ->
  Forall (fun ev => trailing_enable_of E (ev_comment ev) = false) D2 ->
  build_events g fr (D1 ++ cev :: D2) = Ok st ->
  e_same_file e = true -> e_line e = Some l0 -> e_name e = E ->
  reported_line st rl e l0 = Ok lr ->
  (eff_line lr = L \/ eff_line lr = adjust_line L E (ev_start cev)) ->
  filter_error st rl e = Ok (false, Some lr).
Proof.
  intros g fr rl D1 D2 cev st e l0 lr L E Hc Hacc Hkeep HD2 Hb Hsf Hl Hn Hr Hlr.
  apply (filter_error_silenced _ _ _ _ _ Hsf Hl Hr). exists (TDis E). split; [rewrite Hn; auto|].
  destruct (build_ops _ _ _ _ Hb) as [Hops _].
  apply (contains_written _ _ _ _ _ _ _ (Hops (TDis E))); [|apply events_ops_noenable; exact HD2].
  rewrite (trailing_disable_ops _ _ _ _ Hc), N.eqb_refl. unfold name_ops. rewrite Hacc, Hkeep. simpl.
  destruct Hlr as [->| ->]; destruct (Z.eqb_spec (adjust_line L E (ev_start cev)) L) as [->|_]; simpl;
    rewrite Z.eqb_refl; try reflexivity.
  destruct (L =? _); reflexivity.
Qed.

Definition ls_rel (P : Z -> Prop) (a b : lineset) : Prop :=
  ls_trans a = ls_trans b /\
  forall l, ~ P l -> dict_get l (ls_lines a) = dict_get l (ls_lines b).

Lemma ls_rel_refl : forall P a, ls_rel P a a.
Proof. intros. split; auto. Qed.

Lemma contains_rel : forall P a b l, ls_rel P a b -> ~ P l -> contains a l = contains b l.
Proof. intros P a b l [Ht Hl] Hn. unfold contains. rewrite (Hl l Hn), Ht. reflexivity. Qed.

Lemma ls_rel_set : forall P a b l m, ls_rel P a b -> ls_rel P (set_line a l m) (set_line b l m).
Proof.
  intros P a b l m [Ht Hl]. split; [exact Ht|]. intros l1 Hn. simpl. destruct (l1 =? l); auto.
Qed.

Lemma ls_rel_set_r : forall (P : Z -> Prop) a b l m, P l -> ls_rel P a b -> ls_rel P a (set_line b l m).
Proof.
  intros P a b l m HP [Ht Hl]. split; [exact Ht|]. intros l1 Hn. simpl.
  destruct (Z.eqb_spec l1 l) as [->|_]; [contradiction | auto].
Qed.

Lemma ls_rel_range : forall P a b p m a', ls_rel P a b -> start_range a p m = Ok a' ->
  exists b', start_range b p m = Ok b' /\ ls_rel P a' b'.
Proof.
  intros P a [lines t] p m a' [Ht Hl] H. apply start_range_ok in H as [Hlines Htr].
  cbn [ls_trans ls_lines] in *. subst t. rewrite start_range_trans, Htr.
  eexists. split; [reflexivity|]. split; [reflexivity|]. rewrite Hlines. exact Hl.
Qed.

Definition writes_in (P : Z -> Prop) (o : lsop) : Prop := exists l m, o = OSet l m /\ P l.

Lemma run_ops_inserted : forall P ops ops' Ad, inserted (writes_in P) ops ops' Ad ->
  forall ls ls' a, ls_rel P ls ls' -> run_ops ls ops = Ok a ->
  exists b, run_ops ls' ops' = Ok b /\ ls_rel P a b.
Proof.
  induction 1 as [|o D D' Ad Hins IH|o D D' Ad Ho Hins IH]; intros ls ls' a Hrel Hrun.
  - simpl in Hrun. injection Hrun as <-. exists ls'. split; [reflexivity | exact Hrel].
  - destruct o as [l m|p m]; simpl in *.
    + apply (IH _ _ _ (ls_rel_set _ _ _ l m Hrel) Hrun).
    + destruct (start_range ls p m) as [ls1|x] eqn:E; [|discriminate].
      destruct (ls_rel_range _ _ _ _ _ _ Hrel E) as (ls1' & -> & Hrel1). apply (IH _ _ _ Hrel1 Hrun).
  - destruct Ho as (l & m & -> & HP). apply (IH _ _ _ (ls_rel_set_r _ _ _ l m HP Hrel) Hrun).
Qed.

Lemma inserted_refl : forall {A} (P : A -> Prop) l, inserted P l l [].
Proof. induction l; constructor; auto. Qed.

Lemma inserted_all : forall {A} (P : A -> Prop) l, Forall P l -> inserted P [] l l.
Proof. induction 1; constructor; auto. Qed.

Lemma inserted_app : forall {A} (P : A -> Prop) a a' x b b' y,
  inserted P a a' x -> inserted P b b' y -> inserted P (a ++ b) (a' ++ b') (x ++ y).
Proof. induction 1; intros; simpl; auto; constructor; auto. Qed.

Lemma inserted_weaken : forall {A} (P Q : A -> Prop) a a' x,
  (forall e, P e -> Q e) -> inserted P a a' x -> inserted Q a a' x.
Proof. induction 2; constructor; auto. Qed.

Lemma inserted_in : forall {A} (P : A -> Prop) a a' x, inserted P a a' x ->
  forall x0, incl x x0 -> inserted (fun e => P e /\ In e x0) a a' x.
Proof.
  induction 1; intros x0 Hi; constructor; auto.
  - split; auto. apply Hi. left. reflexivity.
  - apply IHinserted. intros e He. apply Hi. right. exact He.
Qed.

Lemma inserted_added_in : forall {A} (P : A -> Prop) D D' Ad, inserted P D D' Ad -> incl Ad D'.
Proof.
  induction 1 as [|y D D' Ad Hi IH|y D D' Ad Hy Hi IH]; intros z Hz; [inversion Hz | right; auto |].
  destruct Hz as [<-|Hz]; [left; reflexivity | right; auto].
Qed.

Lemma inserted_added_P : forall {A} (P : A -> Prop) D D' Ad, inserted P D D' Ad -> Forall P Ad.
Proof. induction 1; auto. Qed.

Lemma all_ops_inserted : forall (Pev : event -> Prop) Q T g D D' Ad,
  (forall ev, Pev ev -> Forall Q (event_ops ev T)) ->
  inserted Pev D D' Ad ->
  exists Ad', inserted Q (all_ops g D T) (all_ops g D' T) Ad'.
Proof.
  intros Pev Q T g D D' Ad HP Hins.
  assert (He : exists Ad', inserted Q (events_ops D T) (events_ops D' T) Ad').
  { induction Hins as [|ev D D' Ad Hins [Ad' IH]|ev D D' Ad Hev Hins [Ad' IH]].
    - exists []. constructor.
    - exists ([] ++ Ad'). rewrite !events_ops_cons. apply inserted_app; [apply inserted_refl | exact IH].
    - exists (event_ops ev T ++ Ad'). rewrite events_ops_cons.
      apply (inserted_app _ [] _ _ _ _ _ (inserted_all _ _ (HP _ Hev)) IH). }
  destruct He as [Ad' He]. exists ([] ++ Ad'). apply inserted_app; [apply inserted_refl | exact He].
Qed.

(* inserting events that only write single lines keeps the construction defined, and every line set
   differs at most on the lines written *)
Lemma insert_frame : forall (Pev : event -> Prop) (P : target -> Z -> Prop) g fr D D' Ad st,
  (forall ev T, Pev ev -> Forall (writes_in (P T)) (event_ops ev T)) ->
  inserted Pev D D' Ad -> build_events g fr D = Ok st ->
  exists st', build_events g fr D' = Ok st' /\ forall T, ls_rel (P T) (ls_of st T) (ls_of st' T).
Proof.
  intros Pev P g fr D D' Ad st HP Hins Hb.
  assert (Hrun : forall T, exists b, run_ops ls_empty (all_ops g D' T) = Ok b /\ ls_rel (P T) (ls_of st T) b).
  { intros T. destruct (all_ops_inserted Pev _ T g D D' Ad (fun ev => HP ev T) Hins) as [Ad' Hi].
    apply (run_ops_inserted _ _ _ _ Hi ls_empty ls_empty _ (ls_rel_refl _ _)).
    apply (build_ops _ _ _ _ Hb). }
  destruct (build_events g fr D') as [st'|x] eqn:E.
  - exists st'. split; [reflexivity|]. intros T. destruct (Hrun T) as (b & Hb2 & Hrel).
    rewrite (proj1 (build_ops _ _ _ _ E) T) in Hb2. injection Hb2 as <-. exact Hrel.
  - exfalso. destruct (build_raise _ _ _ _ E) as [T HT]. destruct (Hrun T) as (b & Hb2 & _). congruence.
Qed.

Lemma run_ops_deterministic : forall ls ops a b, run_ops ls ops = Ok a -> run_ops ls ops = Ok b -> a = b.
Proof. intros. congruence. Qed.

Lemma trailing_disable_writes : forall ev L E Ad T, ev_comment ev = trailing_disable L E -> In ev Ad ->
  Forall (writes_in (fun l => T = TDis E /\ In l (touched_disable E L Ad))) (event_ops ev T).
Proof.
  intros ev L E Ad [|n] Hc Hin; [unfold event_ops; rewrite Hc; constructor|].
  rewrite (trailing_disable_ops _ _ _ _ Hc). destruct (N.eqb_spec n E) as [->|_]; [|constructor].
  apply Forall_forall. intros o Ho. apply in_name_ops in Ho as [Hk Ho].
  destruct o as [l v|p v]; [|destruct Ho; discriminate]. destruct Ho as (_ & _ & Hl).
  exists l, v. split; [reflexivity|]. split; [reflexivity|].
  apply in_flat_map. exists ev. split; [exact Hin|]. rewrite Hk. destruct Hl as [->| ->]; simpl; auto.
Qed.

Lemma trailing_ignore_writes : forall ev L Ad T, ev_comment ev = trailing_ignore L -> In ev Ad ->
  Forall (writes_in (fun l => T = TIgn /\ In l (touched_ignore L Ad))) (event_ops ev T).
Proof.
  intros ev L Ad [|n] Hc Hin; unfold event_ops; rewrite Hc; [|constructor]. simpl.
  assert (Ht : forall l, In l [L; ev_start ev] -> In l (touched_ignore L Ad)).
  { intros l Hl. apply in_flat_map. exists ev. split; assumption. }
  repeat constructor; eexists; eexists; (split; [reflexivity|]); (split; [reflexivity|]); apply Ht; simpl; auto.
Qed.

Lemma disable_frame_full : forall g fr rl D D' Ad L E st,
  inserted (fun ev => ev_comment ev = trailing_disable L E) D D' Ad ->
  build_events g fr D = Ok st ->
  exists st', build_events g fr D' = Ok st' /\
    forall e l0 lr, e_same_file e = true -> e_line e = Some l0 ->
      reported_line st rl e l0 = Ok lr -> reported_line st' rl e l0 = Ok lr ->
      (e_name e <> E /\ E <> all_errors) \/ ~ In (eff_line lr) (touched_disable E L Ad) ->
      filter_error st' rl e = filter_error st rl e.
Proof.
  intros g fr rl D D' Ad L E st Hins Hb.
  pose proof (inserted_in _ _ _ _ Hins Ad (incl_refl _)) as Hins2.
  destruct (insert_frame _ (fun T l => T = TDis E /\ In l (touched_disable E L Ad)) g fr D D' Ad st
              (fun ev T H => trailing_disable_writes ev L E Ad T (proj1 H) (proj2 H)) Hins2 Hb)
    as (st' & Hb' & Hrel).
  exists st'. split; [exact Hb'|]. intros e l0 lr Hsf Hl Hr Hr' Hcase.
  apply (filter_error_same _ _ _ _ _ _ Hsf Hl Hr Hr'). intros T HT. symmetry.
  apply (contains_rel _ _ _ _ (Hrel T)). intros [-> Hin].
  destruct Hcase as [[H1 H2]|H]; [|contradiction].
  destruct HT as [HT|[HT|HT]]; [discriminate| |]; injection HT as HT; congruence.
Qed.

Lemma range_last_app : forall a b l,
  range_last (a ++ b) l = match range_last b l with Some v => Some v | None => range_last a l end.
Proof.
  induction a as [|o r IH]; intros b l; simpl.
  - destruct (range_last b l); reflexivity.
  - destruct o as [l' m|p m]; rewrite IH; destruct (range_last b l); reflexivity.
Qed.

Lemma mono_weaken : forall ops b b', b <= b' -> mono_from b' ops -> mono_from b ops.
Proof.
  induction ops as [|o r IH]; intros b b' Hb H; simpl in *; auto.
  destruct o; [eapply IH; eauto|]. destruct H. split; [lia | assumption].
Qed.

Lemma mono_from_app : forall a c b, mono_from b (a ++ c) <-> mono_from b a /\ mono_from (last_bound b a) c.
Proof.
  induction a as [|o r IH]; intros c b; simpl.
  - tauto.
  - destruct o; [apply IH|]. rewrite IH. tauto.
Qed.

Lemma mono_range_none : forall ops b l, mono_from b ops -> l < b -> range_last ops l = None.
Proof.
  induction ops as [|o r IH]; intros b l H Hl; simpl in *; [reflexivity|].
  destruct o as [l' m|p m]; [eapply IH; eauto|]. destruct H as [Hbp H].
  rewrite (IH p l H); [|lia]. destruct (Z.leb_spec p l); [lia | reflexivity].
Qed.

Lemma sets_only_range : forall ops l, sets_only ops -> range_last ops l = None.
Proof.
  induction 1 as [|o r Ho Hr IH]; simpl; [reflexivity|]. destruct o; [exact IH | contradiction].
Qed.

Lemma sets_only_bound : forall ops b, sets_only ops -> last_bound b ops = b.
Proof.
  induction 1 as [|o r Ho Hr IH]; simpl; [reflexivity|]. destruct o; [exact IH | contradiction].
Qed.

Lemma sets_only_mono : forall ops b, sets_only ops -> mono_from b ops.
Proof.
  induction 1 as [|o r Ho Hr IH]; simpl; [exact I|]. destruct o; [exact IH | contradiction].
Qed.

Lemma last_set_range_skip : forall a p m b l, last_set (a ++ ORange p m :: b) l = last_set (a ++ b) l.
Proof. intros. rewrite !last_set_app. simpl. reflexivity. Qed.

(* a range opened at L and closed at M > L, put into a monotone history whose ranges are all closed at L *)
Lemma ops_core_pair : forall X Omid O2 L M ls1 a b,
  mono_from 0 (X ++ ORange L true :: Omid ++ ORange M false :: O2) ->
  sets_only Omid -> L < M ->
  run_ops ls_empty X = Ok ls1 -> Nat.odd (length (ls_trans ls1)) = false ->
  run_ops ls_empty (X ++ Omid ++ O2) = Ok a ->
  run_ops ls_empty (X ++ ORange L true :: Omid ++ ORange M false :: O2) = Ok b ->
  forall l, contains b l =
    if (L <=? l) && (l <? M)
    then match dict_get l (ls_lines a) with Some v => v | None => true end
    else contains a l.
Proof.
  intros X Omid O2 L M ls1 a b Hm Hso HLM Hr1 Hoff Hra Hrb l.
  pose proof Hm as Hm0.
  apply mono_from_app in Hm as [HmX Hm]. simpl in Hm. destruct Hm as [HbX Hm].
  apply mono_from_app in Hm as [_ Hm]. rewrite (sets_only_bound _ _ Hso) in Hm.
  simpl in Hm. destruct Hm as [_ HmO2].
  assert (HmA : mono_from 0 (X ++ Omid ++ O2)).
  { apply mono_from_app. split; [exact HmX|]. apply mono_from_app. split; [apply sets_only_mono; exact Hso|].
    rewrite (sets_only_bound _ _ Hso). eapply mono_weaken; [|exact HmO2]. lia. }
  destruct (run_from_empty _ _ HmX Hr1) as ([_ Hi1] & Hs1 & _).
  (* the ranges of X are all closed at L *)
  assert (HoffX : forall l', L <= l' -> rl_or X l' = false).
  { intros l' Hl'. rewrite <- Hs1. unfold sem. rewrite count_le_all; [exact Hoff|].
    eapply Forall_impl; [|exact Hi1]. simpl. intros. lia. }
  destruct (run_from_empty _ _ HmA Hra) as (_ & _ & Hda).
  rewrite (contains_from_empty _ _ l Hm0 Hrb), (contains_from_empty _ _ l HmA Hra), Hda.
  replace (last_set (X ++ ORange L true :: Omid ++ ORange M false :: O2) l)
    with (last_set (X ++ Omid ++ O2) l)
    by (rewrite last_set_range_skip, !app_assoc, last_set_range_skip; reflexivity).
  destruct (last_set (X ++ Omid ++ O2) l) as [v|]; [destruct ((L <=? l) && (l <? M)); reflexivity|].
  unfold rl_or.
  change (X ++ ORange L true :: Omid ++ ORange M false :: O2)
    with (X ++ [ORange L true] ++ Omid ++ [ORange M false] ++ O2).
  rewrite !range_last_app, (sets_only_range _ l Hso). simpl.
  destruct (Z.ltb_spec l M) as [E2|E2].
  - rewrite (mono_range_none _ _ _ HmO2 E2), andb_true_r.
    destruct (Z.leb_spec M l); [lia|]. destruct (L <=? l); reflexivity.
  - rewrite andb_false_r. destruct (range_last O2 l); [reflexivity|].
    destruct (Z.leb_spec M l); [|lia]. specialize (HoffX l). unfold rl_or in HoffX. rewrite HoffX; [reflexivity | lia].
Qed.

(* a range opened at L, put into a monotone history that after it only opens ranges *)
Lemma ops_core_eof : forall X O2 L a b,
  mono_from 0 (X ++ ORange L true :: O2) ->
  (forall l m, range_last O2 l = Some m -> m = true) ->
  run_ops ls_empty (X ++ O2) = Ok a ->
  run_ops ls_empty (X ++ ORange L true :: O2) = Ok b ->
  forall l, contains b l =
    if L <=? l
    then match dict_get l (ls_lines a) with Some v => v | None => true end
    else contains a l.
Proof.
  intros X O2 L a b Hm Htrue Hra Hrb l.
  pose proof Hm as Hm0.
  apply mono_from_app in Hm as [HmX Hm]. simpl in Hm. destruct Hm as [HbX HmO2].
  assert (HmA : mono_from 0 (X ++ O2)).
  { apply mono_from_app. split; [exact HmX|]. eapply mono_weaken; [|exact HmO2]. exact HbX. }
  destruct (run_from_empty _ _ HmA Hra) as (_ & _ & Hda).
  rewrite (contains_from_empty _ _ l Hm0 Hrb), (contains_from_empty _ _ l HmA Hra), Hda.
  rewrite last_set_range_skip.
  destruct (last_set (X ++ O2) l) as [v|]; [destruct (L <=? l); reflexivity|].
  unfold rl_or. change (X ++ ORange L true :: O2) with (X ++ [ORange L true] ++ O2).
  rewrite !range_last_app. simpl.
  destruct (Z.leb_spec L l) as [E1|E1].
  - destruct (range_last O2 l) as [m|] eqn:E2; [apply (Htrue _ _ E2) | reflexivity].
  - rewrite (mono_range_none _ _ _ HmO2 E1). reflexivity.
Qed.

Lemma mono_ranges_at : forall ops p rest b, ranges_at p ops -> b <= p -> mono_from p rest ->
  mono_from b (ops ++ rest).
Proof.
  induction ops as [|o r IH]; intros p rest b H Hb Hr; simpl.
  - eapply mono_weaken; eauto.
  - apply Forall_cons_iff in H as [[m ->] H]. split; [exact Hb|]. eapply IH; eauto. lia.
Qed.

Lemma mono_sets : forall ops rest b, sets_only ops -> mono_from b rest -> mono_from b (ops ++ rest).
Proof.
  intros. apply mono_from_app. split; [apply sets_only_mono; assumption|].
  rewrite sets_only_bound; assumption.
Qed.

Lemma events_mono : forall T evs b, open_mono b evs -> mono_from b (events_ops evs T).
Proof.
  induction evs as [|ev r IH]; intros b H; [exact I|].
  rewrite events_ops_cons. simpl in H. destruct (c_open (ev_comment ev)) eqn:E.
  - destruct H as [Hb H]. eapply mono_ranges_at; [apply event_ops_shape_open; exact E | exact Hb | apply IH; exact H].
  - apply mono_sets; [apply event_ops_shape_closed; exact E | apply IH; exact H].
Qed.

Lemma global_ops_shape : forall g T, ranges_at 0 (global_ops g T).
Proof.
  intros g [|m]; [constructor|]. apply Forall_flat_map, Forall_forall. intros n _.
  destruct (m =? n)%N; repeat constructor. eauto.
Qed.

Lemma all_ops_mono : forall g evs T, open_mono 0 evs -> mono_from 0 (all_ops g evs T).
Proof.
  intros. unfold all_ops. eapply mono_ranges_at; [apply global_ops_shape | lia | apply events_mono; assumption].
Qed.

Lemma open_mono_app : forall a c b, open_mono b (a ++ c) -> open_mono b a.
Proof.
  induction a as [|ev r IH]; intros c b H; simpl in *; [exact I|].
  destruct (c_open (ev_comment ev)); [destruct H; split; eauto | eauto].
Qed.

Lemma same_ops_same_ls : forall g fr D D' st st' T,
  build_events g fr D = Ok st -> build_events g fr D' = Ok st' ->
  all_ops g D' T = all_ops g D T -> ls_of st' T = ls_of st T.
Proof.
  intros g fr D D' st st' T Hb Hb' E.
  pose proof (proj1 (build_ops _ _ _ _ Hb) T) as Ho. pose proof (proj1 (build_ops _ _ _ _ Hb') T) as Ho'.
  rewrite E in Ho'. congruence.
Qed.

Lemma standalone_disable_ops : forall s e L E T, accepted_name E = true ->
  event_ops (mkE false s e (standalone_disable L E)) T =
  match T with TDis n => if (n =? E)%N then [ORange L true] else [] | TIgn => [] end.
Proof. intros s e L E T. exact (standalone_event_ops s e L E true T). Qed.

Lemma standalone_enable_ops : forall s e L E T, accepted_name E = true ->
  event_ops (mkE false s e (standalone_enable L E)) T =
  match T with TDis n => if (n =? E)%N then [ORange L false] else [] | TIgn => [] end.
Proof. intros s e L E T. exact (standalone_event_ops s e L E false T). Qed.

Lemma other_target_nil : forall E T (x : list lsop), T <> TDis E ->
  match T with TDis n => if (n =? E)%N then x else [] | TIgn => [] end = [].
Proof.
  intros E [|n] x HT; [reflexivity|]. destruct (N.eqb_spec n E) as [->|_]; [contradiction | reflexivity].
Qed.

(* class E's line set alone changes: on the lines [inr] it becomes a member unless a per-line entry says no *)
Definition region_change (inr : Z -> bool) (E : N) (st st' : dstate) : Prop :=
  (forall T, T <> TDis E -> ls_of st' T = ls_of st T) /\
  (forall l, contains (dis_get (d_dis st') E) l =
     if inr l
     then match dict_get l (ls_lines (dis_get (d_dis st) E)) with Some v => v | None => true end
     else contains (dis_get (d_dis st) E) l).

(* stand-alone disable=E at L ... enable=E at M *)
Lemma standalone_pair_state : forall g fr D1 Dmid D2 L M E sL eL sM eM st1 st st',
  accepted_name E = true -> L < M ->
  let evL := mkE false sL eL (standalone_disable L E) in
  let evM := mkE false sM eM (standalone_enable M E) in
  open_mono 0 (D1 ++ evL :: Dmid ++ evM :: D2) ->
  Forall (fun ev => open_directive_of E (ev_comment ev) = false) Dmid ->
  build_events g fr D1 = Ok st1 ->
  Nat.odd (length (ls_trans (dis_get (d_dis st1) E))) = false ->
  build_events g fr (D1 ++ Dmid ++ D2) = Ok st ->
  build_events g fr (D1 ++ evL :: Dmid ++ evM :: D2) = Ok st' ->
  region_change (fun l => (L <=? l) && (l <? M)) E st st'.
Proof.
  intros g fr D1 Dmid D2 L M E sL eL sM eM st1 st st' Hacc HLM evL evM Hmono Hmid Hb1 Hoff Hb Hb'.
  assert (Hall' : forall T, all_ops g (D1 ++ evL :: Dmid ++ evM :: D2) T =
            all_ops g D1 T ++ event_ops evL T ++ events_ops Dmid T ++ event_ops evM T ++ events_ops D2 T).
  { intros T. rewrite all_ops_mid, events_ops_app, events_ops_cons. reflexivity. }
  assert (Hall : forall T, all_ops g (D1 ++ Dmid ++ D2) T = all_ops g D1 T ++ events_ops Dmid T ++ events_ops D2 T).
  { intros T. rewrite all_ops_app, events_ops_app. reflexivity. }
  unfold evL, evM in Hall'. split.
  - intros T HT. apply (same_ops_same_ls _ _ _ _ _ _ _ Hb Hb'). rewrite Hall', Hall.
    rewrite (standalone_disable_ops _ _ _ _ _ Hacc), (standalone_enable_ops _ _ _ _ _ Hacc).
    rewrite !(other_target_nil _ _ _ HT). reflexivity.
  - pose proof (proj1 (build_ops _ _ _ _ Hb) (TDis E)) as Ho. pose proof (proj1 (build_ops _ _ _ _ Hb') (TDis E)) as Ho'.
    pose proof (all_ops_mono g _ (TDis E) Hmono) as Hm.
    rewrite Hall in Ho. rewrite Hall' in Ho', Hm.
    rewrite (standalone_disable_ops _ _ _ _ _ Hacc), (standalone_enable_ops _ _ _ _ _ Hacc), N.eqb_refl in Ho', Hm.
    apply (ops_core_pair _ _ _ L M _ _ _ Hm (events_ops_no_open_directive _ _ Hmid) HLM
             (proj1 (build_ops _ _ _ _ Hb1) (TDis E)) Hoff Ho Ho').
Qed.

(* stand-alone disable=E at L that nothing ends *)
Lemma standalone_eof_state : forall g fr D1 D2 L E sL eL st st',
  accepted_name E = true ->
  let evL := mkE false sL eL (standalone_disable L E) in
  open_mono 0 (D1 ++ evL :: D2) ->
  Forall (fun ev => open_directive_of E (ev_comment ev) = false) D2 ->
  build_events g fr (D1 ++ D2) = Ok st ->
  build_events g fr (D1 ++ evL :: D2) = Ok st' ->
  region_change (fun l => L <=? l) E st st'.
Proof.
  intros g fr D1 D2 L E sL eL st st' Hacc evL Hmono HD2 Hb Hb'. unfold evL in *. split.
  - intros T HT. apply (same_ops_same_ls _ _ _ _ _ _ _ Hb Hb'). rewrite all_ops_mid, all_ops_app.
    rewrite (standalone_disable_ops _ _ _ _ _ Hacc), (other_target_nil _ _ _ HT). reflexivity.
  - pose proof (proj1 (build_ops _ _ _ _ Hb) (TDis E)) as Ho. pose proof (proj1 (build_ops _ _ _ _ Hb') (TDis E)) as Ho'.
    pose proof (all_ops_mono g _ (TDis E) Hmono) as Hm.
    rewrite all_ops_app in Ho. rewrite all_ops_mid, (standalone_disable_ops _ _ _ _ _ Hacc), N.eqb_refl in Ho', Hm.
    apply (ops_core_eof _ _ L _ _ Hm); [|exact Ho|exact Ho'].
    intros l m H. rewrite sets_only_range in H; [discriminate|]. apply events_ops_no_open_directive. exact HD2.
Qed.

(* stand-alone "# type: ignore" at L: every line from L on is ignored, nothing before changes *)
Lemma ign_ranges_true : forall D l m, range_last (events_ops D TIgn) l = Some m -> m = true.
Proof.
  induction D as [|ev r IH]; intros l m H; [discriminate|].
  rewrite events_ops_cons, range_last_app in H.
  destruct (range_last (events_ops r TIgn) l) eqn:E; [inversion H; subst; eapply IH; eauto|].
  unfold event_ops in H. destruct (c_body (ev_comment ev)); try discriminate.
  destruct (c_open (ev_comment ev)); simpl in H; [|discriminate].
  destruct (c_line (ev_comment ev) <=? l); inversion H. reflexivity.
Qed.

Lemma standalone_ignore_state : forall g fr D1 D2 L sL eL st st',
  let evL := mkE false sL eL (standalone_ignore L) in
  open_mono 0 (D1 ++ evL :: D2) ->
  build_events g fr (D1 ++ D2) = Ok st ->
  build_events g fr (D1 ++ evL :: D2) = Ok st' ->
  (forall n, dis_get (d_dis st') n = dis_get (d_dis st) n) /\
  (forall l, contains (d_ignore st') l = if L <=? l then true else contains (d_ignore st) l).
Proof.
  intros g fr D1 D2 L sL eL st st' evL Hmono Hb Hb'. split.
  - intros n. apply (same_ops_same_ls _ _ _ _ _ _ (TDis n) Hb Hb'). rewrite all_ops_mid, all_ops_app. reflexivity.
  - intros l. pose proof (proj1 (build_ops _ _ _ _ Hb) TIgn) as Ho. pose proof (proj1 (build_ops _ _ _ _ Hb') TIgn) as Ho'.
    pose proof (all_ops_mono g _ TIgn Hmono) as Hm. rewrite all_ops_app in Ho. rewrite all_ops_mid in Ho', Hm.
    cbn [ls_of] in Ho, Ho'. rewrite (ops_core_eof _ _ L _ _ Hm (ign_ranges_true D2) Ho Ho').
    destruct (L <=? l); [|reflexivity].
    (* a per-line entry of the ignore set is always True *)
    destruct (dict_get l (ls_lines (d_ignore st))) as [v|] eqn:Ed; [|reflexivity].
    rewrite (run_ops_lines _ _ _ Ho l) in Ed. cbn [ls_empty ls_lines dict_get] in Ed.
    destruct (last_set (all_ops g D1 TIgn ++ events_ops D2 TIgn) l) as [w|] eqn:Ew; [|discriminate].
    injection Ed as <-. eapply sets_to_last; [|exact Ew].
    apply Forall_app. split; [|apply events_ops_ign_true].
    apply Forall_app. split; [constructor | apply events_ops_ign_true].
Qed.

Lemma standalone_filter : forall (inr : Z -> bool) E rl st st', region_change inr E st st' ->
  forall e l0 lr, e_same_file e = true -> e_line e = Some l0 ->
    reported_line st rl e l0 = Ok lr -> reported_line st' rl e l0 = Ok lr ->
    ((e_name e <> E /\ E <> all_errors) \/ inr (eff_line lr) = false ->
       filter_error st' rl e = filter_error st rl e) /\
    ((e_name e = E \/ E = all_errors) -> inr (eff_line lr) = true ->
       dict_get (eff_line lr) (ls_lines (dis_get (d_dis st) E)) <> Some false ->
       filter_error st' rl e = Ok (false, Some lr)).
Proof.
  intros inr E rl st st' [Hother HE] e l0 lr Hsf Hl Hr Hr'. split.
  - intros Hcase. apply (filter_error_same _ _ _ _ _ _ Hsf Hl Hr Hr'). intros T HT.
    destruct T as [|n]; [rewrite Hother; [reflexivity | discriminate]|].
    destruct (N.eq_dec n E) as [->|Hne]; [|rewrite Hother; [reflexivity | congruence]].
    simpl. rewrite HE. destruct Hcase as [[H1 H2] | ->]; [|reflexivity].
    destruct HT as [HT|[HT|HT]]; [discriminate| |]; injection HT as HT; congruence.
  - intros Hname Hin Hd. apply (filter_error_silenced _ _ _ _ _ Hsf Hl Hr'). exists (TDis E).
    split; [destruct Hname as [->| ->]; auto|]. simpl. rewrite HE, Hin.
    destruct (dict_get (eff_line lr) (ls_lines (dis_get (d_dis st) E))) as [[|]|]; congruence.
Qed.

Lemma exactly_partial_lemma : forall g fr rl D D' Ad L E st,
  inserted (fun ev => ev_comment ev = trailing_disable L E /\
                      (is_adjustable E = false \/ ev_start ev = L)) D D' Ad ->
  (exists cev, In cev Ad /\ ev_call cev = false) ->
  Forall (fun ev => trailing_enable_of E (ev_comment ev) = false) D' ->
  accepted_name E = true -> E <> all_errors ->
  build_events g fr D = Ok st ->
  exists st', build_events g fr D' = Ok st' /\
    forall e l0 lr, e_same_file e = true -> e_line e = Some l0 ->
      reported_line st rl e l0 = Ok lr -> reported_line st' rl e l0 = Ok lr ->
      (e_name e = E /\ eff_line lr = L -> filter_error st' rl e = Ok (false, Some lr)) /\
      (~ (e_name e = E /\ eff_line lr = L) -> filter_error st' rl e = filter_error st rl e).
Proof.
  intros g fr rl D D' Ad L E st Hins [cev [HcevIn Hbase]] Hnoen Hacc HnotAll Hb.
  assert (Hins0 : inserted (fun ev => ev_comment ev = trailing_disable L E) D D' Ad).
  { eapply inserted_weaken; [|exact Hins]. simpl. tauto. }
  destruct (disable_frame_full g fr rl _ _ _ _ _ _ Hins0 Hb) as (st' & Hb' & Hframe).
  exists st'. split; [exact Hb'|].
  pose proof (inserted_added_P _ _ _ _ Hins) as HadP. rewrite Forall_forall in HadP.
  (* every line the added events write to is L *)
  assert (Htouched : forall l, In l (touched_disable E L Ad) -> l = L).
  { intros l Hl. apply in_flat_map in Hl as (ev & HevIn & Hl).
    destruct (HadP _ HevIn) as [_ Hsingle].
    destruct (accepted_name E && keep (ev_call ev) E); [|destruct Hl].
    assert (Ha : adjust_line L E (ev_start ev) = L).
    { unfold adjust_line. destruct Hsingle as [-> | ->]; [|destruct (is_adjustable E)]; reflexivity. }
    rewrite Ha in Hl. destruct Hl as [<-|[<-|[]]]; reflexivity. }
  intros e l0 lr Hsf Hl Hr Hr'. split.
  - intros [Hname HlL].
    destruct (in_split _ _ (inserted_added_in _ _ _ _ Hins cev HcevIn)) as (D1 & D2 & HD').
    rewrite HD' in Hb', Hnoen. apply Forall_app in Hnoen as [_ Hnoen]. apply Forall_inv_tail in Hnoen.
    destruct (HadP _ HcevIn) as [Hc _].
    apply (silences_lemma g fr rl D1 D2 cev st' e l0 lr L E Hc Hacc); auto.
    unfold keep. rewrite Hbase. reflexivity.
  - intros Hnot. apply (Hframe e l0 lr Hsf Hl Hr Hr').
    destruct (N.eq_dec (e_name e) E) as [Hn|Hn]; [|left; auto].
    right. intros Hin. apply Htouched in Hin. tauto.
Qed.

(* the first adjustable class that is accepted, a function-call class, not the implicit-return class and not
   the wildcard; 0 if the tables have none (Props/C03.classes_available checks that they have one) *)
Definition witness_class : N :=
  hd 0%N (filter (fun n => accepted_name n && is_fce n && negb (n =? implicit_return_error)%N && negb (n =? all_errors)%N)
                 all_adjustable_errors).

Lemma exactly_refuted_lemma : forall E, is_adjustable E = true -> accepted_name E = true ->
  let D := @nil event in
  let D' := [mkE false 3 4 (trailing_disable 4 E)] in
  let e2 := same_file_err 3 E false in
  inserted (fun ev => ev_comment ev = trailing_disable 4 E /\ ev_start ev <= 4 <= ev_end ev) D D' D' /\
  verdict_events [] [] [] D e2 = Ok (true, Some 3) /\
  verdict_events [] [] [] D' e2 = Ok (false, Some 3).
Proof.
  intros E Hadj Hacc D D' e2.
  assert (Hplain : forall st, reported_line st [] e2 3 = Ok 3).
  { intros st. apply plain_reported. unfold plain_error, e2. simpl. rewrite andb_false_r. reflexivity. }
  split; [|split].
  - constructor; [|constructor]. simpl. split; [reflexivity | lia].
  - unfold verdict_events. simpl. rewrite (filter_error_unfold _ _ e2 3 3); auto.
  - unfold verdict_events.
    assert (Hins : inserted (fun ev => ev_comment ev = trailing_disable 4 E) D D' D').
    { constructor; [reflexivity | constructor]. }
    destruct (disable_frame_full [] [] [] D D' D' 4 E _ Hins eq_refl) as (st' & Hb' & _). rewrite Hb'. simpl.
    apply (silences_lemma [] [] [] [] [] (mkE false 3 4 (trailing_disable 4 E)) st' e2 3 3 4 E); auto.
    right. unfold adjust_line. rewrite Hadj. reflexivity.
Qed.
