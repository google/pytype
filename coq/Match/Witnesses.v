(* C02: the table of this run (regenerated builtins + the default hierarchy), the values and annotations the closed
   witnesses of Props/C02.v are stated about, and [table_ok tb0], which sweeps the whole builtin table: it is
   established here once, and the witnesses of Props/C02.v that need it refer to this. *)
From Coq Require Import List Arith Bool.
From PV Require Import Match.Model Match.Proofs Generated.C02_Builtins.
Import ListNotations.

Definition cls (mro own : list nat) : uinfo := {| u_mro := mro; u_own := own; u_pbase := false; u_pattrs := [] |}.
Definition proto (me : nat) (ms : list nat) : uinfo :=
  {| u_mro := [me]; u_own := ms; u_pbase := true; u_pattrs := ms |}.
Definition tb0 : table :=
  {| t_b := gen_builtins;
     t_u := [cls [0] []; cls [1; 0] []; cls [2; 1; 0] [0]; cls [3] [0; 1]; cls [4; 3; 0] []; cls [5; 0] [1];
             proto 6 [0]; proto 7 [1]; proto 8 [0; 1]] |}.

Definition Cb (b : bname) (args : list ty) : ty := TCls (CB b) args.
Definition Str := VScalar SStr.   Definition Int := VScalar SInt.   Definition NoneV := VScalar SNone.

(* Two conjuncts of btable_ok search the MROs for every (value class, head) pair, and that search is most of the
   evaluation: it is done for the first, which says that it finds what reachF says; the other is then evaluated
   over reachF. *)
Lemma generated_table_ok_w : table_ok tb0 = true.
Proof.
  assert (R : forallb (fun c => forallb (fun h => opm_eqb (reach tb0 (CB c) (CB h)) (reachF pytype_devs c h)) heads)
                      vclasses = true) by (vm_compute; reflexivity).
  unfold table_ok, btable_ok. rewrite R.
  erewrite forallb2_ext with (la := vclasses) (lb := heads); cycle 1.
  { intros c h Hc Hh. rewrite (opm_eqb_eq _ _ (forallb2_forall _ _ _ R c h Hc Hh)). reflexivity. }
  vm_compute. reflexivity.
Qed.

Definition K (n : nat) : ty := TCls (CU n) [].
Definition deviations_stmt : Prop :=
  (* none-for-bool *)        (matches tb0 (abs NoneV) (Cb B_bool []) = true /\ inhabits tb0 NoneV (Cb B_bool []) = false) /\
  (* bytearray-for-bytes *)  (matches tb0 (abs (VScalar SBytearray)) (Cb B_bytes []) = true /\
                              inhabits tb0 (VScalar SBytearray) (Cb B_bytes []) = false) /\
  (* tuple-call-length *)    (matches tb0 (abs (VColl KTupleOf [Int])) (TTuple [Cb B_int []; Cb B_int []]) = true /\
                              inhabits tb0 (VColl KTupleOf [Int]) (TTuple [Cb B_int []; Cb B_int []]) = false) /\
  (* class-as-callable-args *) (matches tb0 (abs (VClass (CU 0))) (TCallable [Cb B_int []] (K 0)) = true /\
                              inhabits tb0 (VClass (CU 0)) (TCallable [Cb B_int []] (K 0)) = false) /\
  (* classobj-protocol-inherited-attr: K4 inherits m0, m1 from K3 *)
                             (matches tb0 (abs (VClass (CU 4))) (K 8) = false /\ inhabits tb0 (VClass (CU 4)) (K 8) = true) /\
  (* union-split-views *)    (matches tb0 (abs (VColl KList [Int; Str]))
                                (TUnion [Cb B_list [Cb B_int []]; Cb B_list [Cb B_str []]]) = true /\
                              inhabits tb0 (VColl KList [Int; Str])
                                (TUnion [Cb B_list [Cb B_int []]; Cb B_list [Cb B_str []]]) = false) /\
  (* arg-any-view *)         (err_arg tb0 (VColl KList [Int; Str]) (Cb B_list [Cb B_int []]) = false /\
                              err_ret tb0 (VColl KList [Int; Str]) (Cb B_list [Cb B_int []]) = true /\
                              inhabits tb0 (VColl KList [Int; Str]) (Cb B_list [Cb B_int []]) = false) /\
  (* assign-none *)          (err_assign tb0 NoneV (Cb B_int []) = false /\ err_ret tb0 NoneV (Cb B_int []) = true /\
                              inhabits tb0 NoneV (Cb B_int []) = false).
