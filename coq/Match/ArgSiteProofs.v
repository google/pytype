(* C02, argument site (Match/ArgSite.v): on a call CPython's binding accepts, both variants of iter_args yield the
   binding (iter_args_of_bind), given how each treats one keyword (named1_agree, named1_agree_fixed); the calls on
   which the variant before the fix departs from it. *)
From Coq Require Import List Arith Bool.
From PV Require Import Match.ArgSite.
Import ListNotations.

Section Proofs.
Variables A V : Type.
Notation sig := (sig A).
Notation call := (call V).
Notation formal := (formal A).

Lemma nmem_In : forall n l, nmem n l = true <-> In n l.
Proof.
  intros n l. unfold nmem. rewrite existsb_exists. split.
  - intros [x [H1 H2]]. apply Nat.eqb_eq in H2. subst. exact H1.
  - intros H. exists n. split; [exact H | apply Nat.eqb_refl].
Qed.

Lemma nmem_app : forall n l1 l2, nmem n (l1 ++ l2) = nmem n l1 || nmem n l2.
Proof. intros. unfold nmem. apply existsb_app. Qed.

Lemma nmem_firstn_skipn : forall n k l, nmem n (firstn k l) || nmem n (skipn k l) = nmem n l.
Proof. intros. rewrite <- nmem_app, firstn_skipn. reflexivity. Qed.

Lemma nodup_app : forall l1 l2, nodup_names (l1 ++ l2) = true ->
  nodup_names l1 = true /\ nodup_names l2 = true /\ (forall n, nmem n l1 = true -> nmem n l2 = false).
Proof.
  induction l1 as [|a l1 IH]; simpl; intros l2 H.
  - repeat split; auto. intros n Hn. discriminate.
  - apply andb_true_iff in H. destruct H as [Ha H]. apply IH in H. destruct H as [H1 [H2 H3]].
    rewrite nmem_app in Ha. apply negb_true_iff in Ha. apply orb_false_iff in Ha. destruct Ha as [Ha1 Ha2].
    repeat split; auto.
    + rewrite Ha1. simpl. exact H1.
    + intros n Hn. apply orb_true_iff in Hn. destruct Hn as [Hn | Hn].
      * apply Nat.eqb_eq in Hn. subst. exact Ha2.
      * apply H3. exact Hn.
Qed.

Lemma skipn_cons_nth : forall (l : list nat) i p ps, skipn i l = p :: ps ->
  i < length l /\ nth i l 0 = p /\ skipn (S i) l = ps.
Proof.
  induction l as [|x l IH]; intros i p ps H.
  - destruct i; discriminate.
  - destruct i as [|i]; simpl in H.
    + inversion H. subst. simpl. repeat split. apply Nat.lt_0_succ.
    + apply IH in H as [H1 [H2 H3]]. simpl. repeat split; auto. apply -> Nat.succ_lt_mono. exact H1.
Qed.

Lemma skipn_nil_len : forall (l : list nat) i, skipn i l = [] -> length l <= i.
Proof.
  induction l as [|x l IH]; intros i H; simpl.
  - apply Nat.le_0_l.
  - destruct i; [discriminate|]. apply le_n_S, IH, H.
Qed.

Lemma pos_agree : forall (s : sig) (vs : list V) i l,
  bind_pos s (skipn i (s_params s)) vs = Some l -> iter_pos s i vs = l.
Proof.
  intros s. induction vs as [|v vs IH]; intros i l H.
  - simpl in H. inversion H. reflexivity.
  - simpl in H. simpl. destruct (skipn i (s_params s)) as [|p ps] eqn:E.
    + destruct (s_varargs s) as [va|] eqn:Eva; [|discriminate].
      destruct (bind_pos s [] vs) as [l'|] eqn:Eb; [|discriminate]. inversion H. subst l.
      apply skipn_nil_len in E.
      rewrite (proj2 (Nat.ltb_ge _ _) E). f_equal.
      apply IH. rewrite skipn_all2 by apply Nat.le_le_succ_r, E. exact Eb.
    + destruct (bind_pos s ps vs) as [l'|] eqn:Eb; [|discriminate]. inversion H. subst l.
      apply skipn_cons_nth in E as [Hlt [Hnth Hsk]].
      rewrite (proj2 (Nat.ltb_lt _ _) Hlt), Hnth. f_equal. apply IH. rewrite Hsk. exact Eb.
Qed.

Definition ann_keys_ok (s : sig) : bool := forallb (fun e => nmem (fst e) (all_names s)) (s_ann s).

Lemma ann_some_in_names : forall (s : sig) n a, ann_keys_ok s = true -> ann s n = Some a -> nmem n (all_names s) = true.
Proof.
  intros s n a Hk H. unfold ann in H.
  destruct (find (fun e => Nat.eqb (fst e) n) (s_ann s)) as [e|] eqn:E; [|discriminate].
  apply find_some in E. destruct E as [Hin He]. apply Nat.eqb_eq in He.
  unfold ann_keys_ok in Hk. rewrite forallb_forall in Hk. specialize (Hk e Hin). rewrite He in Hk. exact Hk.
Qed.

Lemma all_names_split : forall (s : sig) n,
  nmem n (all_names s) =
  nmem n (firstn (s_posonly s) (s_params s)) || nmem n (keywordable s)
  || opt_is (s_varargs s) n || opt_is (s_kwargs s) n.
Proof.
  intros s n. unfold all_names, keywordable. rewrite !nmem_app, <- (nmem_firstn_skipn n (s_posonly s) (s_params s)).
  assert (E : forall o, nmem n (match o with Some m => [m] | None => [] end) = opt_is o n).
  { intros [m|]; simpl; [|reflexivity]. rewrite orb_false_r. apply Nat.eqb_sym. }
  rewrite !E, !orb_assoc. reflexivity.
Qed.

Lemma keywordable_not_posonly : forall (s : sig) n, wf_sig s = true ->
  nmem n (keywordable s) = true -> nmem n (firstn (s_posonly s) (s_params s)) = false.
Proof.
  intros s n [Hnd _]%andb_prop Ekw. unfold all_names in Hnd.
  apply nodup_app in Hnd as [Hp [_ Hd]].
  rewrite <- (firstn_skipn (s_posonly s) (s_params s)) in Hp. apply nodup_app in Hp as [_ [_ Hd']].
  destruct (nmem n (firstn (s_posonly s) (s_params s))) eqn:Ef; [|reflexivity].
  unfold keywordable in Ekw. rewrite nmem_app, (Hd' n Ef) in Ekw. simpl in Ekw.
  specialize (Hd n). rewrite <- nmem_firstn_skipn with (k := s_posonly s), Ef, nmem_app, Ekw in Hd.
  discriminate (Hd eq_refl).
Qed.

Lemma named1_agree : forall (s : sig) npos (nv : nat * V) x,
  wf_sig s = true -> ann_keys_ok s = true ->
  opt_is (s_varargs s) (fst nv) || opt_is (s_kwargs s) (fst nv) = false ->
  (opt_ann s (s_kwargs s) <> None -> nmem (fst nv) (keywordable s) = true -> ann s (fst nv) <> None) ->
  bind_named1 s npos nv = Some x -> iter_named1 false s nv = x.
Proof.
  intros s npos [n v] x Hwf Hk Hstar Hd2 H. pose proof Hstar as [Hva Hkw]%orb_false_iff.
  unfold bind_named1 in H. unfold iter_named1, ann_by_name. simpl in *. rewrite Hstar.
  destruct (nmem n (keywordable s)) eqn:Ekw.
  - (* the keyword binds a parameter *)
    destruct (nmem n (firstn npos (s_params s))); [discriminate|]. inversion H. subst x. clear H.
    rewrite (keywordable_not_posonly s n Hwf Ekw).
    destruct (ann s n) as [a|] eqn:Ea; [rewrite Hva, Hkw; reflexivity|].
    destruct (opt_ann s (s_kwargs s)) as [b|] eqn:Eb; [|reflexivity].
    exfalso. apply Hd2; [discriminate | reflexivity | reflexivity].
  - (* the keyword goes to **kwargs: it is no name of the signature, so it has no annotation of its own *)
    assert (Ea : nmem n (firstn (s_posonly s) (s_params s)) = false -> ann s n = None).
    { intro Ef. destruct (ann s n) as [a|] eqn:Ea; [|reflexivity].
      pose proof (ann_some_in_names s n a Hk Ea) as Hin.
      rewrite all_names_split, Ef, Ekw, Hva, Hkw in Hin. discriminate. }
    destruct (nmem n (firstn (s_posonly s) (s_params s))); [|rewrite Ea by reflexivity];
      destruct (s_kwargs s) as [kw|]; inversion H; reflexivity.
Qed.

Lemma all_some_map : forall {B C} (g : B -> option C) (f : B -> C) l,
  (forall x, In x l -> forall y, g x = Some y -> f x = y) ->
  forall r, all_some (map g l) = Some r -> map f l = r.
Proof.
  induction l as [|x l IH]; simpl; intros Hfg r H.
  - inversion H. reflexivity.
  - destruct (g x) as [y|] eqn:Ex; [|discriminate].
    destruct (all_some (map g l)) as [r'|]; [|discriminate]. inversion H. f_equal; auto.
Qed.

Lemma existsb_false_forall : forall {B} (f : B -> bool) l, existsb f l = false -> forall x, In x l -> f x = false.
Proof.
  intros B f l H x Hin. destruct (f x) eqn:E; [|reflexivity].
  assert (existsb f l = true) by (apply existsb_exists; exists x; auto). congruence.
Qed.

(* Both variants of the code treat everything but the keywords alike: argsite_binding and
   argsite_binding_before_fix_partial (Props/C02.v) differ in how they meet the hypothesis on the keyword part only. *)
Lemma iter_args_of_bind : forall fx (s : sig) (c : call) l,
  bind s c = Some l ->
  (forall nv, In nv (c_named c) -> forall x,
     bind_named1 s (length (c_pos c)) nv = Some x -> iter_named1 fx s nv = x) ->
  iter_args fx s c = l.
Proof.
  intros fx s c l Hb Hn. unfold bind in Hb.
  destruct (c_star c) eqn:Est; [discriminate|]. destruct (c_starstar c) eqn:Ess; [discriminate|].
  destruct (nodup_names (map fst (c_named c)) && none_missing s c); [|discriminate].
  destruct (bind_pos s (s_params s) (c_pos c)) as [l1|] eqn:E1; [|discriminate].
  destruct (all_some (map (bind_named1 s (length (c_pos c))) (c_named c))) as [l2|] eqn:E2; [|discriminate].
  inversion Hb. subst l. clear Hb.
  unfold iter_args. rewrite Est, Ess, (pos_agree s (c_pos c) 0 l1 E1), (all_some_map _ _ _ Hn l2 E2).
  destruct (s_varargs s); destruct (s_kwargs s); simpl; rewrite app_nil_r; reflexivity.
Qed.

(* the FIXED code (fx = true): no deviation hypothesis, no well-formedness needed *)
Lemma named1_agree_fixed : forall (s : sig) npos (nv : nat * V) x,
  bind_named1 s npos nv = Some x -> iter_named1 true s nv = x.
Proof.
  intros s npos [n v] x H. unfold bind_named1 in H. unfold iter_named1. simpl in *.
  destruct (nmem n (keywordable s)).
  - destruct (nmem n (firstn npos (s_params s))); [discriminate|]. inversion H. reflexivity.
  - destruct (s_kwargs s) as [kw|]; [|discriminate]. inversion H. reflexivity.
Qed.

End Proofs.

(* names: 0 = a, 1 = k (D2) or rest (D3), 2 = kw;  annotations are numbers (7 = int), values are numbers *)
(* D1:  def f(a: int, **kw: int)   f(1, kw=5): CPython binds kw={'kw': 5} (element annotation), iter_args yields
        Mapping[str, int] for it *)
Definition d1_sig : sig nat :=
  {| s_posonly := 0; s_params := [0]; s_varargs := None; s_kwonly := []; s_kwargs := Some 2; s_defaults := [];
     s_ann := [(0, 7); (2, 7)] |}.
Definition d1_call : call nat := {| c_pos := [1]; c_named := [(2, 5)]; c_star := None; c_starstar := None |}.
(* D2:  def f(a, *, k, **kw: int)   f(1, k=5): k is un-annotated, iter_args falls back to **kw's annotation *)
Definition d2_sig : sig nat :=
  {| s_posonly := 0; s_params := [0]; s_varargs := None; s_kwonly := [1]; s_kwargs := Some 2; s_defaults := [];
     s_ann := [(2, 7)] |}.
Definition d2_call : call nat := {| c_pos := [1]; c_named := [(1, 5)]; c_star := None; c_starstar := None |}.

(* D1, crashing variant:  def f(a: int, *rest, **kw: int)   f(1, rest=5): *rest is un-annotated, the keyword falls back
   to **kw's element type, and because it is spelled like the *args parameter widen_type is applied to a plain class *)
Definition d3_sig : sig nat :=
  {| s_posonly := 0; s_params := [0]; s_varargs := Some 1; s_kwonly := []; s_kwargs := Some 2; s_defaults := [];
     s_ann := [(0, 7); (2, 7)] |}.
Definition d3_call : call nat := {| c_pos := [1]; c_named := [(1, 5)]; c_star := None; c_starstar := None |}.
Lemma crash_w :
  wf_sig d3_sig = true /\ ann_keys_ok nat d3_sig = true /\
  bind d3_sig d3_call = Some [(1, Some (FElem 7)); (5, Some (FElem 7))] /\
  iter_args false d3_sig d3_call = [(1, Some (FElem 7)); (5, Some (FCrash 7))] /\
  iter_args true d3_sig d3_call = [(1, Some (FElem 7)); (5, Some (FElem 7))].
Proof. vm_compute. repeat split; reflexivity. Qed.
