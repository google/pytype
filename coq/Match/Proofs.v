(* C02 proofs over Match/Model.v.
   Main results:
     views_abs             views (abs v) = map abs1 (slices v)
     matchm_slice          on a monomorphic slice the table-driven matcher equals membership-with-deviations
     slice_verdicts        ... hence on every slice of a well-formed value; the characterisations of the two
                           matching modes and the exactness theorems of Props/C02.v are read off it *)
From Coq Require Import List Arith Bool.
From PV Require Import Match.Model.
Import ListNotations.

Section TyInd.
  Variable P : ty -> Prop.
  Hypothesis HAny : P TAny.
  Hypothesis HUnion : forall ts, Forall P ts -> P (TUnion ts).
  Hypothesis HCls : forall c args, Forall P args -> P (TCls c args).
  Hypothesis HTuple : forall ts, Forall P ts -> P (TTuple ts).
  Hypothesis HCallable : forall args ret, P ret -> P (TCallable args ret).
  Hypothesis HCallableAny : forall ret, P ret -> P (TCallableAny ret).
  Fixpoint ty_ind' (t : ty) : P t :=
    let go := fix go (l : list ty) : Forall P l :=
      match l with [] => Forall_nil P | x :: l' => Forall_cons x (ty_ind' x) (go l') end in
    match t with
    | TAny => HAny
    | TUnion ts => HUnion ts (go ts)
    | TCls c args => HCls c args (go args)
    | TTuple ts => HTuple ts (go ts)
    | TCallable args ret => HCallable args ret (ty_ind' ret)
    | TCallableAny ret => HCallableAny ret (ty_ind' ret)
    end.
End TyInd.

Section ValInd.
  Variable P : value -> Prop.
  Hypothesis HScalar : forall s, P (VScalar s).
  Hypothesis HColl : forall k vs, Forall P vs -> P (VColl k vs).
  Hypothesis HTuple : forall vs, Forall P vs -> P (VTuple vs).
  Hypothesis HDict : forall ks vs, Forall P ks -> Forall P vs -> P (VDict ks vs).
  Hypothesis HInst : forall c, P (VInst c).
  Hypothesis HClass : forall c, P (VClass c).
  Hypothesis HFunc : forall m o s, P (VFunc m o s).
  Fixpoint value_ind' (v : value) : P v :=
    let go := fix go (l : list value) : Forall P l :=
      match l with [] => Forall_nil P | x :: l' => Forall_cons x (value_ind' x) (go l') end in
    match v with
    | VScalar s => HScalar s
    | VColl k vs => HColl k vs (go vs)
    | VTuple vs => HTuple vs (go vs)
    | VDict ks vs => HDict ks vs (go ks) (go vs)
    | VInst c => HInst c
    | VClass c => HClass c
    | VFunc m o s => HFunc m o s
    end.
End ValInd.

Lemma flat_map_map {A B C} (f : B -> list C) (g : A -> B) l :
  flat_map f (map g l) = flat_map (fun x => f (g x)) l.
Proof. induction l; simpl; congruence. Qed.

Lemma flat_map_ext_Forall {A B} (f g : A -> list B) l :
  Forall (fun x => f x = g x) l -> flat_map f l = flat_map g l.
Proof. induction 1; simpl; congruence. Qed.

Lemma map_flat_map {A B C} (f : B -> C) (g : A -> list B) l :
  map f (flat_map g l) = flat_map (fun x => map f (g x)) l.
Proof. induction l; simpl; [reflexivity|]. rewrite map_app. congruence. Qed.

Lemma flat_map_singleton {A B} (f : A -> B) l : flat_map (fun x => [f x]) l = map f l.
Proof. induction l; simpl; congruence. Qed.

Lemma list_prod_map {A B} (f : A -> B) (ls : list (list A)) :
  list_prod (map (map f) ls) = map (map f) (list_prod ls).
Proof.
  induction ls as [|l ls IH]; simpl; [reflexivity|].
  rewrite flat_map_map, map_flat_map. apply flat_map_ext. intros x. rewrite IH, !map_map. reflexivity.
Qed.

Lemma forallb_ext_Forall {A} (f g : A -> bool) l : Forall (fun x => f x = g x) l -> forallb f l = forallb g l.
Proof. induction 1; simpl; congruence. Qed.

Lemma existsb_ext_Forall {A} (f g : A -> bool) l : Forall (fun x => f x = g x) l -> existsb f l = existsb g l.
Proof. induction 1; simpl; congruence. Qed.

Lemma forallb_map {A B} (f : B -> bool) (g : A -> B) l : forallb f (map g l) = forallb (fun x => f (g x)) l.
Proof. induction l; simpl; congruence. Qed.

Lemma existsb_map {A B} (f : B -> bool) (g : A -> B) l : existsb f (map g l) = existsb (fun x => f (g x)) l.
Proof. induction l; simpl; congruence. Qed.

Lemma forallb_flat_map {A B} (f : B -> bool) (g : A -> list B) l :
  forallb f (flat_map g l) = forallb (fun x => forallb f (g x)) l.
Proof. induction l; simpl; [reflexivity|]. rewrite forallb_app. congruence. Qed.

Lemma forallb_andb {A} (f g : A -> bool) l :
  forallb (fun x => f x && g x) l = forallb f l && forallb g l.
Proof.
  induction l as [|x l IH]; simpl; [reflexivity|]. rewrite IH.
  destruct (f x), (g x), (forallb f l), (forallb g l); reflexivity.
Qed.

Lemma forallb_Forall {A} (f : A -> bool) l : forallb f l = true <-> Forall (fun x => f x = true) l.
Proof. rewrite forallb_forall, Forall_forall. reflexivity. Qed.

Definition hd_abs1 (l : list value) : option mono :=
  match l with [] => None | e :: _ => Some (abs1 e) end.

Lemma var_views_map_abs1 (ss : list value) :
  var_views (map abs1 ss) = map hd_abs1 (opt_slices ss).
Proof. destruct ss; simpl; [reflexivity|]. f_equal. rewrite !map_map. reflexivity. Qed.

Theorem views_abs : forall v, views (abs v) = map abs1 (slices v).
Proof.
  induction v using value_ind'; simpl; try reflexivity.
  - rewrite flat_map_map, (flat_map_ext_Forall _ _ vs H), <- map_flat_map, var_views_map_abs1.
    rewrite flat_map_map, flat_map_singleton, map_map. reflexivity.
  - rewrite map_map, (map_ext_Forall _ _ H), <- (map_map slices (map abs1)), list_prod_map, !map_map.
    reflexivity.
  - rewrite !flat_map_map, (flat_map_ext_Forall _ _ ks H), (flat_map_ext_Forall _ _ vs H0).
    rewrite <- !map_flat_map, !var_views_map_abs1, flat_map_map, map_flat_map.
    apply flat_map_ext. intros k1. rewrite !map_map. reflexivity.
Qed.

Lemma Forall_list_prod {A} (Q : A -> Prop) (ls : list (list A)) :
  Forall (Forall Q) ls -> Forall (Forall Q) (list_prod ls).
Proof.
  induction 1 as [|l ls Hl Hls IH]; simpl; [repeat constructor|].
  apply Forall_flat_map. eapply Forall_impl; [|exact Hl]. intros x Hx.
  apply Forall_map. eapply Forall_impl; [|exact IH]. intros y Hy. constructor; assumption.
Qed.

Lemma Forall_opt_slices (Q : value -> Prop) ss :
  Forall Q ss -> Forall (fun l => Forall Q l /\ length l <= 1) (opt_slices ss).
Proof.
  intros H. destruct ss as [|s0 ss']; [repeat constructor|].
  apply Forall_map. eapply Forall_impl; [|exact H]. intros s Hs. split; [auto|apply le_n].
Qed.

Lemma slices_wf tb v : wf_val tb v = true ->
  Forall (fun s => wf_val tb s = true /\ is_slice s = true) (slices v).
Proof.
  set (G := fun s => wf_val tb s = true /\ is_slice s = true).
  assert (GF : forall l, Forall G l -> forallb (wf_val tb) l = true /\ forallb is_slice l = true).
  { intros l [A B]%Forall_and_inv. split; apply forallb_Forall; assumption. }
  assert (IHs : forall vs, Forall (fun e => wf_val tb e = true -> Forall G (slices e)) vs ->
                forallb (wf_val tb) vs = true -> Forall (fun e => Forall G (slices e)) vs).
  { intros vs IH Hq. apply forallb_Forall in Hq. rewrite Forall_forall in *. auto. }
  induction v using value_ind'; simpl; intros Hq; try (repeat constructor; assumption).
  - apply Forall_map. eapply Forall_impl; [|apply Forall_opt_slices, Forall_flat_map, IHs; eassumption].
    intros l [F L]. destruct (GF l F) as [W S]. apply Nat.leb_le in L.
    split; simpl; [assumption|]. rewrite S, L. reflexivity.
  - apply Forall_map. eapply Forall_impl; [|apply Forall_list_prod, Forall_map, IHs; eassumption].
    intros l F. exact (GF l F).
  - apply andb_prop in Hq as [Hk Hv].
    apply Forall_flat_map. eapply Forall_impl; [|apply Forall_opt_slices, Forall_flat_map, IHs; eassumption].
    intros l1 [F1 L1]. destruct (GF l1 F1) as [W1 S1]. apply Nat.leb_le in L1.
    apply Forall_map. eapply Forall_impl; [|apply Forall_opt_slices, Forall_flat_map, IHs; eassumption].
    intros l2 [F2 L2]. destruct (GF l2 F2) as [W2 S2]. apply Nat.leb_le in L2.
    split; simpl; [rewrite W1, W2|rewrite L1, L2, S1, S2]; reflexivity.
Qed.

Lemma bname_of_idx_idx b : bname_of_idx (bname_idx b) = b.
Proof. destruct b; reflexivity. Qed.

Lemma battr_of_idx_idx a : battr_of_idx (battr_idx a) = a.
Proof. destruct a; reflexivity. Qed.

Lemma idx_eqb_eq {A} (idx : A -> nat) (of_idx : nat -> A) (R : forall a, of_idx (idx a) = a) a b :
  Nat.eqb (idx a) (idx b) = true <-> a = b.
Proof.
  rewrite Nat.eqb_eq. split; [|congruence]. intro H. rewrite <- (R a), <- (R b), H. reflexivity.
Qed.

Lemma bname_beq_eq a b : bname_beq a b = true <-> a = b.
Proof. exact (idx_eqb_eq _ _ bname_of_idx_idx a b). Qed.

Lemma battr_beq_eq a b : battr_beq a b = true <-> a = b.
Proof. exact (idx_eqb_eq _ _ battr_of_idx_idx a b). Qed.

Lemma cid_eqb_eq x y : cid_eqb x y = true <-> x = y.
Proof.
  destruct x, y; simpl; rewrite ?bname_beq_eq, ?Nat.eqb_eq; split; congruence.
Qed.

Lemma cid_eqb_refl x : cid_eqb x x = true.
Proof. apply cid_eqb_eq; reflexivity. Qed.

Lemma cid_eqb_neq x y : x <> y -> cid_eqb x y = false.
Proof. intro H. destruct (cid_eqb x y) eqn:E; [apply cid_eqb_eq in E; contradiction | reflexivity]. Qed.

Lemma attr_eqb_eq x y : attr_eqb x y = true <-> x = y.
Proof.
  destruct x, y; simpl; rewrite ?battr_beq_eq, ?Nat.eqb_eq; split; congruence.
Qed.

Lemma existsb_eqb_In {A} (eqb : A -> A -> bool) (E : forall x y, eqb x y = true <-> x = y) a l :
  existsb (eqb a) l = true <-> In a l.
Proof.
  rewrite existsb_exists. split.
  - intros [x [Hx He]]. apply E in He. subst. assumption.
  - intros H. exists a. split; [assumption | apply E; reflexivity].
Qed.

Lemma amem_In a l : amem a l = true <-> In a l.
Proof. apply existsb_eqb_In, attr_eqb_eq. Qed.

Lemma cmem_In c l : cmem c l = true <-> In c l.
Proof. apply existsb_eqb_In, cid_eqb_eq. Qed.

Lemma nmem_In n l : nmem n l = true <-> In n l.
Proof. apply existsb_eqb_In, Nat.eqb_eq. Qed.

Lemma bmem_In b l : bmem b l = true <-> In b l.
Proof. apply existsb_eqb_In, bname_beq_eq. Qed.

Lemma parg_eqb_eq p q : parg_eqb p q = true -> p = q.
Proof.
  destruct p, q; simpl; intro H; try discriminate; try reflexivity.
  - apply Nat.eqb_eq in H. congruence.
  - apply cid_eqb_eq in H. congruence.
Qed.

Lemma forall2b_parg_eq l1 : forall l2, forall2b parg_eqb l1 l2 = true -> l1 = l2.
Proof.
  induction l1 as [|x l1 IH]; destruct l2 as [|y l2]; simpl; intro H; try discriminate; [reflexivity|].
  apply andb_true_iff in H as [H1 H2]. apply parg_eqb_eq in H1. apply IH in H2. congruence.
Qed.

Lemma opm_eqb_eq x y : opm_eqb x y = true -> x = y.
Proof.
  destruct x, y; simpl; intro H; try discriminate; [|reflexivity].
  apply forall2b_parg_eq in H. congruence.
Qed.

Lemma cset_eqb_cmem l1 l2 : cset_eqb l1 l2 = true -> forall c, cmem c l1 = cmem c l2.
Proof.
  unfold cset_eqb. intros [H1 H2]%andb_prop c. rewrite forallb_forall in H1, H2.
  apply eq_true_iff_eq. rewrite !cmem_In. split; intro H; apply cmem_In; auto.
Qed.

Record tok (tb : table) : Prop := {
  tok_reach : forall c h, In c vclasses -> In h heads -> reach tb (CB c) (CB h) = reachF pytype_devs c h;
  tok_mro_cb : forall c, In c vclasses -> forall e, In e (mro tb (CB c)) -> exists b, fst e = CB b;
  tok_proto_base : forall h, In h heads -> is_protocol tb (CB h) = has_protocol_base tb (CB h);
  tok_fallback : forall c h, In c vclasses -> In h heads -> reach tb (CB c) (CB h) = None ->
                 is_protocol tb (CB h) = true -> protocol_match tb (inst0 (CB c)) (CB h) = false;
  tok_attr_obj : forall h, In h heads -> is_protocol tb (CB h) = true ->
                 exists a, In (AB a) (pattrs tb (CB h)) /\ amem (AB a) (attrs tb (CB B_object)) = false;
  tok_attr_type : forall h, In h heads -> is_protocol tb (CB h) = true ->
                 cmem (CB h) (bt_class_accept (t_b tb)) = false ->
                 exists a, In (AB a) (pattrs tb (CB h)) /\ amem (AB a) (attrs tb (CB B_type)) = false;
  tok_ab : forall c, In c (B_object :: vclasses) -> forall a, In a (attrs tb (CB c)) -> is_AB a = true;
  tok_noniter : forall c, cmem c (bt_noniter_abcs (t_b tb)) =
                          cmem c [CB B_t_Iterable; CB B_t_Sequence; CB B_t_Collection; CB B_t_Container];
  tok_str : forall c, cmem c (bt_str_types (t_b tb)) = cmem c [CB B_str];
  tok_accept : forall c, cmem c (bt_class_accept (t_b tb)) =
                         cmem c [CB B_type; CB B_object; CB B_t_Callable; CB B_t_Hashable];
  tok_ft : bt_function_type (t_b tb) = CB B_t_Callable;
  tok_obj : mro tb (CB B_object) = [(CB B_object, [])];
  tok_compat : forall x y, compat tb x y = true -> exists a b, x = CB a /\ y = CB b /\ a <> B_object
}.

Lemma forallb2_forall {A B} (f : A -> B -> bool) (lb : A -> list B) la :
  forallb (fun a => forallb (f a) (lb a)) la = true -> forall a b, In a la -> In b (lb a) -> f a b = true.
Proof.
  intros H a b Ha Hb. rewrite forallb_forall in H. specialize (H a Ha). rewrite forallb_forall in H. auto.
Qed.

Lemma forallb2_ext {A B} (f g : A -> B -> bool) la lb :
  (forall a b, In a la -> In b lb -> f a b = g a b) ->
  forallb (fun a => forallb (f a) lb) la = forallb (fun a => forallb (g a) lb) la.
Proof.
  intros H. apply forallb_ext_Forall, Forall_forall. intros a Ha.
  apply forallb_ext_Forall, Forall_forall. intros b Hb. apply H; assumption.
Qed.

Lemma existsb_AB_exists (f : attr -> bool) l :
  existsb (fun a => is_AB a && negb (f a)) l = true -> exists a, In (AB a) l /\ f (AB a) = false.
Proof.
  intros [[a|n] [Hx [Hab Hf]%andb_prop]]%existsb_exists; [|discriminate].
  exists a. split; [assumption | apply negb_true_iff, Hf].
Qed.

Lemma object_mro_only (l : list (cid * list parg)) :
  match l with [(CB B_object, [])] => true | _ => false end = true -> l = [(CB B_object, [])].
Proof.
  destruct l as [|[[b|] pm] l]; try discriminate. destruct b; try discriminate.
  destruct pm, l; try discriminate. reflexivity.
Qed.

Lemma table_ok_tok tb : table_ok tb = true -> tok tb.
Proof.
  unfold table_ok, btable_ok.
  (* the conjuncts in the order of btable_ok: S1, builtin MROs, S2, S3, S4 for object and for type, S5 (attribute
     lists; the arity part is not needed), S6 (three lists and the function type), S7, S8; wf_utable is not needed *)
  intros [[[[[[[[[[[[[[R MC]%andb_prop PB]%andb_prop FB]%andb_prop AO]%andb_prop AT]%andb_prop AL]%andb_prop
    _]%andb_prop NI]%andb_prop ST]%andb_prop AC]%andb_prop FT]%andb_prop OB]%andb_prop CP]%andb_prop _]%andb_prop.
  constructor.
  - intros c h Hc Hh. apply opm_eqb_eq. exact (forallb2_forall _ _ _ R c h Hc Hh).
  - intros c Hc e He. pose proof (forallb2_forall _ _ _ MC c e Hc He) as X. cbv beta in X.
    destruct (fst e); [eauto|discriminate].
  - intros h Hh. rewrite forallb_forall in PB. apply eqb_prop, PB, Hh.
  - intros c h Hc Hh Hr Hp. pose proof (forallb2_forall _ _ _ FB c h Hc Hh) as X. cbv beta in X.
    rewrite Hr, Hp in X. apply negb_true_iff, X.
  - intros h Hh Hp. rewrite forallb_forall in AO. specialize (AO h Hh). rewrite Hp in AO.
    apply existsb_AB_exists in AO. exact AO.
  - intros h Hh Hp Hacc. rewrite forallb_forall in AT. specialize (AT h Hh). rewrite Hp, Hacc in AT.
    apply existsb_AB_exists in AT. exact AT.
  - intros c Hc a Ha. exact (forallb2_forall _ _ _ AL c a Hc Ha).
  - apply cset_eqb_cmem, NI.
  - apply cset_eqb_cmem, ST.
  - apply cset_eqb_cmem, AC.
  - apply cid_eqb_eq, FT.
  - apply object_mro_only, OB.
  - intros x y [p [Hp [<-%cid_eqb_eq <-%cid_eqb_eq]%andb_prop]]%existsb_exists.
    rewrite forallb_forall in CP. specialize (CP p Hp).
    destruct (fst p) as [a|]; [|discriminate]. destruct (snd p) as [b|]; [|discriminate].
    exists a, b. repeat split. intros ->. discriminate.
Qed.

Lemma instance_match_reach tb rec m t :
  instance_match tb rec m t =
  if negb (satisfies_noniterable_str tb (cls_of tb m) t) then false
  else match reach tb (cls_of tb m) (head t) with
       | Some pm => base_match rec m pm t
       | None => if is_protocol tb (head t) then protocol_match tb m (head t)
                 else has_protocol_base tb (head t)
       end.
Proof.
  unfold instance_match, reach. destruct (negb _); [reflexivity|].
  destruct (find_base tb (cls_of tb m) (head t)) as [[b pm]|]; reflexivity.
Qed.

Lemma compat_CU_l tb k h : tok tb -> compat tb (CU k) h = false.
Proof.
  intros T. destruct (compat tb (CU k) h) eqn:E; [|reflexivity].
  apply (tok_compat tb T) in E as [a [b [E1 _]]]. discriminate.
Qed.

Lemma compat_CU_r tb x k : tok tb -> compat tb x (CU k) = false.
Proof.
  intros T. destruct (compat tb x (CU k)) eqn:E; [|reflexivity].
  apply (tok_compat tb T) in E as [a [b [_ [E2 _]]]]. discriminate.
Qed.

Lemma compat_obj_l tb h : tok tb -> compat tb (CB B_object) h = false.
Proof.
  intros T. destruct (compat tb (CB B_object) h) eqn:E; [|reflexivity].
  apply (tok_compat tb T) in E as [a [b [E1 [_ N]]]]. congruence.
Qed.

Lemma reach_user tb c h : tok tb ->
  reach tb (CU c) h =
  match h with
  | CU p => if nmem p (u_mro (uinfo_of tb c)) then Some [] else None
  | CB b => if bname_beq b B_object then Some [] else None
  end.
Proof.
  intros T. unfold reach, find_base, mro.
  induction (u_mro (uinfo_of tb c)) as [|k l IH]; cbn [map app find fst snd].
  - rewrite (compat_obj_l tb h T), orb_false_r.
    destruct h as [b|p]; cbn [cid_eqb]; [|reflexivity].
    unfold bname_beq. rewrite Nat.eqb_sym. destruct (Nat.eqb _ _); reflexivity.
  - rewrite (compat_CU_l tb k h T), orb_false_r.
    destruct h as [b|p]; cbn [cid_eqb]; [exact IH|].
    cbn [nmem existsb]. rewrite (Nat.eqb_sym p k). destruct (Nat.eqb k p); [reflexivity | exact IH].
Qed.

Lemma find_none_in {A} (f : A -> bool) l : (forall x, In x l -> f x = false) -> find f l = None.
Proof.
  induction l as [|x l IH]; simpl; intro H; [reflexivity|]. rewrite (H x (or_introl eq_refl)). auto.
Qed.

Lemma reach_builtin_user tb c p : tok tb -> In c vclasses -> reach tb (CB c) (CU p) = None.
Proof.
  intros T Hc. unfold reach, find_base.
  rewrite find_none_in; [reflexivity|]. intros e He.
  destruct (tok_mro_cb tb T c Hc e He) as [b ->]. apply compat_CU_r, T.
Qed.

Lemma amem_app a l1 l2 : amem a (l1 ++ l2) = amem a l1 || amem a l2.
Proof. unfold amem. apply existsb_app. Qed.

Lemma amem_map_AU n l : amem (AU n) (map AU l) = nmem n l.
Proof. unfold amem, nmem. rewrite existsb_map. reflexivity. Qed.

Lemma amem_AB_map_AU a l : amem (AB a) (map AU l) = false.
Proof. unfold amem. rewrite existsb_map. induction l; simpl; auto. Qed.

Lemma amem_AU_allAB n l : (forall a, In a l -> is_AB a = true) -> amem (AU n) l = false.
Proof.
  intros H. destruct (amem (AU n) l) eqn:E; [|reflexivity].
  apply amem_In in E. apply H in E. discriminate.
Qed.

Definition implicit_iter (l : list attr) : list attr :=
  if amem (AB A_getitem) l then AB A_iter :: l else l.

Lemma amem_implicit a l :
  amem a (implicit_iter l) = (amem (AB A_getitem) l && attr_eqb a (AB A_iter)) || amem a l.
Proof. unfold implicit_iter. destruct (amem (AB A_getitem) l); reflexivity. Qed.

Lemma amem_implicit_AU n l : amem (AU n) (implicit_iter l) = amem (AU n) l.
Proof. rewrite amem_implicit. cbn [attr_eqb]. rewrite andb_false_r. reflexivity. Qed.

Lemma attrs_user tb c :
  attrs tb (CU c) = implicit_iter (map AU (uattrs tb c) ++ own_attrs tb (CB B_object)).
Proof.
  unfold attrs, mro, implicit_iter, uattrs.
  rewrite flat_map_app, flat_map_map, map_flat_map. simpl. rewrite app_nil_r. reflexivity.
Qed.

Lemma attrs_object tb : tok tb -> attrs tb (CB B_object) = implicit_iter (own_attrs tb (CB B_object)).
Proof.
  intros T. unfold attrs. rewrite (tok_obj tb T). simpl. rewrite app_nil_r. reflexivity.
Qed.

Lemma amem_AB_attrs_user tb c a : tok tb ->
  amem (AB a) (attrs tb (CU c)) = amem (AB a) (attrs tb (CB B_object)).
Proof.
  intros T. rewrite attrs_user, attrs_object by assumption.
  rewrite !amem_implicit, !amem_app, !amem_AB_map_AU. reflexivity.
Qed.

Lemma amem_AU_attrs_user tb c n : tok tb -> amem (AU n) (attrs tb (CU c)) = nmem n (uattrs tb c).
Proof.
  intros T. rewrite attrs_user, amem_implicit_AU, amem_app, amem_map_AU.
  rewrite <- (amem_implicit_AU n (own_attrs _ _)), <- attrs_object by assumption.
  rewrite amem_AU_allAB; [apply orb_false_r|]. apply (tok_ab tb T B_object). left; reflexivity.
Qed.

Lemma asubset_map_AU ps L have :
  (forall n, amem (AU n) L = nmem n have) -> asubset (map AU ps) L = nsubset ps have.
Proof.
  intros H. unfold asubset, nsubset. rewrite forallb_map.
  apply forallb_ext_Forall, Forall_forall. intros n _. apply H.
Qed.

Lemma asubset_AU ps L :
  (forall n, amem (AU n) L = false) -> asubset (map AU ps) L = nsubset ps [].
Proof. exact (asubset_map_AU ps L []). Qed.

Lemma asubset_has_missing (P L : list attr) a : In a P -> amem a L = false -> asubset P L = false.
Proof.
  intros Hin Hm. unfold asubset. destruct (forallb (fun a0 => amem a0 L) P) eqn:E; [|reflexivity].
  rewrite forallb_forall in E. rewrite (E a Hin) in Hm. discriminate.
Qed.

Lemma nsubset_nil ps : nsubset ps [] = match ps with [] => true | _ => false end.
Proof. destruct ps; reflexivity. Qed.

(* the protocol fall-back for a formal that is a generated class *)
Definition structural (tb : table) (k : nat) (have : list nat) : bool :=
  u_pbase (uinfo_of tb k) && nsubset (u_pattrs (uinfo_of tb k)) have.

Lemma user_fallback tb m p have :
  (forall n, amem (AU n) (attrs_of tb m) = nmem n have) ->
  (if is_protocol tb (CU p) then protocol_match tb m (CU p) else has_protocol_base tb (CU p))
  = structural tb p have.
Proof.
  intros H. unfold is_protocol, has_protocol_base, protocol_match, structural, pattrs. simpl.
  rewrite (asubset_map_AU _ _ have H).
  destruct (u_pbase (uinfo_of tb p)); simpl; [|reflexivity].
  destruct (u_pattrs (uinfo_of tb p)); reflexivity.
Qed.

Definition bcls (s : value) : option bname :=
  match s with
  | VScalar sc => Some (scalar_cls sc)
  | VColl k _ => Some (ckind_cls k)
  | VTuple _ => Some B_tuple
  | VDict _ _ => Some B_dict
  | _ => None
  end.

Lemma bcls_vclasses s c : bcls s = Some c -> In c vclasses.
Proof.
  intro H. apply bmem_In. destruct s as [[]|[]| | | | |]; inversion H; reflexivity.
Qed.

Lemma bcls_cls_of tb s c : bcls s = Some c -> cls_of tb (abs1 s) = CB c /\ vclass s = CB c.
Proof. destruct s; simpl; intro H; inversion H; subst; auto. Qed.

Lemma bcls_attrs_of tb s c : bcls s = Some c -> attrs_of tb (abs1 s) = attrs tb (CB c).
Proof. destruct s; simpl; intro H; inversion H; subst; auto. Qed.

Lemma bcls_str s : bcls s = Some B_str -> s = VScalar SStr.
Proof. destruct s as [[]|[]| | | | |]; simpl; intro H; inversion H; reflexivity. Qed.

Definition all_bnames : list bname := map bname_of_idx (seq 0 45).

Lemma all_bnames_complete b : In b all_bnames.
Proof.
  rewrite <- (bname_of_idx_idx b). apply in_map, in_seq. split; [apply Nat.le_0_l|].
  apply Nat.ltb_lt. destruct b; reflexivity.
Qed.


(* every constant-instance parameter of the run-time table is str or int *)
Definition pgood (p : parg) : bool :=
  match p with
  | PInst (CB B_str) | PInst (CB B_int) => true
  | PInst _ => false
  | _ => true
  end.

Lemma reachF_pgood_all :
  forallb (fun c => forallb (fun h => match reachF pytype_devs c h with
                                      | Some pm => forallb pgood pm
                                      | None => true
                                      end) all_bnames) all_bnames = true.
Proof. vm_compute. reflexivity. Qed.

Lemma reachF_pgood c h pm : reachF pytype_devs c h = Some pm -> forallb pgood pm = true.
Proof.
  intro H. pose proof (forallb2_forall _ _ _ reachF_pgood_all c h (all_bnames_complete c) (all_bnames_complete h)) as A.
  cbv beta in A. rewrite H in A. exact A.
Qed.

Lemma reachF_tuple h pm : reachF pytype_devs B_tuple h = Some pm ->
  head_arity h = 0 \/ (head_arity h = 1 /\ pm = [PIdx 0]).
Proof. destruct h; try discriminate; intros [= <-]; auto. Qed.

Lemma reachF_object c : reachF pytype_devs c B_object = Some [].
Proof. destruct c; reflexivity. Qed.

Lemma reachF_type hb : bname_beq hb B_object = false -> bname_beq hb B_type = false ->
  bname_beq hb B_t_Callable = false -> reachF pytype_devs B_type hb = None.
Proof. destruct hb; try reflexivity; discriminate. Qed.

Lemma reachF_callable hb : bname_beq hb B_object = false -> bname_beq hb B_t_Callable = false ->
  reachF pytype_devs B_t_Callable hb = None.
Proof. destruct hb; try reflexivity; discriminate. Qed.

Lemma reachF_to_tuple c : bname_beq c B_tuple = false -> reachF pytype_devs c B_tuple = None.
Proof. destruct c; try reflexivity; discriminate. Qed.

Lemma reachF_to_callable c : bname_beq c B_type = false -> bname_beq c B_t_Callable = false ->
  reachF pytype_devs c B_t_Callable = None.
Proof. destruct c; try reflexivity; discriminate. Qed.

Lemma noniter_lists_eq hb :
  cmem (CB hb) [CB B_t_Iterable; CB B_t_Sequence; CB B_t_Collection; CB B_t_Container]
  = bmem hb [B_t_Sequence; B_t_Iterable; B_t_Collection; B_t_Container].
Proof. destruct hb; reflexivity. Qed.

Lemma cmem_str c : cmem (CB c) [CB B_str] = bname_beq c B_str.
Proof. unfold cmem. simpl. apply orb_false_r. Qed.

Lemma forall2b_agree {A B} (f : ty -> A -> bool) (g : ty -> B -> bool) (h : B -> A) ts :
  forall l, Forall (fun a => forall x, In x l -> f a (h x) = g a x) ts ->
  forall2b f ts (map h l) = forall2b g ts l.
Proof.
  induction ts as [|a ts IH]; intros l HF; destruct l as [|x l]; try reflexivity.
  inversion HF; subst. cbn [map forall2b]. f_equal.
  - apply H1. left; reflexivity.
  - apply IH. eapply Forall_impl; [|exact H2]. intros a' Ha x' Hx'. apply Ha. right; assumption.
Qed.

Lemma wf_ty_cls_cb tb hb args : wf_ty tb (TCls (CB hb) args) = true ->
  In hb heads /\ (args = [] \/ length args = head_arity hb) /\ forallb (wf_ty tb) args = true.
Proof.
  cbn [wf_ty]. intros [[H1%bmem_In H2]%andb_prop H3]%andb_prop. repeat split; try assumption.
  destruct args; [auto|]. right. apply Nat.eqb_eq, H2.
Qed.

Lemma tuple_in_heads : In B_tuple heads. Proof. apply bmem_In. reflexivity. Qed.
Lemma callable_in_heads : In B_t_Callable heads. Proof. apply bmem_In. reflexivity. Qed.
Lemma type_in_vclasses : In B_type vclasses. Proof. apply bmem_In. reflexivity. Qed.

(* a formal that is neither Any nor a union: the matcher goes to _match_instance_against_type *)
Definition plain (t : ty) : Prop := match t with TAny | TUnion _ => False | _ => True end.

Lemma bcls_none s : bcls s = None ->
  (exists c, s = VInst c) \/ (exists k, s = VClass k) \/ (exists m o st, s = VFunc m o st).
Proof. destruct s; simpl; intro H; try discriminate; eauto 6. Qed.

Lemma inhabitsF_cls_binst d tb s c hb args : bcls s = Some c ->
  inhabitsF d tb (TCls (CB hb) args) s =
  if bname_beq hb B_object then true
  else if noniter_str_hit d s (TCls (CB hb) args) then false
  else match reachF d c hb with
       | Some pm => lockstep d (inhabitsF d tb) s args pm
       | None => false
       end.
Proof.
  intro Hb. cbn [inhabitsF]. destruct (bname_beq hb B_object); [reflexivity|].
  destruct s; simpl in Hb; inversion Hb; subst; reflexivity.
Qed.

Section Main.
  Variable tb : table.
  Hypothesis T : tok tb.
  Let rec := matchm tb.
  Let inh := inhabitsF pytype_devs tb.

  (* the induction hypothesis for one formal *)
  Definition agree (a : ty) : Prop :=
    forall s, is_slice s = true -> wf_val tb s = true -> rec a (abs1 s) = inh a s.

  Lemma rep_props k r : rep k = Some r -> wf_val tb (VClass k) = true ->
    abs1 r = inst0 k /\ is_slice r = true /\ wf_val tb r = true.
  Proof. destruct k as [[]|n]; try discriminate; intros [= <-] Hw; simpl; auto. Qed.

  Lemma wf_class_rep k : wf_val tb (VClass k) = true -> exists r, rep k = Some r.
  Proof.
    destruct k as [b|n]; cbn [wf_val]; intro H; [|simpl; eauto].
    destruct (rep (CB b)); [eauto|discriminate].
  Qed.

  Lemma pgood_wf k : pgood (PInst k) = true -> wf_val tb (VClass k) = true.
  Proof. destruct k as [[]|]; try discriminate; reflexivity. Qed.

  Lemma short_good l :
    (length l <=? 1) = true -> forallb is_slice l = true -> forallb (wf_val tb) l = true ->
    l = [] \/ exists e, l = [e] /\ is_slice e = true /\ wf_val tb e = true.
  Proof.
    destruct l as [|e [|e' l]]; simpl; [auto| |discriminate]. rewrite !andb_true_r. eauto.
  Qed.

  Lemma vparam_slice s i : is_slice s = true -> wf_val tb s = true -> (forall vs, s <> VTuple vs) ->
    resolve (abs1 s) (PIdx i) = hd_abs1 (vparam s i) /\
    (vparam s i = [] \/ exists e, vparam s i = [e] /\ is_slice e = true /\ wf_val tb e = true).
  Proof.
    intros Hs Hw Hnt.
    destruct s as [sc|k vs|vs|ks vs|n|k|m o st]; [| |destruct (Hnt vs eq_refl)| | | |];
      destruct i as [|[|i]]; (split; [reflexivity|]); auto; simpl in Hs, Hw.
    - apply andb_prop in Hs as [L S]. apply short_good; assumption.
    - apply andb_prop in Hs as [[[L _]%andb_prop S]%andb_prop _]. apply andb_prop in Hw as [W _].
      apply short_good; assumption.
    - apply andb_prop in Hs as [[[_ L]%andb_prop _]%andb_prop S]. apply andb_prop in Hw as [_ W].
      apply short_good; assumption.
  Qed.

  Lemma param_agree s a p :
    agree a -> is_slice s = true -> wf_val tb s = true -> pgood p = true ->
    (forall vs, s <> VTuple vs) ->
    match_var rec (resolve (abs1 s) p) a =
    match p with
    | PIdx i => forallb (inh a) (vparam s i)
    | PInst c => match rep c with Some r => inh a r | None => true end
    | PEmpty => true
    end.
  Proof.
    intros IH Hs Hw Hp Hnt. destruct p as [i|k|]; [| |reflexivity].
    - destruct (vparam_slice s i Hs Hw Hnt) as [-> [-> | [e [-> [Se We]]]]]; simpl; [reflexivity|].
      rewrite andb_true_r. apply IH; assumption.
    - apply pgood_wf in Hp. destruct (wf_class_rep k Hp) as [r Hr]. rewrite Hr.
      destruct (rep_props k r Hr Hp) as [E [Hs' Hw']].
      simpl. rewrite <- E. apply IH; assumption.
  Qed.

  Lemma lockstep_agree s : is_slice s = true -> wf_val tb s = true -> (forall vs, s <> VTuple vs) ->
    forall args pm, Forall agree args -> forallb pgood pm = true ->
    match_params rec (abs1 s) args pm = lockstep pytype_devs inh s args pm.
  Proof.
    intros Hs Hw Hnt args. induction args as [|a args IH]; intros pm HF Hp; [destruct pm; reflexivity|].
    destruct pm as [|p pm]; [reflexivity|].
    inversion HF; subst. apply andb_prop in Hp as [Hp1 Hp2].
    cbn [match_params lockstep].
    rewrite <- (param_agree s a p), <- IH by assumption. reflexivity.
  Qed.

  Lemma sat_noniter s c hb args : bcls s = Some c ->
    satisfies_noniterable_str tb (CB c) (TCls (CB hb) args)
    = negb (noniter_str_hit pytype_devs s (TCls (CB hb) args)).
  Proof.
    intro Hb. unfold satisfies_noniterable_str, noniter_str_hit.
    cbn [head d_noniter_str pytype_devs andb].
    rewrite (tok_noniter tb T), (tok_str tb T), noniter_lists_eq, cmem_str.
    destruct (bname_beq c B_str) eqn:Ec.
    - apply bname_beq_eq in Ec. subst c. rewrite (bcls_str s Hb), andb_true_r.
      destruct args as [|[| |[b|]| | |] ?]; cbn [first_arg_cls]; rewrite ?(tok_str tb T), ?cmem_str;
        try (destruct (bmem hb _); reflexivity).
      destruct b; destruct (bmem hb _); reflexivity.
    - rewrite andb_false_r. destruct s as [[]| | | | | |]; try reflexivity.
      inversion Hb; subst c. discriminate.
  Qed.

  Lemma sat_nonstr c t : bname_beq c B_str = false -> satisfies_noniterable_str tb (CB c) t = true.
  Proof.
    intro E. unfold satisfies_noniterable_str. rewrite (tok_str tb T), cmem_str, E, andb_false_r. reflexivity.
  Qed.

  Lemma sat_user c t : satisfies_noniterable_str tb (CU c) t = true.
  Proof.
    unfold satisfies_noniterable_str. rewrite (tok_str tb T). cbn [cmem existsb cid_eqb orb].
    rewrite andb_false_r. reflexivity.
  Qed.

  Lemma sat_head t : cmem (head t) [CB B_t_Iterable; CB B_t_Sequence; CB B_t_Collection; CB B_t_Container] = false ->
    forall c, satisfies_noniterable_str tb c t = true.
  Proof. intros E c. unfold satisfies_noniterable_str. rewrite (tok_noniter tb T), E. reflexivity. Qed.

  Lemma none_case_binst m c hb :
    In c vclasses -> In hb heads -> cls_of tb m = CB c -> attrs_of tb m = attrs tb (CB c) ->
    reachF pytype_devs c hb = None ->
    (if is_protocol tb (CB hb) then protocol_match tb m (CB hb) else has_protocol_base tb (CB hb)) = false.
  Proof.
    intros Hc Hh Ecls Eattrs Hr. rewrite <- (tok_reach tb T c hb Hc Hh) in Hr.
    destruct (is_protocol tb (CB hb)) eqn:Ep.
    - pose proof (tok_fallback tb T c hb Hc Hh Hr Ep) as F.
      unfold protocol_match in *. rewrite Ecls, Eattrs. exact F.
    - rewrite <- (tok_proto_base tb T hb Hh). assumption.
  Qed.

  Lemma inst_match_none m c hb t :
    head t = CB hb -> In c vclasses -> In hb heads -> cls_of tb m = CB c -> attrs_of tb m = attrs tb (CB c) ->
    reachF pytype_devs c hb = None -> instance_match tb rec m t = false.
  Proof.
    intros Hh Hc Hhb Ecls Eattrs Hr. rewrite instance_match_reach.
    destruct (negb _); [reflexivity|].
    rewrite Ecls, Hh, (tok_reach tb T c hb Hc Hhb), Hr.
    apply (none_case_binst m c hb); assumption.
  Qed.

  (* a formal that is a generated class, against a value that is not one of its instances/class objects *)
  Lemma inst_match_user m c p args have :
    In c vclasses -> cls_of tb m = CB c ->
    (forall n, amem (AU n) (attrs_of tb m) = nmem n have) ->
    instance_match tb rec m (TCls (CU p) args) = structural tb p have.
  Proof.
    intros Hc Ecls Hattrs. rewrite instance_match_reach.
    rewrite (sat_head (TCls (CU p) args) eq_refl). cbn [negb head].
    rewrite Ecls, (reach_builtin_user tb c p T Hc).
    apply user_fallback. assumption.
  Qed.

  Lemma AU_not_in_builtin c n : In c vclasses -> amem (AU n) (attrs tb (CB c)) = false.
  Proof. intro Hc. apply amem_AU_allAB. apply (tok_ab tb T c). right; assumption. Qed.

  Lemma matchm_binst s c t : bcls s = Some c ->
    plain t ->
    rec t (abs1 s) = instance_match tb rec (abs1 s) t.
  Proof. intros Hb Hn. destruct t; try destruct Hn; destruct s; try discriminate Hb; reflexivity. Qed.

  Lemma abs1_binst_shape s c : bcls s = Some c ->
    (exists vs, s = VTuple vs) \/ (exists o1 o2, abs1 s = MInst (CB c) o1 o2 /\ forall vs, s <> VTuple vs).
  Proof.
    destruct s; simpl; intro H; inversion H; subst; try (right; eexists; eexists; split; [reflexivity|intros; discriminate]).
    left. eauto.
  Qed.

  Lemma wf_args_len (hb : bname) (args : list ty) :
    (match args with [] => true | _ => Nat.eqb (length args) (head_arity hb) end) = true ->
    args = [] \/ length args = head_arity hb.
  Proof. destruct args; [auto|]. intro H. right. apply Nat.eqb_eq; assumption. Qed.

  Lemma cls_binst s c hb args :
    bcls s = Some c -> In hb heads ->
    (args = [] \/ length args = head_arity hb) ->
    Forall agree args -> is_slice s = true -> wf_val tb s = true ->
    rec (TCls (CB hb) args) (abs1 s) = inh (TCls (CB hb) args) s.
  Proof.
    intros Hb Hh Hlen HF Hs Hw.
    pose proof (bcls_vclasses s c Hb) as Hc.
    destruct (bcls_cls_of tb s c Hb) as [Ecls _].
    rewrite (matchm_binst s c (TCls (CB hb) args) Hb I), instance_match_reach, Ecls. cbn [head].
    rewrite (sat_noniter s c hb args Hb), negb_involutive, (tok_reach tb T c hb Hc Hh).
    unfold inh at 1. rewrite (inhabitsF_cls_binst pytype_devs tb s c hb args Hb). fold inh.
    destruct (bname_beq hb B_object) eqn:Eo.
    { (* object: its only MRO entry has no parameters *)
      apply bname_beq_eq in Eo. subst hb.
      assert (args = []) as -> by (destruct Hlen as [E|E]; [assumption | destruct args; [reflexivity|discriminate]]).
      rewrite reachF_object. destruct s as [[]| | | | | |]; reflexivity. }
    destruct (noniter_str_hit pytype_devs s (TCls (CB hb) args)); [reflexivity|].
    destruct (reachF pytype_devs c hb) as [pm|] eqn:Er.
    - pose proof (reachF_pgood c hb pm Er) as Hpg.
      destruct (abs1_binst_shape s c Hb) as [[vs E]|[o1 [o2 [E Hnt]]]].
      + (* a tuple display reaches a parameterised head through its one parameter *)
        subst s. inversion Hb; subst c. cbn [abs1].
        destruct args as [|a rest]; [destruct pm; reflexivity|].
        destruct Hlen as [E|E]; [discriminate|].
        destruct (reachF_tuple hb pm Er) as [A0|[A1 ->]]; [rewrite A0 in E; discriminate|].
        rewrite A1 in E. destruct rest; [|discriminate].
        cbn [base_match lockstep vparam]. rewrite andb_true_r, forallb_map.
        inversion HF; subst. simpl in Hs, Hw.
        apply forallb_ext_Forall, Forall_forall. intros e He.
        rewrite forallb_forall in Hs, Hw. apply H1; auto.
      + rewrite E. change (match_params rec (MInst (CB c) o1 o2) args pm = lockstep pytype_devs inh s args pm).
        rewrite <- E. apply lockstep_agree; assumption.
    - apply (none_case_binst (abs1 s) c hb Hc Hh Ecls (bcls_attrs_of tb s c Hb) Er).
  Qed.

  Lemma cu_binst s c p args : bcls s = Some c -> rec (TCls (CU p) args) (abs1 s) = inh (TCls (CU p) args) s.
  Proof.
    intro Hb. rewrite (matchm_binst s c (TCls (CU p) args) Hb I).
    destruct (bcls_cls_of tb s c Hb) as [Ecls _].
    rewrite (inst_match_user (abs1 s) c p args [] (bcls_vclasses s c Hb) Ecls).
    - destruct s; simpl in Hb; inversion Hb; reflexivity.
    - intro n. rewrite (bcls_attrs_of tb s c Hb). apply AU_not_in_builtin. eapply bcls_vclasses; eassumption.
  Qed.

  Lemma ttuple_binst s c ts : bcls s = Some c -> Forall agree ts ->
    is_slice s = true -> wf_val tb s = true ->
    rec (TTuple ts) (abs1 s) = inh (TTuple ts) s.
  Proof.
    intros Hb HF Hs Hw. rewrite (matchm_binst s c (TTuple ts) Hb I).
    pose proof (bcls_vclasses s c Hb) as Hc.
    destruct (bcls_cls_of tb s c Hb) as [Ecls _].
    destruct (bname_beq c B_tuple) eqn:Ec.
    - apply bname_beq_eq in Ec. subst c.
      rewrite instance_match_reach. rewrite (sat_head (TTuple ts) eq_refl). cbn [negb head].
      rewrite Ecls, (tok_reach tb T B_tuple B_tuple Hc tuple_in_heads).
      change (reachF pytype_devs B_tuple B_tuple) with (Some [PIdx 0]).
      destruct s as [sc|k vs|vs|ks vs|n|k|m o st]; simpl in Hb; inversion Hb.
      + destruct sc; discriminate.
      + destruct k; try discriminate. cbn [abs1 ckind_cls base_match].
        unfold inh. cbn [inhabitsF d_tuplecall_len pytype_devs].
        apply forallb_ext_Forall. eapply Forall_impl; [|exact HF]. intros a Ha.
        apply (param_agree (VColl KTupleOf vs) a (PIdx 0)); auto. intros; discriminate.
      + cbn [abs1 base_match]. unfold inh. cbn [inhabitsF]. apply forall2b_agree.
        eapply Forall_impl; [|exact HF]. intros a Ha x Hx. simpl in Hs, Hw.
        rewrite forallb_forall in Hs, Hw. apply Ha; auto.
    - rewrite (inst_match_none (abs1 s) c B_tuple (TTuple ts) eq_refl Hc tuple_in_heads Ecls
                 (bcls_attrs_of tb s c Hb) (reachF_to_tuple c Ec)).
      destruct s as [sc|[]|vs|ks vs|n|k|m o st]; inversion Hb; subst; try reflexivity; discriminate.
  Qed.

  Lemma binst_not_type_callable s c : bcls s = Some c ->
    bname_beq c B_type = false /\ bname_beq c B_t_Callable = false.
  Proof. destruct s as [[]|[]| | | | |]; simpl; intro H; inversion H; auto. Qed.

  Lemma callable_binst s c t : bcls s = Some c ->
    match t with TCallable _ _ | TCallableAny _ => True | _ => False end ->
    rec t (abs1 s) = inh t s.
  Proof.
    intros Hb Ht.
    destruct (bcls_cls_of tb s c Hb) as [Ecls _]. destruct (binst_not_type_callable s c Hb) as [E1 E2].
    pose proof (fun t Hh => inst_match_none (abs1 s) c B_t_Callable t Hh (bcls_vclasses s c Hb) callable_in_heads
                              Ecls (bcls_attrs_of tb s c Hb) (reachF_to_callable c E1 E2)) as N.
    destruct t as [| | | |args ret|ret]; try contradiction.
    - rewrite (matchm_binst s c (TCallable args ret) Hb I), N by reflexivity.
      destruct s; try discriminate Hb; reflexivity.
    - rewrite (matchm_binst s c (TCallableAny ret) Hb I), N by reflexivity.
      destruct s; try discriminate Hb; reflexivity.
  Qed.

  Lemma no_mapping_in_user_mro c :
    existsb (fun e => cid_eqb (fst e) (CB B_t_Mapping)) (mro tb (CU c)) = false.
  Proof.
    unfold mro. rewrite existsb_app, existsb_map. cbn [existsb fst cid_eqb orb].
    induction (u_mro (uinfo_of tb c)); simpl; auto.
  Qed.

  Lemma vinst_builtin_head c t hb :
    head t = CB hb -> In hb heads -> bname_beq hb B_object = false ->
    instance_match tb rec (MInst (CU c) None None) t = false.
  Proof.
    intros Hh Hhb Eo. rewrite instance_match_reach. cbn [cls_of]. rewrite sat_user. cbn [negb].
    rewrite Hh, reach_user by assumption. rewrite Eo.
    destruct (is_protocol tb (CB hb)) eqn:Ep.
    - unfold protocol_match. cbn [cls_of]. rewrite no_mapping_in_user_mro, andb_false_r.
      destruct (tok_attr_obj tb T hb Hhb Ep) as [a [Ha Hm]].
      apply (asubset_has_missing _ _ (AB a) Ha). cbn [attrs_of cls_of].
      rewrite amem_AB_attrs_user; assumption.
    - rewrite <- (tok_proto_base tb T hb Hhb). assumption.
  Qed.

  Lemma vinst_user_head c p args :
    instance_match tb rec (MInst (CU c) None None) (TCls (CU p) args) = inh (TCls (CU p) args) (VInst c).
  Proof.
    rewrite instance_match_reach. cbn [cls_of head]. rewrite sat_user. cbn [negb].
    rewrite reach_user by assumption. unfold inh. cbn [inhabitsF user_member].
    destruct (nmem p (u_mro (uinfo_of tb c))); cbn [orb].
    - cbn [base_match]. destruct args; reflexivity.
    - apply user_fallback. intro n. cbn [attrs_of cls_of]. apply amem_AU_attrs_user; assumption.
  Qed.

  Lemma vinst_all c t : wf_ty tb t = true ->
    plain t ->
    rec t (MInst (CU c) None None) = inh t (VInst c).
  Proof.
    intros Hwf Hn.
    assert (L : rec t (MInst (CU c) None None) = instance_match tb rec (MInst (CU c) None None) t)
      by (destruct t; try destruct Hn; reflexivity).
    rewrite L. destruct t as [|ts|[hb|p] args|ts|args ret|ret]; try destruct Hn.
    - apply wf_ty_cls_cb in Hwf as [Hh [Hlen _]]. unfold inh. cbn [inhabitsF].
      destruct (bname_beq hb B_object) eqn:Eo.
      + apply bname_beq_eq in Eo. subst hb.
        rewrite instance_match_reach. cbn [cls_of head]. rewrite sat_user. cbn [negb].
        rewrite reach_user by assumption. cbn [bname_beq base_match]. destruct args; reflexivity.
      + apply (vinst_builtin_head c (TCls (CB hb) args) hb eq_refl Hh Eo).
    - apply vinst_user_head.
    - apply (vinst_builtin_head c (TTuple ts) B_tuple eq_refl tuple_in_heads eq_refl).
    - apply (vinst_builtin_head c (TCallable args ret) B_t_Callable eq_refl callable_in_heads eq_refl).
    - apply (vinst_builtin_head c (TCallableAny ret) B_t_Callable eq_refl callable_in_heads eq_refl).
  Qed.

  Lemma accept_mem hb :
    cmem (CB hb) (bt_class_accept (t_b tb)) =
    bname_beq hb B_type || bname_beq hb B_object || bname_beq hb B_t_Callable || bname_beq hb B_t_Hashable.
  Proof. rewrite (tok_accept tb T). unfold cmem. cbn [existsb cid_eqb]. rewrite orb_false_r, !orb_assoc. reflexivity. Qed.

  Lemma accept_user p : cmem (CU p) (bt_class_accept (t_b tb)) = false.
  Proof. rewrite (tok_accept tb T). reflexivity. Qed.

  (* Hashable, the fourth name a class object matches outright, is not a formal of the fragment *)
  Lemma accept_head hb : In hb heads ->
    bname_beq hb B_object = false -> bname_beq hb B_type = false -> bname_beq hb B_t_Callable = false ->
    cmem (CB hb) (bt_class_accept (t_b tb)) = false.
  Proof.
    intros Hh E1 E2 E3. rewrite accept_mem, E1, E2, E3. cbn [orb].
    destruct (bname_beq hb B_t_Hashable) eqn:EH; [|reflexivity].
    apply bname_beq_eq in EH. subst hb. apply bmem_In in Hh. discriminate Hh.
  Qed.

  Definition class_have (k : cid) : list nat :=
    match k with CU n => u_own (uinfo_of tb n) | CB _ => [] end.

  Lemma classobj_attrs_AU k n : amem (AU n) (attrs_of tb (MClass k)) = nmem n (class_have k).
  Proof.
    destruct k as [b|m]; cbn [attrs_of cls_of class_have].
    - apply AU_not_in_builtin, type_in_vclasses.
    - rewrite amem_app. cbn [own_attrs].
      rewrite amem_map_AU, (AU_not_in_builtin B_type n type_in_vclasses), orb_false_r. reflexivity.
  Qed.

  Lemma classobj_builtin_head k t hb :
    head t = CB hb -> In hb heads ->
    bname_beq hb B_object = false -> bname_beq hb B_type = false -> bname_beq hb B_t_Callable = false ->
    instance_match tb rec (MClass k) t = false.
  Proof.
    intros Hh Hhb E1 E2 E3.
    rewrite instance_match_reach. cbn [cls_of].
    rewrite (sat_nonstr B_type t eq_refl). cbn [negb].
    rewrite Hh, (tok_reach tb T B_type hb type_in_vclasses Hhb), (reachF_type hb E1 E2 E3).
    destruct (is_protocol tb (CB hb)) eqn:Ep.
    - unfold protocol_match.
      destruct (cid_eqb (CB hb) (CB B_t_Sequence) && _); [reflexivity|].
      destruct (tok_attr_type tb T hb Hhb Ep (accept_head hb Hhb E1 E2 E3)) as [a [Ha Hm]].
      apply (asubset_has_missing _ _ (AB a) Ha).
      destruct k as [b|m]; cbn [attrs_of cls_of]; [assumption|].
      rewrite amem_app. cbn [own_attrs]. rewrite amem_AB_map_AU. assumption.
    - rewrite <- (tok_proto_base tb T hb Hhb). assumption.
  Qed.

  Lemma classobj_user_head k p args :
    instance_match tb rec (MClass k) (TCls (CU p) args) = inh (TCls (CU p) args) (VClass k).
  Proof.
    rewrite (inst_match_user (MClass k) B_type p args (class_have k) type_in_vclasses eq_refl (classobj_attrs_AU k)).
    destruct k; reflexivity.
  Qed.

  (* the formals below t whose agreement the class-object case of t needs *)
  Definition class_sub (t u : ty) : Prop :=
    match t with
    | TCls (CB B_type) (u' :: _) => u = u'
    | TCallable _ r | TCallableAny r => u = r
    | _ => False
    end.

  Lemma vclass_all k t : wf_ty tb t = true -> wf_val tb (VClass k) = true ->
    plain t ->
    (forall u, class_sub t u -> agree u) ->
    rec t (MClass k) = inh t (VClass k).
  Proof.
    intros Hwf Hw Hn IH.
    destruct (wf_class_rep k Hw) as [r Hr]. destruct (rep_props k r Hr Hw) as [Er [Hsr Hwr]].
    destruct t as [|ts|[hb|p] args|ts|args ret|ret]; try destruct Hn.
    - apply wf_ty_cls_cb in Hwf as [Hh [Hlen _]]. unfold inh, rec. cbn [inhabitsF matchm cid_eqb].
      destruct (bname_beq hb B_type) eqn:Et.
      { apply bname_beq_eq in Et. subst hb. rewrite accept_mem.
        destruct args as [|u args]; [reflexivity|]. cbn [bname_beq]. rewrite Hr, <- Er.
        apply (IH u eq_refl); assumption. }
      (* object and Callable accept every class object on both sides; no other formal of the fragment does *)
      destruct (bname_beq hb B_object) eqn:Eo; [rewrite accept_mem, Eo, orb_true_r; destruct args; reflexivity|].
      destruct (bname_beq hb B_t_Callable) eqn:Ec; [rewrite accept_mem, Ec, orb_true_r; destruct args; reflexivity|].
      rewrite (accept_head hb Hh Eo Et Ec). fold rec.
      rewrite <- (classobj_builtin_head k (TCls (CB hb) args) hb eq_refl Hh Eo Et Ec). destruct args; reflexivity.
    - assert (L : rec (TCls (CU p) args) (MClass k) = instance_match tb rec (MClass k) (TCls (CU p) args)).
      { unfold rec. cbn [matchm cid_eqb]. rewrite accept_user. destruct args; reflexivity. }
      rewrite L. apply classobj_user_head.
    - apply (classobj_builtin_head k (TTuple ts) B_tuple eq_refl tuple_in_heads eq_refl eq_refl eq_refl).
    - unfold rec, inh. cbn [matchm inhabitsF d_class_callable_args pytype_devs orb andb]. rewrite Hr, <- Er.
      apply (IH ret eq_refl); assumption.
    - unfold rec, inh. cbn [matchm inhabitsF]. rewrite Hr, <- Er. apply (IH ret eq_refl); assumption.
  Qed.

  Lemma vfunc_all m o st t : wf_ty tb t = true ->
    plain t ->
    rec t (MFunc m o st) = inh t (VFunc m o st).
  Proof.
    intros Hwf Hn.
    assert (Hc : In B_t_Callable vclasses) by (apply bmem_In; reflexivity).
    assert (Eft := tok_ft tb T).
    destruct t as [|ts|[hb|p] args|ts|args ret|ret]; try destruct Hn; try reflexivity.
    - apply wf_ty_cls_cb in Hwf as [Hh [Hlen _]]. unfold rec, inh. cbn [matchm inhabitsF cid_eqb].
      destruct (bname_beq hb B_object) eqn:Eo; [reflexivity|].
      destruct (bname_beq hb B_t_Callable) eqn:Ec; [reflexivity|]. cbn [orb].
      rewrite Eft.
      apply (inst_match_none (inst0 (CB B_t_Callable)) B_t_Callable hb (TCls (CB hb) args) eq_refl Hc Hh eq_refl eq_refl
               (reachF_callable hb Eo Ec)).
    - unfold rec, inh. cbn [matchm inhabitsF cid_eqb orb]. rewrite Eft. fold rec.
      rewrite (inst_match_user (inst0 (CB B_t_Callable)) B_t_Callable p args [] Hc eq_refl).
      + reflexivity.
      + intro n. cbn [attrs_of inst0 cls_of]. apply AU_not_in_builtin; assumption.
    - unfold rec, inh. cbn [matchm inhabitsF]. rewrite Eft.
      apply (inst_match_none (inst0 (CB B_t_Callable)) B_t_Callable B_tuple (TTuple ts) eq_refl Hc tuple_in_heads
               eq_refl eq_refl eq_refl).
  Qed.

  Lemma agree_by_value t : wf_ty tb t = true ->
    plain t ->
    (forall s c, bcls s = Some c -> is_slice s = true -> wf_val tb s = true -> rec t (abs1 s) = inh t s) ->
    (forall u, class_sub t u -> agree u) ->
    agree t.
  Proof.
    intros Hwf Hn Hb IH s Hs Hw. destruct (bcls s) as [c|] eqn:Eb; [eauto|].
    destruct (bcls_none s Eb) as [[n E]|[[k E]|[m [o [st E]]]]]; subst s.
    - apply vinst_all; assumption.
    - apply vclass_all; assumption.
    - apply vfunc_all; assumption.
  Qed.
End Main.

Lemma wf_forall_agree tb (ts : list ty) :
  Forall (fun t => wf_ty tb t = true -> agree tb t) ts -> forallb (wf_ty tb) ts = true -> Forall (agree tb) ts.
Proof.
  intros H Hw. apply forallb_Forall in Hw. rewrite Forall_forall in *. intros t Ht. apply H; auto.
Qed.

Theorem matchm_slice tb : tok tb -> forall t, wf_ty tb t = true -> agree tb t.
Proof.
  intros T. induction t using ty_ind'; intros Hwf.
  - intros s _ _. reflexivity.
  - intros s Hs Hw. cbn [matchm inhabitsF]. cbn [wf_ty] in Hwf.
    apply existsb_ext_Forall. eapply Forall_impl; [|exact (wf_forall_agree tb ts H Hwf)].
    intros a Ha. apply Ha; assumption.
  - apply (agree_by_value tb T _ Hwf I).
    + intros s c' Eb Hs Hw. destruct c as [hb|p]; [|apply (cu_binst tb T s c' p args Eb)].
      destruct (wf_ty_cls_cb tb hb args Hwf) as [Hh [Hlen Hargs]].
      apply (cls_binst tb T s c' hb args Eb Hh Hlen (wf_forall_agree tb args H Hargs) Hs Hw).
    + intros u Hu. destruct c as [[]|]; try contradiction. destruct args as [|u' args]; [contradiction|].
      cbn [class_sub] in Hu. subst u'.
      destruct (wf_ty_cls_cb tb B_type (u :: args) Hwf) as [_ [_ Hargs]].
      pose proof (wf_forall_agree tb _ H Hargs) as HA. inversion HA; assumption.
  - apply (agree_by_value tb T _ Hwf I); [|intros u []].
    intros s c' Eb Hs Hw. cbn [wf_ty] in Hwf.
    apply (ttuple_binst tb T s c' ts Eb (wf_forall_agree tb ts H Hwf) Hs Hw).
  - apply (agree_by_value tb T _ Hwf I); [|intros u ->; apply IHt, Hwf].
    intros s c' Eb _ _. apply (callable_binst tb T s c' _ Eb). exact I.
  - apply (agree_by_value tb T _ Hwf I); [|intros u ->; apply IHt, Hwf].
    intros s c' Eb _ _. apply (callable_binst tb T s c' _ Eb). exact I.
Qed.

Lemma slice_verdicts tb v t :
  table_ok tb = true -> wf_ty tb t = true -> wf_val tb v = true ->
  Forall (fun s => matchm tb t (abs1 s) = inhabitsF pytype_devs tb t s) (slices v).
Proof.
  intros Hok Hwt Hwv. eapply Forall_impl; [|exact (slices_wf tb v Hwv)].
  intros s [Hw Hs]. apply (matchm_slice tb (table_ok_tok tb Hok) t Hwt s Hs Hw).
Qed.

