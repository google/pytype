(* C02: a syntactic sufficient condition for the second hypothesis of enforcement_exact_partial.
   For an annotation whose unions have at most one option that looks inside the value (union_simple), and a
   value without tuple(...) calls (tupleof_free), PEP 484 membership of the value is decided slice by slice:
       forallb (fun s => inhabits tb s t) (slices v) = inhabits tb v t. *)
From Coq Require Import List Arith Bool.
From PV Require Import Match.Model Match.Proofs.
Import ListNotations.

Lemma forallb_true {A} (l : list A) : forallb (fun _ => true) l = true.
Proof. induction l; simpl; auto. Qed.

Lemma forallb_const_on {A} (f : A -> bool) (b : bool) (l : list A) :
  l <> [] -> (forall x, In x l -> f x = b) -> forallb f l = b.
Proof.
  intros Hne H. rewrite (forallb_ext_Forall f (fun _ => b)) by (apply Forall_forall, H).
  destruct b; [apply forallb_true|]. destruct l; [contradiction|reflexivity].
Qed.

Lemma forallb_const {A} (b : bool) (l : list A) : l <> [] -> forallb (fun _ => b) l = b.
Proof. intro H. apply forallb_const_on; auto. Qed.

Lemma forallb_and_const {A} (f : A -> bool) (c : bool) l : l <> [] ->
  forallb (fun x => f x && c) l = forallb f l && c.
Proof. intro H. rewrite forallb_andb, forallb_const by assumption. reflexivity. Qed.

Lemma forallb_const_and {A} (f : A -> bool) (c : bool) l : l <> [] ->
  forallb (fun x => c && f x) l = c && forallb f l.
Proof. intro H. rewrite forallb_andb, forallb_const by assumption. reflexivity. Qed.

Lemma forallb_const_or {A} (f : A -> bool) (c : bool) l : forallb (fun x => c || f x) l = c || forallb f l.
Proof. destruct c; [apply forallb_true | reflexivity]. Qed.

Lemma opt_slices_nonempty ss : opt_slices ss <> [].
Proof. destruct ss; simpl; discriminate. Qed.

Lemma opt_slices_forallb (f : value -> bool) ss :
  forallb (fun l => forallb f l) (opt_slices ss) = forallb f ss.
Proof.
  destruct ss as [|s ss]; [reflexivity|]. unfold opt_slices. rewrite forallb_map.
  apply forallb_ext_Forall, Forall_forall. intros x _. simpl. apply andb_true_r.
Qed.

Lemma list_prod_nonempty {A} (ls : list (list A)) : Forall (fun l => l <> []) ls -> list_prod ls <> [].
Proof.
  induction 1 as [|l ls Hl Hls IH]; simpl; [discriminate|].
  destruct l as [|x l]; [contradiction|]. simpl.
  destruct (list_prod ls) as [|y ys]; [contradiction|]. simpl. discriminate.
Qed.

Lemma forallb_list_prod {A} (f : A -> bool) (ls : list (list A)) : Forall (fun l => l <> []) ls ->
  forallb (fun l => forallb f l) (list_prod ls) = forallb (forallb f) ls.
Proof.
  induction 1 as [|l ls Hl Hls IH]; [reflexivity|]. cbn [list_prod forallb].
  rewrite forallb_flat_map, <- IH, <- forallb_and_const by assumption.
  apply forallb_ext_Forall, Forall_forall. intros x _. rewrite forallb_map. cbn [forallb].
  apply forallb_const_and, list_prod_nonempty; assumption.
Qed.

Lemma slices_nonempty v : slices v <> [].
Proof.
  induction v using value_ind'; simpl; try discriminate.
  - intros E%map_eq_nil. exact (opt_slices_nonempty _ E).
  - intros E%map_eq_nil. revert E. apply list_prod_nonempty, Forall_map, H.
  - destruct (opt_slices (flat_map slices ks)) as [|k1 K] eqn:EK; [exfalso; exact (opt_slices_nonempty _ EK)|].
    destruct (opt_slices (flat_map slices vs)) as [|v1 V] eqn:EV; [exfalso; exact (opt_slices_nonempty _ EV)|].
    simpl. discriminate.
Qed.

Lemma map_slices_nonempty vs : Forall (fun l => l <> []) (map slices vs).
Proof. apply Forall_map, Forall_forall. intros x _. apply slices_nonempty. Qed.

Lemma forallb_slices_const (f : value -> bool) b v :
  (forall s, In s (slices v) -> f s = b) -> forallb f (slices v) = b.
Proof. apply forallb_const_on, slices_nonempty. Qed.

(* same outermost constructor (and container kind) *)
Inductive same_top : value -> value -> Prop :=
| st_refl v : same_top v v
| st_coll k l1 l2 : same_top (VColl k l1) (VColl k l2)
| st_tuple l1 l2 : same_top (VTuple l1) (VTuple l2)
| st_dict a1 b1 a2 b2 : same_top (VDict a1 b1) (VDict a2 b2).

Lemma slices_same_top v s : In s (slices v) -> same_top s v.
Proof.
  destruct v; simpl; intro H; try (destruct H as [<-|[]]; constructor).
  - apply in_map_iff in H as [l [<- _]]. constructor.
  - apply in_map_iff in H as [l [<- _]]. constructor.
  - apply in_flat_map in H as [k1 [_ H]]. apply in_map_iff in H as [v1 [<- _]]. constructor.
Qed.

Lemma bcls_same_top s v : same_top s v -> bcls s = bcls v.
Proof. intros []; reflexivity. Qed.

Lemma singleton_slices v : bcls v = None -> slices v = [v].
Proof. destruct v; simpl; intro H; try discriminate; reflexivity. Qed.

Section SE.
  Variable tb : table.
  Let mem := inhabitsF pep484 tb.

  (* formals whose membership test only looks at the outermost constructor *)
  Definition top_only (t : ty) : Prop := forall s v, same_top s v -> mem t s = mem t v.

  Lemma top_only_user k args : top_only (TCls (CU k) args).
  Proof. intros s v []; reflexivity. Qed.

  Lemma top_only_callable args r : top_only (TCallable args r).
  Proof. intros s v []; reflexivity. Qed.

  Lemma top_only_callable_any r : top_only (TCallableAny r).
  Proof. intros s v []; reflexivity. Qed.

  Lemma top_only_object args : top_only (TCls (CB B_object) args).
  Proof. intros s v _. reflexivity. Qed.

  Lemma top_only_bare h : top_only (TCls (CB h) []).
  Proof.
    intros s v []; try reflexivity;
      unfold mem; cbn [inhabitsF]; destruct (bname_beq h B_object); try reflexivity;
      cbn [noniter_str_hit d_noniter_str pep484 andb vclass]; destruct (reachF _ _ _); reflexivity.
  Qed.

  Lemma top_only_shallow t : shallow t = true -> top_only t.
  Proof.
    destruct t as [|ts|c args|ts|a r|r]; try discriminate.
    - intros _ s v _. reflexivity.
    - destruct args; [|discriminate]. intros _. destruct c; [apply top_only_bare | apply top_only_user].
  Qed.

  Lemma top_only_forallb t v : top_only t -> forallb (mem t) (slices v) = mem t v.
  Proof. intro H. apply forallb_slices_const. intros s Hs. apply H, slices_same_top, Hs. Qed.

  (* the statement proved by induction on the annotation *)
  Definition SX (t : ty) : Prop :=
    union_simple t = true -> forall v, tupleof_free v = true -> forallb (mem t) (slices v) = mem t v.

  Lemma elems_SX a vs : (forall v, tupleof_free v = true -> forallb (mem a) (slices v) = mem a v) ->
    forallb tupleof_free vs = true ->
    forallb (mem a) (flat_map slices vs) = forallb (mem a) vs.
  Proof.
    intros H Hf. rewrite forallb_flat_map. apply forallb_ext_Forall.
    apply forallb_Forall in Hf. eapply Forall_impl; [|exact Hf]. intros e He. apply H; assumption.
  Qed.

  Lemma tupleof_free_coll k vs : tupleof_free (VColl k vs) = true -> k <> KTupleOf /\ forallb tupleof_free vs = true.
  Proof. destruct k; simpl; intro H; try discriminate; split; try discriminate; assumption. Qed.

  (* testing parameter i of every slice of v is testing parameter i of v *)
  Lemma param_slices a v i : (forall w, tupleof_free w = true -> forallb (mem a) (slices w) = mem a w) ->
    tupleof_free v = true ->
    forallb (fun s => forallb (mem a) (vparam s i)) (slices v) = forallb (mem a) (vparam v i).
  Proof.
    intros H Hf. destruct v as [sc|k vs|vs|ks vs|n|c|m o st]; try (simpl; destruct i; reflexivity).
    - destruct (tupleof_free_coll k vs Hf) as [_ Hvs].
      cbn [slices]. rewrite forallb_map. destruct i as [|i]; cbn [vparam]; [|apply forallb_true].
      rewrite opt_slices_forallb. apply elems_SX; assumption.
    - simpl in Hf. cbn [slices]. rewrite forallb_map. destruct i as [|i]; cbn [vparam]; [|apply forallb_true].
      rewrite forallb_list_prod, forallb_map by apply map_slices_nonempty.
      apply forallb_ext_Forall. apply forallb_Forall in Hf.
      eapply Forall_impl; [|exact Hf]. intros e He. apply H; assumption.
    - simpl in Hf. apply andb_true_iff in Hf as [Hk Hv]. cbn [slices]. rewrite forallb_flat_map.
      destruct i as [|[|i]].
      + rewrite (forallb_ext_Forall _ (fun k1 => forallb (mem a) k1)).
        * rewrite opt_slices_forallb. apply elems_SX; assumption.
        * apply Forall_forall. intros k1 _. rewrite forallb_map. cbn [vparam].
          apply forallb_const, opt_slices_nonempty.
      + apply forallb_const_on; [apply opt_slices_nonempty|]. intros k1 _. rewrite forallb_map. cbn [vparam].
        rewrite opt_slices_forallb. apply elems_SX; assumption.
      + apply forallb_const_on; [apply opt_slices_nonempty|]. intros k1 _. rewrite forallb_map. cbn [vparam].
        apply forallb_true.
  Qed.

  Lemma lockstep_slices v : tupleof_free v = true -> forall args pm,
    Forall (fun a => forall w, tupleof_free w = true -> forallb (mem a) (slices w) = mem a w) args ->
    forallb (fun s => lockstep pep484 mem s args pm) (slices v) = lockstep pep484 mem v args pm.
  Proof.
    intros Hf args. induction args as [|a args IH]; intros pm HF.
    - destruct pm; apply forallb_true.
    - destruct pm as [|p pm]; [apply forallb_true|]. inversion HF; subst. cbn [lockstep].
      rewrite <- (IH pm) by assumption. destruct p as [i|c|].
      + rewrite <- param_slices by assumption. apply forallb_andb.
      + apply forallb_const_and, slices_nonempty.
      + reflexivity.
  Qed.

  Lemma I_cls_binst v c hb args : bcls v = Some c -> bname_beq hb B_object = false ->
    mem (TCls (CB hb) args) v =
    match reachF pep484 c hb with Some pm => lockstep pep484 mem v args pm | None => false end.
  Proof.
    intros Hb Ho. unfold mem. rewrite (inhabitsF_cls_binst pep484 tb v c hb args Hb), Ho. reflexivity.
  Qed.

  Lemma forall2b_slices ts : Forall SX ts -> forallb union_simple ts = true ->
    forall vs, forallb tupleof_free vs = true ->
    forallb (fun l => forall2b mem ts l) (list_prod (map slices vs)) = forall2b mem ts vs.
  Proof.
    induction ts as [|a ts IH]; intros HF Hu vs Hf.
    - destruct vs as [|e vs]; [reflexivity|].
      apply forallb_const_on; [apply list_prod_nonempty, map_slices_nonempty|].
      intros l Hl. cbn [map list_prod] in Hl.
      apply in_flat_map in Hl as [x [_ Hl]]. apply in_map_iff in Hl as [l' [<- _]]. reflexivity.
    - destruct vs as [|e vs]; [reflexivity|].
      inversion HF; subst. simpl in Hu, Hf. apply andb_true_iff in Hu as [Hu1 Hu2].
      apply andb_true_iff in Hf as [Hf1 Hf2].
      cbn [map list_prod forall2b]. rewrite forallb_flat_map.
      rewrite <- (H1 Hu1 e Hf1), <- (IH H2 Hu2 vs Hf2), <- forallb_and_const by apply slices_nonempty.
      apply forallb_ext_Forall, Forall_forall. intros x _. rewrite forallb_map. cbn [forall2b].
      apply forallb_const_and, list_prod_nonempty, map_slices_nonempty.
  Qed.

  Lemma filter_nil_forallb {A} (p : A -> bool) l : filter p l = [] -> forallb (fun x => negb (p x)) l = true.
  Proof.
    induction l as [|x l IH]; simpl; [reflexivity|]. destruct (p x); [discriminate|]. exact IH.
  Qed.

  Lemma union_slices ts : Forall SX ts -> forallb union_simple ts = true ->
    length (filter (fun o => negb (shallow o)) ts) <= 1 ->
    forall v, tupleof_free v = true ->
    forallb (fun s => existsb (fun o => mem o s) ts) (slices v) = existsb (fun o => mem o v) ts.
  Proof.
    induction ts as [|o ts IH]; intros HF Hu Hlen v Hf.
    - exact (forallb_const false _ (slices_nonempty v)).
    - inversion HF; subst. simpl in Hu. apply andb_true_iff in Hu as [Hu1 Hu2]. cbn [existsb].
      simpl in Hlen. destruct (shallow o) eqn:Esh; simpl in Hlen.
      + (* o looks at the top only: its verdict is the same on every slice *)
        rewrite <- (IH H2 Hu2 Hlen v Hf), <- forallb_const_or.
        apply forallb_ext_Forall, Forall_forall. intros s Hs. f_equal.
        apply (top_only_shallow o Esh), slices_same_top, Hs.
      + (* o is the one deep option: every other option looks at the top only *)
        apply Nat.succ_le_mono, Nat.le_0_r, length_zero_iff_nil, filter_nil_forallb in Hlen.
        rewrite <- (H1 Hu1 v Hf), orb_comm, <- forallb_const_or.
        apply forallb_ext_Forall, Forall_forall. intros s Hs. rewrite orb_comm. f_equal.
        apply existsb_ext_Forall, Forall_forall. intros x Hx. rewrite forallb_forall in Hlen.
        specialize (Hlen x Hx). rewrite negb_involutive in Hlen.
        apply (top_only_shallow x Hlen), slices_same_top, Hs.
  Qed.

  Lemma SX_all : forall t, SX t.
  Proof.
    induction t using ty_ind'; intros Hu v Hf.
    - apply forallb_true.
    - cbn [union_simple] in Hu. apply andb_true_iff in Hu as [Hu _]. apply andb_true_iff in Hu as [Hlen Hu].
      apply Nat.leb_le in Hlen. unfold mem. cbn [inhabitsF].
      apply (union_slices ts H Hu Hlen v Hf).
    - destruct c as [hb|k]; [|apply top_only_forallb, top_only_user].
      destruct (bname_beq hb B_object) eqn:Eo.
      { apply bname_beq_eq in Eo. subst hb. apply top_only_forallb, top_only_object. }
      destruct (bcls v) as [c|] eqn:Eb.
      + rewrite (I_cls_binst v c hb args Eb Eo).
        rewrite (forallb_ext_Forall _ (fun s => match reachF pep484 c hb with
                                                  | Some pm => lockstep pep484 mem s args pm
                                                  | None => false end)).
        * destruct (reachF pep484 c hb) as [pm|].
          -- apply lockstep_slices; [assumption|]. cbn [union_simple] in Hu.
             apply forallb_Forall in Hu. rewrite Forall_forall in *. intros a Ha. apply H; auto.
          -- apply forallb_const, slices_nonempty.
        * apply Forall_forall. intros s Hs. apply I_cls_binst; [|assumption].
          rewrite (bcls_same_top s v (slices_same_top v s Hs)). assumption.
      + rewrite (singleton_slices v Eb). simpl. apply andb_true_r.
    - cbn [union_simple] in Hu.
      destruct v as [sc|k vs|vs|ks vs|n|c|m o st]; try (simpl; reflexivity).
      + destruct (tupleof_free_coll k vs Hf) as [Hk _].
        assert (E : forall l, mem (TTuple ts) (VColl k l) = false) by (intro l; destruct k; try reflexivity; congruence).
        rewrite E. apply forallb_slices_const. intros s Hs. cbn [slices] in Hs.
        apply in_map_iff in Hs as [l [<- _]]. apply E.
      + simpl in Hf. cbn [slices]. rewrite forallb_map. unfold mem. cbn [inhabitsF].
        apply forall2b_slices; assumption.
      + apply forallb_slices_const. intros s Hs.
        pose proof (slices_same_top _ s Hs) as ST. inversion ST; reflexivity.
    - apply top_only_forallb, top_only_callable.
    - apply top_only_forallb, top_only_callable_any.
  Qed.
End SE.

