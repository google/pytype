(* C02, structural protocols (Match/Proto.v): _match_against_protocol is PEP 544 membership away from two named
   deviations (proto_match_is_pep544); the worlds on which the deviations and the examples are computed. *)
From Coq Require Import List Arith Bool.
From PV Require Import Match.Proofs Match.Proto.
Import ListNotations.

Lemma nmem_true_In : forall n l, nmem n l = true <-> In n l.
Proof.
  intros n l. unfold nmem. rewrite existsb_exists. split.
  - intros [x [H1 H2]]. apply Nat.eqb_eq in H2. subst. exact H1.
  - intros H. exists n. split; [exact H | apply Nat.eqb_refl].
Qed.

Lemma nmem_flat_map : forall {B} a (f : B -> list nat) l,
  nmem a (flat_map f l) = existsb (fun k => nmem a (f k)) l.
Proof.
  intros B a f. induction l as [|x l IH]; simpl; [reflexivity|].
  unfold nmem in *. rewrite existsb_app, IH. reflexivity.
Qed.

Lemma own_kind_names : forall p a,
  nmem a (own_names p) = match own_kind p a with Some _ => true | None => false end.
Proof.
  intros p a. unfold own_names, own_kind. induction (pc_own p) as [|e l IH]; simpl; [reflexivity|].
  rewrite (Nat.eqb_sym a (fst e)). destruct (Nat.eqb (fst e) a); simpl; [reflexivity | exact IH].
Qed.

(* Python attribute lookup finds something iff some class of the MRO defines the name *)
Lemma lookup_in_has : forall w mro a,
  existsb (fun k => nmem a (own_names (cls_of w k))) mro =
  match lookup_in w mro a with Some _ => true | None => false end.
Proof.
  intros w mro a. induction mro as [|k l IH]; simpl; [reflexivity|].
  rewrite own_kind_names. destruct (own_kind (cls_of w k) a); simpl; [reflexivity | exact IH].
Qed.

Lemma has_member_lookup : forall w c a,
  has_member w c a = match lookup w c a with Some _ => true | None => false end.
Proof. intros. unfold has_member, lookup. apply lookup_in_has. Qed.

Lemma attr_names_mem : forall w c a,
  nmem a (attr_names w c) =
  has_member w c a || (Nat.eqb a (w_iter w) && negb (has_member w c (w_iter w)) && has_member w c (w_getitem w)).
Proof.
  intros w c a. unfold attr_names, has_member. rewrite <- !nmem_flat_map.
  set (L := flat_map (fun k => own_names (cls_of w k)) (pc_mro (cls_of w c))).
  destruct (nmem (w_getitem w) L); destruct (nmem (w_iter w) L); cbn [andb negb];
    rewrite ?andb_false_r, ?andb_true_r, ?orb_false_r; try reflexivity.
  apply orb_comm.
Qed.

(* one protocol member: presence in the collected name set + _match_protocol_attribute  =  the member is
   provided with a compatible kind -- unless it is the implicit __iter__ *)
Lemma member_char : forall w nc c p a kp,
  lookup w p a = Some kp ->
  (Nat.eqb a (w_iter w) && negb (has_member w c (w_iter w)) && has_member w c (w_getitem w) = false) ->
  nmem a (attr_names w c) && attr_ok w nc c p a = member_ok w nc c p a.
Proof.
  intros w nc c p a kp Hp Hii. rewrite attr_names_mem, Hii, orb_false_r, has_member_lookup.
  unfold attr_ok, member_ok. rewrite Hp.
  destruct (lookup w c a) as [kl|]; [|reflexivity]. destruct kl, kp; reflexivity.
Qed.

(* MAIN (a): _match_against_protocol accepts an instance of c for the unparameterised protocol p  iff  c, with its
   inherited members, provides every protocol member with a compatible kind -- away from the two named deviations *)
Theorem proto_match_is_pep544 : forall w nc c p,
  pattrs_defined w p = true -> seq_map_hit w c p = false -> implicit_iter_hit w c p = false ->
  proto_match w nc c p = pep544 w nc c p.
Proof.
  intros w nc c p Hdef Hsm Hii. unfold proto_match, pep544. unfold seq_map_hit in Hsm. rewrite Hsm.
  unfold nsubset. rewrite <- forallb_andb. apply forallb_ext_Forall, Forall_forall. intros a Ha.
  unfold pattrs_defined in Hdef. rewrite forallb_forall in Hdef. specialize (Hdef a Ha).
  destruct (lookup w p a) as [kp|] eqn:Ep; [|discriminate].
  apply member_char with (kp := kp); [exact Ep|].
  destruct (Nat.eqb a (w_iter w)) eqn:Ea; [|reflexivity]. apply Nat.eqb_eq in Ea. subst a.
  unfold implicit_iter_hit in Hii. apply nmem_true_In in Ha. rewrite Ha in Hii. exact Hii.
Qed.

(* attribute ids: 0 __iter__, 1 __getitem__, 2 __len__, 3 m0;
   classes: 0 object; 1 Iterable (protocol, {__iter__}); 2 Sequence (protocol, {__getitem__, __len__});
            3 Mapping (protocol); 4 class G: __getitem__ only; 5 class M(Mapping): __getitem__, __len__ *)
Definition w0 : world :=
  {| w_cls := [ {| pc_mro := [0]; pc_own := []; pc_pbase := false; pc_fixed := None |};
                {| pc_mro := [1; 0]; pc_own := [(0, AMethod)]; pc_pbase := true; pc_fixed := Some [0] |};
                {| pc_mro := [2; 0]; pc_own := [(1, AMethod); (2, AMethod)]; pc_pbase := true; pc_fixed := Some [1; 2] |};
                {| pc_mro := [3; 0]; pc_own := [(1, AMethod); (2, AMethod); (0, AMethod)]; pc_pbase := true;
                   pc_fixed := Some [1; 2; 0] |};
                {| pc_mro := [4; 0]; pc_own := [(1, AMethod)]; pc_pbase := false; pc_fixed := None |};
                {| pc_mro := [5; 3; 0]; pc_own := [(1, AMethod); (2, AMethod)]; pc_pbase := false; pc_fixed := None |} ];
     w_iter := 0; w_getitem := 1; w_seq := 2; w_map := 3; w_compat := [] |}.

(* _init_protocol_attributes on an inheriting user protocol (computed example; the algorithm is tied to the code
   by correspondence) *)
(* 0 object {9}; 1 P0(Protocol) {3}; 2 P1(P0, Protocol) {4}; 3 PE(P1, Protocol) {} ; 4 Q(P0) {5}: not a protocol;
   5 K: m3 = None, m4 method; 6 L(K): m3 method  -- L overrides the None *)
Definition w1 : world :=
  {| w_cls := [ {| pc_mro := [0]; pc_own := [(9, AMethod)]; pc_pbase := false; pc_fixed := None |};
                {| pc_mro := [1; 0]; pc_own := [(3, AMethod)]; pc_pbase := true; pc_fixed := None |};
                {| pc_mro := [2; 1; 0]; pc_own := [(4, AMethod)]; pc_pbase := true; pc_fixed := None |};
                {| pc_mro := [3; 2; 1; 0]; pc_own := []; pc_pbase := true; pc_fixed := None |};
                {| pc_mro := [4; 1; 0]; pc_own := [(5, AMethod)]; pc_pbase := false; pc_fixed := None |};
                {| pc_mro := [5; 0]; pc_own := [(3, ANone); (4, AMethod)]; pc_pbase := false; pc_fixed := None |};
                {| pc_mro := [6; 5; 0]; pc_own := [(3, AMethod)]; pc_pbase := false; pc_fixed := None |} ];
     w_iter := 100; w_getitem := 101; w_seq := 102; w_map := 103; w_compat := [] |}.

