(* C02, Literal fragment (Match/Lit.v): what the matcher computes on it (matchL_char), that this is PEP 484 / PEP 586
   membership away from the deviations (inhabL_dev_free), and the lemma the return-site theorems are read off
   (error_lines). *)
From Coq Require Import List Arith Bool ZArith.
From PV Require Import Match.Model Match.Proofs Match.Lit.
Import ListNotations.

Section LtyInd.
  Variable P : lty -> Prop.
  Hypothesis HLit : forall l, P (LLit l).
  Hypothesis HBase : forall t, P (LBase t).
  Hypothesis HUnion : forall ts, Forall P ts -> P (LUnion ts).
  Hypothesis HTuple : forall ts, Forall P ts -> P (LTuple ts).
  Hypothesis HHom : forall t, P t -> P (LHom t).
  Hypothesis HSeq : forall h t, P t -> P (LSeq h t).
  Fixpoint lty_ind' (t : lty) : P t :=
    match t with
    | LLit l => HLit l
    | LBase t0 => HBase t0
    | LUnion ts => HUnion ts ((fix go (l : list lty) : Forall P l :=
                                 match l with [] => Forall_nil P | x :: r => Forall_cons x (lty_ind' x) (go r) end) ts)
    | LTuple ts => HTuple ts ((fix go (l : list lty) : Forall P l :=
                                 match l with [] => Forall_nil P | x :: r => Forall_cons x (lty_ind' x) (go r) end) ts)
    | LHom a => HHom a (lty_ind' a)
    | LSeq h a => HSeq h a (lty_ind' a)
    end.
End LtyInd.

Lemma forall2b_ext_wf {A B} (f g : A -> B -> bool) (w : B -> bool) ts :
  Forall (fun t => forall v, w v = true -> f t v = g t v) ts ->
  forall vs, forallb w vs = true -> forall2b f ts vs = forall2b g ts vs.
Proof.
  induction 1 as [|t ts Ht _ IH]; intros [|v vs] Hw; cbn [forall2b]; try reflexivity.
  cbn [forallb] in Hw. apply andb_true_iff in Hw as [Hv Hvs].
  rewrite (Ht v Hv), (IH vs Hvs). reflexivity.
Qed.

Lemma forallb_ext_wf {B} (f g : B -> bool) (w : B -> bool) vs :
  (forall v, w v = true -> f v = g v) -> forallb w vs = true -> forallb f vs = forallb g vs.
Proof.
  intros H Hw. apply forallb_ext_Forall. apply forallb_Forall in Hw. eapply Forall_impl; [|exact Hw]. exact H.
Qed.

Lemma forallb_both {A} (f g : A -> bool) l :
  forallb f l = true -> forallb g l = true -> forallb (fun x => f x && g x) l = true.
Proof. intros F G. rewrite forallb_andb, F, G. reflexivity. Qed.

Lemma existsb_ext_wf {B} (f g : B -> bool) (w : B -> bool) vs :
  (forall v, w v = true -> f v = g v) -> forallb w vs = true -> existsb f vs = existsb g vs.
Proof.
  intros H Hw. apply existsb_ext_Forall. apply forallb_Forall in Hw. eapply Forall_impl; [|exact Hw]. exact H.
Qed.

Lemma bmem_incl l1 l2 : forallb (fun b => bmem b l2) l1 = true -> forall b, bmem b l1 = true -> In b l2.
Proof.
  intros H b Hb. rewrite forallb_forall in H. apply bmem_In, H, bmem_In, Hb.
Qed.

Lemma seq_heads_heads h : bmem h seq_heads = true -> In h heads.
Proof. apply bmem_incl. reflexivity. Qed.

Lemma lscalars_vclasses c : bmem c lscalars = true -> In c vclasses.
Proof. apply bmem_incl. reflexivity. Qed.

Lemma lcls_vclasses v : wf_lval v = true -> In (lcls v) vclasses.
Proof.
  destruct v as [[z|b|n]| |c|vs|vs]; cbn [lcls lit_cls wf_lval]; intro H; try (apply bmem_In; reflexivity).
  apply lscalars_vclasses. assumption.
Qed.

Lemma reachF_pinst c h k rest :
  reachF pytype_devs c h = Some (PInst (CB k) :: rest) -> bmem k lscalars = true.
Proof.
  intros [G _]%reachF_pgood%andb_prop. destruct k; try discriminate G; reflexivity.
Qed.

Lemma top_value_slice v : is_slice (top_value v) = true.
Proof.
  destruct v as [[z|b|n]| |c|vs|vs]; cbn [top_value lcls lit_cls scalar_of_cls]; try reflexivity.
  destruct (scalar_of_cls c); reflexivity.
Qed.

Lemma top_value_wf tb v : wf_val tb (top_value v) = true.
Proof.
  destruct v as [[z|b|n]| |c|vs|vs]; cbn [top_value lcls lit_cls scalar_of_cls]; try reflexivity.
  destruct (scalar_of_cls c); reflexivity.
Qed.

(* characterisation: what the matcher computes on the Literal fragment *)

Theorem matchL_char tb : tok tb -> forall t, wf_lty tb t = true ->
  forall v, wf_lval v = true -> matchL tb t v = inhabL pytype_ldevs pytype_devs tb t v.
Proof.
  intros T. induction t using lty_ind'; intros Hwf v Hv; cbn [matchL inhabL]; cbn [wf_lty] in Hwf.
  - destruct v; reflexivity.
  - apply andb_true_iff in Hwf as [_ Hwf].
    apply (matchm_slice tb T t Hwf (top_value v) (top_value_slice v) (top_value_wf tb v)).
  - rewrite forallb_forall in Hwf.
    apply existsb_ext_Forall. rewrite Forall_forall in H |- *. intros o Ho. apply H; auto.
  - rewrite forallb_forall in Hwf.
    destruct v as [l| |c|vs|vs]; try reflexivity.
    apply forall2b_ext_wf with (w := wf_lval); [|exact Hv].
    rewrite Forall_forall in H |- *. intros o Ho w Hw. apply H; auto.
  - destruct v as [l| |c|vs|vs]; try reflexivity.
    apply forallb_ext_wf with (w := wf_lval); [|exact Hv]. intros w Hw. apply IHt; assumption.
  - apply andb_true_iff in Hwf as [Hwf Ha]. apply andb_true_iff in Hwf as [Hh _].
    pose proof (seq_heads_heads h Hh) as Hhh. pose proof (lcls_vclasses v Hv) as Hc.
    rewrite (tok_reach tb T _ _ Hc Hhh).
    destruct (reachF pytype_devs (lcls v) h) as [pm|] eqn:E.
    + destruct v as [l| |c|vs|vs].
      1-3: destruct pm as [|[i|[k|k]|] rest]; try reflexivity;
           apply IHt; [assumption|]; cbn [wf_lval]; exact (reachF_pinst _ _ _ _ E).
      * apply forallb_ext_wf with (w := wf_lval); [|exact Hv]. intros w Hw. apply IHt; assumption.
      * cbn [ld_list_any pytype_ldevs]. destruct vs as [|x xs]; [reflexivity|].
        apply existsb_ext_wf with (w := wf_lval); [|exact Hv]. intros w Hw. apply IHt; assumption.
    + apply (none_case_binst tb T (inst0 (CB (lcls v))) (lcls v) h Hc Hhh eq_refl eq_refl E).
Qed.


Lemma reachF_same c h :
  bname_beq h B_bool = false -> bname_beq h B_bytes = false -> reachF pytype_devs c h = reachF pep484 c h.
Proof.
  intros H1 H2. unfold reachF.
  destruct c; try reflexivity; destruct h; try reflexivity; discriminate.
Qed.

Lemma noniter_str_hit_bare d w h : noniter_str_hit d w (TCls (CB h) []) = false.
Proof.
  unfold noniter_str_hit. destruct (d_noniter_str d); [|reflexivity]. destruct w as [[]| | | | | |]; reflexivity.
Qed.

(* an unparameterised builtin formal sees the deviations through [reachF] only *)
Lemma inh_bare_same tb h w : bname_beq h B_bool = false -> bname_beq h B_bytes = false ->
  inhabitsF pytype_devs tb (TCls (CB h) []) w = inhabitsF pep484 tb (TCls (CB h) []) w.
Proof.
  intros H1 H2. cbn [inhabitsF]. destruct (bname_beq h B_object); [reflexivity|].
  destruct w; try reflexivity; rewrite !noniter_str_hit_bare; cbn [vclass];
    rewrite (reachF_same _ h H1 H2); reflexivity.
Qed.

Lemma base_dev_eq tb t0 v :
  lshallow t0 = true -> base_dev_free1 t0 = true ->
  inhabitsF pytype_devs tb t0 (top_value v) = inhabitsF pep484 tb t0 (top_value v).
Proof.
  intros Hs Hd. destruct t0 as [|ts|c args|ts|a r|r]; try discriminate; [reflexivity|].
  destruct args; [|discriminate].
  destruct c as [h|k].
  - cbn [base_dev_free1] in Hd. apply andb_prop in Hd as [H1%negb_true_iff H2%negb_true_iff].
    apply inh_bare_same; assumption.
  - destruct v as [[z|b|n]| |c|vs|vs]; cbn [top_value lcls lit_cls scalar_of_cls]; try reflexivity.
    destruct (scalar_of_cls c); reflexivity.
Qed.

Lemma lit_eq_pyeq c l : lit_is_bool c = false -> lit_is_bool l = false -> lit_pyeq c l = lit_eq c l.
Proof. destruct c, l; simpl; intros; try discriminate; reflexivity. Qed.

Theorem inhabL_dev_free tb : forall t, wf_lty tb t = true -> bool_free_ty t = true -> base_dev_free t = true ->
  forall v, bool_free_val v = true -> short_lists v = true ->
  inhabL pytype_ldevs pytype_devs tb t v = inhabL pep586 pep484 tb t v.
Proof.
  induction t using lty_ind'; intros Hwf Hb Hd v Hbv Hs;
    cbn [inhabL]; cbn [wf_lty] in Hwf; cbn [bool_free_ty] in Hb; cbn [base_dev_free] in Hd.
  - destruct v as [c| |c|vs|vs]; try reflexivity.
    cbn [ld_pyeq pytype_ldevs pep586]. cbn [bool_free_val] in Hbv.
    apply negb_true_iff in Hb. apply negb_true_iff in Hbv. apply lit_eq_pyeq; assumption.
  - apply andb_true_iff in Hwf as [Hsh _].
    apply base_dev_eq; assumption.
  - rewrite forallb_forall in Hwf, Hb, Hd.
    apply existsb_ext_Forall. rewrite Forall_forall in H |- *. intros o Ho. apply H; auto.
  - rewrite forallb_forall in Hwf, Hb, Hd.
    destruct v as [l| |c|vs|vs]; try reflexivity.
    cbn [bool_free_val] in Hbv. cbn [short_lists] in Hs.
    apply forall2b_ext_wf with (w := fun x => bool_free_val x && short_lists x); [|apply forallb_both; assumption].
    rewrite Forall_forall in H |- *. intros o Ho w [W1 W2]%andb_prop. apply H; auto.
  - destruct v as [l| |c|vs|vs]; try reflexivity.
    cbn [bool_free_val] in Hbv. cbn [short_lists] in Hs.
    apply forallb_ext_wf with (w := fun x => bool_free_val x && short_lists x); [|apply forallb_both; assumption].
    intros w [W1 W2]%andb_prop. apply IHt; auto.
  - apply andb_true_iff in Hwf as [Hwf Ha]. apply andb_true_iff in Hwf as [Hh _].
    assert (R : reachF pytype_devs (lcls v) h = reachF pep484 (lcls v) h).
    { apply reachF_same; apply bmem_In in Hh; simpl in Hh;
        repeat (destruct Hh as [Hh|Hh]; [subst; reflexivity|]); contradiction. }
    rewrite R. destruct (reachF pep484 (lcls v) h) as [pm|]; [|reflexivity].
    destruct v as [l| |c|vs|vs].
    1-3: destruct pm as [|[i|[k|k]|] rest]; try reflexivity; apply IHt; auto.
    + cbn [bool_free_val] in Hbv. cbn [short_lists] in Hs.
      apply forallb_ext_wf with (w := fun x => bool_free_val x && short_lists x); [|apply forallb_both; assumption].
      intros w [W1 W2]%andb_prop. apply IHt; auto.
    + cbn [ld_list_any pytype_ldevs pep586]. cbn [bool_free_val] in Hbv. cbn [short_lists] in Hs.
      apply andb_true_iff in Hs as [Hlen Hs].
      destruct vs as [|x [|y ys]]; [reflexivity| |simpl in Hlen; discriminate].
      cbn [existsb forallb]. rewrite orb_false_r, andb_true_r.
      cbn [forallb] in Hbv, Hs. rewrite andb_true_r in Hbv, Hs. apply IHt; auto.
Qed.

Lemma negb_forallb {A} (f : A -> bool) l : negb (forallb f l) = existsb (fun x => negb (f x)) l.
Proof.
  induction l as [|x l IH]; cbn [forallb existsb]; [reflexivity|]. rewrite negb_andb, IH. reflexivity.
Qed.

(* The three return-site theorems of Props/C02.v are this: a statement is in error iff one of its bindings is,
   and a binding is in error iff it is not a member. *)
Lemma error_lines {S W} (line : S -> nat) (vals : S -> list W) (err : S -> bool) (bad ok : W -> bool) body :
  (forall s, err s = existsb bad (vals s)) ->
  (forall s v, In s body -> In v (vals s) -> bad v = negb (ok v)) ->
  forall l, In l (map line (filter err body)) <->
            exists s, In s body /\ line s = l /\ exists v, In v (vals s) /\ ok v = false.
Proof.
  intros He Hb l. rewrite in_map_iff. split.
  - intros [s [Hl [Hin Hs]%filter_In]]. rewrite He in Hs. apply existsb_exists in Hs as [v [Hv Ev]].
    exists s. repeat split; auto. exists v. split; [assumption|].
    rewrite (Hb s v Hin Hv) in Ev. apply negb_true_iff, Ev.
  - intros [s [Hin [Hl [v [Hv Ev]]]]]. exists s. split; [assumption|]. apply filter_In. split; [assumption|].
    rewrite He. apply existsb_exists. exists v. split; [assumption|]. rewrite (Hb s v Hin Hv), Ev. reflexivity.
Qed.

