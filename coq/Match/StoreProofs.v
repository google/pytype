(* C02, assignment site: the checks of Match/Store.v against its specification, event by event and frame by frame. *)
From Coq Require Import List Arith Bool.
From PV Require Import Match.Store.
Import ListNotations.

Section Proofs.
Variable T : Type.

(* the recorded annotations agree with the declared ones on every name that is not an explicit global *)
Definition recorded_ok (kn : nat -> skind) (st sp : env T) : Prop :=
  forall x, is_global (kn x) = false -> lookup st x = lookup sp x.

Lemma lookup_cons : forall (e : env T) x y t,
  lookup ((y, t) :: e) x = if Nat.eqb y x then Some t else lookup e x.
Proof. intros. unfold lookup. simpl. destruct (Nat.eqb y x); reflexivity. Qed.

Lemma step_agree : forall kn st sp (e : ev T), recorded_ok kn st sp ->
  recorded_ok kn (fst (chk_ev kn st e)) (fst (spec_ev sp e)).
Proof.
  intros kn st sp e H. destruct e as [x t hv | x | x | x]; simpl; auto.
  intros y Hy. destruct (is_global (kn x)) eqn:Ex.
  - rewrite lookup_cons. destruct (Nat.eqb x y) eqn:Exy.
    + apply Nat.eqb_eq in Exy. subst. congruence.
    + apply H. exact Hy.
  - rewrite !lookup_cons. destruct (Nat.eqb x y); [reflexivity | apply H; exact Hy].
Qed.

Lemma step_out : forall kn st sp (e : ev T), recorded_ok kn st sp -> own_nonglobal kn e = true ->
  snd (chk_ev kn st e) = snd (spec_ev sp e).
Proof.
  intros kn st sp e H Ho. destruct e as [x t hv | x | x | x]; simpl in *; auto.
  - apply negb_true_iff in Ho. rewrite Ho. apply H. exact Ho.
  - discriminate.
Qed.

Lemma checks_spec_from : forall kn evs st sp i e, recorded_ok kn st sp ->
  nth_error evs i = Some e -> own_nonglobal kn e = true ->
  nth_error (checks_from kn st evs) i = nth_error (spec_from sp evs) i.
Proof.
  intros kn. induction evs as [|e0 evs IH]; intros st sp i e H Hn Ho.
  - destruct i; discriminate.
  - destruct i as [|i]; simpl in *.
    + inversion Hn. subst e0. f_equal. apply step_out; assumption.
    + apply IH with (e := e); auto. apply step_agree. exact H.
Qed.

Lemma frame_exact_from : forall kn (evs : list (ev T)) st sp, recorded_ok kn st sp ->
  forallb (own_nonglobal kn) evs = true -> checks_from kn st evs = spec_from sp evs.
Proof.
  intros kn. induction evs as [|e evs IH]; intros st sp H Ho; [reflexivity|].
  simpl in *. apply andb_prop in Ho as [Ho1 Ho2]. f_equal.
  - apply step_out; assumption.
  - apply IH; [apply step_agree|]; assumption.
Qed.

End Proofs.

