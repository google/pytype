(* C02: the annotations, values and return bodies of the Literal-fragment examples of Props/C02.v. *)
From Coq Require Import List Arith Bool ZArith.
From PV Require Import Match.Model Match.Lit Match.Witnesses Generated.C02_Builtins.
Import ListNotations.

Definition Li (z : Z) : lty := LLit (LInt z).
Definition Ci (z : Z) : lval := LC (LInt z).

(* the hypotheses of literal_exact_partial as a boolean, and the annotations literal_hyps_hold (Props/C02.v) checks
   them on: Optional[Union[Literal[1, 2], Optional[Literal["a"]]]], Tuple[Literal[1], str],
   Sequence[Literal["a", "b"]] *)
Definition hypsL (v : lval) (t : lty) : bool :=
  table_ok tb0 && wf_lty tb0 t && wf_lval v && bool_free_ty t && bool_free_val v && short_lists v && base_dev_free t.
Definition optL (t : lty) : lty := LUnion [t; LBase NoneT].
Definition ex_lt1 : lty := optL (LUnion [LUnion [Li 1; Li 2]; optL (LLit (LStr 0))]).
Definition ex_lt2 : lty := LTuple [Li 1; LBase (Cb B_str [])].
Definition ex_lt3 : lty := LSeq B_t_Sequence (LUnion [LLit (LStr 0); LLit (LStr 1)]).

(* return site: three return statements, the last two return a variable with two bindings *)
Definition ex_body : list lret_stmt :=
  [{| lrs_line := 3; lrs_vals := [Ci 1] |}; {| lrs_line := 5; lrs_vals := [Ci 2; Ci 7] |};
   {| lrs_line := 7; lrs_vals := [Ci 7; Ci 1] |}].
Definition ex_rbody : list ret_stmt :=
  [{| rs_line := 3; rs_vals := [VColl KList [Int]] |};
   {| rs_line := 5; rs_vals := [VColl KList [Int]; VColl KList [Int; Str]] |}].
