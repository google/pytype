(* C09 proofs, part 2: the Python-level CFG operations refine Reach.v, the state invariant of the variable
   tables, Variable::Prune = reaching definitions, termination of its loop, and the single-binding shortcut. *)
From Coq Require Import List NArith Arith Bool Lia Relations.
From PV Require Import Typegraph.Reach Typegraph.ReachProofs Typegraph.Prune.
Import ListNotations.

Lemma updf_length {A} i (f : A -> A) l : length (updf i f l) = length l.
Proof. revert i; induction l; intros [|i]; simpl; auto. Qed.

Lemma nth_updf {A} i k (f : A -> A) l d :
  nth k (updf i f l) d = if Nat.eqb i k then (if Nat.ltb k (length l) then f (nth k l d) else d) else nth k l d.
Proof.
  revert i k; induction l as [|h t IH]; intros [|i] [|k]; simpl; auto.
  - destruct (Nat.eqb i k); reflexivity.
  - rewrite IH. destruct (Nat.eqb i k); [|reflexivity].
    change (S k <? S (length t)) with (k <? length t). reflexivity.
Qed.

Lemma Forall_updf {A} (P : A -> Prop) i f l : Forall P l -> (forall x, P x -> P (f x)) -> Forall P (updf i f l).
Proof.
  intros H Hf; revert i; induction H; intros [|i]; simpl; constructor; auto.
Qed.

Lemma mem_In x l : mem x l = true <-> In x l.
Proof.
  unfold mem. rewrite existsb_exists. split.
  - intros [y [Hy He]]. apply Nat.eqb_eq in He. subst. exact Hy.
  - intro H. exists x. split; [exact H|apply Nat.eqb_refl].
Qed.
Lemma mem_false x l : mem x l = false <-> ~ In x l.
Proof. rewrite <- mem_In. destruct (mem x l); split; intros; try discriminate; auto; exfalso; auto. Qed.

(* what prune_walk pushes: the predecessors not yet seen *)
Lemma In_unseen sn l y : In y (rev (filter (fun x => negb (mem x sn)) l)) <-> In y l /\ ~ In y sn.
Proof. rewrite <- in_rev, filter_In, negb_true_iff, mem_false. reflexivity. Qed.

Lemma sset_insert_In b l x : In x (sset_insert b l) <-> In x (b :: l).
Proof.
  induction l as [|h t IH]; cbn [sset_insert]; [reflexivity|].
  destruct (Nat.ltb b h); [reflexivity|].
  destruct (Nat.eqb_spec b h) as [->|_]; simpl.
  - split; [auto|]. intros [H|H]; [left|]; exact H.
  - rewrite IH. simpl. split; intros [H|[H|H]]; auto.
Qed.

Lemma sset_insert_nonnil b l : sset_insert b l <> [].
Proof. destruct l as [|h t]; simpl; [discriminate|]. destruct (Nat.ltb b h); [discriminate|]. destruct (Nat.eqb b h); discriminate. Qed.

Lemma nodemap_find_register n b m k :
  nodemap_find k (nodemap_register n b m) =
  if Nat.eqb k n then Some (sset_insert b (match nodemap_find n m with Some bs => bs | None => [] end))
  else nodemap_find k m.
Proof.
  induction m as [|[k0 bs] t IH]; simpl.
  - rewrite (Nat.eqb_sym n k). destruct (Nat.eqb k n); reflexivity.
  - destruct (Nat.eqb k0 n) eqn:E0; simpl.
    + apply Nat.eqb_eq in E0. subst k0. rewrite (Nat.eqb_sym n k). destruct (Nat.eqb k n); reflexivity.
    + destruct (Nat.eqb k0 k) eqn:E1.
      * apply Nat.eqb_eq in E1. subst k0. rewrite E0. reflexivity.
      * exact IH.
Qed.

Lemma nodemap_find_In n m bs : nodemap_find n m = Some bs -> In (n, bs) m.
Proof.
  induction m as [|[k b] t IH]; simpl; [discriminate|].
  destruct (Nat.eqb k n) eqn:E.
  - apply Nat.eqb_eq in E. intro H. inversion H. subst. left. reflexivity.
  - intro H. right. auto.
Qed.
Lemma nodemap_In_find n m bs : In (n, bs) m -> exists bs', nodemap_find n m = Some bs'.
Proof.
  induction m as [|[k b] t IH]; simpl; [intros []|].
  intros [H|H].
  - inversion H. subst. rewrite Nat.eqb_refl. eauto.
  - destruct (Nat.eqb k n); eauto.
Qed.

Lemma add_results_In bs : forall r b, In b (add_results bs r) <-> In b r \/ In b bs.
Proof.
  unfold add_results. induction bs as [|h t IH]; intros r b; simpl.
  - split; [auto|]. intros [H|[]]. exact H.
  - rewrite IH. destruct (mem h r) eqn:E.
    + apply mem_In in E. split; [intros [H|H]; auto|]. intros [H|[<-|H]]; auto.
    + rewrite in_app_iff. simpl. split; [intros [[H|[H|[]]]|H]; auto|]. intros [H|[H|H]]; auto.
Qed.
Lemma NoDup_snoc {A} (r : list A) h : NoDup r -> ~ In h r -> NoDup (r ++ [h]).
Proof. intros Hr Hn. apply (NoDup_Add (Add_app h r [])). rewrite app_nil_r. split; assumption. Qed.
Lemma add_results_NoDup bs : forall r, NoDup r -> NoDup (add_results bs r).
Proof.
  unfold add_results. induction bs as [|h t IH]; intros r Hr; simpl; [exact Hr|].
  apply IH. destruct (mem h r) eqn:E; [exact Hr|].
  apply mem_false in E. apply NoDup_snoc; auto.
Qed.

Section Walk.
Variable inc : list (list nat).
Variable m : list (nat * list nat).
Variable n : nat.

(* x is reached by the backward walk from n: n itself, or a predecessor of a reached node that carries no
   binding of the variable *)
Inductive bw : nat -> Prop :=
| bw_refl : bw n
| bw_step x y : bw x -> nodemap_find x m = None -> In y (nth x inc []) -> bw y.

Record WI (stack seen result : list nat) : Prop := {
  wi_sound : forall x, In x stack \/ In x seen -> bw x;
  wi_start : In n seen \/ In n stack;
  wi_closed : forall x, In x seen -> nodemap_find x m = None ->
              forall y, In y (nth x inc []) -> In y seen \/ In y stack;
  wi_result : forall b, In b result <-> exists x bs, In x seen /\ nodemap_find x m = Some bs /\ In b bs;
  wi_nodup : NoDup result
}.

Lemma WI_init : WI [n] [] [].
Proof.
  constructor.
  - intros x [[<-|[]]|[]]. apply bw_refl.
  - right. left. reflexivity.
  - intros x [].
  - intro b. split; [intros []|]. intros [x [bs [[] _]]].
  - constructor.
Qed.

Lemma WI_step_some node rest seen result bs :
  WI (node :: rest) seen result -> nodemap_find node m = Some bs ->
  WI rest (node :: seen) (add_results bs result).
Proof.
  intros [H1 H2 H3 H4 H5] Hf. constructor.
  - intros x [H|[<-|H]]; apply H1; simpl; auto.
  - destruct H2 as [H|[<-|H]]; simpl; auto.
  - intros x [<-|Hx] Hn y Hy.
    + rewrite Hf in Hn. discriminate.
    + destruct (H3 x Hx Hn y Hy) as [H|[<-|H]]; simpl; auto.
  - intro b. rewrite add_results_In, H4. split.
    + intros [[x [bs' [Hx [Hb Hi]]]]|H].
      * exists x, bs'. simpl. auto.
      * exists node, bs. simpl. auto.
    + intros [x [bs' [[<-|Hx] [Hb Hi]]]].
      * right. rewrite Hf in Hb. inversion Hb. subst. exact Hi.
      * left. exists x, bs'. auto.
  - apply add_results_NoDup. exact H5.
Qed.

Lemma WI_step_none node rest seen result :
  WI (node :: rest) seen result -> nodemap_find node m = None ->
  WI (rev (filter (fun x => negb (mem x (node :: seen))) (nth node inc [])) ++ rest) (node :: seen) result.
Proof.
  intros [H1 H2 H3 H4 H5] Hf. constructor.
  - intros x [H|[<-|H]].
    + apply in_app_or in H. destruct H as [H|H].
      * apply In_unseen in H. eapply bw_step; [|exact Hf|apply H]. apply H1. simpl. auto.
      * apply H1. simpl. auto.
    + apply H1. simpl. auto.
    + apply H1. auto.
  - destruct H2 as [H|[<-|H]]; simpl; auto. right. apply in_or_app. auto.
  - (* a predecessor is seen already, or pushed now, or was on the stack below node *)
    intros x Hx Hn y Hy. destruct (mem y (node :: seen)) eqn:E; [left; apply mem_In, E|right].
    apply mem_false in E. apply in_or_app. destruct Hx as [<-|Hx].
    + left. apply In_unseen. split; assumption.
    + destruct (H3 x Hx Hn y Hy) as [H|[<-|H]].
      * elim E. right. exact H.
      * elim E. left. reflexivity.
      * right. exact H.
  - intro b. rewrite H4. split; intros [x [bs [Hx [Hb Hi]]]].
    + exists x, bs. simpl. auto.
    + destruct Hx as [<-|Hx]; [rewrite Hf in Hb; discriminate|]. exists x, bs. auto.
  - exact H5.
Qed.

Lemma WI_final seen result : WI [] seen result ->
  NoDup result /\ forall b, In b result <-> exists x bs, bw x /\ nodemap_find x m = Some bs /\ In b bs.
Proof.
  intros [H1 H2 H3 H4 H5]. split; [exact H5|].
  assert (Hall : forall x, bw x -> In x seen).
  { induction 1 as [|x y Hx IH Hn Hy].
    - destruct H2 as [H|[]]. exact H.
    - destruct (H3 x IH Hn y Hy) as [H|[]]. exact H. }
  intro b. rewrite H4. split; intros [x [bs [Hx Hr]]]; exists x, bs; split; auto.
Qed.

Lemma prune_walk_sound fuel : forall stack seen result r,
  WI stack seen result -> prune_walk fuel inc m stack seen result = Some r ->
  NoDup r /\ forall b, In b r <-> exists x bs, bw x /\ nodemap_find x m = Some bs /\ In b bs.
Proof.
  induction fuel as [|f IH]; intros stack seen result r HW Hr.
  - destruct stack; simpl in Hr; [|discriminate]. inversion Hr. subst. apply WI_final with seen. exact HW.
  - destruct stack as [|node rest]; simpl in Hr.
    + inversion Hr. subst. apply WI_final with seen. exact HW.
    + destruct (nodemap_find node m) as [bs|] eqn:Hf.
      * eapply IH; [|exact Hr]. apply WI_step_some; assumption.
      * eapply IH; [|exact Hr]. apply WI_step_none; assumption.
Qed.

(* termination: the stack discipline makes a second pop of a node push nothing *)
Definition LIFO (stack seen : list nat) : Prop :=
  forall x, In x seen -> nodemap_find x m = None ->
  forall y, In y (nth x inc []) -> ~ In y seen ->
  forall pre post, stack = pre ++ x :: post -> In y pre.

Lemma split_push (pushed rest pre post : list nat) x :
  pushed ++ rest = pre ++ x :: post -> ~ In x pushed ->
  exists pre', pre = pushed ++ pre' /\ rest = pre' ++ x :: post.
Proof.
  revert pre. induction pushed as [|h t IH]; intros pre He Hn; simpl in *.
  - exists pre. auto.
  - destruct pre as [|p pre]; simpl in He; inversion He; subst.
    + exfalso. apply Hn. left. reflexivity.
    + destruct (IH pre H1) as [pre' [-> ->]]; [intro; apply Hn; right; assumption|].
      exists pre'. auto.
Qed.

Lemma LIFO_init : LIFO [n] [].
Proof. intros x []. Qed.

(* an entry below the top of the stack keeps its unseen predecessors above it when the top is popped *)
Lemma LIFO_tail node rest seen x y pre post :
  LIFO (node :: rest) seen -> In x seen -> nodemap_find x m = None ->
  In y (nth x inc []) -> ~ In y (node :: seen) -> rest = pre ++ x :: post -> In y pre.
Proof.
  intros HL Hx Hn Hy Hys ->.
  destruct (HL x Hx Hn y Hy (fun H => Hys (or_intror H)) (node :: pre) post eq_refl) as [<-|H]; [|exact H].
  elim Hys. left. reflexivity.
Qed.

Lemma LIFO_step_some node rest seen :
  LIFO (node :: rest) seen -> nodemap_find node m <> None -> LIFO rest (node :: seen).
Proof.
  intros HL Hf x [<-|Hx] Hn y Hy Hys pre post He; [contradiction|].
  exact (LIFO_tail _ _ _ _ _ _ _ HL Hx Hn Hy Hys He).
Qed.

Lemma LIFO_step_none node rest seen :
  LIFO (node :: rest) seen -> nodemap_find node m = None ->
  LIFO (rev (filter (fun x => negb (mem x (node :: seen))) (nth node inc [])) ++ rest) (node :: seen).
Proof.
  intros HL Hf x Hx Hn y Hy Hys pre post He.
  set (pushed := rev (filter (fun x => negb (mem x (node :: seen))) (nth node inc []))) in *.
  assert (Hxp : ~ In x pushed) by (intro H; apply In_unseen in H; apply H, Hx).
  destruct (split_push pushed rest pre post x He Hxp) as [pre' [-> Hrest]].
  apply in_or_app. destruct Hx as [<-|Hx].
  - left. apply In_unseen. split; assumption.
  - right. exact (LIFO_tail _ _ _ _ _ _ _ HL Hx Hn Hy Hys Hrest).
Qed.

(* a node popped again (already in seen, no binding) has no unseen predecessor left *)
Lemma LIFO_repop node rest seen :
  LIFO (node :: rest) seen -> In node seen -> nodemap_find node m = None ->
  filter (fun x => negb (mem x (node :: seen))) (nth node inc []) = [].
Proof.
  intros HL Hs Hf.
  destruct (filter _ _) as [|y t] eqn:E; [reflexivity|exfalso].
  assert (Hy : In y (y :: t)) by (left; reflexivity). rewrite <- E in Hy.
  apply in_rev, In_unseen in Hy. destruct Hy as [Hy Hm].
  exact (HL node Hs Hf y Hy (fun H => Hm (or_intror H)) [] rest eq_refl).
Qed.

Notation wsum seen := (walk_weight inc seen).

Lemma filter_len_le {A} (f : A -> bool) l : length (filter f l) <= length l.
Proof. induction l as [|h t IH]; simpl; [lia|]. destruct (f h); simpl; lia. Qed.

Lemma list_sum_le {A} (f g : A -> nat) l : (forall x, In x l -> f x <= g x) -> list_sum (map f l) <= list_sum (map g l).
Proof.
  induction l as [|h t IH]; simpl; intro H; [lia|].
  pose proof (H h (or_introl eq_refl)). assert (list_sum (map f t) <= list_sum (map g t)) by (apply IH; intros; apply H; right; assumption). lia.
Qed.

Lemma list_sum_drop (f g : nat -> nat) l x c :
  NoDup l -> In x l -> g x + c = f x -> (forall y, y <> x -> g y = f y) ->
  list_sum (map g l) + c = list_sum (map f l).
Proof.
  intros Hnd Hin Hx Hy. induction Hnd as [|h t Hh Ht IH]; [destruct Hin|]. simpl.
  destruct Hin as [->|Hin].
  - rewrite <- Hx, Nat.add_shuffle0. f_equal. f_equal.
    apply map_ext_in. intros y Hyt. apply Hy. intro. subst. contradiction.
  - rewrite (Hy h), <- (IH Hin) by (intro; subst; contradiction). symmetry. apply Nat.add_assoc.
Qed.

Lemma wsum_le x seen : wsum (x :: seen) <= wsum seen.
Proof.
  unfold walk_weight. apply list_sum_le. intros y _. unfold mem. simpl.
  destruct (Nat.eqb y x); simpl; [lia|]. destruct (existsb (Nat.eqb y) seen); lia.
Qed.

Lemma wsum_drop x seen : x < length inc -> ~ In x seen ->
  wsum (x :: seen) + S (length (nth x inc [])) = wsum seen.
Proof.
  intros Hx Hs. unfold walk_weight. apply list_sum_drop with (x := x).
  - apply seq_NoDup.
  - apply in_seq. lia.
  - apply mem_false in Hs. rewrite Hs. simpl. rewrite Nat.eqb_refl. reflexivity.
  - intros y Hy. simpl. apply Nat.eqb_neq in Hy. rewrite Hy. reflexivity.
Qed.

Hypothesis inc_bound : forall x y, In y (nth x inc []) -> y < length inc.

Lemma prune_walk_terminates fuel : forall stack seen result,
  LIFO stack seen -> (forall x, In x stack -> x < length inc) ->
  length stack + wsum seen <= fuel ->
  prune_walk fuel inc m stack seen result <> None.
Proof.
  induction fuel as [|f IH]; intros stack seen result HL Hb Hf.
  - destruct stack; simpl in *; [discriminate|lia].
  - destruct stack as [|node rest]; cbn [prune_walk]; [discriminate|].
    destruct (nodemap_find node m) as [bs|] eqn:Hm.
    + apply IH.
      * apply LIFO_step_some; [exact HL|congruence].
      * intros; apply Hb; right; assumption.
      * pose proof (wsum_le node seen) as Hw. simpl in Hf. clear -Hf Hw. lia.
    + assert (Hbound : forall x, In x (rev (filter (fun x => negb (mem x (node :: seen))) (nth node inc [])) ++ rest) ->
                       x < length inc).
      { intros x Hx. apply in_app_or in Hx. destruct Hx as [Hx|Hx]; [|apply Hb; right; assumption].
        apply In_unseen in Hx. eapply inc_bound. apply Hx. }
      destruct (in_dec Nat.eq_dec node seen) as [Hs|Hs].
      * rewrite (LIFO_repop node rest seen HL Hs Hm) in *.
        apply IH.
        -- pose proof (LIFO_step_none node rest seen HL Hm) as H.
           rewrite (LIFO_repop node rest seen HL Hs Hm) in H. exact H.
        -- intros; apply Hb; right; assumption.
        -- pose proof (wsum_le node seen) as Hw. cbn [rev app length] in *. clear -Hf Hw. lia.
      * apply IH.
        -- apply LIFO_step_none; assumption.
        -- exact Hbound.
        -- pose proof (wsum_drop node seen (Hb node (or_introl eq_refl)) Hs) as Hw.
           rewrite app_length, rev_length.
           pose proof (filter_len_le (fun x => negb (mem x (node :: seen))) (nth node inc [])) as Hl.
           cbn [length] in Hf. clear -Hf Hw Hl. lia.
Qed.

End Walk.

(* cfg_node_to_bindings_ of a variable is exactly "which bindings have an origin at this node" *)
Record VInv (nn : nat) (pv : pvar) : Prop := {
  vi_some : forall n bs, nodemap_find n (pv_nodemap pv) = Some bs ->
     n < nn /\ bs <> [] /\
     forall b, In b bs <-> exists pb, In pb (pv_bindings pv) /\ pb_id pb = b /\ In n (pb_origins pb);
  vi_none : forall n, nodemap_find n (pv_nodemap pv) = None ->
     forall pb, In pb (pv_bindings pv) -> ~ In n (pb_origins pb)
}.

Record PInv (s : pstate) (E : list (nat * nat)) : Prop := {
  pi_reach : Inv (ps_prog s) E;
  pi_inc_len : length (ps_incoming s) = nodes (ps_prog s);
  pi_inc : forall a b, In a (nth b (ps_incoming s) []) <-> (a <> b /\ In (a, b) E);
  pi_vars : Forall (VInv (nodes (ps_prog s))) (ps_vars s)
}.

Lemma VInv_mono nn nn' pv : nn <= nn' -> VInv nn pv -> VInv nn' pv.
Proof.
  intros Hle [H1 H2]. constructor; [|exact H2].
  intros n bs Hf. destruct (H1 n bs Hf) as [? [? ?]]. split; [lia|]. split; assumption.
Qed.

Lemma VInv_pvar0 nn : VInv nn pvar0.
Proof. constructor; simpl; [discriminate|]. intros _ _ pb []. Qed.

Lemma VInv_add_binding nn pv b d :
  VInv nn pv -> VInv nn (mkPV (pv_bindings pv ++ [mkPB b d []]) (pv_nodemap pv)).
Proof.
  intros [H1 H2]. constructor; simpl.
  - intros n bs Hf. destruct (H1 n bs Hf) as [Hn [Hne Hb]]. repeat split; auto.
    + intro Hi. apply Hb in Hi. destruct Hi as [pb [Hp Hr]]. exists pb. split; [apply in_or_app; auto|exact Hr].
    + intros [pb [Hp [Hid Ho]]]. apply in_app_or in Hp. destruct Hp as [Hp|[<-|[]]]; [|destruct Ho].
      apply Hb. exists pb. auto.
  - intros n Hf pb Hp. apply in_app_or in Hp. destruct Hp as [Hp|[<-|[]]]; [apply H2; assumption|intros []].
Qed.

Lemma VInv_foao_var nn pv b n : n < nn -> VInv nn pv -> VInv nn (foao_var b n pv).
Proof.
  intros Hn HV. unfold foao_var.
  destruct (find (fun pb => Nat.eqb (pb_id pb) b) (pv_bindings pv)) as [pb0|] eqn:Hfind; [|exact HV].
  destruct (existsb (Nat.eqb n) (pb_origins pb0)); [exact HV|].
  apply find_some in Hfind. destruct Hfind as [Hin0 Hid0]. apply Nat.eqb_eq in Hid0.
  destruct HV as [H1 H2].
  set (upd1 := fun x : pbind => if Nat.eqb (pb_id x) b then mkPB (pb_id x) (pb_data x) (pb_origins x ++ [n]) else x).
  assert (Hid : forall x, pb_id (upd1 x) = pb_id x).
  { intro x. unfold upd1. destruct (Nat.eqb (pb_id x) b); reflexivity. }
  assert (Hor : forall x k, In k (pb_origins (upd1 x)) <-> In k (pb_origins x) \/ (pb_id x = b /\ k = n)).
  { intros x k. unfold upd1. destruct (Nat.eqb_spec (pb_id x) b) as [E|E]; simpl.
    - rewrite in_app_iff. simpl. split; [intros [H|[<-|[]]]; auto|]. intros [H|[_ ->]]; auto.
    - split; [auto|]. intros [H|[H _]]; [exact H|contradiction]. }
  (* the bindings that have an origin at k: as before, and b at n *)
  assert (Hnew : forall k b', (exists pb, In pb (map upd1 (pv_bindings pv)) /\ pb_id pb = b' /\ In k (pb_origins pb)) <->
                              (exists pb, In pb (pv_bindings pv) /\ pb_id pb = b' /\ In k (pb_origins pb)) \/
                              (k = n /\ b' = b)).
  { intros k b'. split.
    - intros [pb' [Hp [Hi Ho]]]. apply in_map_iff in Hp. destruct Hp as [pb [<- Hp]].
      rewrite Hid in Hi. apply Hor in Ho. destruct Ho as [Ho|[Hb ->]]; [left; exists pb; auto|right].
      split; congruence.
    - intros [[pb [Hp [Hi Ho]]]|[-> ->]].
      + exists (upd1 pb). rewrite Hid, Hor. auto using in_map.
      + exists (upd1 pb0). rewrite Hid, Hor. auto using in_map. }
  constructor; cbn [pv_bindings pv_nodemap]; intro k; rewrite nodemap_find_register;
    destruct (Nat.eqb_spec k n) as [->|Ek].
  - intros bs [= <-]. split; [exact Hn|]. split; [apply sset_insert_nonnil|].
    intro b'. rewrite sset_insert_In, Hnew. simpl.
    destruct (nodemap_find n (pv_nodemap pv)) as [bs0|] eqn:Hf0.
    + rewrite (proj2 (proj2 (H1 n bs0 Hf0)) b'). split; [intros [<-|H]; auto|]. intros [H|[_ ->]]; auto.
    + split; [intros [<-|[]]; auto|]. intros [[pb [Hp [_ Ho]]]|[_ ->]]; [elim (H2 n Hf0 pb Hp Ho)|auto].
  - intros bs Hf. destruct (H1 k bs Hf) as [Hk [Hne Hb]]. split; [exact Hk|]. split; [exact Hne|].
    intro b'. rewrite Hb, Hnew. split; [auto|]. intros [H|[Hk' _]]; [exact H|contradiction].
  - discriminate.
  - intros Hf pb' Hp Ho. destruct (proj1 (Hnew k (pb_id pb'))) as [[pb [Hpb [_ Hko]]]|[Hk' _]].
    + exists pb'. auto.
    + exact (H2 k Hf pb Hpb Hko).
    + contradiction.
Qed.

Lemma VInv_origin_lt nn pv pb n : VInv nn pv -> In pb (pv_bindings pv) -> In n (pb_origins pb) -> n < nn.
Proof.
  intros [H1 H2] Hp Ho. destruct (nodemap_find n (pv_nodemap pv)) as [bs|] eqn:Hf.
  - apply (H1 n bs Hf).
  - exfalso. exact (H2 n Hf pb Hp Ho).
Qed.

Lemma VInv_get_var s E v : PInv s E -> VInv (nodes (ps_prog s)) (get_var s v).
Proof.
  intros [_ _ _ H]. unfold get_var. destruct (Nat.lt_ge_cases v (length (ps_vars s))) as [Hv|Hv].
  - eapply Forall_forall; [exact H|]. apply nth_In. exact Hv.
  - rewrite nth_overflow by exact Hv. apply VInv_pvar0.
Qed.

(* every primitive preserves the invariant; the variable primitives leave the CFG alone *)
Definition OK (s : pstate) (E : list (nat * nat)) (s' : pstate) : Prop := PInv s' E /\ ps_prog s' = ps_prog s.

Lemma OK_refl s E : PInv s E -> OK s E s.
Proof. intro. split; auto. Qed.
Lemma OK_trans s E s1 s2 : OK s E s1 -> OK s1 E s2 -> OK s E s2.
Proof. intros [H1 H2] [H3 H4]. split; [exact H3|congruence]. Qed.

Lemma PInv_new_node s E : PInv s E -> PInv (py_new_node s) E.
Proof.
  intros [H1 H2 H3 H4]. constructor; simpl.
  - apply Inv_new_node. exact H1.
  - rewrite app_length. simpl. unfold nodes in *. simpl. lia.
  - intros a b. rewrite nth_snoc_default. apply H3.
  - eapply Forall_impl; [|exact H4]. intros pv. apply VInv_mono. unfold nodes. simpl. lia.
Qed.

(* an edge that ConnectTo skips (self edge, duplicate) changes neither the program nor the incoming lists *)
Lemma PInv_redundant_edge s E a b : PInv s E -> a = b \/ In (a, b) E ->
  a < nodes (ps_prog s) -> b < nodes (ps_prog s) -> PInv s ((a, b) :: E).
Proof.
  intros [H1 H2 H3 H4] Hab Ha Hb. constructor; auto.
  - apply Inv_redundant_edge; auto. destruct Hab as [->|Hin]; [apply rt_refl|apply rt_step, Hin].
  - intros x y. rewrite H3. simpl. split; [intros [? ?]; auto|].
    intros [Hne [[= <- <-]|Hi]]; [|auto]. destruct Hab as [Heq|Hin]; [contradiction|auto].
Qed.

Lemma PInv_connect s E a b : PInv s E -> a < nodes (ps_prog s) -> b < nodes (ps_prog s) ->
  PInv (py_connect s a b) ((a, b) :: E) /\ nodes (ps_prog (py_connect s a b)) = nodes (ps_prog s).
Proof.
  intros HP Ha Hb. unfold py_connect.
  destruct (Nat.eqb_spec a b) as [Hab|Hab].
  { split; [|reflexivity]. apply PInv_redundant_edge; auto. }
  destruct (existsb (Nat.eqb b) (nth a (outgoing (ps_prog s)) [])) eqn:Hex.
  { split; [|reflexivity]. apply PInv_redundant_edge; auto. right.
    apply existsb_exists in Hex. destruct Hex as [z [Hz Hbz]]. apply Nat.eqb_eq in Hbz. subst z.
    exact (inv_out _ _ (pi_reach _ _ HP) a b Hz). }
  destruct HP as [H1 H2 H3 H4].
  pose proof (nodes_connect_to (ps_prog s) a b) as Hnn.
  split; [|exact Hnn]. constructor; cbn [ps_prog ps_incoming ps_vars].
  - apply Inv_connect; assumption.
  - rewrite length_upd, Hnn. exact H2.
  - intros x y. destruct (Nat.eq_dec y b) as [->|Hyb].
    + rewrite nth_upd_eq by (rewrite H2; exact Hb). rewrite in_app_iff, H3. simpl.
      split.
      * intros [[Hne Hi]|[<-|[]]]; auto.
      * intros [Hne [Heq|Hi]]; [inversion Heq; auto|auto].
    + rewrite nth_upd_neq by auto. rewrite H3. simpl. split; [intros [? ?]; auto|].
      intros [Hne [Heq|Hi]]; [inversion Heq; congruence|auto].
  - rewrite Hnn. exact H4.
Qed.

Lemma PInv_new_variable s E : PInv s E -> OK s E (py_new_variable s).
Proof.
  intros [H1 H2 H3 H4]. split; [|reflexivity]. constructor; simpl; auto.
  apply Forall_app. split; [exact H4|]. constructor; [apply VInv_pvar0|constructor].
Qed.

Lemma PInv_set_var s E v f : PInv s E ->
  (forall pv, VInv (nodes (ps_prog s)) pv -> VInv (nodes (ps_prog s)) (f pv)) -> OK s E (set_var s v f).
Proof.
  intros [H1 H2 H3 H4] Hf. split; [|reflexivity]. constructor; simpl; auto.
  apply Forall_updf; assumption.
Qed.

Lemma PInv_foab_helper s E v d : PInv s E -> OK s E (fst (foab_helper s v d)).
Proof.
  intro HP. unfold foab_helper. destruct (find_data d _); simpl; [apply OK_refl; exact HP|].
  destruct HP as [H1 H2 H3 H4]. split; [|reflexivity]. constructor; simpl; auto.
  apply Forall_updf; [exact H4|]. intros pv. apply VInv_add_binding.
Qed.

Lemma PInv_foab s E v d : PInv s E -> OK s E (fst (foab s v d)).
Proof. intro HP. unfold foab. destruct (_ && _); apply PInv_foab_helper; exact HP. Qed.

Lemma PInv_foao s E v b n : PInv s E -> n < nodes (ps_prog s) -> OK s E (foao s v b n).
Proof. intros HP Hn. apply PInv_set_var; [exact HP|]. intros pv. apply VInv_foao_var. exact Hn. Qed.

(* a fold of invariant-preserving steps; the side condition P may speak of the number of nodes, which stays *)
Lemma OK_fold_nodes {A} (f : pstate -> A -> pstate) (P : nat -> A -> Prop) E :
  (forall s x, PInv s E -> P (nodes (ps_prog s)) x -> OK s E (f s x)) ->
  forall l s, PInv s E -> Forall (P (nodes (ps_prog s))) l -> OK s E (fold_left f l s).
Proof.
  intros Hf. induction l as [|h t IH]; intros s HP HF; simpl; [apply OK_refl; exact HP|].
  inversion HF; subst. pose proof (Hf s h HP H1) as Hs. eapply OK_trans; [exact Hs|].
  destruct Hs as [Hs1 Hs2]. apply IH; [exact Hs1|]. rewrite Hs2. assumption.
Qed.

Lemma OK_fold {A} (f : pstate -> A -> pstate) (P : A -> Prop) E :
  (forall s x, PInv s E -> P x -> OK s E (f s x)) ->
  forall l s, PInv s E -> Forall P l -> OK s E (fold_left f l s).
Proof. intro Hf. apply (OK_fold_nodes f (fun _ => P)). exact Hf. Qed.

Lemma PInv_copy_origins s E v b os w : PInv s E ->
  Forall (fun n => n < nodes (ps_prog s)) os -> opt_lt w (nodes (ps_prog s)) = true ->
  OK s E (copy_origins s v b os w).
Proof.
  intros HP Hos Hw. unfold copy_origins. destruct w as [n|].
  - apply PInv_foao; [exact HP|]. apply Nat.ltb_lt. exact Hw.
  - apply (OK_fold_nodes (fun s' n => foao s' v b n) (fun nn n => n < nn)); auto.
    intros s0 x HP0 Hx. apply PInv_foao; assumption.
Qed.

(* FindOrAddBinding followed by CopyOrigins: the common shape of AddBinding, PasteBinding and AssignToNewVariable *)
Lemma PInv_foab_copy s E v d os w : PInv s E ->
  Forall (fun n => n < nodes (ps_prog s)) os -> opt_lt w (nodes (ps_prog s)) = true ->
  OK s E (let '(s1, b) := foab s v d in copy_origins s1 v b os w).
Proof.
  intros HP Hos Hw.
  pose proof (PInv_foab s E v d HP) as H1. destruct (foab s v d) as [s1 b]. simpl in H1.
  eapply OK_trans; [exact H1|]. destruct H1 as [H1 H1e].
  apply PInv_copy_origins; rewrite ?H1e; auto.
Qed.

Lemma PInv_paste_binding s E dst d os w : PInv s E ->
  Forall (fun n => n < nodes (ps_prog s)) os -> opt_lt w (nodes (ps_prog s)) = true ->
  OK s E (paste_binding s dst d os w).
Proof.
  intros HP Hos Hw. unfold paste_binding.
  destruct w as [n|]; [destruct (existsb _ os)|]; apply PInv_foab_copy; auto.
Qed.

Lemma PInv_add_binding_at s E v d n : PInv s E -> n < nodes (ps_prog s) -> OK s E (add_binding_at s v d n).
Proof.
  intros HP Hn. apply (PInv_foab_copy s E v d [] (Some n)); [exact HP|constructor|apply Nat.ltb_lt, Hn].
Qed.

Lemma snapshot_origins s E v :
  PInv s E -> Forall (fun pb => Forall (fun n => n < nodes (ps_prog s)) (pb_origins pb)) (pv_bindings (get_var s v)).
Proof.
  intro HP. apply Forall_forall. intros pb Hp. apply Forall_forall. intros n Hn.
  eapply VInv_origin_lt; [eapply VInv_get_var; exact HP|exact Hp|exact Hn].
Qed.

Definition op_edges (n : nat) (o : pyop) : list (nat * nat) :=
  match o with PConnectNew a => [(a, n)] | PConnectTo a b => [(a, b)] | _ => [] end.
Definition op_nodes (o : pyop) : nat :=
  match o with PNewCFGNode | PConnectNew _ => 1 | _ => 0 end.

Lemma py_edges_from_cons n o t :
  py_edges_from n (o :: t) = op_edges n o ++ py_edges_from (n + op_nodes o) t.
Proof. destruct o; simpl; rewrite ?Nat.add_0_r, ?Nat.add_1_r; reflexivity. Qed.

Lemma OK_nodes s E s' : OK s E s' -> PInv s' E /\ nodes (ps_prog s') = nodes (ps_prog s).
Proof. intros [H1 H2]. rewrite H2. auto. Qed.

Lemma opt_lt_some n nn : opt_lt (Some n) nn = true -> n < nn.
Proof. simpl. apply Nat.ltb_lt. Qed.

Lemma py_step_PInv s E o : PInv s E -> py_wf_op s o = true ->
  PInv (py_step s o) (op_edges (nodes (ps_prog s)) o ++ E) /\
  nodes (ps_prog (py_step s o)) = nodes (ps_prog s) + op_nodes o.
Proof.
  intros HP Hwf. destruct o as [|a|a b| |ds n|v d w|v b n|dst src b w|dst src w|src w];
    cbn [py_step op_edges op_nodes app]; cbn [py_wf_op] in Hwf;
    rewrite ?andb_true_iff, ?Nat.ltb_lt in Hwf; try (rewrite Nat.add_0_r; apply (OK_nodes s E)).
  - split; [apply PInv_new_node, HP|]. symmetry. apply Nat.add_1_r.
  - unfold py_connect_new.
    destruct (PInv_connect (py_new_node s) E a (nodes (ps_prog s)) (PInv_new_node s E HP)) as [H1 H2].
    + apply Nat.lt_lt_succ_r, Hwf.
    + apply Nat.lt_succ_diag_r.
    + split; [exact H1|]. rewrite H2. symmetry. apply Nat.add_1_r.
  - destruct (PInv_connect s E a b HP) as [H1 H2]; try apply Hwf.
    split; [exact H1|]. rewrite H2. symmetry. apply Nat.add_0_r.
  (* the variable operations leave the CFG alone *)
  - apply PInv_new_variable, HP.
  - eapply OK_trans; [apply PInv_new_variable, HP|].
    apply (OK_fold_nodes (fun s' d => add_binding_at s' (length (ps_vars s)) d n) (fun nn _ => n < nn)).
    + intros s0 x HP0 Hx. apply PInv_add_binding_at; assumption.
    + apply PInv_new_variable, HP.
    + apply Forall_forall. intros x _. exact Hwf.
  - destruct w as [n|].
    + apply PInv_add_binding_at; [exact HP|]. apply opt_lt_some, Hwf.
    + apply PInv_foab, HP.
  - apply PInv_foao; [exact HP|apply Hwf].
  - destruct (find_bind (get_var s src) b) as [pb|] eqn:Hf; [|apply OK_refl, HP].
    apply PInv_paste_binding; [exact HP| |apply Hwf].
    apply find_some in Hf. exact (proj1 (Forall_forall _ _) (snapshot_origins s E src HP) pb (proj1 Hf)).
  - apply (OK_fold_nodes (fun s' pb => paste_binding s' dst (pb_data pb) (pb_origins pb) w)
            (fun nn pb => Forall (fun n => n < nn) (pb_origins pb) /\ opt_lt w nn = true)).
    + intros s0 x HP0 [Hx1 Hx2]. apply PInv_paste_binding; assumption.
    + exact HP.
    + eapply Forall_impl; [|exact (snapshot_origins s E src HP)]. intros pb Hpb. split; [exact Hpb|apply Hwf].
  - eapply OK_trans; [apply PInv_new_variable, HP|].
    apply (OK_fold_nodes (fun s' pb => let '(s1, b) := foab s' (length (ps_vars s)) (pb_data pb) in
                                       copy_origins s1 (length (ps_vars s)) b (pb_origins pb) w)
            (fun nn pb => Forall (fun n => n < nn) (pb_origins pb) /\ opt_lt w nn = true)).
    + intros s0 x HP0 [Hx1 Hx2]. apply PInv_foab_copy; assumption.
    + apply PInv_new_variable, HP.
    + eapply Forall_impl; [|exact (snapshot_origins s E src HP)]. intros pb Hpb. split; [exact Hpb|apply Hwf].
Qed.

Lemma PInv_init d : PInv (pstate0 d) [].
Proof.
  constructor; simpl.
  - apply Inv_empty.
  - reflexivity.
  - intros a b. split; [destruct b; intros []|intros [_ []]].
  - constructor.
Qed.

Lemma py_run_from_PInv h : forall s E, PInv s E -> py_wf_from s h = true ->
  PInv (py_run_from s h) (rev (py_edges_from (nodes (ps_prog s)) h) ++ E) /\
  nodes (ps_prog (py_run_from s h)) = nodes (ps_prog s) + list_sum (map op_nodes h).
Proof.
  induction h as [|o t IH]; intros s E HP Hwf; [split; [exact HP|symmetry; apply Nat.add_0_r]|].
  cbn [py_wf_from] in Hwf. apply andb_prop in Hwf. destruct Hwf as [Ho Ht].
  destruct (py_step_PInv s E o HP Ho) as [H1 H2].
  rewrite py_edges_from_cons, rev_app_distr, <- app_assoc.
  unfold py_run_from. cbn [fold_left map list_sum fold_right]. fold (py_run_from (py_step s o) t).
  specialize (IH (py_step s o) (op_edges (nodes (ps_prog s)) o ++ E) H1 Ht).
  rewrite H2 in IH.
  assert (Hr : rev (op_edges (nodes (ps_prog s)) o) = op_edges (nodes (ps_prog s)) o) by (destruct o; reflexivity).
  rewrite Hr, Nat.add_assoc. exact IH.
Qed.

Lemma is_reachable_rtc s E a b : PInv s E -> a < nodes (ps_prog s) -> b < nodes (ps_prog s) ->
  (py_is_reachable s a b = true <-> rtc E a b).
Proof. intro HP. apply Inv_is_reachable, HP. Qed.

Lemma clean_path_rtc E f a b : clean_path E f a b -> rtc E a b.
Proof.
  induction 1 as [|m0 x n0 He _ _ IH]; [apply rt_refl|].
  eapply rt_trans; [apply rt_step; exact He|exact IH].
Qed.

Lemma NoDup_single (r : list nat) x : NoDup r -> (forall b, In b r -> b = x) -> In x r -> r = [x].
Proof.
  intros Hnd Hall Hin. destruct r as [|a t]; [destruct Hin|].
  assert (a = x) by (apply Hall; left; reflexivity). subst a.
  destruct t as [|b t]; [reflexivity|exfalso].
  assert (b = x) by (apply Hall; right; left; reflexivity). subst b.
  inversion Hnd. apply H1. left. reflexivity.
Qed.

Section StateLevel.
Variable s : pstate.
Variable E : list (nat * nat).
Variable v : nat.
Hypothesis HP : PInv s E.

Let pv := get_var s v.
Let m := pv_nodemap pv.
Let inc := ps_incoming s.
Let nn := nodes (ps_prog s).

Lemma VInv_var : VInv nn pv.
Proof. apply (VInv_get_var s E v HP). Qed.

Lemma some_has_origin x bs b : nodemap_find x m = Some bs -> (In b bs <-> has_origin s v b x).
Proof. intro Hf. destruct (vi_some _ _ VInv_var x bs Hf) as [_ [_ Hb]]. apply Hb. Qed.

Lemma some_origin x bs : nodemap_find x m = Some bs -> exists b, has_origin s v b x.
Proof.
  intro Hf. destruct bs as [|b t]; [elim (proj1 (proj2 (vi_some _ _ VInv_var x [] Hf))); reflexivity|].
  exists b. apply (some_has_origin x (b :: t) b Hf). left. reflexivity.
Qed.

Lemma free_unbound x : nodemap_find x m = None <-> unbound s v x.
Proof.
  unfold unbound. fold pv. split.
  - intro H. exact (vi_none _ _ VInv_var x H).
  - intro H. destruct (nodemap_find x m) as [bs|] eqn:Hf; [exfalso|reflexivity].
    destruct (some_origin x bs Hf) as [b [pb [Hp [_ Ho]]]]. exact (H pb Hp Ho).
Qed.

Lemma origin_some x b : has_origin s v b x -> exists bs, nodemap_find x m = Some bs /\ In b bs.
Proof.
  intros Ho. destruct (nodemap_find x m) as [bs|] eqn:Hf.
  - exists bs. split; [reflexivity|]. apply (some_has_origin x bs b Hf). exact Ho.
  - exfalso. destruct Ho as [pb [Hp [_ Ho]]]. exact (vi_none _ _ VInv_var x Hf pb Hp Ho).
Qed.

Lemma bw_clean n y : bw inc m n y <-> clean_path E (unbound s v) y n.
Proof.
  split.
  - induction 1 as [|x y Hx IH Hn Hy]; [apply cp_refl|].
    apply (pi_inc _ _ HP) in Hy. destruct Hy as [_ Hy].
    eapply cp_step; [exact Hy|apply free_unbound, Hn|exact IH].
  - induction 1 as [|m0 x n0 He Hf _ IH]; [apply bw_refl|].
    destruct (Nat.eq_dec m0 x) as [->|Hne]; [exact IH|].
    eapply bw_step; [exact IH|apply free_unbound, Hf|]. apply (pi_inc _ _ HP). auto.
Qed.

Lemma inc_bounded x y : In y (nth x inc []) -> y < length inc.
Proof.
  intro H. apply (pi_inc _ _ HP) in H. destruct H as [_ H].
  apply (inv_edges _ _ (pi_reach _ _ HP)) in H. unfold inc. rewrite (pi_inc_len _ _ HP). unfold nodes. tauto.
Qed.

Theorem prune_general_correct_lemma n : n < nn ->
  exists r, prune_general s v n = Some r /\ NoDup r /\ forall b, In b r <-> reaching_def E s v b n.
Proof.
  intro Hn. unfold prune_general. fold pv m inc.
  destruct (prune_walk (walk_fuel s) inc m [n] [] []) as [r|] eqn:Hr.
  - exists r. split; [reflexivity|].
    destruct (prune_walk_sound inc m n _ _ _ _ r (WI_init inc m n) Hr) as [Hnd Hb]. split; [exact Hnd|].
    intro b. rewrite Hb. unfold reaching_def. split.
    + intros [x [bs [Hx [Hf Hi]]]]. exists x. split; [apply (some_has_origin x bs b Hf); exact Hi|].
      apply bw_clean, Hx.
    + intros [x [Ho Hc]]. destruct (origin_some x b Ho) as [bs [Hf Hi]]. exists x, bs. split; [|auto].
      apply bw_clean, Hc.
  - exfalso. revert Hr. apply prune_walk_terminates.
    + exact inc_bounded.
    + apply LIFO_init.
    + intros x [<-|[]]. unfold inc. rewrite (pi_inc_len _ _ HP). exact Hn.
    + unfold walk_fuel. fold inc. simpl. lia.
Qed.

(* the last node carrying a binding on a path k ->* n *)
Lemma last_binding k n : rtc E k n ->
  clean_path E (unbound s v) k n \/
  exists m' bs, nodemap_find m' m = Some bs /\ clean_path E (unbound s v) m' n.
Proof.
  intro H. apply clos_rt_rt1n in H. induction H as [x|x y z Hxy _ IH]; [left; apply cp_refl|].
  destruct IH as [IH|IH]; [|right; exact IH].
  destruct (nodemap_find y m) as [bs|] eqn:Hf.
  - right. exists y, bs. auto.
  - left. eapply cp_step; [exact Hxy|apply free_unbound, Hf|exact IH].
Qed.

Theorem prune_shortcut_lemma n : n < nn -> length (pv_bindings pv) = 1 ->
  prune s v (Some n) = prune_general s v n.
Proof.
  intros Hn Hlen. destruct (prune_general_correct_lemma n Hn) as [r [Hr [Hnd Hb]]]. rewrite Hr.
  unfold prune. fold pv m. rewrite Hlen. cbn [Nat.eqb].
  destruct (pv_bindings pv) as [|pb0 [|? ?]] eqn:Hbs; try discriminate. clear Hlen.
  assert (Honly : forall b x, has_origin s v b x -> b = pb_id pb0 /\ In x (pb_origins pb0)).
  { intros b x [pb [Hp [Hid Ho]]]. fold pv in Hp. rewrite Hbs in Hp. destruct Hp as [<-|[]]. auto. }
  assert (Hall : forall b, In b r -> b = pb_id pb0).
  { intros b Hi. apply Hb in Hi. destruct Hi as [x [Ho _]]. apply (Honly b x Ho). }
  assert (HA : existsb (fun kv => py_is_reachable s (fst kv) n) m = true <-> reaching_def E s v (pb_id pb0) n).
  { split.
    - intro Hex. apply existsb_exists in Hex. destruct Hex as [[k bs] [Hin Hreach]]. simpl in Hreach.
      destruct (nodemap_In_find k m bs Hin) as [bs' Hf].
      destruct (vi_some _ _ VInv_var k bs' Hf) as [Hk _].
      apply (is_reachable_rtc s E k n HP Hk Hn) in Hreach.
      assert (Hsome : forall x bs0, nodemap_find x m = Some bs0 -> has_origin s v (pb_id pb0) x).
      { intros x bs0 Hf0. destruct (some_origin x bs0 Hf0) as [b Ho].
        destruct (Honly b x Ho) as [-> _]. exact Ho. }
      destruct (last_binding k n Hreach) as [Hc|[m' [bs0 [Hf0 Hc]]]].
      + exists k. split; [exact (Hsome k bs' Hf)|exact Hc].
      + exists m'. split; [exact (Hsome m' bs0 Hf0)|exact Hc].
    - intros [x [Ho Hc]]. apply existsb_exists.
      destruct (origin_some x _ Ho) as [bs [Hf _]]. exists (x, bs). split; [apply nodemap_find_In; exact Hf|].
      simpl. destruct (vi_some _ _ VInv_var x bs Hf) as [Hx _].
      apply (is_reachable_rtc s E x n HP Hx Hn). eapply clean_path_rtc. exact Hc. }
  destruct (existsb (fun kv => py_is_reachable s (fst kv) n) m) eqn:Hex.
  - unfold all_bindings. rewrite Hbs. simpl. f_equal. symmetry. apply NoDup_single; auto.
    apply Hb. apply HA. reflexivity.
  - destruct r as [|b t]; [reflexivity|exfalso].
    assert (Hbb : b = pb_id pb0) by (apply Hall; left; reflexivity).
    assert (Hrd : reaching_def E s v (pb_id pb0) n) by (rewrite <- Hbb; apply Hb; left; reflexivity).
    apply HA in Hrd. discriminate.
Qed.

Theorem prune_correct_lemma n : n < nn ->
  exists r, prune s v (Some n) = Some r /\ NoDup r /\ forall b, In b r <-> reaching_def E s v b n.
Proof.
  intro Hn. destruct (Nat.eq_dec (length (pv_bindings pv)) 1) as [H1|H1].
  - rewrite (prune_shortcut_lemma n Hn H1). apply prune_general_correct_lemma. exact Hn.
  - unfold prune. fold pv. apply Nat.eqb_neq in H1. rewrite H1. apply prune_general_correct_lemma. exact Hn.
Qed.

End StateLevel.

Lemma PInv_ext s E E' : (forall e, In e E <-> In e E') -> PInv s E -> PInv s E'.
Proof.
  intros Hee [H1 H2 H3 H4]. constructor; [exact (Inv_ext _ _ _ Hee H1)|exact H2| |exact H4].
  intros a b. rewrite H3, (Hee (a, b)). reflexivity.
Qed.

Lemma py_run_PInv d h : py_wf d h = true -> PInv (py_run d h) (py_edges h).
Proof.
  intro Hwf. destruct (py_run_from_PInv h (pstate0 d) [] (PInv_init d) Hwf) as [H _].
  eapply PInv_ext; [|exact H]. intro e. rewrite app_nil_r. symmetry. apply in_rev.
Qed.

Lemma py_run_nodes d h : py_wf d h = true -> nodes (ps_prog (py_run d h)) = list_sum (map op_nodes h).
Proof. intro Hwf. apply (py_run_from_PInv h (pstate0 d) [] (PInv_init d) Hwf). Qed.

