(* FindSolution characterised: one call of FindSolution at state s answers true iff s is a leaf
   (some conflict-free outcome leaves no goal) or the recursive call answered true on some successor
   state; false iff neither - given what the recursive calls did.  Generic in the invariant on the
   memo table, so that the reachability theorem and the exactness theorem both instantiate it. *)
From Coq Require Import List Arith Bool Lia Relations.
From PV Require Import Typegraph.Graph Typegraph.Solver Typegraph.Spec Typegraph.SetLemmas
  Typegraph.RfgProofs Typegraph.PathProofs.
Import ListNotations.

Section Search.
Variable g : graph.

Definition where_of (pos : node) (path : list node) (fin : node) : node :=
  match find (fun n => negb (n =? pos)) path with Some n => n | None => fin end.

(* GoalSet goals(state.goals()) + the condition of the position *)
Definition goals_of (s : state) : list bid :=
  match cond g (fst s) with Some c => sins c (snd s) | None => snd s end.

Definition position_of (pos : node) (new : list bid) (p : node) : Prop :=
  exists fin path, In fin (finish_nodes g new) /\
    find_node_backwards_compute g pos fin (blocked_of g new) = Some (true, path) /\
    p = where_of pos path fin.

(* FindNodeBackwards returned (did not run out of its internal fuel) for every origin node of [new] *)
Definition Defined (pos : node) (new : list bid) : Prop :=
  forall fin, In fin (finish_nodes g new) ->
    exists r, find_node_backwards_compute g pos fin (blocked_of g new) = Some r.

(* s' is a state FindSolution(s) may recurse into *)
Definition Succ (s s' : state) : Prop :=
  exists removed new,
    resolves_at g (fst s) (goals_of s) (removed, new) /\ goals_conflict g removed = false /\
    new <> [] /\ position_of (fst s) new (fst s') /\ snd s' = new.

(* FindSolution(s) can answer "done!" *)
Definition Leaf (s : state) : Prop :=
  exists removed, resolves_at g (fst s) (goals_of s) (removed, []) /\ goals_conflict g removed = false.

(* What one call of FindSolution at s with answer r establishes, when every recursive call either
   established [A] for its state or answered `true` from the provisional entry of a state on [stack]. *)
Definition Searched (A : state -> bool -> Prop) (s : state) (stack : list state) (r : bool) : Prop :=
  if r then Leaf s \/ exists s', Succ s s' /\ (A s' true \/ In s' stack)
  else ~ Leaf s /\ (forall s', Succ s s' -> In s' stack \/ A s' false) /\
       forall removed new, resolves_at g (fst s) (goals_of s) (removed, new) ->
         goals_conflict g removed = false -> new <> [] -> Defined (fst s) new.

Lemma Searched_stack : forall A s stack stack' r,
  (forall t, In t stack -> In t stack') -> Searched A s stack r -> Searched A s stack' r.
Proof.
  intros A s stack stack' [|] Hsub H; simpl in *.
  - destruct H as [L|[s' [Hs [Ha|Hi]]]]; [left; exact L | right; exists s'; auto ..].
  - destruct H as [H1 [H2 H3]]. split; [exact H1|]. split; [|exact H3].
    intros s' Hs. destruct (H2 s' Hs) as [Hi|Ha]; auto.
Qed.

Lemma In_dedup : forall l acc x,
  In x (fold_left (fun acc n => if smem n acc then acc else acc ++ [n]) l acc) <-> In x acc \/ In x l.
Proof.
  induction l as [|h t IH]; intros acc x; simpl; [split; [auto | intros [H|[]]; exact H]|].
  rewrite IH. destruct (smem h acc) eqn:E.
  - apply smem_In in E. split; intros [H|H]; auto. destruct H as [H|H]; [subst; auto | auto].
  - rewrite in_app_iff. simpl. split; [intros [[H|[H|[]]]|H] | intros [H|[H|H]]]; auto.
Qed.

Lemma In_finish_nodes : forall new fin,
  In fin (finish_nodes g new) <-> exists b o, In b new /\ In o (origins g b) /\ o_where o = fin.
Proof.
  intros new fin. unfold finish_nodes. rewrite In_dedup. simpl. rewrite in_flat_map. split.
  - intros [[]|[b [Hb Hm]]]. apply in_map_iff in Hm. destruct Hm as [o [Ho Hi]]. exists b, o. auto.
  - intros [b [o [Hb [Ho Hw]]]]. right. exists b. split; [exact Hb|]. apply in_map_iff. exists o. auto.
Qed.

(* the positions FindSolution collects, as a list *)
Definition cand_of (pos : node) (blocked finishes : list node) : list node :=
  flat_map (fun fin => match find_node_backwards_compute g pos fin blocked with
                       | Some (true, path) => [where_of pos path fin]
                       | _ => []
                       end) finishes.

Lemma In_cand : forall pos new p,
  In p (cand_of pos (blocked_of g new) (finish_nodes g new)) <-> position_of pos new p.
Proof.
  intros pos new p. unfold cand_of, position_of. rewrite in_flat_map. split.
  - intros [fin [Hf Hx]].
    destruct (find_node_backwards_compute g pos fin (blocked_of g new)) as [[[|] path]|] eqn:Ec;
      try (destruct Hx; fail).
    destruct Hx as [Hx|[]]. exists fin, path. auto.
  - intros [fin [path [Hf [Hc Hw]]]]. exists fin. split; [exact Hf|]. rewrite Hc. left. symmetry. exact Hw.
Qed.

Lemma collect_positions_spec : forall pos blocked finishes pc acc positions pc',
  pc_exact g pc ->
  collect_positions g pc pos blocked finishes acc = Some (positions, pc') ->
  pc_exact g pc' /\
  (forall p, In p positions <-> In p acc \/ In p (cand_of pos blocked finishes)) /\
  (forall fin, In fin finishes -> exists r, find_node_backwards_compute g pos fin blocked = Some r).
Proof.
  intros pos blocked. induction finishes as [|fin rest IH]; intros pc acc positions pc' Hpc H; simpl in H.
  - injection H as <- <-. split; [exact Hpc|]. split; [intros p; split; [auto | intros [H0|[]]; exact H0] | intros fin []].
  - destruct (find_node_backwards g pc pos fin blocked) as [[[ex path] pc1]|] eqn:Ef; [|discriminate].
    destruct (find_node_backwards_spec g _ _ _ _ _ _ Hpc Ef) as [Hpc1 Hc].
    fold (where_of pos path fin) in H.
    assert (Ecand : cand_of pos blocked (fin :: rest)
                    = (if ex then [where_of pos path fin] else []) ++ cand_of pos blocked rest).
    { unfold cand_of. simpl. rewrite Hc. reflexivity. }
    destruct ex; destruct (IH _ _ _ _ Hpc1 H) as [Hpc' [Hin Hdef]];
      (split; [exact Hpc'|]; split; [|intros f [<-|Hf]; [eexists; exact Hc | apply Hdef; exact Hf]]);
      intros p; rewrite Ecand; simpl; [|exact (Hin p)].
    split; intros Hp.
    + apply Hin in Hp. destruct Hp as [Hp|Hp]; [|auto]. apply In_sins in Hp. destruct Hp as [->|Hp]; auto.
    + apply Hin. destruct Hp as [Hp|[<-|Hp]]; [left; apply In_sins; auto | left; apply In_sins; auto | auto].
Qed.

(* The two loops of FindSolution, for an arbitrary recursive call [rec]: PM is an invariant of the memo
   that the calls preserve, QT s' / QF s' what a call on s' that answered true / false established. *)
Section WithRec.
Variable rec : sstate -> state -> list state -> option (sstate * bool).
Variable PM : memo -> Prop.
Variables QT QF : state -> Prop.
Variable seen : list state.

Definition P (st : sstate) : Prop := pc_exact g (s_paths st) /\ PM (s_memo st).

(* the states the recursive call is specified on *)
Variable Nxt : state -> Prop.
Hypothesis Hrec : forall st0 s' st1 r,
  P st0 -> Nxt s' -> rec st0 s' seen = Some (st1, r) ->
  P st1 /\ (r = true -> QT s') /\ (r = false -> QF s').

(* what the loop over [positions] has established when it returns r in state st' *)
Definition tried_at (new : list bid) (positions : list node) (st' : sstate) (r : bool) : Prop :=
  P st' /\
  (r = true -> exists p, In p positions /\ QT (p, new)) /\
  (r = false -> forall p, In p positions -> seen_mem (p, new) seen = true \/ QF (p, new)).

Lemma try_positions_spec : forall new npos positions st st' r,
  (forall p, In p positions -> Nxt (p, new)) -> P st ->
  try_positions rec st new seen npos positions = Some (st', r) ->
  tried_at new positions st' r.
Proof.
  intros new npos. induction positions as [|p rest IH]; intros st st' r Hpos HP H.
  - simpl in H. injection H as <- <-. split; [exact HP|]. split; [discriminate | intros _ p []].
  - simpl in H.
    assert (Hrest : forall q, In q rest -> Nxt (q, new)) by (intros q Hq; apply Hpos; right; exact Hq).
    assert (Hgo : forall st1, P st1 -> try_positions rec st1 new seen npos rest = Some (st', r) ->
              seen_mem (p, new) seen = true \/ QF (p, new) -> tried_at new (p :: rest) st' r).
    { intros st1 HP1 H1 Hp. destruct (IH _ _ _ Hrest HP1 H1) as [A [B C]]. split; [exact A|]. split.
      - intros Hr. destruct (B Hr) as [q [Hq HQ]]. exists q. split; [right; exact Hq | exact HQ].
      - intros Hr q [<-|Hq]; [exact Hp | apply C; assumption]. }
    destruct (seen_mem (p, new) seen && (1 <? npos)) eqn:Eskip.
    + apply (Hgo st HP H). left. exact (proj1 (andb_prop _ _ Eskip)).
    + destruct (rec st (p, new) seen) as [[st1 [|]]|] eqn:Er; [| |discriminate];
        destruct (Hrec _ _ _ _ HP (Hpos p (or_introl eq_refl)) Er) as [A [BT BF]].
      * injection H as <- <-. split; [exact A|]. split; [|discriminate].
        intros _. exists p. split; [left; reflexivity | apply BT; reflexivity].
      * apply (Hgo st1 A H). right. apply BF. reflexivity.
Qed.

Variable pos : node.

(* what the loop over [results] has established when it returns r in state st' *)
Definition tried (results : list rresult) (st' : sstate) (r : bool) : Prop :=
  P st' /\
  (r = true -> (exists removed, In (removed, []) results /\ goals_conflict g removed = false) \/
               exists s', Nxt s' /\ QT s') /\
  (r = false -> forall removed new, In (removed, new) results -> goals_conflict g removed = false ->
                  new <> [] /\ Defined pos new /\
                  forall p, position_of pos new p -> seen_mem (p, new) seen = true \/ QF (p, new)).

Lemma try_results_spec : forall results st st' r,
  (forall removed new p, In (removed, new) results -> goals_conflict g removed = false -> new <> [] ->
     position_of pos new p -> Nxt (p, new)) ->
  P st ->
  try_results rec g st pos seen results = Some (st', r) ->
  tried results st' r.
Proof.
  induction results as [|[removed new] rest IH]; intros st st' r Hnxt HP H.
  - simpl in H. injection H as <- <-. split; [exact HP|]. split; [discriminate | intros _ removed new []].
  - simpl in H.
    assert (Hrest : forall rm nw p, In (rm, nw) rest -> goals_conflict g rm = false -> nw <> [] ->
                      position_of pos nw p -> Nxt (p, nw)) by (intros rm nw p Hi; apply Hnxt; right; exact Hi).
    (* what the head outcome contributes when the loop goes on to the rest *)
    assert (Hgo : forall st1, P st1 -> try_results rec g st1 pos seen rest = Some (st', r) ->
              (goals_conflict g removed = false ->
               new <> [] /\ Defined pos new /\
               forall p, position_of pos new p -> seen_mem (p, new) seen = true \/ QF (p, new)) ->
              tried ((removed, new) :: rest) st' r).
    { intros st1 HP1 H1 Hhead. destruct (IH _ _ _ Hrest HP1 H1) as [A [B C]]. split; [exact A|]. split.
      - intros Hr. destruct (B Hr) as [[rm [Hi Hcf]]|Hs]; [left; exists rm; split; [right|]; assumption | right; exact Hs].
      - intros Hr rm nw [Hi|Hi] Hcf; [|exact (C Hr rm nw Hi Hcf)].
        injection Hi as <- <-. exact (Hhead Hcf). }
    destruct (goals_conflict g removed) eqn:Ec; [apply (Hgo st HP H); discriminate|].
    destruct new as [|b0 nt].
    + injection H as <- <-. split; [exact HP|]. split; [|discriminate].
      intros _. left. exists removed. split; [left; reflexivity | exact Ec].
    + destruct (collect_positions g (s_paths st) pos (blocked_of g (b0 :: nt)) (finish_nodes g (b0 :: nt)) [])
        as [[positions pc']|] eqn:Ecp; [|discriminate].
      destruct HP as [HP1 HP2].
      destruct (collect_positions_spec _ _ _ _ _ _ _ HP1 Ecp) as [Hpc' [Hposs Hdef]].
      assert (Hpo : forall p, In p positions <-> position_of pos (b0 :: nt) p).
      { intros p. rewrite Hposs, <- In_cand. split; [intros [[]|H0]; exact H0 | intros H0; right; exact H0]. }
      assert (Hpn : forall p, In p positions -> Nxt (p, b0 :: nt)).
      { intros p Hp. apply (Hnxt removed); [left; reflexivity | exact Ec | discriminate | apply Hpo; exact Hp]. }
      destruct (try_positions rec (mkS (s_memo st) pc') (b0 :: nt) seen (length positions) positions)
        as [[st1 [|]]|] eqn:Etp; [| |discriminate];
        destruct (try_positions_spec _ _ _ (mkS (s_memo st) pc') _ _ Hpn (conj Hpc' HP2) Etp) as [A [BT BF]].
      * injection H as <- <-. split; [exact A|]. split; [|discriminate]. intros _. right.
        destruct (BT eq_refl) as [p [Hp HQ]]. exists (p, b0 :: nt). split; [apply Hpn; exact Hp | exact HQ].
      * apply (Hgo st1 A H). intros _. split; [discriminate|]. split; [exact Hdef|].
        intros p Hp. apply BF; [reflexivity | apply Hpo; exact Hp].
Qed.
End WithRec.

Lemma find_solution_unfold : forall rec fuel st (s : state) seen,
  find_solution rec fuel g st s seen =
  match remove_finished_goals fuel g (fst s) (goals_of s) with
  | None => None
  | Some results => try_results rec g st (fst s) seen results
  end.
Proof. intros rec fuel st [pos sgoals] seen. reflexivity. Qed.

Lemma SS_goals_of : forall s : state, SS (snd s) -> SS (goals_of s).
Proof.
  intros s H. unfold goals_of. generalize (cond g (fst s)). intros [c|]; [apply SS_sins|]; exact H.
Qed.

Theorem find_solution_spec : forall rec (PM : memo -> Prop) (A : state -> bool -> Prop) seen fuel st (s : state) st' r,
  SS (snd s) -> P PM st ->
  (forall st0 s' st1 r, P PM st0 -> Succ s s' -> rec st0 s' seen = Some (st1, r) ->
                        P PM st1 /\ ((In s' seen /\ r = true) \/ A s' r)) ->
  find_solution rec fuel g st s seen = Some (st', r) ->
  P PM st' /\ Searched A s seen r.
Proof.
  intros rec PM A seen fuel st [pos sgoals] st' r Hss HP Hrec H.
  rewrite find_solution_unfold in H. cbn [fst] in H.
  destruct (remove_finished_goals fuel g pos (goals_of (pos, sgoals))) as [results|] eqn:Er; [|discriminate].
  pose proof (rfg_correct g pos _ _ _ (SS_goals_of _ Hss) Er) as Hres.
  assert (Hrec' : forall st0 s' st1 r0, P PM st0 -> Succ (pos, sgoals) s' -> rec st0 s' seen = Some (st1, r0) ->
                    P PM st1 /\ (r0 = true -> A s' true \/ In s' seen) /\ (r0 = false -> A s' false)).
  { intros st0 s' st1 r0 HP0 Hs Hr. destruct (Hrec _ _ _ _ HP0 Hs Hr) as [HP1 Z].
    split; [exact HP1|]. split; intros ->; destruct Z as [[Z1 Z2]|Z]; auto. discriminate. }
  destruct (try_results_spec rec PM _ _ seen (Succ (pos, sgoals)) Hrec' pos results st st' r) as [HP' [B C]];
    [|exact HP|exact H|].
  { intros removed new p Hi Hc Hne Hp. exists removed, new. repeat split; auto. apply Hres. exact Hi. }
  split; [exact HP'|]. destruct r; simpl.
  - destruct (B eq_refl) as [[rm [Hi Hc]]|Hs]; [left|right; exact Hs].
    exists rm. split; [apply Hres; exact Hi | exact Hc].
  - pose proof (C eq_refl) as C2. split.
    + intros [rm [Hra Hc]]. apply Hres in Hra. destruct (C2 _ _ Hra Hc) as [Hne _]. apply Hne. reflexivity.
    + split.
      * intros [p nw] [removed [new [Hra [Hc [Hne [Hp Hs]]]]]]. simpl in *. subst nw.
        apply Hres in Hra. destruct (C2 _ _ Hra Hc) as [_ [_ C3]].
        destruct (C3 p Hp) as [Hm|Ha]; [left; apply seen_mem_In; exact Hm | right; exact Ha].
      * intros removed new Hra Hc Hne. simpl in Hra. apply Hres in Hra.
        destruct (C2 _ _ Hra Hc) as [_ [C3 _]]. exact C3.
Qed.

Lemma position_reach : forall pos new p, position_of pos new p -> breach g pos p.
Proof.
  intros pos new p [fin [path [Hf [Hc Hw]]]].
  destruct (fnb_compute_spec g _ _ _ _ _ Hc) as [Hex Hpath].
  subst p. unfold where_of. destruct (find (fun n => negb (n =? pos)) path) as [n|] eqn:E.
  - apply find_some in E. apply Hpath, E.
  - eapply creach_breach. apply Hex. reflexivity.
Qed.

Lemma position_neq : forall pos new p,
  (forall b, In b new -> find_origin g b pos = None) -> position_of pos new p -> p <> pos.
Proof.
  intros pos new p Hno [fin [path [Hf [Hc Hw]]]].
  subst p. unfold where_of. destruct (find (fun n => negb (n =? pos)) path) as [n|] eqn:E.
  - apply find_some in E. destruct E as [_ E]. apply negb_true_iff in E. apply Nat.eqb_neq in E. exact E.
  - apply In_finish_nodes in Hf. destruct Hf as [b [o [Hb [Ho Hw]]]]. intros Heq.
    specialize (Hno b Hb). unfold find_origin in Hno.
    eapply find_none in Hno; [|exact Ho]. simpl in Hno. rewrite Hw, Heq, Nat.eqb_refl in Hno. discriminate.
Qed.
End Search.
