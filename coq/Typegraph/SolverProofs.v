(* The memoised search.  recall_inv: the invariant of RecallOrFindSolution, generic in what a finished
   memo entry is to guarantee; solve_cases / run_queries_inv: Solve and a sequence of queries as
   sequences of top-level searches.  Instances here: clause (iii) of C07 (accepted => every goal has a
   backward reachable origin) on acyclic graphs and on condition-free graphs.  The witness graphs
   that refute clauses (ii), (iii) and (iv) (refute_ii, refute_iii, refute_iv, refute_iv_acyc); the
   theorems over them that are plain evaluations stand in Props/C07.v. *)
From Coq Require Import List Arith Bool Lia Relations.
From PV Require Import Typegraph.Graph Typegraph.Solver Typegraph.Spec Typegraph.SetLemmas
  Typegraph.RfgProofs Typegraph.PathProofs Typegraph.SearchProofs.
Import ListNotations.

Lemma Succ_sorted : forall g s s', Succ g s s' -> SS (snd s').
Proof.
  intros g s s' [removed [new [Hr [_ [_ [_ Hs]]]]]]. rewrite Hs.
  apply resolves_at_sorted in Hr. apply Hr.
Qed.

Lemma Succ_reach : forall g s s', Succ g s s' -> breach g (fst s) (fst s').
Proof. intros g s s' [removed [new [_ [_ [_ [Hp _]]]]]]. eapply position_reach. exact Hp. Qed.

Lemma Succ_neq : forall g s s', Succ g s s' -> fst s' <> fst s.
Proof.
  intros g s s' [removed [new [Hr [_ [_ [Hp _]]]]]]. eapply position_neq; [|exact Hp].
  apply resolves_at_facts in Hr. apply Hr.
Qed.

(* the states on the recursion stack are strict Succ-ancestors of the state being searched *)
Definition Anc (g : graph) (s : state) (seen : list state) : Prop :=
  forall t, In t seen -> clos_trans _ (Succ g) t s.

Lemma Anc_succ : forall g s s' seen, Anc g s seen -> Succ g s s' -> Anc g s' (s :: seen).
Proof.
  intros g s s' seen Hc Hs t [Ht|Ht].
  - subst t. apply t_step. exact Hs.
  - eapply t_trans; [apply Hc; exact Ht | apply t_step; exact Hs].
Qed.

(* seen_states after  seen_states.insert(&state) *)
Lemma In_seen1 : forall (s : state) seen t,
  In t (if seen_mem s seen then seen else s :: seen) <-> t = s \/ In t seen.
Proof.
  intros s seen t. destruct (seen_mem s seen) eqn:E.
  - apply seen_mem_In in E. split; [auto|]. intros [->|H]; assumption.
  - simpl. split; (intros [H|H]; [left; symmetry; exact H | right; exact H]).
Qed.

(* The invariant of the memoised search, generic in what a finished answer b for a state s is to
   guarantee (Ans s b): every memo entry is such an answer or the provisional `true` of a state that
   is currently on the recursion stack.  One induction on the recursion depth serves every theorem
   about RecallOrFindSolution; an instance only proves [Step]. *)
Section Memo.
Variable g : graph.
Variable Ans : state -> bool -> Prop.
Hypothesis Step : forall s seen r, SS (snd s) -> Anc g s seen -> Searched g Ans s (s :: seen) r -> Ans s r.

Definition MInv (m : memo) (seen : list state) : Prop :=
  forall s b, memo_get s m = Some b -> (In s seen /\ b = true) \/ Ans s b.

Lemma recall_inv : forall fuel0 fuel st s seen st' r,
  recall_or_find fuel0 fuel g st s seen = Some (st', r) ->
  SS (snd s) -> Anc g s seen -> pc_exact g (s_paths st) -> MInv (s_memo st) seen ->
  pc_exact g (s_paths st') /\ MInv (s_memo st') seen /\ ((In s seen /\ r = true) \/ Ans s r).
Proof.
  intros fuel0. induction fuel as [|f IH]; intros st s seen st' r H Hss Hanc Hpc Hinv; [discriminate|].
  simpl in H. destruct (memo_get s (s_memo st)) as [b|] eqn:Em.
  - injection H as <- <-. split; [exact Hpc|]. split; [exact Hinv | exact (Hinv _ _ Em)].
  - set (seen1 := if seen_mem s seen then seen else s :: seen) in *.
    destruct (find_solution (recall_or_find fuel0 f g) fuel0 g
                (mkS (memo_set s true (s_memo st)) (s_paths st)) s seen1) as [[st2 res]|] eqn:Ef; [|discriminate].
    injection H as <- ->.
    assert (HP1 : P g (fun m => MInv m seen1) (mkS (memo_set s true (s_memo st)) (s_paths st))).
    { split; [exact Hpc|]. simpl. intros t b Ht. rewrite memo_get_set in Ht.
      destruct (state_eqb t s) eqn:Et.
      - apply state_eqb_eq in Et. injection Ht as <-. subst t. left. split; [apply In_seen1; left; reflexivity | reflexivity].
      - destruct (Hinv t b Ht) as [[Hi Hb]|Ha]; [left; split; [apply In_seen1; right; exact Hi | exact Hb] | right; exact Ha]. }
    destruct (find_solution_spec g (recall_or_find fuel0 f g) (fun m => MInv m seen1) Ans seen1 fuel0 _ s st2 r
                Hss HP1) as [[A1 A2] HS].
    { intros st0 s' st1 r0 [HPa HPb] Hsucc Hrec.
      assert (Hanc1 : Anc g s' seen1).
      { intros t Ht. apply (Anc_succ g s s' seen Hanc Hsucc). apply In_seen1 in Ht.
        destruct Ht as [->|Ht]; [left; reflexivity | right; exact Ht]. }
      destruct (IH _ _ _ _ _ Hrec (Succ_sorted _ _ _ Hsucc) Hanc1 HPa HPb) as [X [Y Z]].
      split; [split; assumption | exact Z]. }
    { exact Ef. }
    (* seen1 is s :: seen up to order and repetition *)
    assert (Hans : Ans s r).
    { apply (Step s seen r Hss Hanc). apply (Searched_stack g Ans s seen1); [|exact HS].
      intros t Ht. apply In_seen1 in Ht. destruct Ht as [->|Ht]; [left; reflexivity | right; exact Ht]. }
    simpl. split; [exact A1|]. split; [|right; exact Hans].
    intros t b Ht. rewrite memo_get_set in Ht. destruct (state_eqb t s) eqn:Et.
    + apply state_eqb_eq in Et. injection Ht as <-. subst t. right. exact Hans.
    + destruct (A2 t b Ht) as [[Hi Hb]|Ha]; [|right; exact Ha].
      apply In_seen1 in Hi. destruct Hi as [->|Hi]; [rewrite state_eqb_refl in Et; discriminate | left; split; assumption].
Qed.

(* between queries the stack is empty *)
Definition MOk (st : sstate) : Prop := pc_exact g (s_paths st) /\ MInv (s_memo st) [].

Lemma MOk_empty : MOk sstate_empty.
Proof. split; [apply pc_exact_nil | intros s b H; discriminate]. Qed.

Lemma top_inv : forall fuel st s st' r,
  recall_or_find fuel fuel g st s [] = Some (st', r) -> SS (snd s) -> MOk st -> MOk st' /\ Ans s r.
Proof.
  intros fuel st s st' r H Hss [Hpc Hinv].
  destruct (recall_inv _ _ _ _ _ _ _ H Hss (fun t (Ht : In t []) => match Ht with end) Hpc Hinv)
    as [A [B [[[] _]|C]]].
  split; [split; assumption | exact C].
Qed.
End Memo.

(* CanHaveSolution, Solve and a sequence of queries as sequences of top-level searches: any invariant
   [ok] of the solver state that a top-level search preserves, and what it yields about the answers *)
Section SolveCases.
Variable g : graph.
Variable fuel : nat.
Variable ok : sstate -> Prop.
Variable Ans : state -> bool -> Prop.
Hypothesis Htop : forall st s st' r,
  recall_or_find fuel fuel g st s [] = Some (st', r) -> SS (snd s) -> ok st -> ok st' /\ Ans s r.

Lemma can_have_solution_cases : forall attrs st n st' r,
  can_have_solution fuel g st attrs n = Some (st', r) -> ok st ->
  ok st' /\ if r then forall a, In a attrs -> Ans (n, sof_list [a]) true
            else exists a, In a attrs /\ Ans (n, sof_list [a]) false.
Proof.
  induction attrs as [|a rest IH]; intros st n st' r H Hok; simpl in H.
  - injection H as <- <-. split; [exact Hok | intros a []].
  - unfold solve_single in H.
    destruct (recall_or_find fuel fuel g st (n, sof_list [a]) []) as [[st1 [|]]|] eqn:E; [| |discriminate];
      destruct (Htop _ _ _ _ E (SS_sof_list [a]) Hok) as [Hok1 Ha].
    + destruct (IH _ _ _ _ H Hok1) as [Hok' Hr]. split; [exact Hok'|]. destruct r.
      * intros b [<-|Hb]; [exact Ha | apply Hr; exact Hb].
      * destruct Hr as [b [Hb Hn]]. exists b. split; [right; exact Hb | exact Hn].
    + injection H as <- <-. split; [exact Hok1|]. exists a. split; [left; reflexivity | exact Ha].
Qed.

(* Solve answers with the search on the whole goal set, unless CanHaveSolution short-circuits it on a
   single rejected goal *)
Lemma solve_cases : forall st attrs n st' r,
  solve fuel g st attrs n = Some (st', r) -> ok st ->
  ok st' /\
  (Ans (n, sof_list attrs) r \/ (r = false /\ exists a, In a attrs /\ Ans (n, sof_list [a]) false)) /\
  (r = true -> 1 < length attrs -> forall a, In a attrs -> Ans (n, sof_list [a]) true).
Proof.
  intros st attrs n st' r H Hok. unfold solve in H. destruct (1 <? length attrs) eqn:El.
  - destruct (can_have_solution fuel g st attrs n) as [[st1 [|]]|] eqn:Ec; [| |discriminate];
      destruct (can_have_solution_cases _ _ _ _ _ Ec Hok) as [Hok1 Hc].
    + destruct (Htop _ _ _ _ H (SS_sof_list attrs) Hok1) as [Hok' Ha].
      split; [exact Hok'|]. split; [left; exact Ha | intros _ _; exact Hc].
    + injection H as <- <-. split; [exact Hok1|]. split; [right; split; [reflexivity | exact Hc] | discriminate].
  - destruct (Htop _ _ _ _ H (SS_sof_list attrs) Hok) as [Hok' Ha].
    split; [exact Hok'|]. split; [left; exact Ha|]. intros _ Hl. apply Nat.ltb_ge in El. lia.
Qed.

Lemma run_queries_inv : forall A : list bid * node -> bool -> Prop,
  (forall st attrs n st' r, solve fuel g st attrs n = Some (st', r) -> ok st -> ok st' /\ A (attrs, n) r) ->
  forall qs st st' answers, run_queries fuel g st qs = Some (st', answers) -> ok st ->
  ok st' /\ Forall2 A qs answers.
Proof.
  intros A Hsolve. induction qs as [|[attrs n] rest IH]; intros st st' answers H Hok; simpl in H.
  - injection H as <- <-. split; [exact Hok | constructor].
  - destruct (solve fuel g st attrs n) as [[st1 a]|] eqn:E; [|discriminate].
    destruct (run_queries fuel g st1 rest) as [[st2 ans]|] eqn:E2; [|discriminate].
    injection H as <- <-. destruct (Hsolve _ _ _ _ _ E Hok) as [Hok1 Ha].
    destruct (IH _ _ _ E2 Hok1) as [Hok2 Hall]. split; [exact Hok2 | constructor; assumption].
Qed.
End SolveCases.

(* Soundness of `true` alone: every `true` entry of the memo is Good or provisional *)
Section Reach.
Variable g : graph.
Variable Good : state -> Prop.
Hypothesis Step : forall s seen, SS (snd s) -> Anc g s seen ->
  (Leaf g s \/ exists s', Succ g s s' /\ (Good s' \/ In s' (s :: seen))) -> Good s.

Definition Inv (m : memo) (seen : list state) : Prop :=
  forall s, memo_get s m = Some true -> Good s \/ In s seen.

Definition st_ok (st : sstate) : Prop := pc_exact g (s_paths st) /\ Inv (s_memo st) [].

Lemma st_ok_empty : st_ok sstate_empty.
Proof. split; [apply pc_exact_nil | intros s H; discriminate]. Qed.

Lemma st_ok_MOk : forall st, st_ok st <-> MOk g (fun s b => b = true -> Good s) st.
Proof.
  intros st. split; intros [Hpc Hi]; (split; [exact Hpc|]).
  - intros s b H. right. intros ->. destruct (Hi s H) as [G|[]]. exact G.
  - intros s H. left. destruct (Hi s true H) as [[[] _]|G]. exact (G eq_refl).
Qed.

Lemma top_reach : forall fuel st s st' r,
  recall_or_find fuel fuel g st s [] = Some (st', r) -> SS (snd s) -> st_ok st ->
  st_ok st' /\ (r = true -> Good s).
Proof.
  intros fuel st s st' r H Hss Hok. apply st_ok_MOk in Hok.
  destruct (top_inv g (fun s b => b = true -> Good s)) with (2 := H) as [A B]; [|exact Hss|exact Hok|].
  - intros s0 seen [|] Hss0 Hanc Hs; [|discriminate]. intros _. apply (Step s0 seen Hss0 Hanc).
    destruct Hs as [L|[s' [Hs' [G|I]]]]; [left; exact L | right; exists s'; auto ..].
  - split; [apply st_ok_MOk; exact A | exact B].
Qed.

Lemma solve_reach : forall fuel st attrs n st' r,
  solve fuel g st attrs n = Some (st', r) -> st_ok st ->
  st_ok st' /\ (r = true -> Good (n, sof_list attrs) /\
                            (1 < length attrs -> forall a, In a attrs -> Good (n, [a]))).
Proof.
  intros fuel st attrs n st' r H Hok.
  destruct (solve_cases g fuel st_ok (fun s b => b = true -> Good s) (top_reach fuel) _ _ _ _ _ H Hok)
    as [A [B C]].
  split; [exact A|]. intros Hr. split.
  - destruct B as [B|[B _]]; [exact (B Hr) | congruence].
  - intros Hl a Ha. exact (C Hr Hl a Ha eq_refl).
Qed.
End Reach.

(* Instance 1: acyclic graphs (node conditions allowed): Good = Reach1 *)
Lemma breach_rank : forall g rank n m, ranked g rank -> breach g n m -> m = n \/ rank m < rank n.
Proof.
  intros g rank n m Hr H. induction H.
  - right. apply Hr. exact H.
  - left. reflexivity.
  - destruct IHclos_refl_trans1 as [E1|L1]; destruct IHclos_refl_trans2 as [E2|L2]; subst; auto.
    right. lia.
Qed.

Lemma goal_resolved : forall g (s : state) R N b,
  resolves_at g (fst s) (goals_of g s) (R, N) -> In b (snd s) ->
  (exists o, In o (origins g b) /\ breach g (fst s) (o_where o)) \/ In b N.
Proof.
  intros g s R N b Hr Hb. destruct (resolves_at_facts _ _ _ _ _ Hr) as [A [B _]].
  assert (Hg : In b (goals_of g s)).
  { unfold goals_of. destruct (cond g (fst s)); [apply In_sins; right|]; exact Hb. }
  destruct (A b Hg) as [HbR|HbN]; [left | right; exact HbN].
  destruct (origin_at _ _ _ (B b HbR)) as [o [Ho Hw]]. exists o. split; [exact Ho|].
  rewrite Hw. apply rt_refl.
Qed.

Section Acyclic.
Variable g : graph.
Variable rank : node -> nat.
Hypothesis Hrank : ranked g rank.

Definition GoodA (s : state) : Prop := Reach1 g (fst s) (snd s).

Lemma Succ_rank : forall s s', Succ g s s' -> rank (fst s') < rank (fst s).
Proof.
  intros s s' H. destruct (breach_rank _ _ _ _ Hrank (Succ_reach _ _ _ H)) as [E|L]; [|exact L].
  exfalso. eapply Succ_neq; eauto.
Qed.

Lemma Succ_trans_rank : forall s s', clos_trans _ (Succ g) s s' -> rank (fst s') < rank (fst s).
Proof. intros s s' H. induction H; [apply Succ_rank; assumption | lia]. Qed.

Lemma StepA : forall s seen, SS (snd s) -> Anc g s seen ->
  (Leaf g s \/ exists s', Succ g s s' /\ (GoodA s' \/ In s' (s :: seen))) -> GoodA s.
Proof.
  intros s seen Hss Hanc [[removed [Hr Hc]]|[s' [Hsucc HQ]]]; intros b Hb.
  - destruct (goal_resolved _ _ _ _ _ Hr Hb) as [Ho|[]]. exact Ho.
  - pose proof (Succ_rank _ _ Hsucc) as Hlt.
    destruct HQ as [HG|[E|Hin]].
    + destruct Hsucc as [removed [new [Hr [Hc [Hne [Hp Hs]]]]]].
      destruct (goal_resolved _ _ _ _ _ Hr Hb) as [Ho|HbN]; [exact Ho|].
      rewrite <- Hs in HbN. destruct (HG b HbN) as [o [Ho Hre]]. exists o. split; [exact Ho|].
      eapply rt_trans; [eapply position_reach; exact Hp | exact Hre].
    + subst s'. lia.
    + pose proof (Succ_trans_rank _ _ (Hanc _ Hin)). lia.
Qed.

Definition st_okA := st_ok g GoodA.

Lemma solve_reach_acyclic : forall fuel st attrs n st' r,
  solve fuel g st attrs n = Some (st', r) -> st_okA st ->
  st_okA st' /\ (r = true -> Reach1 g n attrs).
Proof.
  intros fuel st attrs n st' r H Hok.
  destruct (solve_reach g GoodA StepA _ _ _ _ _ _ H Hok) as [A B].
  split; [exact A|]. intros Hr. destruct (B Hr) as [HG _].
  intros b Hb. apply HG. simpl. apply In_sof_list. exact Hb.
Qed.
End Acyclic.

(* Instance 2: graphs without node conditions, cycles allowed: Good = Reach1 on one-goal states *)
Section NoCond.
Variable g : graph.
Hypothesis Hnc : no_conditions g = true.

Definition GoodN (s : state) : Prop := forall b, snd s = [b] -> Reach1 g (fst s) [b].

Lemma goals_of_nocond : forall s, goals_of g s = snd s.
Proof. intros s. unfold goals_of. rewrite (no_conditions_cond g (fst s) Hnc). reflexivity. Qed.

Lemma resolves_at_single_absent : forall pos b R N,
  find_origin g b pos = None -> resolves_at g pos [b] (R, N) -> N = [b].
Proof.
  intros pos b R N Hno H. unfold resolves_at in H.
  assert (Ea : at_pos g pos b = false).
  { destruct (at_pos g pos b) eqn:E; [|reflexivity]. apply at_pos_origin in E. congruence. }
  simpl in H. rewrite Ea in H. simpl in H. inversion H; subst. reflexivity.
Qed.

Lemma StepN : forall s (seen : list state), SS (snd s) -> Anc g s seen ->
  (Leaf g s \/ exists s', Succ g s s' /\ (GoodN s' \/ In s' (s :: seen))) -> GoodN s.
Proof.
  intros [pos sg] seen Hss _ H b Hb c Hc. simpl in *. subst sg. destruct Hc as [Hc|[]]. subst c.
  destruct H as [[removed [Hr Hcf]]|[s' [[removed [new [Hr [Hcf [Hne [Hp Hs]]]]]] _]]];
    (destruct (goal_resolved _ (pos, [b]) _ _ b Hr (or_introl eq_refl)) as [Ho|HbN]; [exact Ho|]).
  - destruct HbN.
  - rewrite goals_of_nocond in Hr. simpl in Hr.
    destruct (resolves_at_facts _ _ _ _ _ Hr) as [_ [_ C]].
    pose proof (resolves_at_single_absent _ _ _ _ (C b HbN) Hr) as HN.
    destruct Hp as [fin [path [Hf [Hcomp Hw]]]].
    apply In_finish_nodes in Hf. destruct Hf as [b' [o [Hb' [Ho Hwo]]]].
    rewrite HN in Hb'. destruct Hb' as [Hb'|[]]. subst b'. exists o. split; [exact Ho|].
    rewrite Hwo. destruct (fnb_compute_spec g _ _ _ _ _ Hcomp) as [Hex _].
    eapply creach_breach. apply Hex. reflexivity.
Qed.

Definition st_okN := st_ok g GoodN.

Lemma solve_reach_nocond : forall fuel st attrs n st' r,
  solve fuel g st attrs n = Some (st', r) -> st_okN st ->
  st_okN st' /\ (r = true -> Reach1 g n attrs).
Proof.
  intros fuel st attrs n st' r H Hok.
  destruct (solve_reach g GoodN StepN _ _ _ _ _ _ H Hok) as [A B].
  split; [exact A|]. intros Hr. destruct (B Hr) as [HG Hall].
  destruct attrs as [|a [|a2 rest]].
  - intros b [].
  - apply (HG a). reflexivity.
  - intros b Hb. assert (Hl : 1 < length (a :: a2 :: rest)) by (simpl; lia).
    specialize (Hall Hl b Hb b eq_refl). apply Hall. left. reflexivity.
Qed.
End NoCond.

Theorem accepted_reachable_acyclic_lemma : forall g fuel qs st' answers,
  acyclic g ->
  run_queries fuel g sstate_empty qs = Some (st', answers) ->
  Forall2 (fun q a => a = true -> Reach1 g (snd q) (fst q)) qs answers.
Proof.
  intros g fuel qs st' answers [rank Hrank] H.
  exact (proj2 (run_queries_inv g fuel (st_okA g) _ (solve_reach_acyclic g rank Hrank fuel) qs _ _ _ H
                  (st_ok_empty g (GoodA g)))).
Qed.

Theorem accepted_reachable_nocond_lemma : forall g fuel qs st' answers,
  no_conditions g = true ->
  run_queries fuel g sstate_empty qs = Some (st', answers) ->
  Forall2 (fun q a => a = true -> Reach1 g (snd q) (fst q)) qs answers.
Proof.
  intros g fuel qs st' answers Hnc H.
  exact (proj2 (run_queries_inv g fuel (st_okN g) _ (solve_reach_nocond g Hnc fuel) qs _ _ _ H
                  (st_ok_empty g (GoodN g)))).
Qed.

(* the clause is false on a cyclic graph with a node condition: binding 0 has no origin at all,
   node 2 carries condition binding 1, bindings 1 and 2 explain each other around the loop 0 <-> 1 *)
Definition refute_iii : graph :=
  mkGraph [mkNode [1] None; mkNode [0] None; mkNode [0] (Some 1)]
          [mkBinding 0 []; mkBinding 1 [mkOrigin 0 [[2]]]; mkBinding 2 [mkOrigin 1 [[1]]]].

(* a checkable sufficient condition for acyclicity: every edge goes from a smaller to a larger id *)
Definition topo_ids (g : graph) : bool :=
  forallb_i (fun i n => forallb (fun m => m <? i) (n_incoming n)) 0 (g_nodes g).

Lemma forallb_i_nth : forall {A} (f : nat -> A -> bool) l k j d,
  forallb_i f k l = true -> j < length l -> f (k + j) (nth j l d) = true.
Proof.
  intros A f. induction l as [|x t IH]; intros k j d H Hj; [simpl in Hj; lia|].
  simpl in H. apply andb_true_iff in H. destruct H as [H1 H2].
  destruct j as [|j]; simpl.
  - rewrite Nat.add_0_r. exact H1.
  - rewrite <- Nat.add_succ_comm. apply IH; [exact H2 | simpl in Hj; lia].
Qed.

Lemma topo_ids_acyclic : forall g, topo_ids g = true -> acyclic g.
Proof.
  intros g H. exists (fun n => n). intros n m Hm.
  pose proof (forallb_i_nth _ _ 0 n (mkNode [] None) H (incoming_in_range g n m Hm)) as Hf. simpl in Hf.
  rewrite forallb_forall in Hf. apply Nat.ltb_lt. exact (Hf m Hm).
Qed.

(* Clause (ii) is false for the code as it is: FindNodeBackwards reports node 1 as a conditional
   articulation point between node 5 and node 0 although the walk 5,3,2,0 avoids it (the search for
   the next articulation point only follows detours that leave the shortest path at the current
   node); node 1's condition is unsatisfiable, the walk 5,3,2,0 carries no condition at all. *)
Definition refute_ii : graph :=
  mkGraph [mkNode [] None; mkNode [0] (Some 1); mkNode [0] None; mkNode [1; 2] None; mkNode [1] None;
           mkNode [3; 4] None]
          [mkBinding 0 [mkOrigin 0 [[]]]; mkBinding 1 []].

Lemma refute_ii_pass : forall n, n = 5 \/ n = 3 \/ n = 2 ->
  resolves_at refute_ii n (with_cond refute_ii n [0]) ([], [0]) /\
  smem n (blocked_of refute_ii [0]) = false.
Proof.
  intros n [H|[H|H]]; subst; (split; [exact (R_done refute_ii _ _ _ _) | reflexivity]).
Qed.

Theorem complete_with_conditions_refuted_lemma :
  exists g fuel n S, wf_graph g = true /\ acyclic g /\ ExplC g n S /\ solve_fresh fuel g S n = Some false.
Proof.
  exists refute_ii, 100, 5, [0]. split; [reflexivity|]. split; [apply topo_ids_acyclic; reflexivity|].
  split; [|vm_compute; reflexivity].
  destruct (refute_ii_pass 5 (or_introl eq_refl)) as [A5 B5].
  destruct (refute_ii_pass 3 (or_intror (or_introl eq_refl))) as [A3 B3].
  destruct (refute_ii_pass 2 (or_intror (or_intror eq_refl))) as [A2 B2].
  eapply EC_step; [exact A5 | reflexivity | exact B5 | left; reflexivity |].
  eapply EC_step; [exact A3 | reflexivity | exact B3 | right; left; reflexivity |].
  eapply EC_step; [exact A2 | reflexivity | exact B2 | left; reflexivity |].
  eapply EC_done with (removed := [0]); [|reflexivity].
  unfold resolves_at. simpl.
  eapply R_rem with (o := mkOrigin 0 [[]]) (ss := []); [reflexivity | reflexivity | left; reflexivity |].
  exact (R_done refute_ii _ _ _ _).
Qed.

(* Clause (iv) is false on graphs with a CFG cycle: loop 1 <-> 2, binding 0 (node 1) from binding 1,
   binding 1 (node 2) from binding 0, binding 2 at the entry node; no node conditions.  A fresh
   solver accepts {0,1,2} at node 4 and rejects {1,2}: whether the provisional memo entry is taken
   for an answer depends on the seen_states rule `new_positions.size() > 1`, hence on the goal set.
   After {0,1,2} the same solver accepts {1,2}: the history dependence of C08 (last component of
   Props/C07.v, accepted_subset_closed_refuted). *)
Definition refute_iv : graph :=
  mkGraph [mkNode [] None; mkNode [0; 2] None; mkNode [1] None; mkNode [2] None; mkNode [3] None]
          [mkBinding 0 [mkOrigin 1 [[1]]]; mkBinding 1 [mkOrigin 2 [[0]]]; mkBinding 2 [mkOrigin 0 [[]]]].

(* Clause (iv) is also false on ACYCLIC graphs that carry a node condition (a consequence of the
   false-articulation-point defect of clause (ii)): goals 0,2,4 (variables 0,1,2) originate at node 0,
   each variable is re-bound at one inner node (bindings 1,3,5 at nodes 8,6,9), so the blocked set -
   and the shortest path FindNodeBackwards follows from node 10 - depends on which goals are pending.
   {0,2}: blocked {0,8,6}, the shortest path runs over node 5 and node 1 is (wrongly) taken for a
   conditional articulation point; its condition (binding 6) is unsatisfiable: rejected.
   {0,2,4}: node 9 is blocked too; accepted.  Every single goal is accepted. *)
Definition refute_iv_acyc : graph :=
  mkGraph [mkNode [] None; mkNode [0] (Some 6); mkNode [0] None; mkNode [0] None; mkNode [0] None;
           mkNode [1; 2] None; mkNode [3] None; mkNode [1] None; mkNode [4] None; mkNode [7] None;
           mkNode [8; 6; 5; 9] None]
          [mkBinding 0 [mkOrigin 0 [[]]]; mkBinding 0 [mkOrigin 8 [[]]]; mkBinding 1 [mkOrigin 0 [[]]];
           mkBinding 1 [mkOrigin 6 [[]]]; mkBinding 2 [mkOrigin 0 [[]]]; mkBinding 2 [mkOrigin 9 [[]]];
           mkBinding 3 []].
