(* C08 proofs: if every graph-changing primitive drops the solver, every query in every history returns
   what a freshly built copy of the current graph returns. *)
From Coq Require Import List Arith Bool Lia.
From PV Require Import Typegraph.History.
Import ListNotations.

Definition tbl_safe (t : inv_table) : bool :=
  t_new_node t && t_connect t && t_new_binding t && t_add_origin t &&
  t_add_origin_vec t && t_add_origin_ss t && t_set_condition t.

Lemma tbl_safe_fields t : tbl_safe t = true ->
  t_new_node t = true /\ t_connect t = true /\ t_new_binding t = true /\ t_add_origin t = true /\
  t_add_origin_vec t = true /\ t_add_origin_ss t = true /\ t_set_condition t = true.
Proof.
  unfold tbl_safe. intro H.
  repeat (apply andb_prop in H; destruct H as [H ?]). repeat split; assumption.
Qed.

(* a single primitive other than a bare AddSourceSet: not invalidating => the solver-visible graph is unchanged *)
Lemma keep_view_prim t g m :
  tbl_safe t = true ->
  (forall b n ss, m <> MAddSourceSet b n ss) ->
  inval t g m = false -> view (apply g m) = view g.
Proof.
  intros Ht Hm Hi. destruct (tbl_safe_fields t Ht) as (T1 & T2 & T3 & T4 & T5 & T6 & T7).
  destruct m as [c|a b| |v d|b n|b n ss|b n ss|b n ss|n c]; cbn [inval apply] in *;
    try (rewrite ?T1, ?T4, ?T5, ?T6, ?T7 in Hi; discriminate).
  - destruct (Nat.eqb a b || connected g a b); [reflexivity|]. rewrite T2 in Hi. discriminate.
  - reflexivity.
  - destruct (find_binding v d (bindings g)); [reflexivity|]. rewrite T3 in Hi. discriminate.
  - exfalso. eapply Hm. reflexivity.
Qed.

Lemma keep_view_api t : tbl_safe t = true -> forall ms g,
  api_wf ms = true -> inval_all t g ms = false -> view (apply_all g ms) = view g.
Proof.
  intros Ht. destruct (tbl_safe_fields t Ht) as (T1 & T2 & T3 & T4 & T5 & T6 & T7).
  unfold api_wf. induction ms as [|m r IH]; intros g Hwf Hi; [reflexivity|].
  cbn [inval_all] in Hi. apply orb_false_elim in Hi. destruct Hi as [Hm Hr].
  unfold apply_all in *. cbn [fold_left].
  destruct m as [c|a b| |v d|b n|b n ss|b n ss|b n ss|n c];
    try (cbn [api_wf_from] in Hwf; rewrite (IH _ Hwf Hr);
         apply (keep_view_prim t); [assumption|intros; discriminate|assumption]).
  - (* MAddOrigin always invalidates under a safe table *)
    cbn [inval] in Hm. rewrite T4 in Hm. discriminate.
  - (* a bare AddSourceSet at the start of an API operation is ill-formed *)
    cbn [api_wf_from] in Hwf. discriminate.
Qed.

Definition ops_wf (ops : list hop) : Prop :=
  Forall (fun o => match o with Api ms => api_wf ms = true | Ask _ => True end) ops.

(* coherence when the memo laws are only known at the views that satisfy [Lawful], for histories that ask
   their queries at such views *)
Section CoherenceWhere.
  Context {S : Type}.
  Variable tbl : inv_table.
  Variable fresh : S.
  Variable ask : list gnode * list gbinding -> S -> query -> S * bool.
  Variable Good : list gnode * list gbinding -> S -> Prop.
  Variable Lawful : list gnode * list gbinding -> Prop.
  Hypothesis good_fresh : forall v, Good v fresh.
  Hypothesis good_ask : forall v s q, Lawful v -> Good v s ->
    Good v (fst (ask v s q)) /\ snd (ask v s q) = snd (ask v fresh q).
  Hypothesis Hsafe : tbl_safe tbl = true.

  Fixpoint asks_lawful (g : graph) (ops : list hop) : Prop :=
    match ops with
    | [] => True
    | Api ms :: t => asks_lawful (apply_all g ms) t
    | Ask _ :: t => Lawful (view g) /\ asks_lawful g t
    end.

  Definition st_ok (st : hst) : Prop :=
    match hs st with Some s => Good (view (hg st)) s | None => True end.

  Lemma run_coherent_where ops : forall st, ops_wf ops -> asks_lawful (hg st) ops -> st_ok st ->
    hrun tbl fresh ask st ops = href fresh ask (hg st) ops.
  Proof.
    induction ops as [|o t IH]; intros st Hwf Hlaw Hok; [reflexivity|].
    inversion Hwf as [|o' t' Ho Ht]; subst.
    destruct o as [ms|q]; cbn [hrun href hstep fst snd]; cbn [asks_lawful] in Hlaw.
    - f_equal. rewrite IH; [reflexivity | assumption | exact Hlaw |].
      unfold st_ok. cbn [hs hg].
      destruct (inval_all tbl (hg st) ms) eqn:Hi; [exact I|].
      unfold st_ok in Hok. destruct (hs st) as [s|]; [|exact I].
      rewrite (keep_view_api tbl Hsafe ms (hg st) Ho Hi). exact Hok.
    - destruct Hlaw as [Hv Hlaw]. unfold st_ok in Hok.
      destruct (hs st) as [s|] eqn:Hs.
      + destruct (good_ask (view (hg st)) s q Hv Hok) as [Hg He].
        f_equal; [f_equal; exact He|].
        rewrite IH; [reflexivity | assumption | exact Hlaw |]. unfold st_ok. cbn [hs hg]. exact Hg.
      + destruct (good_ask (view (hg st)) fresh q Hv (good_fresh _)) as [Hg _].
        f_equal. rewrite IH; [reflexivity | assumption | exact Hlaw |]. unfold st_ok. cbn [hs hg]. exact Hg.
  Qed.
End CoherenceWhere.

Lemma asks_lawful_all : forall (Lawful : list gnode * list gbinding -> Prop), (forall v, Lawful v) ->
  forall ops g, asks_lawful Lawful g ops.
Proof.
  intros Lawful H. induction ops as [|[ms|q] t IH]; intros g; simpl; [exact I | apply IH | split; [apply H | apply IH]].
Qed.

Section Coherence.
  Context {S : Type}.
  Variable tbl : inv_table.
  Variable fresh : S.
  Variable ask : list gnode * list gbinding -> S -> query -> S * bool.
  (* the memo laws: a solver state is Good for a view if asking it anything gives the fresh answer
     and leaves it Good *)
  Variable Good : list gnode * list gbinding -> S -> Prop.
  Hypothesis good_fresh : forall v, Good v fresh.
  Hypothesis good_ask : forall v s q, Good v s ->
    Good v (fst (ask v s q)) /\ snd (ask v s q) = snd (ask v fresh q).
  Hypothesis Hsafe : tbl_safe tbl = true.

  Theorem history_independent_generic ops g : ops_wf ops ->
    hrun tbl fresh ask (mkSt g None) ops = href fresh ask g ops.
  Proof.
    intro Hwf.
    apply (run_coherent_where tbl fresh ask Good (fun _ => True) good_fresh (fun v s q _ => good_ask v s q) Hsafe
             ops (mkSt g None) Hwf); [apply asks_lawful_all; exact (fun _ => I) | exact I].
  Qed.
End Coherence.

Section QC.
  Variable solve : list gnode * list gbinding -> query -> bool.

  Definition qgood (v : list gnode * list gbinding) (c : qcache) : Prop :=
    forall q b, qlookup q c = Some b -> b = solve v q.

  Lemma list_beq_true l1 l2 : list_beq l1 l2 = true -> l1 = l2.
  Proof. unfold list_beq. destruct (list_eq_dec Nat.eq_dec l1 l2); [auto|discriminate]. Qed.

  Lemma query_eqb_true q1 q2 : query_eqb q1 q2 = true -> q1 = q2.
  Proof.
    destruct q1 as [n1 l1], q2 as [n2 l2]. unfold query_eqb. cbn [fst snd]. intro H.
    apply andb_prop in H. destruct H as [H1 H2]. apply Nat.eqb_eq in H1. apply list_beq_true in H2.
    subst. reflexivity.
  Qed.

  Lemma qgood_fresh v : qgood v [].
  Proof. intros q b H. discriminate. Qed.

  Lemma qgood_ask v c q : qgood v c ->
    qgood v (fst (qask solve v c q)) /\ snd (qask solve v c q) = snd (qask solve v [] q).
  Proof.
    intro Hg. unfold qask at 1 2. cbn [qlookup]. destruct (qlookup q c) as [b|] eqn:Hl; cbn [fst snd].
    - split; [exact Hg|]. apply Hg. exact Hl.
    - split; [|reflexivity]. intros q' b' H. cbn [qlookup] in H.
      destruct (query_eqb q' q) eqn:He.
      + apply query_eqb_true in He. subst. inversion H. reflexivity.
      + apply Hg. exact H.
  Qed.

  Theorem history_independent_qcache tbl ops g :
    tbl_safe tbl = true -> ops_wf ops ->
    hrun tbl [] (qask solve) (mkSt g None) ops = href [] (qask solve) g ops.
  Proof.
    intros Hs Hwf.
    apply (history_independent_generic tbl [] (qask solve) qgood qgood_fresh qgood_ask Hs ops g Hwf).
  Qed.

  (* the reference run really is "a fresh solve of the current graph" *)
  Lemma href_is_fresh_solve ops : forall g,
    href [] (qask solve) g ops =
    (fix ref g ops := match ops with
       | [] => []
       | Api ms :: t => None :: ref (apply_all g ms) t
       | Ask q :: t => Some (solve (view g) q) :: ref g t
       end) g ops.
  Proof. induction ops as [|[ms|q] t IH]; intro g; cbn; [reflexivity| |]; rewrite IH; reflexivity. Qed.
End QC.

(* repeated queries never flip: asking twice in a row gives the same answer, for any memo obeying the laws *)
Lemma repeat_stable_generic {S} (tbl : inv_table) (fresh : S)
  (ask : list gnode * list gbinding -> S -> query -> S * bool)
  (Good : list gnode * list gbinding -> S -> Prop)
  (good_fresh : forall v, Good v fresh)
  (good_ask : forall v s q, Good v s -> Good v (fst (ask v s q)) /\ snd (ask v s q) = snd (ask v fresh q))
  (Hsafe : tbl_safe tbl = true) pre q g :
  ops_wf pre ->
  exists b, skipn (length pre) (hrun tbl fresh ask (mkSt g None) (pre ++ [Ask q; Ask q])) = [Some b; Some b].
Proof.
  intro Hwf.
  assert (Hwf2 : ops_wf (pre ++ [Ask q; Ask q])).
  { apply Forall_app. split; [assumption|]. repeat constructor. }
  rewrite (history_independent_generic tbl fresh ask Good good_fresh good_ask Hsafe _ g Hwf2).
  clear Hwf2. revert g. induction pre as [|o t IH]; intro g.
  - cbn. eexists. reflexivity.
  - inversion Hwf; subst. destruct o as [ms|q']; cbn [app length skipn href]; apply IH; assumption.
Qed.

Definition g_one_node : graph := mkGraph [mkNode [] [] None] [mkBinding 0 0 [(0, [])]] 1.

Lemma old_table_unsafe_set_condition :
  api_wf [MSetCondition 0 (Some 0)] = true /\
  inval_all tbl_before_fixes g_one_node [MSetCondition 0 (Some 0)] = false /\
  view (apply_all g_one_node [MSetCondition 0 (Some 0)]) <> view g_one_node.
Proof. repeat split; try reflexivity. cbv. discriminate. Qed.

Lemma old_table_unsafe_add_origin_ss :
  api_wf [MAddOriginSS 0 0 [0]] = true /\
  inval_all tbl_before_fixes g_one_node [MAddOriginSS 0 0 [0]] = false /\
  view (apply_all g_one_node [MAddOriginSS 0 0 [0]]) <> view g_one_node.
Proof. repeat split; try reflexivity. cbv. discriminate. Qed.

(* a concrete stale answer under the old table: the solver "does node 0 carry no condition?" *)
Definition solve_nocond (v : list gnode * list gbinding) (q : query) : bool :=
  match cond (nth (fst q) (fst v) (mkNode [] [] None)) with None => true | Some _ => false end.
