(* Bridge between the C07 solver model and the C09 model of reachable.cc.
   CFGNode::CanHaveCombination asks the bit matrix: backward_reachability_->is_reachable(this->id(),
   origin->where->id()), i.e. (Program::is_reachable(src,dst) = backward is_reachable(dst,src))
   Reach.is_reachable p where this.  The C07 model (Solver.can_have_combination) instead computes the
   set of nodes backward reachable from `this` over the incoming lists (Solver.back_reach) and tests
   membership.  Here: for a graph whose incoming lists were built by a history h of NewCFGNode /
   ConnectTo operations, the two tests are equal - using C09's theorem that the bit matrix is the
   reflexive-transitive closure of the inserted edges. *)
From Coq Require Import List Arith Bool Lia Relations.
From PV Require Import Typegraph.Graph Typegraph.Solver Typegraph.Spec Typegraph.SetLemmas.
From PV Require Typegraph.Reach Typegraph.ReachProofs.
Import ListNotations.

Section Closure.
Variable g : graph.
Hypothesis Hrange : forall n m, In m (incoming g n) -> m < n_nodes g.

Definition stepF (F : list node) : list node := sunion F (flat_map (incoming g) F).
Definition closed (F : list node) : Prop := forall x, In x F -> forall m, In m (incoming g x) -> In m F.

Lemma reach_steps_S : forall k F, reach_steps g (S k) F = reach_steps g k (stepF F).
Proof. reflexivity. Qed.

Lemma In_stepF : forall F x, In x (stepF F) <-> In x F \/ exists y, In y F /\ In x (incoming g y).
Proof. intros. unfold stepF. rewrite In_sunion, in_flat_map. reflexivity. Qed.

(* a step that adds no element changes nothing; the set is then closed and stays as it is *)
Lemma stepF_fix_or_grows : forall F, SS F -> stepF F = F \/ length F < length (stepF F).
Proof.
  intros F Hs. destruct (Nat.lt_ge_cases (length F) (length (stepF F))) as [Hlt|Hge]; [right; exact Hlt | left].
  assert (Hin : incl F (stepF F)) by (intros y Hy; apply In_stepF; left; exact Hy).
  apply SS_ext; [apply SS_sunion; exact Hs | exact Hs|]. intros x. split; [|apply Hin].
  apply (NoDup_length_incl (SS_NoDup _ Hs) Hge Hin).
Qed.

Lemma stepF_fix_closed : forall F, stepF F = F -> closed F.
Proof. intros F E x Hx m Hm. rewrite <- E. apply In_stepF. right. exists x. auto. Qed.

Lemma reach_steps_fix : forall k F, stepF F = F -> reach_steps g k F = F.
Proof.
  induction k as [|k IH]; intros F E; [reflexivity|]. rewrite reach_steps_S, E. apply IH. exact E.
Qed.

Lemma reach_steps_incl : forall k F x, In x F -> In x (reach_steps g k F).
Proof.
  induction k as [|k IH]; intros F x H; [exact H|]. rewrite reach_steps_S. apply IH. apply In_stepF. auto.
Qed.

Lemma reach_steps_SS : forall k F, SS F -> SS (reach_steps g k F).
Proof.
  induction k as [|k IH]; intros F H; [exact H|]. rewrite reach_steps_S. apply IH. apply SS_sunion. exact H.
Qed.

Definition bounded (F : list node) : Prop := forall x, In x F -> x < n_nodes g.

Lemma stepF_bounded : forall F, bounded F -> bounded (stepF F).
Proof. intros F H x Hx. apply In_stepF in Hx. destruct Hx as [Hx|[y [Hy Hx]]]; [auto | eapply Hrange; eauto]. Qed.

Lemma reach_steps_bounded : forall k F, bounded F -> bounded (reach_steps g k F).
Proof.
  induction k as [|k IH]; intros F H; [exact H|]. rewrite reach_steps_S. apply IH. apply stepF_bounded. exact H.
Qed.

Lemma bounded_length : forall F, SS F -> bounded F -> length F <= n_nodes g.
Proof.
  intros F Hs Hb. rewrite <- (seq_length (n_nodes g) 0). apply NoDup_incl_length; [apply SS_NoDup; exact Hs|].
  intros x Hx. apply in_seq. specialize (Hb x Hx). split; [apply Nat.le_0_l | simpl; exact Hb].
Qed.

Lemma saturate : forall k F, SS F ->
  closed (reach_steps g k F) \/ length F + k <= length (reach_steps g k F).
Proof.
  induction k as [|k IH]; intros F Hs; [right; rewrite Nat.add_0_r; apply Nat.le_refl|].
  destruct (stepF_fix_or_grows F Hs) as [E|Hg].
  - left. rewrite (reach_steps_fix _ _ E). apply stepF_fix_closed. exact E.
  - rewrite reach_steps_S.
    destruct (IH (stepF F) (SS_sunion _ _ Hs)) as [Hc|Hl]; [left; exact Hc | right; unfold node in *; lia].
Qed.

Lemma closed_reach : forall F, closed F -> forall a b, breach g a b -> In a F -> In b F.
Proof.
  intros F Hc a b H. induction H; intros Ha.
  - eapply Hc; eauto.
  - exact Ha.
  - auto.
Qed.

Lemma reach_steps_sound : forall n k F, (forall y, In y F -> breach g n y) ->
  forall x, In x (reach_steps g k F) -> breach g n x.
Proof.
  intros n. induction k as [|k IH]; intros F HF x Hx; [apply HF; exact Hx|].
  rewrite reach_steps_S in Hx. eapply IH; [|exact Hx].
  intros y Hy. apply In_stepF in Hy. destruct Hy as [Hy|[z [Hz Hy]]]; [apply HF; exact Hy|].
  eapply rt_trans; [apply HF; exact Hz | apply rt_step; exact Hy].
Qed.

Theorem back_reach_correct : forall n x, n < n_nodes g ->
  (smem x (back_reach g n) = true <-> breach g n x).
Proof.
  intros n x Hn. rewrite smem_In. unfold back_reach. split.
  - apply reach_steps_sound. intros y [Hy|[]]. subst. apply rt_refl.
  - intros Hb.
    assert (Hs : SS [n]) by reflexivity.
    assert (Hbd : bounded [n]) by (intros y [Hy|[]]; subst; exact Hn).
    destruct (saturate (n_nodes g) [n] Hs) as [Hc|Hl].
    + eapply closed_reach; [exact Hc | exact Hb|]. apply reach_steps_incl. left. reflexivity.
    + exfalso. pose proof (bounded_length _ (reach_steps_SS (n_nodes g) [n] Hs)
                             (reach_steps_bounded (n_nodes g) [n] Hbd)). simpl in Hl. unfold node in *. lia.
Qed.
End Closure.

(* CFGNode::incoming_ after a history of Program::NewCFGNode / CFGNode::ConnectTo (typegraph.cc:128:
   self edges and duplicate edges are ignored; a.ConnectTo(b) appends a to b.incoming_) *)
Definition inc_step (inc : list (list nat)) (o : Reach.op) : list (list nat) :=
  match o with
  | Reach.NewNode => inc ++ [[]]
  | Reach.Connect a b =>
    if Nat.eqb a b then inc
    else if existsb (Nat.eqb a) (nth b inc []) then inc
    else Reach.upd b (nth b inc [] ++ [a]) inc
  end.
Definition inc_of_hist (h : list Reach.op) : list (list nat) := fold_left inc_step h [].

(* the solver graph has exactly these incoming lists (conditions and bindings are arbitrary) *)
Definition built_by (g : graph) (h : list Reach.op) : Prop := map n_incoming (g_nodes g) = inc_of_hist h.

Definition inc_rel (inc : list (list nat)) (E : list (nat * nat)) : Prop :=
  forall n m, In m (nth n inc []) <-> (In (m, n) E /\ m <> n).

Lemma inc_run : forall h inc E,
  inc_rel inc E -> Reach.wf_hist_from (length inc) h = true ->
  inc_rel (fold_left inc_step h inc) (rev (Reach.edges h) ++ E) /\
  length (fold_left inc_step h inc) = length inc + Reach.count_nodes h.
Proof.
  induction h as [|o h IH]; intros inc E Hr Hwf.
  - simpl. split; [exact Hr | lia].
  - destruct o as [|a b]; cbn [fold_left inc_step Reach.edges Reach.count_nodes Reach.wf_hist_from] in *.
    + destruct (IH (inc ++ [[]]) E) as [I1 I2].
      * intros n m. destruct (Nat.lt_ge_cases n (length inc)) as [Hl|Hg].
        -- rewrite app_nth1 by exact Hl. apply Hr.
        -- rewrite <- (Hr n m). rewrite (nth_overflow inc) by exact Hg.
           destruct (Nat.eq_dec n (length inc)) as [He|Hne].
           ++ subst. rewrite app_nth2, Nat.sub_diag by lia. reflexivity.
           ++ rewrite nth_overflow by (rewrite app_length; simpl; lia). reflexivity.
      * rewrite app_length. simpl. replace (length inc + 1) with (S (length inc)) by lia. exact Hwf.
      * split; [exact I1|]. rewrite I2, app_length. simpl. lia.
    + apply andb_prop in Hwf. destruct Hwf as [Hab Hwf]. apply andb_prop in Hab. destruct Hab as [Ha Hb].
      apply Nat.ltb_lt in Ha. apply Nat.ltb_lt in Hb.
      assert (Hgoal : forall inc', length inc' = length inc -> inc_rel inc' ((a, b) :: E) ->
                inc_rel (fold_left inc_step h inc') (rev (Reach.edges h) ++ (a, b) :: E) /\
                length (fold_left inc_step h inc') = length inc + Reach.count_nodes h).
      { intros inc' Hlen Hr'. destruct (IH inc' ((a, b) :: E) Hr') as [I1 I2]; [rewrite Hlen; exact Hwf|].
        split; [exact I1 | rewrite I2, Hlen; reflexivity]. }
      simpl. rewrite <- app_assoc. simpl.
      destruct (Nat.eqb a b) eqn:Eab.
      * apply Nat.eqb_eq in Eab. subst b. apply Hgoal; [reflexivity|].
        intros n m. rewrite (Hr n m). split.
        -- intros [H1 H2]. split; [right; exact H1 | exact H2].
        -- intros [[H1|H1] H2]; [inversion H1; subst; congruence | split; assumption].
      * apply Nat.eqb_neq in Eab.
        destruct (existsb (Nat.eqb a) (nth b inc [])) eqn:Eex.
        -- apply Hgoal; [reflexivity|]. apply existsb_exists in Eex. destruct Eex as [a' [Hin He]].
           apply Nat.eqb_eq in He. subst a'.
           intros n m. rewrite (Hr n m). split.
           ++ intros [H1 H2]. split; [right; exact H1 | exact H2].
           ++ intros [[H1|H1] H2]; [|split; assumption]. inversion H1; subst. apply Hr. exact Hin.
        -- apply Hgoal; [apply ReachProofs.length_upd|].
           intros n m. destruct (Nat.eq_dec n b) as [He|Hne].
           ++ subst n. rewrite ReachProofs.nth_upd_eq by exact Hb. rewrite in_app_iff, (Hr b m). simpl. split.
              ** intros [[H1 H2]|[H1|[]]]; [split; [right; exact H1 | exact H2]|]. subst m. split; [left; reflexivity | exact Eab].
              ** intros [[H1|H1] H2]; [inversion H1; subst; right; left; reflexivity | left; split; assumption].
           ++ rewrite ReachProofs.nth_upd_neq by congruence. rewrite (Hr n m). split.
              ** intros [H1 H2]. split; [right; exact H1 | exact H2].
              ** intros [[H1|H1] H2]; [inversion H1; subst; congruence | split; assumption].
Qed.

Lemma inc_of_hist_spec : forall h, Reach.wf_hist h = true ->
  inc_rel (inc_of_hist h) (Reach.edges h) /\ length (inc_of_hist h) = Reach.count_nodes h.
Proof.
  intros h Hwf. destruct (inc_run h [] []) as [I1 I2].
  - intros n m. destruct n; (split; [intros [] | intros [[] _]]).
  - exact Hwf.
  - split; [|exact I2]. intros n m. rewrite (I1 n m), app_nil_r, <- in_rev. reflexivity.
Qed.

Lemma forallb_ext_in' : forall {A} (f f' : A -> bool) l, (forall x, In x l -> f x = f' x) -> forallb f l = forallb f' l.
Proof.
  intros A f f'. induction l as [|a t IH]; intros H; [reflexivity|]. simpl.
  rewrite (H a (or_introl eq_refl)), IH; [reflexivity|]. intros x Hx. apply H. right. exact Hx.
Qed.
Lemma existsb_ext_in' : forall {A} (f f' : A -> bool) l, (forall x, In x l -> f x = f' x) -> existsb f l = existsb f' l.
Proof.
  intros A f f'. induction l as [|a t IH]; intros H; [reflexivity|]. simpl.
  rewrite (H a (or_introl eq_refl)), IH; [reflexivity|]. intros x Hx. apply H. right. exact Hx.
Qed.

Section Bridge.
Variable g : graph.
Variable h : list Reach.op.
Hypothesis Hwf : Reach.wf_hist h = true.
Hypothesis Hbuilt : built_by g h.

Lemma incoming_hist : forall n, incoming g n = nth n (inc_of_hist h) [].
Proof.
  intros n. unfold incoming, get_node. rewrite <- Hbuilt.
  exact (eq_sym (map_nth n_incoming (g_nodes g) (mkNode [] None) n)).
Qed.

Lemma n_nodes_hist : n_nodes g = Reach.nodes (Reach.run h).
Proof.
  destruct (ReachProofs.run_Inv h Hwf) as [_ Hn]. destruct (inc_of_hist_spec h Hwf) as [_ Hl].
  unfold n_nodes. rewrite <- (map_length n_incoming (g_nodes g)).
  unfold built_by in Hbuilt. rewrite Hbuilt. exact (eq_trans Hl (eq_sym Hn)).
Qed.

Lemma edges_in_range : forall a b, In (a, b) (Reach.edges h) -> a < n_nodes g /\ b < n_nodes g.
Proof.
  intros a b H. destruct (ReachProofs.run_Inv h Hwf) as [HI _].
  rewrite n_nodes_hist. exact (ReachProofs.inv_edges _ _ HI a b H).
Qed.

Lemma incoming_edge : forall n m, In m (incoming g n) <-> (In (m, n) (Reach.edges h) /\ m <> n).
Proof. intros n m. rewrite incoming_hist. apply (proj1 (inc_of_hist_spec h Hwf)). Qed.

Lemma incoming_range : forall n m, In m (incoming g n) -> m < n_nodes g.
Proof. intros n m H. apply incoming_edge in H. destruct H as [H _]. apply edges_in_range in H. apply H. Qed.

Lemma breach_rtc : forall n x, breach g n x <-> ReachProofs.rtc (Reach.edges h) x n.
Proof.
  intros n x. split; intros H.
  - induction H.
    + apply rt_step. apply incoming_edge in H. exact (proj1 H).
    + apply rt_refl.
    + eapply rt_trans; eassumption.
  - induction H as [a b H| |a b c _ IH1 _ IH2].
    + destruct (Nat.eq_dec a b) as [E|E]; [subst; apply rt_refl|].
      apply rt_step. apply incoming_edge. split; assumption.
    + apply rt_refl.
    + eapply rt_trans; eassumption.
Qed.

(* the reachability test of the C07 model = the bit-matrix query CFGNode::CanHaveCombination makes:
   backward_reachability_->is_reachable(this, where) = Reach.is_reachable (run h) where this *)
Theorem back_reach_is_bit_matrix : forall this where_, this < n_nodes g -> where_ < n_nodes g ->
  smem where_ (back_reach g this) = Reach.is_reachable (Reach.run h) where_ this.
Proof.
  intros this w Ht Hw.
  assert (H1 := back_reach_correct g incoming_range this w Ht).
  assert (H2 := ReachProofs.reach_correct_lemma h w this Hwf
                  ltac:(rewrite <- n_nodes_hist; exact Hw) ltac:(rewrite <- n_nodes_hist; exact Ht)).
  rewrite breach_rtc in H1.
  destruct (smem w (back_reach g this)); destruct (Reach.is_reachable (Reach.run h) w this); try reflexivity.
  - symmetry. apply (proj2 H2). apply (proj1 H1). reflexivity.
  - apply (proj2 H1). apply (proj1 H2). reflexivity.
Qed.

(* CFGNode::CanHaveCombination, the C++ loop, over the bit matrix *)
Definition can_have_combination_matrix (attrs : list bid) (this : node) : bool :=
  forallb (fun b => existsb (fun o => Reach.is_reachable (Reach.run h) (o_where o) this) (origins g b)) attrs.

Theorem can_have_combination_bit_matrix_lemma : forall attrs this,
  this < n_nodes g ->
  (forall b o, In b attrs -> In o (origins g b) -> o_where o < n_nodes g) ->
  can_have_combination g attrs this = can_have_combination_matrix attrs this.
Proof.
  intros attrs this Ht Ho. unfold can_have_combination, can_have_combination_matrix.
  apply forallb_ext_in'. intros b Hb. apply existsb_ext_in'. intros o Hin.
  apply back_reach_is_bit_matrix; [exact Ht | eapply Ho; eauto].
Qed.
End Bridge.
