(* C08 on graphs WITH cycles (and with node conditions), for the history model running the real memoised
   solver (HistorySolver.ask):
   -    `ask` repeats itself exactly (ask_repeat) and therefore repeated queries never flip in any history over
        any graph under any invalidation table (repeat_stable_solver) - no hypothesis at all;
   -    history independence FAILS on a 4-node condition-free loop, in both directions, with two queries and no
        mutation in between (cyc_dep_true / cyc_dep_false), by computation on the model; the same two query
        sequences give the same answers on cfg.so (corpus/C08/cyclic_memo_*.json). *)
From Coq Require Import List Arith Bool Lia.
From PV Require Import Typegraph.Graph Typegraph.Solver Typegraph.Spec Typegraph.SetLemmas Typegraph.CyclicMemo.
From PV Require Typegraph.History Typegraph.HistoryProofs.
From PV Require Import Typegraph.HistorySolver.
Import ListNotations.

Lemma guess_fuel_S : forall g, exists f, guess_fuel g = S f.
Proof. intros g. unfold guess_fuel. eexists. reflexivity. Qed.

(* asking the question just answered again returns the same answer AND leaves the solver unchanged;
   every graph (cyclic, conditional), every solver state *)
Theorem ask_repeat : forall v st (q : History.query) st1 b, ask v st q = (st1, b) -> ask v st1 q = (st1, b).
Proof.
  intros v st q st1 b H. destruct (ask_cases v st q) as [[F HF]|[_ E]].
  - rewrite H in HF. destruct (guess_fuel_S (to_solver_graph v)) as [f Hf]. unfold ask. cbv zeta. rewrite Hf.
    rewrite (solve_sticky _ F f st _ _ st1 b st1 HF (memo_le_refl _)). reflexivity.
  - rewrite H in E. inversion E; subst. exact H.
Qed.

(* Repeated queries never flip, for the REAL memoised solver, in every history over every graph (cyclic and
   conditional included), under ANY invalidation table: no hypothesis at all. *)
Theorem repeat_stable_solver : forall tbl pre (q : History.query) st,
  exists b, skipn (length pre) (History.hrun tbl sstate_empty ask st (pre ++ [History.Ask q; History.Ask q]))
            = [Some b; Some b].
Proof.
  intros tbl. induction pre as [|o t IH]; intros q st.
  - cbn [app length skipn History.hrun History.hstep fst snd History.hg History.hs].
    destruct (ask (History.view (History.hg st)) (match History.hs st with Some s => s | None => sstate_empty end) q)
      as [st1 b] eqn:E.
    cbn [fst snd]. rewrite (ask_repeat _ _ _ _ _ E). cbn [fst snd]. exists b. reflexivity.
  - cbn [app length skipn History.hrun]. apply IH.
Qed.

(*   n0: z = e      n1 (loop head): y = c computed from {e, b}      n2 (body): x = b computed from {e, c}
     n2 -> n1 (back edge), n1 -> n3 (exit).   Bindings: 0 = e, 1 = b, 2 = c.  No node condition.
     Neither b nor c has a non-circular explanation. *)
Definition cyc_build : list History.hop :=
  [History.Api [History.MNewNode None]; History.Api [History.MNewNode None; History.MConnect 0 1];
   History.Api [History.MNewNode None; History.MConnect 1 2]; History.Api [History.MConnect 2 1];
   History.Api [History.MNewNode None; History.MConnect 1 3];
   History.Api [History.MNewVariable]; History.Api [History.MNewVariable]; History.Api [History.MNewVariable];
   History.Api [History.MFindOrAddBinding 0 0; History.MAddOrigin 0 0; History.MAddSourceSet 0 0 []];
   History.Api [History.MFindOrAddBinding 1 0]; History.Api [History.MFindOrAddBinding 2 0];
   History.Api [History.MAddOriginVec 1 2 [0; 2]];
   History.Api [History.MAddOriginVec 2 1 [0; 1]]].

(* "is b visible at the head?" then "is c visible at the head?": the second answer is `true` from the memo
   (the first query left the circular justification behind), a fresh solver says `false` *)
Definition cyc_ops_true : list History.hop := cyc_build ++ [History.Ask (1, [1]); History.Ask (1, [2])].
(* the other order: "c at the head?" (false), then "b at the head?": `false` from the memo (the state was
   skipped as a cycle while something else could still be tried, and that verdict was recorded), a fresh
   solver says `true` *)
Definition cyc_ops_false : list History.hop := cyc_build ++ [History.Ask (1, [2]); History.Ask (1, [1])].

Definition cyc_graph : History.graph := fold_left (fun g o => match o with History.Api ms => History.apply_all g ms | _ => g end)
                                                   cyc_build History.graph0.

Lemma cyc_facts :
  HistoryProofs.ops_wf cyc_ops_true /\ HistoryProofs.ops_wf cyc_ops_false /\
  no_conditions (to_solver_graph (History.view cyc_graph)) = true /\
  wf_graph (to_solver_graph (History.view cyc_graph)) = true /\
  acyclicb (to_solver_graph (History.view cyc_graph)) = false.
Proof. split; [repeat constructor|]. split; [repeat constructor|]. vm_compute. repeat split; reflexivity. Qed.

(* a history that first only builds (no query) and then only asks: the invalidation table is never consulted
   for an answer - the solver is created by the first query and nothing mutates afterwards *)
Lemma build_then_ask : forall tbl build qs,
  (forall o, In o build -> exists ms, o = History.Api ms) ->
  skipn (length build) (History.hrun tbl sstate_empty ask (History.mkSt History.graph0 None) (build ++ qs))
  = History.hrun tbl sstate_empty ask
      (History.mkSt (fold_left (fun g o => match o with History.Api ms => History.apply_all g ms | _ => g end)
                               build History.graph0) None) qs.
Proof.
  intros tbl build qs. generalize History.graph0.
  induction build as [|o t IH]; intros g0 Hall; [reflexivity|].
  destruct (Hall o (or_introl eq_refl)) as [ms Hms]. subst o.
  cbn [app length skipn History.hrun History.hstep fst fold_left History.hg History.hs].
  replace (if History.inval_all tbl g0 ms then None else None) with (@None sstate) by (destruct (History.inval_all tbl g0 ms); reflexivity).
  apply IH. intros o Ho. apply Hall. right. exact Ho.
Qed.

Lemma cyc_build_api : forall o, In o cyc_build -> exists ms, o = History.Api ms.
Proof.
  intros o Ho. unfold cyc_build in Ho.
  repeat (destruct Ho as [Ho|Ho]; [subst o; eexists; reflexivity|]). destruct Ho.
Qed.

(* live solver: true, true.   fresh solver at every query: true, false.   Under EVERY invalidation table. *)
Lemma cyc_dep_true : forall tbl,
  skipn 13 (History.hrun tbl sstate_empty ask (History.mkSt History.graph0 None) cyc_ops_true) = [Some true; Some true] /\
  skipn 13 (History.href sstate_empty ask History.graph0 cyc_ops_true) = [Some true; Some false].
Proof.
  intros tbl. split; [|vm_compute; reflexivity].
  unfold cyc_ops_true. change 13 with (length cyc_build). rewrite (build_then_ask tbl _ _ cyc_build_api).
  vm_compute. reflexivity.
Qed.

(* live solver: false, false.   fresh solver at every query: false, true. *)
Lemma cyc_dep_false : forall tbl,
  skipn 13 (History.hrun tbl sstate_empty ask (History.mkSt History.graph0 None) cyc_ops_false) = [Some false; Some false] /\
  skipn 13 (History.href sstate_empty ask History.graph0 cyc_ops_false) = [Some false; Some true].
Proof.
  intros tbl. split; [|vm_compute; reflexivity].
  unfold cyc_ops_false. change 13 with (length cyc_build). rewrite (build_then_ask tbl _ _ cyc_build_api).
  vm_compute. reflexivity.
Qed.

(* the statement of history_independent_real_solver without "acyclic": refuted on a condition-free graph *)
Theorem history_independent_cyclic_refuted_lemma : forall tbl, exists ops g,
  HistoryProofs.ops_wf ops /\
  (fix nocond_asks (g : History.graph) (ops : list History.hop) : Prop :=
     match ops with
     | [] => True
     | History.Api ms :: t => nocond_asks (History.apply_all g ms) t
     | History.Ask _ :: t => no_conditions (to_solver_graph (History.view g)) = true /\ nocond_asks g t
     end) g ops /\
  History.hrun tbl sstate_empty ask (History.mkSt g None) ops <> History.href sstate_empty ask g ops.
Proof.
  intros tbl. exists cyc_ops_true, History.graph0. split; [apply cyc_facts|]. split.
  - vm_compute. repeat split; reflexivity.
  - intros E. destruct (cyc_dep_true tbl) as [A B]. rewrite E in A. rewrite A in B. discriminate.
Qed.
