(* C09 proofs: the bit matrix of reachable.cc represents the reflexive-transitive closure of the
   inserted edges, for histories of any length and any number of 64-bit buckets. *)
From Coq Require Import List NArith ZArith Arith Bool Lia Relations ZifyNat ZifyBool ZifyN.
From PV Require Import Typegraph.Reach.
Import ListNotations.

Lemma length_upd {A} i (x : A) l : length (upd i x l) = length l.
Proof. revert i; induction l as [|h t IH]; intros [|i]; simpl; auto. Qed.

Lemma nth_upd_eq {A} i (x d : A) l : i < length l -> nth i (upd i x l) d = x.
Proof. revert i; induction l as [|h t IH]; intros [|i] H; simpl in *; try lia; auto. apply IH; lia. Qed.

Lemma nth_upd_neq {A} i k (x d : A) l : i <> k -> nth k (upd i x l) d = nth k l d.
Proof.
  revert i k; induction l as [|h t IH]; intros [|i] [|k] H; simpl; auto; try lia.
Qed.

Lemma nth_app_repeat {A} k (l : list A) d m : nth k (l ++ repeat d m) d = nth k l d.
Proof.
  destruct (Nat.lt_ge_cases k (length l)) as [H|H].
  - apply app_nth1; assumption.
  - rewrite app_nth2 by assumption. rewrite (nth_overflow l) by assumption.
    apply nth_repeat.
Qed.

Lemma nth_snoc_default {A} k (l : list A) d : nth k (l ++ [d]) d = nth k l d.
Proof. apply (nth_app_repeat k l d 1). Qed.

Lemma Forall_nth_default {A} (P : A -> Prop) l k d : Forall P l -> P d -> P (nth k l d).
Proof.
  intros Hl Hd. destruct (nth_in_or_default k l d) as [H| ->]; [|exact Hd].
  exact (proj1 (Forall_forall P l) Hl _ H).
Qed.

Lemma Forall_firstn_skipn {A} (P : A -> Prop) n l : Forall P l -> Forall P (firstn n l) /\ Forall P (skipn n l).
Proof. rewrite <- (firstn_skipn n l) at 1. apply Forall_app. Qed.

Lemma Forall_upd {A} (P : A -> Prop) i x l : Forall P l -> P x -> Forall P (upd i x l).
Proof.
  revert i; induction l as [|h t IH]; intros [|i] Hl Hx; simpl; auto;
    inversion Hl; subst; constructor; auto.
Qed.

Lemma vresize_length {A} n (v : A) l : length (vresize n v l) = n.
Proof. unfold vresize. rewrite app_length, firstn_length, repeat_length. lia. Qed.

Lemma vresize_grow {A} n (v : A) l : length l <= n -> vresize n v l = l ++ repeat v (n - length l).
Proof. intro H. unfold vresize. rewrite firstn_all2 by assumption. reflexivity. Qed.

Lemma vresize_nil {A} n (v : A) : vresize n v [] = repeat v n.
Proof. unfold vresize. rewrite firstn_nil, Nat.sub_0_r. reflexivity. Qed.

Lemma Forall_vresize {A} (P : A -> Prop) n v l : P v -> Forall P l -> Forall P (vresize n v l).
Proof.
  intros Hv Hl. apply Forall_app. split.
  - apply Forall_firstn_skipn. exact Hl.
  - apply Forall_forall. intros x Hx. apply repeat_spec in Hx. subst. exact Hv.
Qed.

(* the two resize calls of add_node, read row by row *)
Lemma nth_resized_rows n s (rs : list (list N)) i : length rs <= n -> i < n ->
  nth i (map (vresize s 0%N) (vresize n [] rs)) [] = vresize s 0%N (nth i rs []).
Proof.
  intros Hl Hi.
  rewrite (nth_indep _ [] (vresize s 0%N [])) by (rewrite map_length, vresize_length; exact Hi).
  rewrite map_nth, (vresize_grow n), nth_app_repeat by exact Hl. reflexivity.
Qed.

Lemma lt_succ_cases i n : i < S n -> i < n \/ i = n.
Proof. lia. Qed.

Lemma leb_succ_neq i k : k <> i -> (S i <=? k) = (i <=? k).
Proof. intro H. destruct (Nat.leb_spec (S i) k), (Nat.leb_spec i k); lia || reflexivity. Qed.

Lemma divmod_eq j n : j / 64 = n / 64 -> j mod 64 = n mod 64 -> j = n.
Proof. intros H1 H2. rewrite (Nat.div_mod_eq j 64), (Nat.div_mod_eq n 64). congruence. Qed.

(* words per row for n nodes; named so that [lia] sees an atom where the context mentions it *)
Definition buckets (n : nat) : nat := (n + 63) / 64.

Lemma bucket_lt j n : j < n -> j / 64 < buckets n.
Proof. unfold buckets. intro H. zify. Z.div_mod_to_equations. lia. Qed.

Lemma buckets_succ n : buckets n <= buckets (S n).
Proof. apply Nat.div_le_mono; [discriminate|]. apply Nat.add_le_mono_r, Nat.le_succ_diag_r. Qed.

Definition bit (row : list N) (j : nat) : bool :=
  N.testbit (nth (j / 64) row 0%N) (N.of_nat (j mod 64)).

Lemma land_pow2_testbit a k :
  negb (N.eqb (N.land a (N.shiftl 1 k)) 0) = N.testbit a k.
Proof.
  rewrite N.shiftl_1_l. symmetry. destruct (N.eqb_spec (N.land a (2 ^ k)) 0) as [E|E]; cbn [negb].
  - rewrite <- (andb_true_r (N.testbit a k)), <- (N.pow2_bits_true k), <- N.land_spec, E. apply N.bits_0.
  - apply not_false_iff_true. intro Hk. apply E. apply N.bits_inj. intro m.
    rewrite N.land_spec, N.bits_0, N.pow2_bits_eqb.
    destruct (N.eqb_spec k m) as [<-|_]; [rewrite Hk; reflexivity|apply andb_false_r].
Qed.

Lemma word_has_bit row j : word_has row (j / 64) (node_bit j) = bit row j.
Proof. unfold word_has, node_bit, bit. apply land_pow2_testbit. Qed.

Lemma bit_app_zeros row m j : bit (row ++ repeat 0%N m) j = bit row j.
Proof. unfold bit. rewrite nth_app_repeat. reflexivity. Qed.

Lemma bit_vresize s row j : length row <= s -> bit (vresize s 0%N row) j = bit row j.
Proof. intro H. rewrite vresize_grow by exact H. apply bit_app_zeros. Qed.

Lemma bit_zeros m j : bit (repeat 0%N m) j = false.
Proof. unfold bit. rewrite nth_repeat. apply N.bits_0. Qed.

Lemma bit_nil j : bit [] j = false.
Proof. apply (bit_zeros 0). Qed.

Lemma bit_nth_lt adj i j : bit (nth i adj []) j = true -> i < length adj.
Proof.
  intro H. destruct (Nat.lt_ge_cases i (length adj)) as [Hl|Hl]; [exact Hl|].
  rewrite nth_overflow, bit_nil in H by exact Hl. discriminate.
Qed.

Lemma bit_unit sz n j : n / 64 < sz ->
  bit (upd (n / 64) (node_bit n) (repeat 0%N sz)) j = Nat.eqb j n.
Proof.
  intro Hsz. unfold bit. symmetry.
  destruct (Nat.eq_dec (j / 64) (n / 64)) as [Hd|Hd].
  - rewrite Hd, nth_upd_eq by (rewrite repeat_length; assumption).
    unfold node_bit. rewrite N.shiftl_1_l.
    destruct (Nat.eq_dec (j mod 64) (n mod 64)) as [Hm|Hm].
    + rewrite Hm, N.pow2_bits_true. apply Nat.eqb_eq. apply divmod_eq; assumption.
    + rewrite N.pow2_bits_false by (intro H; apply Nat2N.inj in H; congruence).
      apply Nat.eqb_neq. congruence.
  - rewrite nth_upd_neq by congruence. rewrite nth_repeat, N.bits_0.
    apply Nat.eqb_neq. congruence.
Qed.

Lemma lor_row_length sz r d : length r = sz -> length (lor_row sz r d) = sz.
Proof.
  intro H. unfold lor_row. rewrite app_length, map_length, seq_length, skipn_length. lia.
Qed.

Lemma nth_lor_row sz r d k : length r = sz -> length d = sz ->
  nth k (lor_row sz r d) 0%N = N.lor (nth k r 0%N) (nth k d 0%N).
Proof.
  intros Hr Hd. unfold lor_row. rewrite skipn_all2, app_nil_r by lia.
  destruct (Nat.lt_ge_cases k sz) as [H|H].
  - rewrite (nth_indep _ 0%N (N.lor (nth 0 r 0%N) (nth 0 d 0%N)))
      by (rewrite map_length, seq_length; assumption).
    rewrite (map_nth (fun k => N.lor (nth k r 0%N) (nth k d 0%N)) (seq 0 sz) 0).
    rewrite seq_nth by assumption. reflexivity.
  - rewrite !nth_overflow by (rewrite ?map_length, ?seq_length; lia). reflexivity.
Qed.

Lemma bit_lor_row sz r d j : length r = sz -> length d = sz ->
  bit (lor_row sz r d) j = bit r j || bit d j.
Proof. intros Hr Hd. unfold bit. rewrite nth_lor_row by assumption. apply N.lor_spec. Qed.

Lemma lor_row_diag sz r : length r = sz -> lor_row sz r r = r.
Proof.
  intros <-. apply nth_ext with (d := 0%N) (d' := 0%N); [apply lor_row_length; reflexivity|].
  intros k _. rewrite nth_lor_row by reflexivity. apply N.lor_diag.
Qed.

Section Loop.
  Variables (sz src dst : nat) (D : list N).
  Hypothesis HD : length D = sz.

  Lemma conn_loop_spec fuel : forall i adj,
    nth dst adj [] = D ->
    length (conn_loop fuel i sz adj src dst) = length adj /\
    forall k, nth k (conn_loop fuel i sz adj src dst) [] =
      if (i <=? k) && (k <? i + fuel) && bit (nth k adj []) src
      then lor_row sz (nth k adj []) D else nth k adj [].
  Proof.
    induction fuel as [|f IH]; intros i adj Hdst.
    - split; [reflexivity|]. intro k. rewrite Nat.add_0_r.
      destruct (Nat.leb_spec i k) as [H1|H1], (Nat.ltb_spec k i) as [H2|H2]; try reflexivity.
      elim (Nat.lt_irrefl _ (Nat.le_lt_trans _ _ _ H1 H2)).
    - cbn [conn_loop]. rewrite word_has_bit, Hdst.
      set (c := bit (nth i adj []) src).
      set (adj' := if c then upd i (lor_row sz (nth i adj []) D) adj else adj).
      (* one round changes row i alone, and only if it has the bit of src *)
      assert (Hnth : forall k, nth k adj' [] = if (k =? i) && c then lor_row sz (nth i adj []) D else nth k adj []).
      { intro k. unfold adj'. destruct c eqn:Hc; [|rewrite andb_false_r; reflexivity]. rewrite andb_true_r.
        destruct (Nat.eqb_spec k i) as [->|Hne]; [|apply nth_upd_neq; congruence].
        apply nth_upd_eq, (bit_nth_lt _ _ _ Hc). }
      destruct (IH (S i) adj') as [IHl IHk].
      { (* row dst stays D: or-ing D into itself changes nothing *)
        rewrite Hnth. destruct (Nat.eqb_spec dst i) as [->|_]; [|exact Hdst]. destruct c; [|exact Hdst].
        cbn [andb]. rewrite Hdst. apply lor_row_diag, HD. }
      split.
      { rewrite IHl. unfold adj'. destruct c; [apply length_upd|reflexivity]. }
      intro k. rewrite IHk, !Hnth, Nat.add_succ_r. cbn [Nat.add].
      destruct (Nat.eqb_spec k i) as [->|Hki]; cbn [andb].
      + assert (H1 : S i <=? i = false) by apply Nat.leb_gt, Nat.lt_succ_diag_r.
        assert (H2 : i <? S (i + f) = true) by apply Nat.ltb_lt, Nat.lt_succ_r, Nat.le_add_r.
        rewrite H1, H2, Nat.leb_refl. cbn [andb]. fold c. destruct c; reflexivity.
      + rewrite (leb_succ_neq i k Hki). reflexivity.
  Qed.
End Loop.

Definition edge (E : list (nat * nat)) (x y : nat) : Prop := In (x, y) E.
Definition rtc (E : list (nat * nat)) : nat -> nat -> Prop := clos_refl_trans nat (edge E).

Lemma rtc_least E (R : nat -> nat -> Prop) :
  (forall x, R x x) -> (forall x y z, R x y -> R y z -> R x z) -> (forall a b, In (a, b) E -> R a b) ->
  forall x y, rtc E x y -> R x y.
Proof.
  intros Hrefl Htrans Hstep x y H. induction H as [x y H| |x y z _ IH1 _ IH2].
  - apply Hstep. exact H.
  - apply Hrefl.
  - exact (Htrans _ _ _ IH1 IH2).
Qed.

Lemma rtc_mono E E' x y : incl E E' -> rtc E x y -> rtc E' x y.
Proof.
  intro Hi. apply (rtc_least E (rtc E')); [apply rt_refl|apply rt_trans|].
  intros a b H. apply rt_step, Hi, H.
Qed.

Lemma rtc_add_edge E a b x y :
  rtc ((a, b) :: E) x y <-> rtc E x y \/ (rtc E x a /\ rtc E b y).
Proof.
  split.
  - intro H. apply clos_rt_rtn1 in H. induction H as [|y z Hyz _ IH].
    + left. apply rt_refl.
    + destruct Hyz as [Heq|Hin].
      * inversion Heq; subst. destruct IH as [IH|[IH _]]; right; split; auto; apply rt_refl.
      * destruct IH as [IH|[IH1 IH2]].
        -- left. eapply rt_trans; [exact IH|]. apply rt_step. exact Hin.
        -- right. split; [assumption|]. eapply rt_trans; [exact IH2|]. apply rt_step. exact Hin.
  - assert (Hm : forall u v, rtc E u v -> rtc ((a, b) :: E) u v).
    { intros u v. apply rtc_mono, incl_tl, incl_refl. }
    intros [H|[H1 H2]]; [apply Hm, H|].
    apply rt_trans with a; [apply Hm, H1|]. apply rt_trans with b; [|apply Hm, H2].
    apply rt_step. left. reflexivity.
Qed.

Lemma rtc_bounds E n x y :
  (forall a b, In (a, b) E -> a < n /\ b < n) -> rtc E x y -> x = y \/ (x < n /\ y < n).
Proof.
  intro Hb. apply (rtc_least E (fun x y => x = y \/ (x < n /\ y < n))); [auto| |intros a b H; right; apply Hb, H].
  intros u v w [->|[? ?]] [->|[? ?]]; auto.
Qed.

Lemma rtc_le E x y : (forall a b, In (a, b) E -> a <= b) -> rtc E x y -> x <= y.
Proof. intro H. apply (rtc_least E le); [apply le_n|apply Nat.le_trans|exact H]. Qed.

Lemma rtc_chain E x y : x <= y -> (forall i, x <= i < y -> In (i, S i) E) -> rtc E x y.
Proof.
  induction 1 as [|y Hxy IH]; intro Hs.
  - apply rt_refl.
  - apply rt_trans with y.
    + apply IH. intros i Hi. apply Hs. lia.
    + apply rt_step. apply Hs. lia.
Qed.

Lemma rtc_chain_order n E' a b :
  (forall x y, In (x, y) E' -> x <= y) -> b <= n ->
  (rtc (map (fun i => (i, S i)) (seq 0 n) ++ E') a b <-> a <= b).
Proof.
  intros Hup Hb. split.
  - apply rtc_le. intros x y H. apply in_app_or in H. destruct H as [H|H]; [|exact (Hup x y H)].
    apply in_map_iff in H. destruct H as [i [[= <- <-] _]]. apply Nat.le_succ_diag_r.
  - intro H. apply rtc_chain; [exact H|]. intros i Hi. apply in_or_app. left.
    apply (in_map (fun i => (i, S i))), in_seq. lia.
Qed.

Record Inv (p : prog) (E : list (nat * nat)) : Prop := {
  inv_size : size (reach p) = (num (reach p) + 63) / 64;
  inv_rows : length (rows (reach p)) = num (reach p);
  inv_row_len : forall i, i < num (reach p) -> length (nth i (rows (reach p)) []) = size (reach p);
  inv_bits : forall i j, i < num (reach p) ->
     (bit (nth i (rows (reach p)) []) j = true <-> j < num (reach p) /\ rtc E j i);
  inv_edges : forall a b, In (a, b) E -> a < num (reach p) /\ b < num (reach p);
  inv_out_len : length (outgoing p) = num (reach p);
  inv_out : forall a b, In b (nth a (outgoing p) []) -> In (a, b) E
}.

Lemma Inv_empty : Inv prog_empty [].
Proof.
  constructor; simpl; try reflexivity; try (intros; lia); try (intros a b []).
  intros a b H. destruct a; destruct H.
Qed.

Lemma Inv_ext p E E' :
  (forall e, In e E <-> In e E') -> Inv p E -> Inv p E'.
Proof.
  intros Hee [H1 H2 H3 H4 H5 H6 H7]. constructor; auto.
  - intros i j Hi. rewrite (H4 i j Hi). split; intros [? Hr]; split; auto;
      (eapply rtc_mono; [|exact Hr]); intros e He; apply Hee; exact He.
  - intros a b H. apply H5. apply Hee. exact H.
  - intros a b H. apply Hee. apply H7. exact H.
Qed.

Lemma Inv_redundant_edge p E a b :
  Inv p E -> rtc E a b -> a < nodes p -> b < nodes p -> Inv p ((a, b) :: E).
Proof.
  intros [H1 H2 H3 H4 H5 H6 H7] Hab Ha Hb. constructor; auto.
  - intros i j Hi. rewrite (H4 i j Hi), rtc_add_edge. split; [intros [? ?]; auto|].
    intros [? [?|[Hja Hbi]]]; split; auto.
    exact (rt_trans _ _ _ _ _ Hja (rt_trans _ _ _ _ _ Hab Hbi)).
  - intros x y [[= <- <-]|Hin]; auto.
  - intros x y H. right. auto.
Qed.

Lemma Inv_new_node p E : Inv p E -> Inv (new_node p) E.
Proof.
  intros [H1 H2 H3 H4 H5 H6 H7]. fold (buckets (num (reach p))) in H1.
  set (n := num (reach p)) in *. set (sz' := buckets (S n)).
  set (adj2 := map (vresize sz' 0%N) (vresize (S n) [] (rows (reach p)))).
  assert (Hlen : length adj2 = S n) by (unfold adj2; rewrite map_length; apply vresize_length).
  assert (Hn : n < length adj2) by (rewrite Hlen; apply Nat.lt_succ_diag_r).
  assert (Hrow : forall i, i <= n -> nth i adj2 [] = vresize sz' 0%N (nth i (rows (reach p)) [])).
  { intros i Hi. apply nth_resized_rows; [rewrite H2; apply Nat.le_succ_diag_r|apply Nat.lt_succ_r, Hi]. }
  assert (Hle : forall i, i < n -> length (nth i (rows (reach p)) []) <= sz').
  { intros i Hi. rewrite H3, H1 by exact Hi. apply buckets_succ. }
  (* the rows of the new matrix: the old ones padded with zero words, and the unit row of n *)
  assert (Hold : forall i X, i < n -> nth i (upd n X adj2) [] = vresize sz' 0%N (nth i (rows (reach p)) [])).
  { intros i X Hi. rewrite nth_upd_neq, Hrow; auto using Nat.lt_le_incl, Nat.lt_neq, not_eq_sym. }
  assert (Hnew : nth n adj2 [] = repeat 0%N sz').
  { rewrite Hrow, nth_overflow, vresize_nil; [reflexivity|rewrite H2|]; apply le_n. }
  assert (Hp : new_node p =
    mkProg (mkRA (S n) sz' (upd n (upd (n / 64) (node_bit n) (nth n adj2 [])) adj2)) (outgoing p ++ [[]]))
    by reflexivity.
  rewrite Hp. clear Hp. constructor; cbn [reach num size rows outgoing].
  - reflexivity.
  - rewrite length_upd. exact Hlen.
  - intros i Hi. destruct (lt_succ_cases i n Hi) as [Hi'| ->].
    + rewrite Hold by exact Hi'. apply vresize_length.
    + rewrite nth_upd_eq, length_upd, Hnew by exact Hn. apply repeat_length.
  - intros i j Hi. destruct (lt_succ_cases i n Hi) as [Hi'| ->].
    + rewrite Hold, bit_vresize, H4 by auto. split.
      * intros [Hj Hr]. split; [apply Nat.lt_lt_succ_r, Hj|exact Hr].
      * intros [_ Hr]. split; [|exact Hr].
        destruct (rtc_bounds E n j i H5 Hr) as [->|[Hj _]]; assumption.
    + (* the new row holds the bit of n alone, and nothing else reaches n yet *)
      rewrite nth_upd_eq, Hnew, bit_unit, Nat.eqb_eq by (exact Hn || apply bucket_lt, Nat.lt_succ_diag_r).
      split.
      * intros ->. split; [apply Nat.lt_succ_diag_r|apply rt_refl].
      * intros [_ Hr]. destruct (rtc_bounds E n j n H5 Hr) as [?|[_ Hnn]]; [assumption|].
        elim (Nat.lt_irrefl _ Hnn).
  - intros a b H. destruct (H5 a b H). split; apply Nat.lt_lt_succ_r; assumption.
  - rewrite app_length, H6. apply Nat.add_1_r.
  - intros a b. rewrite nth_snoc_default. apply H7.
Qed.

Lemma Inv_connect p E a b :
  Inv p E -> a < nodes p -> b < nodes p -> Inv (connect_to p a b) ((a, b) :: E).
Proof.
  intros HI Ha Hb. unfold connect_to.
  destruct (Nat.eqb_spec a b) as [->|Hab].
  { (* self edge: skipped *)
    apply Inv_redundant_edge; auto. apply rt_refl. }
  destruct (existsb (Nat.eqb b) (nth a (outgoing p) [])) eqn:Hex.
  { (* duplicate edge: skipped, already in E *)
    apply existsb_exists in Hex. destruct Hex as [b' [Hin Hbb]]. apply Nat.eqb_eq in Hbb. subst b'.
    apply Inv_redundant_edge; auto. apply rt_step. exact (inv_out _ _ HI a b Hin). }
  (* a genuinely new edge a -> b: add_connection (src := b) (dst := a) *)
  unfold nodes in *. destruct HI as [H1 H2 H3 H4 H5 H6 H7].
  set (n := num (reach p)) in *. set (sz := size (reach p)) in *.
  set (D := nth a (rows (reach p)) []).
  assert (HD : length D = sz) by (apply H3; assumption).
  destruct (conn_loop_spec sz b a D HD n 0 (rows (reach p)) eq_refl) as [Hlen Hk].
  constructor; simpl; fold n; fold sz.
  - exact H1.
  - rewrite Hlen. exact H2.
  - intros i Hi. rewrite Hk. simpl.
    destruct ((i <? n) && bit (nth i (rows (reach p)) []) b).
    + apply lor_row_length. apply H3. assumption.
    + apply H3. assumption.
  - (* row i gains the bits of row a exactly when b reaches i *)
    intros i j Hi. rewrite Hk. simpl. rewrite (proj2 (Nat.ltb_lt i n) Hi). cbn [andb].
    rewrite rtc_add_edge.
    assert (Hbi : bit (nth i (rows (reach p)) []) b = true <-> rtc E b i).
    { rewrite H4 by exact Hi. split; [intros [_ H]; exact H|auto]. }
    destruct (bit (nth i (rows (reach p)) []) b).
    + pose proof (proj1 Hbi eq_refl) as Hr. unfold D.
      rewrite bit_lor_row, orb_true_iff, !H4 by auto. split.
      * intros [[? ?]|[? ?]]; split; auto.
      * intros [? [?|[? ?]]]; auto.
    + rewrite H4 by exact Hi. split.
      * intros [? ?]; split; auto.
      * intros [? [?|[_ Hr]]]; [auto|]. discriminate (proj2 Hbi Hr).
  - intros x y [Heq|Hin]; [inversion Heq; subst; auto|auto].
  - rewrite length_upd. exact H6.
  - intros x y H. destruct (Nat.eq_dec x a) as [->|Hne].
    + rewrite nth_upd_eq in H by (rewrite H6; assumption).
      apply in_app_or in H. destruct H as [H|[<-|[]]]; [right; auto|left; reflexivity].
    + rewrite nth_upd_neq in H by auto. right. auto.
Qed.

Lemma Inv_is_reachable p E a b : Inv p E -> a < nodes p -> b < nodes p ->
  (is_reachable p a b = true <-> rtc E a b).
Proof.
  intros HI Ha Hb. unfold is_reachable, ra_is_reachable.
  rewrite word_has_bit, (inv_bits _ _ HI) by exact Hb. tauto.
Qed.

Lemma nodes_connect_to p a b : nodes (connect_to p a b) = nodes p.
Proof. unfold connect_to. destruct (Nat.eqb a b); [reflexivity|]. destruct (existsb _ _); reflexivity. Qed.

Lemma nodes_fold h : forall p, nodes (fold_left step h p) = nodes p + count_nodes h.
Proof.
  induction h as [|[|a b] h IH]; intro p; cbn [fold_left step count_nodes].
  - symmetry. apply Nat.add_0_r.
  - rewrite IH. apply Nat.add_succ_comm.
  - rewrite IH, nodes_connect_to. reflexivity.
Qed.

Lemma nodes_run h : nodes (run h) = count_nodes h.
Proof. apply nodes_fold. Qed.

Lemma edges_app h1 h2 : edges (h1 ++ h2) = edges h1 ++ edges h2.
Proof.
  induction h1 as [|[|a b] t IH]; cbn [app edges]; [reflexivity|exact IH|].
  rewrite IH. reflexivity.
Qed.

Lemma run_inv h : forall p E,
  Inv p E -> wf_hist_from (nodes p) h = true ->
  Inv (fold_left step h p) (rev (edges h) ++ E) /\
  nodes (fold_left step h p) = nodes p + count_nodes h.
Proof.
  intros p E HI Hwf. split; [|apply nodes_fold]. revert p E HI Hwf.
  induction h as [|[|a b] h IH]; intros p E HI Hwf; cbn [fold_left step edges rev wf_hist_from] in *.
  - exact HI.
  - apply IH; [apply Inv_new_node; exact HI|exact Hwf].
  - apply andb_prop in Hwf. destruct Hwf as [Hab Hwf]. apply andb_prop in Hab. destruct Hab as [Ha Hb].
    apply Nat.ltb_lt in Ha. apply Nat.ltb_lt in Hb.
    rewrite <- app_assoc. apply (IH (connect_to p a b) ((a, b) :: E)).
    + apply Inv_connect; assumption.
    + rewrite nodes_connect_to. exact Hwf.
Qed.

Lemma run_Inv h : wf_hist h = true -> Inv (run h) (edges h) /\ nodes (run h) = count_nodes h.
Proof.
  intro Hwf. split; [|apply nodes_run].
  eapply Inv_ext; [|exact (proj1 (run_inv h prog_empty [] Inv_empty Hwf))].
  intro e. rewrite app_nil_r. symmetry. apply in_rev.
Qed.

Theorem reach_correct_lemma h a b :
  wf_hist h = true -> a < nodes (run h) -> b < nodes (run h) ->
  (is_reachable (run h) a b = true <-> rtc (edges h) a b).
Proof. intro Hwf. apply Inv_is_reachable, run_Inv, Hwf. Qed.

(* The model uses unbounded N words; the C++ uses int64.  Every word of every row stays below 2^64, so the
   unbounded reading never leaves the machine word. *)
Definition word_ok (w : N) : Prop := (w < 2 ^ 64)%N.

Lemma word_ok_0 : word_ok 0%N.
Proof. reflexivity. Qed.

Lemma word_ok_node_bit i : word_ok (node_bit i).
Proof.
  unfold word_ok, node_bit. rewrite N.shiftl_1_l.
  apply N.pow_lt_mono_r; [reflexivity|].
  pose proof (Nat.mod_upper_bound i 64). lia.
Qed.

(* w < 2^64 says that w shifted right by 64 is 0, and shifting distributes over lor *)
Lemma word_ok_lor a b : word_ok a -> word_ok b -> word_ok (N.lor a b).
Proof.
  unfold word_ok.
  rewrite <- !N.div_small_iff, <- !N.shiftr_div_pow2, N.shiftr_lor by (apply N.pow_nonzero; discriminate).
  intros -> ->. reflexivity.
Qed.

Lemma lor_row_ok sz r d : Forall word_ok r -> Forall word_ok d -> Forall word_ok (lor_row sz r d).
Proof.
  intros Hr Hd. apply Forall_app. split.
  - apply Forall_map, Forall_forall. intros j _.
    apply word_ok_lor; apply Forall_nth_default; (assumption || exact word_ok_0).
  - apply Forall_firstn_skipn. exact Hr.
Qed.

Lemma conn_loop_ok fuel : forall i sz adj src dst,
  Forall (Forall word_ok) adj -> Forall (Forall word_ok) (conn_loop fuel i sz adj src dst).
Proof.
  induction fuel as [|f IH]; intros i sz adj src dst H; [exact H|].
  cbn [conn_loop]. apply IH.
  destruct (word_has (nth i adj []) (src / 64) (node_bit src)); [|exact H].
  apply Forall_upd; [exact H|]. apply lor_row_ok; apply Forall_nth_default; (exact H || constructor).
Qed.

Lemma step_ok p o : Forall (Forall word_ok) (rows (reach p)) -> Forall (Forall word_ok) (rows (reach (step p o))).
Proof.
  intro H. destruct o as [|a b]; cbn [step].
  - unfold new_node, add_node. cbn [reach rows].
    set (adj2 := map (vresize _ 0%N) (vresize _ [] (rows (reach p)))).
    assert (H2 : Forall (Forall word_ok) adj2).
    { apply Forall_map. apply Forall_impl with (P := Forall word_ok).
      - intro r. apply Forall_vresize, word_ok_0.
      - apply Forall_vresize; [constructor|exact H]. }
    apply Forall_upd; [exact H2|].
    apply Forall_upd; [apply Forall_nth_default; [exact H2|constructor]|apply word_ok_node_bit].
  - unfold connect_to. destruct (Nat.eqb a b); [exact H|].
    destruct (existsb _ _); [exact H|]. cbn [reach rows add_connection].
    apply conn_loop_ok. exact H.
Qed.

Lemma fold_step_ok h : forall p,
  Forall (Forall word_ok) (rows (reach p)) -> Forall (Forall word_ok) (rows (reach (fold_left step h p))).
Proof. induction h as [|o t IH]; intros p Hp; [exact Hp|]. apply IH, step_ok, Hp. Qed.
