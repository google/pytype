(* The memo of solver.cc on EVERY graph (cycles and node conditions included): what solved_states_ satisfies
   across the queries of one solver lifetime.

   (1) memo_le: solved_states_ only grows and an entry never changes once the RecallOrFindSolution frame that
       created it has returned (recall_mono); the frame's own entry is its result.
   (2) hence an answered query is STICKY for the rest of the solver's lifetime (solve_sticky,
       run_queries_sticky), whatever is asked in between, on every graph, with every fuel.
   (3) every `true` the solver ever gives - from a fresh memo or a used one - is CIRCULARLY explained (GExpl:
       the state lies in a set of states each of which is a leaf or has a successor in the set): the
       provisional `true` entry is sound for the greatest-fixpoint reading of the explanation relation, not
       for the least one (solve_gexpl, run_queries_gexpl).  `st_ok g (GExpl g)` is the invariant every memo
       reachable from the empty one satisfies at query boundaries. *)
From Coq Require Import List Arith Bool Lia Relations.
From PV Require Import Typegraph.Graph Typegraph.Solver Typegraph.Spec Typegraph.SetLemmas
  Typegraph.RfgProofs Typegraph.PathProofs Typegraph.SearchProofs Typegraph.SolverProofs.
Import ListNotations.

Definition memo_le (m m' : memo) : Prop := forall s b, memo_get s m = Some b -> memo_get s m' = Some b.

Lemma memo_le_refl : forall m, memo_le m m.
Proof. intros m s b H. exact H. Qed.

Lemma memo_le_trans : forall a b c, memo_le a b -> memo_le b c -> memo_le a c.
Proof. intros a b c H1 H2 s v H. apply H2. apply H1. exact H. Qed.

Lemma memo_le_set_absent : forall m s v, memo_get s m = None -> memo_le m (memo_set s v m).
Proof.
  intros m s v Hn t b Ht. rewrite memo_get_set. destruct (state_eqb t s) eqn:E; [|exact Ht].
  apply state_eqb_eq in E. subst t. congruence.
Qed.

Section Mono.
Variable g : graph.
Variable rec : sstate -> state -> list state -> option (sstate * bool).
Hypothesis Hrec : forall st0 s' seen st1 r, rec st0 s' seen = Some (st1, r) -> memo_le (s_memo st0) (s_memo st1).

Lemma try_positions_mono : forall new seen npos positions st st' r,
  try_positions rec st new seen npos positions = Some (st', r) -> memo_le (s_memo st) (s_memo st').
Proof.
  intros new seen npos. induction positions as [|p rest IH]; intros st st' r H; simpl in H.
  - injection H as <- <-. apply memo_le_refl.
  - destruct (seen_mem (p, new) seen && (1 <? npos)); [eapply IH; exact H|].
    destruct (rec st (p, new) seen) as [[st1 [|]]|] eqn:Er; [| |discriminate].
    + injection H as <- <-. eapply Hrec; exact Er.
    + eapply memo_le_trans; [eapply Hrec; exact Er | eapply IH; exact H].
Qed.

Lemma try_results_mono : forall pos seen results st st' r,
  try_results rec g st pos seen results = Some (st', r) -> memo_le (s_memo st) (s_memo st').
Proof.
  intros pos seen. induction results as [|[removed new] rest IH]; intros st st' r H; simpl in H.
  - injection H as <- <-. apply memo_le_refl.
  - destruct (goals_conflict g removed); [eapply IH; exact H|].
    destruct new as [|b0 nt]; [injection H as <- <-; apply memo_le_refl|].
    destruct (collect_positions g (s_paths st) pos (blocked_of g (b0 :: nt)) (finish_nodes g (b0 :: nt)) [])
      as [[positions pc']|]; [|discriminate].
    destruct (try_positions rec (mkS (s_memo st) pc') (b0 :: nt) seen (length positions) positions)
      as [[st1 [|]]|] eqn:Etp; [| |discriminate].
    + injection H as <- <-. apply try_positions_mono in Etp. exact Etp.
    + apply try_positions_mono in Etp. simpl in Etp. eapply memo_le_trans; [exact Etp | eapply IH; exact H].
Qed.

Lemma find_solution_mono : forall fuel st s seen st' r,
  find_solution rec fuel g st s seen = Some (st', r) -> memo_le (s_memo st) (s_memo st').
Proof.
  intros fuel st s seen st' r H. rewrite find_solution_unfold in H.
  destruct (remove_finished_goals fuel g (fst s) (goals_of g s)) as [results|]; [|discriminate].
  eapply try_results_mono. exact H.
Qed.
End Mono.

Lemma recall_mono : forall g fuel0 fuel st s seen st' r,
  recall_or_find fuel0 fuel g st s seen = Some (st', r) ->
  memo_le (s_memo st) (s_memo st') /\ memo_get s (s_memo st') = Some r.
Proof.
  intros g fuel0. induction fuel as [|f IH]; intros st s seen st' r H; [discriminate|].
  simpl in H. destruct (memo_get s (s_memo st)) as [b|] eqn:Em.
  - injection H as <- <-. split; [apply memo_le_refl | exact Em].
  - destruct (find_solution (recall_or_find fuel0 f g) fuel0 g (mkS (memo_set s true (s_memo st)) (s_paths st)) s
                (if seen_mem s seen then seen else s :: seen)) as [[st2 res]|] eqn:Ef; [|discriminate].
    injection H as <- <-. simpl.
    apply find_solution_mono in Ef; [|intros st0 s' sn st1 r0 Hr; apply (IH _ _ _ _ _ Hr)].
    simpl in Ef. split.
    + intros t b Ht. rewrite memo_get_set. destruct (state_eqb t s) eqn:E.
      * apply state_eqb_eq in E. subst t. congruence.
      * apply Ef. rewrite memo_get_set. rewrite E. exact Ht.
    + rewrite memo_get_set. rewrite state_eqb_refl. reflexivity.
Qed.

Lemma recall_hit : forall g fuel0 f st s seen b,
  memo_get s (s_memo st) = Some b -> recall_or_find fuel0 (S f) g st s seen = Some (st, b).
Proof. intros. simpl. rewrite H. reflexivity. Qed.

Lemma top_mono : forall g fuel m0 st s st' r,
  recall_or_find fuel fuel g st s [] = Some (st', r) -> memo_le m0 (s_memo st) -> memo_le m0 (s_memo st').
Proof.
  intros g fuel m0 st s st' r E Hle.
  eapply memo_le_trans; [exact Hle | apply (recall_mono _ _ _ _ _ _ _ _ E)].
Qed.

Lemma can_have_solution_mono : forall g fuel attrs st n st' r,
  can_have_solution fuel g st attrs n = Some (st', r) -> memo_le (s_memo st) (s_memo st').
Proof.
  intros g fuel attrs st n st' r H.
  exact (proj1 (can_have_solution_cases g fuel _ (fun _ _ => True)
                  (fun st0 s st1 r0 E _ Hle => conj (top_mono g fuel (s_memo st) st0 s st1 r0 E Hle) I)
                  _ _ _ _ _ H (memo_le_refl _))).
Qed.

Theorem solve_mono : forall g fuel st attrs n st' r,
  solve fuel g st attrs n = Some (st', r) -> memo_le (s_memo st) (s_memo st').
Proof.
  intros g fuel st attrs n st' r H.
  exact (proj1 (solve_cases g fuel _ (fun _ _ => True)
                  (fun st0 s st1 r0 E _ Hle => conj (top_mono g fuel (s_memo st) st0 s st1 r0 E Hle) I)
                  _ _ _ _ _ H (memo_le_refl _))).
Qed.

Lemma chs_sticky : forall g fuel f' attrs st n st1 r st2,
  can_have_solution fuel g st attrs n = Some (st1, r) -> memo_le (s_memo st1) (s_memo st2) ->
  can_have_solution (S f') g st2 attrs n = Some (st2, r).
Proof.
  intros g fuel f'. induction attrs as [|a rest IH]; intros st n st1 r st2 H Hle; simpl in H.
  - injection H as <- <-. reflexivity.
  - unfold solve_single in H.
    destruct (recall_or_find fuel fuel g st (n, sof_list [a]) []) as [[st0 [|]]|] eqn:E; [| |discriminate].
    + destruct (recall_mono _ _ _ _ _ _ _ _ E) as [_ Hget].
      pose proof (can_have_solution_mono _ _ _ _ _ _ _ H) as Hle0.
      cbn [can_have_solution]. unfold solve_single.
      rewrite (recall_hit g (S f') f' st2 (n, sof_list [a]) [] true (Hle _ _ (Hle0 _ _ Hget))).
      eapply IH; [exact H | exact Hle].
    + injection H as <- <-. destruct (recall_mono _ _ _ _ _ _ _ _ E) as [_ Hget].
      cbn [can_have_solution]. unfold solve_single.
      rewrite (recall_hit g (S f') f' st2 (n, sof_list [a]) [] false (Hle _ _ Hget)). reflexivity.
Qed.

(* a query answered once is answered the same - from the memo, without changing the solver - by every later
   state of the same solver, whatever was asked in between; every graph, every fuel *)
Theorem solve_sticky : forall g fuel f' st attrs n st1 r st2,
  solve fuel g st attrs n = Some (st1, r) -> memo_le (s_memo st1) (s_memo st2) ->
  solve (S f') g st2 attrs n = Some (st2, r).
Proof.
  intros g fuel f' st attrs n st1 r st2 H Hle. unfold solve in *. destruct (1 <? length attrs).
  - destruct (can_have_solution fuel g st attrs n) as [[st0 [|]]|] eqn:Ec; [| |discriminate].
    + destruct (recall_mono _ _ _ _ _ _ _ _ H) as [Hle0 Hget].
      rewrite (chs_sticky g fuel f' attrs st n st0 true st2 Ec (memo_le_trans _ _ _ Hle0 Hle)).
      apply recall_hit. apply Hle. exact Hget.
    + injection H as -> <-. rewrite (chs_sticky g fuel f' attrs st n st1 false st2 Ec Hle). reflexivity.
  - destruct (recall_mono _ _ _ _ _ _ _ _ H) as [_ Hget]. apply recall_hit. apply Hle. exact Hget.
Qed.

Lemma run_queries_mono : forall g fuel qs st st' answers,
  run_queries fuel g st qs = Some (st', answers) -> memo_le (s_memo st) (s_memo st').
Proof.
  intros g fuel qs st st' answers H.
  refine (proj1 (run_queries_inv g fuel (fun x => memo_le (s_memo st) (s_memo x)) (fun _ _ => True) _
                   _ _ _ _ H (memo_le_refl _))).
  intros st0 attrs n st1 r E Hle. split; [|exact I].
  eapply memo_le_trans; [exact Hle | eapply solve_mono; exact E].
Qed.

Lemma solve_fuel0 : forall g st attrs n, solve 0 g st attrs n = None.
Proof. intros g st attrs n. unfold solve. destruct attrs as [|x [|y t]]; reflexivity. Qed.

Lemma run_queries_later : forall g fuel st attrs n st1 a,
  solve fuel g st attrs n = Some (st1, a) ->
  forall mid post stx st2 ans, memo_le (s_memo st1) (s_memo stx) ->
  run_queries fuel g stx (mid ++ (attrs, n) :: post) = Some (st2, ans) ->
  nth_error ans (length mid) = Some a.
Proof.
  intros g fuel st attrs n st1 a E.
  destruct fuel as [|f']; [rewrite solve_fuel0 in E; discriminate|].
  induction mid as [|[a1 n1] mid IHm]; intros post stx st2 ans Hle Hr; cbn [app run_queries length] in Hr.
  - rewrite (solve_sticky g (S f') f' st attrs n st1 a stx E Hle) in Hr.
    destruct (run_queries (S f') g stx post) as [[st3 ans3]|]; [|discriminate].
    injection Hr as <- <-. reflexivity.
  - destruct (solve (S f') g stx a1 n1) as [[sty a2]|] eqn:Ey; [|discriminate].
    destruct (run_queries (S f') g sty (mid ++ (attrs, n) :: post)) as [[st3 ans3]|] eqn:E3; [|discriminate].
    injection Hr as <- <-. cbn [nth_error]. eapply IHm; [|exact E3].
    eapply memo_le_trans; [exact Hle | eapply solve_mono; exact Ey].
Qed.

(* in a run of queries sharing one solver: the same query, asked again at any later point, gets the answer it
   got the first time *)
Theorem run_queries_sticky : forall g fuel pre attrs n mid post st st' answers,
  run_queries fuel g st (pre ++ (attrs, n) :: mid ++ (attrs, n) :: post) = Some (st', answers) ->
  exists a, nth_error answers (length pre) = Some a /\
            nth_error answers (length pre + S (length mid)) = Some a.
Proof.
  intros g fuel. induction pre as [|[a0 n0] pre IH]; intros attrs n mid post st st' answers H.
  - cbn [app length Nat.add] in *. cbn [run_queries] in H.
    destruct (solve fuel g st attrs n) as [[st1 a]|] eqn:E; [|discriminate].
    destruct (run_queries fuel g st1 (mid ++ (attrs, n) :: post)) as [[st2 ans]|] eqn:E2; [|discriminate].
    injection H as <- <-. exists a. cbn [nth_error]. split; [reflexivity|].
    eapply run_queries_later; [exact E | apply memo_le_refl | exact E2].
  - cbn [app length Nat.add run_queries] in *.
    destruct (solve fuel g st a0 n0) as [[st1 a]|] eqn:E; [|discriminate].
    destruct (run_queries fuel g st1 (pre ++ (attrs, n) :: mid ++ (attrs, n) :: post)) as [[st2 ans]|] eqn:E2;
      [|discriminate].
    injection H as <- <-. cbn [nth_error]. eapply IH. exact E2.
Qed.

(* the greatest-fixpoint reading of "explained": s lies in a set of states each of which is a leaf of
   FindSolution (a conflict-free outcome leaves no goal) or has a FindSolution successor in the set *)
Definition GExpl (g : graph) (s : state) : Prop :=
  exists T : state -> Prop, T s /\ forall t, T t -> Leaf g t \/ exists t', Succ g t t' /\ T t'.

Section Circular.
Variable g : graph.

(* a state on a Succ-cycle is circularly explained: the set of states that reach it *)
Lemma cycle_gexpl : forall s, clos_trans _ (Succ g) s s -> GExpl g s.
Proof.
  intros s Hcyc. exists (fun t => clos_trans _ (Succ g) t s). split; [exact Hcyc|].
  intros t Ht. right. apply clos_trans_t1n in Ht. inversion Ht as [y Hy | y z Hy Hrest]; subst.
  - exists s. split; [exact Hy | exact Hcyc].
  - exists y. split; [exact Hy | apply clos_t1n_trans; exact Hrest].
Qed.

Lemma StepG : forall s seen, SS (snd s) -> Anc g s seen ->
  (Leaf g s \/ exists s', Succ g s s' /\ (GExpl g s' \/ In s' (s :: seen))) -> GExpl g s.
Proof.
  intros s seen _ Hanc [Hl|[s' [Hs [[T [HT Hcl]]|[E|Hin]]]]].
  - exists (fun t => t = s). split; [reflexivity|]. intros t Ht. subst t. left. exact Hl.
  - exists (fun t => t = s \/ T t). split; [left; reflexivity|].
    intros t [Ht|Ht].
    + subst t. right. exists s'. split; [exact Hs | right; exact HT].
    + destruct (Hcl t Ht) as [L|[t' [Hs' HT']]]; [left; exact L | right; exists t'; split; [exact Hs' | right; exact HT']].
  - subst s'. apply cycle_gexpl. apply t_step. exact Hs.
  - apply cycle_gexpl. eapply t_trans; [apply t_step; exact Hs | apply Hanc; exact Hin].
Qed.

(* the invariant of one solver lifetime, on every graph: the path cache is exact and every `true` entry of
   solved_states_ is circularly explained *)
Definition st_okG : sstate -> Prop := st_ok g (GExpl g).

Lemma st_okG_empty : st_okG sstate_empty.
Proof. apply st_ok_empty. Qed.

Theorem solve_gexpl : forall fuel st attrs n st' r,
  solve fuel g st attrs n = Some (st', r) -> st_okG st ->
  st_okG st' /\ (r = true -> GExpl g (n, sof_list attrs)).
Proof.
  intros fuel st attrs n st' r H Hok.
  destruct (solve_reach g (GExpl g) StepG _ _ _ _ _ _ H Hok) as [A B].
  split; [exact A|]. intros Hr. apply (B Hr).
Qed.

Theorem run_queries_gexpl : forall fuel qs st st' answers,
  run_queries fuel g st qs = Some (st', answers) -> st_okG st ->
  st_okG st' /\ Forall2 (fun q a => a = true -> GExpl g (snd q, sof_list (fst q))) qs answers.
Proof. intros fuel. apply (run_queries_inv g fuel st_okG). apply solve_gexpl. Qed.
End Circular.

