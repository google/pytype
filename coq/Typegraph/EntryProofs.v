(* C09, lemmas for Entry.v: an extended history acts on the graph state as its graph-building calls alone,
   and on the entrypoint attribute as its last write. *)
From Coq Require Import List Arith Bool Relations.
From PV Require Import Typegraph.Reach Typegraph.ReachProofs Typegraph.Prune Typegraph.PruneProofs Typegraph.Entry.
Import ListNotations.

Lemma pe_run_from_core s h :
  pe_core (pe_run_from s h) = py_run_from (pe_core s) (core_ops h).
Proof. revert s; induction h as [|[c|n] h IH]; intros s; [reflexivity| |]; exact (IH _). Qed.

Lemma pe_run_from_entry s h : pe_entry (pe_run_from s h) = last_entry (pe_entry s) h.
Proof. revert s; induction h as [|[c|n] h IH]; intros s; [reflexivity| |]; exact (IH _). Qed.

Lemma pe_wf_from_core s h : pe_wf_from s h = true -> py_wf_from (pe_core s) (core_ops h) = true.
Proof.
  revert s; induction h as [|[c|[n|]] h IH]; intros s H; [reflexivity| | |exact (IH _ H)];
    cbn [pe_wf_from core_ops py_wf_from] in *; apply andb_true_iff in H; destruct H as [H1 H2].
  - rewrite H1. exact (IH _ H2).
  - exact (IH _ H2).
Qed.

Lemma pe_wf_core d h : pe_wf d h = true -> py_wf d (core_ops h) = true.
Proof. apply pe_wf_from_core. Qed.
