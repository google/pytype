(* PathFinder: FindShortestPathToNode finds a path iff one exists that avoids `blocked` before its
   last node (finish tested before blocked); the nodes FindNodeBackwards returns are conditional
   nodes backward reachable from the start. *)
From Coq Require Import List Arith Bool Lia Relations.
From PV Require Import Typegraph.Graph Typegraph.Solver Typegraph.Spec Typegraph.SetLemmas.
Import ListNotations.

Section Path.
Variable g : graph.

Lemma creach_breach : forall blocked s x, creach g blocked s x -> breach g s x.
Proof.
  intros blocked s x H. induction H.
  - apply rt_refl.
  - eapply rt_trans; [exact IHcreach|]. apply rt_step. exact H1.
Qed.

Lemma creach_antitone : forall b1 b2 s x,
  (forall n, smem n b2 = true -> smem n b1 = true) -> creach g b1 s x -> creach g b2 s x.
Proof.
  intros b1 b2 s x Hb H. induction H.
  - constructor.
  - apply creach_step with (n := n); [exact IHcreach | | exact H1].
    destruct (smem n b2) eqn:E; [|reflexivity]. apply Hb in E. congruence.
Qed.

Lemma creach_trans : forall blocked s p q,
  creach g blocked s p -> creach g blocked p q -> creach g blocked s q.
Proof.
  intros blocked s p q H1 H2. induction H2.
  - exact H1.
  - apply creach_step with (n := n); assumption.
Qed.

Section Bfs.
Variable finish : node.
Variable blocked : list node.
Variable start : node.

Lemma bfs_sound : forall fuel queue seen prev prev',
  (forall x, In x queue -> creach g blocked start x) ->
  bfs_loop fuel g finish blocked queue seen prev = Some (true, prev') ->
  creach g blocked start finish.
Proof.
  induction fuel as [|f IH]; intros queue seen prev prev' Hq H; [discriminate|].
  simpl in H. destruct queue as [|nd q]; [discriminate|].
  destruct (nd =? finish) eqn:E.
  - apply Nat.eqb_eq in E. subst. apply Hq. left. reflexivity.
  - destruct (smem nd seen || smem nd blocked) eqn:E2.
    + eapply IH; [|exact H]. intros x Hx. apply Hq. right. exact Hx.
    + apply orb_false_iff in E2. destruct E2 as [_ Eb].
      eapply IH; [|exact H]. intros x Hx. apply in_app_iff in Hx. destruct Hx as [Hx|Hx].
      * apply Hq. right. exact Hx.
      * eapply creach_step; [apply Hq; left; reflexivity | exact Eb | exact Hx].
Qed.

Definition bfs_done (queue seen : list node) (m : node) : Prop :=
  In m queue \/ In m seen \/ (smem m blocked = true /\ m <> finish).

Definition bfs_inv (queue seen : list node) : Prop :=
  bfs_done queue seen start /\
  forall n, In n seen ->
    smem n blocked = false /\ n <> finish /\ forall m, In m (incoming g n) -> bfs_done queue seen m.

Lemma bfs_complete : forall fuel queue seen prev prev',
  bfs_inv queue seen ->
  bfs_loop fuel g finish blocked queue seen prev = Some (false, prev') ->
  ~ creach g blocked start finish.
Proof.
  induction fuel as [|f IH]; intros queue seen prev prev' Hinv H; [discriminate|].
  simpl in H. destruct queue as [|nd q].
  - (* queue exhausted: seen is closed *)
    destruct Hinv as [Hs Hc].
    assert (Hall : forall x, creach g blocked start x -> In x seen \/ (smem x blocked = true /\ x <> finish)).
    { intros x Hx. induction Hx.
      - destruct Hs as [[]|Hs]; exact Hs.
      - destruct IHHx as [Hn|[Hn _]]; [|congruence].
        destruct (Hc n Hn) as [_ [_ Hm]]. destruct (Hm m H1) as [[]|Hd]; exact Hd. }
    intros Hf. destruct (Hall _ Hf) as [Hin|[_ Hne]]; [|congruence].
    destruct (Hc _ Hin) as [_ [Hne _]]. congruence.
  - destruct (nd =? finish) eqn:E; [discriminate|]. apply Nat.eqb_neq in E.
    destruct (smem nd seen || smem nd blocked) eqn:E2.
    + eapply IH; [|exact H]. destruct Hinv as [Hs Hc].
      assert (Hnd : In nd seen \/ smem nd blocked = true /\ nd <> finish).
      { apply orb_true_iff in E2. destruct E2 as [E2|E2]; [left; apply smem_In; exact E2 | right; auto]. }
      assert (Hmove : forall m, bfs_done (nd :: q) seen m -> bfs_done q seen m).
      { intros m [[Hm|Hm]|Hm].
        - subst. right. exact Hnd.
        - left. exact Hm.
        - right. exact Hm. }
      split; [apply Hmove; exact Hs|].
      intros n Hn. destruct (Hc n Hn) as [A [B C]]. repeat split; auto.
    + apply orb_false_iff in E2. destruct E2 as [Es Eb].
      eapply IH; [|exact H]. destruct Hinv as [Hs Hc].
      assert (Hmove : forall m, bfs_done (nd :: q) seen m ->
                                bfs_done (q ++ incoming g nd) (sins nd seen) m).
      { intros m [[Hm|Hm]|[Hm|Hm]].
        - subst. right. left. apply In_sins. left. reflexivity.
        - left. apply in_app_iff. left. exact Hm.
        - right. left. apply In_sins. right. exact Hm.
        - right. right. exact Hm. }
      split; [apply Hmove; exact Hs|].
      intros n Hn. apply In_sins in Hn. destruct Hn as [Hn|Hn].
      * subst. repeat split; auto. intros m Hm. left. apply in_app_iff. right. exact Hm.
      * destruct (Hc n Hn) as [A [B C]]. repeat split; auto.
Qed.

Lemma bfs_inv_init : bfs_inv [start] [].
Proof. split; [left; left; reflexivity | intros n []]. Qed.
End Bfs.

Lemma build_path_suffix : forall fuel prev nd acc p,
  build_path fuel prev nd acc = Some p -> exists pre, p = pre ++ acc.
Proof.
  induction fuel as [|f IH]; intros prev nd acc p H; [discriminate|].
  simpl in H. destruct nd as [n|].
  - apply IH in H. destruct H as [pre H]. exists (pre ++ [n]). rewrite <- app_assoc. exact H.
  - inversion H. exists []. reflexivity.
Qed.

Lemma build_path_nonempty : forall fuel prev n acc p,
  build_path fuel prev (Some n) acc = Some p -> p <> [].
Proof.
  intros fuel prev n acc p H. destruct fuel as [|f]; [discriminate|]. simpl in H.
  apply build_path_suffix in H. destruct H as [pre H]. subst. destruct pre; simpl; congruence.
Qed.

Theorem find_shortest_path_spec : forall start finish blocked sp,
  find_shortest_path g start finish blocked = Some sp ->
  (sp <> [] <-> creach g blocked start finish).
Proof.
  intros start finish blocked sp H. unfold find_shortest_path in H.
  destruct (bfs_loop (edge_count g + 2) g finish blocked [start] [] [(start, None)])
    as [[[|] prev]|] eqn:E; [| |discriminate].
  - split.
    + intros _. eapply bfs_sound; [|exact E]. intros x [Hx|[]]. subst. constructor.
    + intros _. eapply build_path_nonempty. exact H.
  - injection H as <-. split; [congruence|].
    intros Hc. exfalso. eapply bfs_complete; [apply bfs_inv_init | exact E | exact Hc].
Qed.

Lemma fhrw_reach : forall fuel start sp stack seen best nx seen',
  fhrw_loop fuel g start sp stack seen best = Some (Some nx, seen') ->
  (forall x, In x stack -> breach g start x) ->
  (forall w n, best = Some (w, n) -> breach g start n) ->
  breach g start nx.
Proof.
  induction fuel as [|f IH]; intros start sp stack seen best nx seen' H Hst Hb; [discriminate|].
  simpl in H. destruct stack as [|nd stk].
  - destruct best as [[w n]|]; [|discriminate]. simpl in H. inversion H; subst. eapply Hb. reflexivity.
  - destruct (nd =? start) eqn:E.
    + eapply IH; [exact H| |exact Hb]. intros x Hx. apply Hst. right. exact Hx.
    + assert (Hnd : breach g start nd) by (apply Hst; left; reflexivity).
      match type of H with context [fhrw_loop f g start sp _ _ ?b'] => set (best' := b') in * end.
      assert (Hb' : forall w n, best' = Some (w, n) -> breach g start n).
      { intros w n Hw. subst best'. destruct (windex nd sp) as [w0|].
        - destruct best as [[bw bn]|].
          + destruct (bw <? w0); [inversion Hw; subst; exact Hnd | eapply Hb; exact Hw].
          + inversion Hw; subst. exact Hnd.
        - eapply Hb. exact Hw. }
      destruct (smem nd seen).
      * eapply IH; [exact H| |exact Hb']. intros x Hx. apply Hst. right. exact Hx.
      * eapply IH; [exact H| |exact Hb']. intros x Hx. apply in_app_iff in Hx. destruct Hx as [Hx|Hx].
        -- rewrite <- in_rev in Hx. eapply rt_trans; [exact Hnd|]. apply rt_step. exact Hx.
        -- apply Hst. right. exact Hx.
Qed.

Lemma artic_spec : forall fuel finish sp nd blk path out,
  artic_loop fuel g finish sp nd blk path = Some out ->
  exists ext, out = path ++ ext /\ forall x, In x ext -> breach g nd x /\ cond g x <> None.
Proof.
  induction fuel as [|f IH]; intros finish sp nd blk path out H; [discriminate|].
  simpl in H.
  set (path' := match cond g nd with Some _ => path ++ [nd] | None => path end) in *.
  assert (Hp : exists e0, path' = path ++ e0 /\ forall x, In x e0 -> breach g nd x /\ cond g x <> None).
  { subst path'. destruct (cond g nd) eqn:Ec.
    - exists [nd]. split; [reflexivity|]. intros x [Hx|[]]. subst. split; [apply rt_refl | congruence].
    - exists []. split; [rewrite app_nil_r; reflexivity | intros x []]. }
  destruct Hp as [e0 [He0 Hall0]].
  destruct (nd =? finish).
  - injection H as <-. exists e0. split; assumption.
  - destruct (find_highest_reachable_weight g nd sp blk) as [[[nx|] blk']|] eqn:Ef; try discriminate.
    assert (Hnx : breach g nd nx).
    { unfold find_highest_reachable_weight in Ef. eapply fhrw_reach; [exact Ef| |intros; discriminate].
      intros x Hx. rewrite <- in_rev in Hx. apply rt_step. exact Hx. }
    destruct (IH _ _ _ _ _ _ H) as [ext [Hout Hall]].
    exists (e0 ++ ext). split.
    + rewrite Hout, He0, app_assoc. reflexivity.
    + intros x Hx. apply in_app_iff in Hx. destruct Hx as [Hx|Hx]; [apply Hall0; exact Hx|].
      destruct (Hall x Hx) as [A B]. split; [|exact B]. eapply rt_trans; eassumption.
Qed.

Theorem fnb_compute_spec : forall start finish blocked ex path,
  find_node_backwards_compute g start finish blocked = Some (ex, path) ->
  (ex = true <-> creach g blocked start finish) /\
  (forall x, In x path -> breach g start x /\ cond g x <> None).
Proof.
  intros start finish blocked ex path H. unfold find_node_backwards_compute in H.
  destruct (find_shortest_path g start finish blocked) as [sp|] eqn:Es; [|discriminate].
  pose proof (find_shortest_path_spec _ _ _ _ Es) as Hsp.
  destruct sp as [|x sp].
  - injection H as <- <-. split; [|intros x []].
    split; [discriminate|]. intros Hc. apply Hsp in Hc. congruence.
  - destruct (artic_loop (length (x :: sp) + 1) g finish (x :: sp) start (sunion blocked (x :: sp)) [])
      as [p|] eqn:Ea; [|discriminate].
    injection H as <- <-. split.
    + split; [intros _; apply Hsp; discriminate | reflexivity].
    + destruct (artic_spec _ _ _ _ _ _ _ Ea) as [ext [Hout Hall]]. simpl in Hout. subst. exact Hall.
Qed.

Lemma no_conditions_cond : forall x, no_conditions g = true -> cond g x = None.
Proof.
  intros x H. unfold cond, get_node, no_conditions in *. rewrite forallb_forall in H.
  destruct (Nat.lt_ge_cases x (length (g_nodes g))) as [Hlt|Hge].
  - specialize (H (nth x (g_nodes g) (mkNode [] None)) (nth_In _ _ Hlt)).
    destruct (n_cond (nth x (g_nodes g) (mkNode [] None))); [discriminate | reflexivity].
  - rewrite nth_overflow by exact Hge. reflexivity.
Qed.

Definition pc_exact (pc : pcache) : Prop :=
  forall s f b r, pc_get (s, f, b) pc = Some r -> find_node_backwards_compute g s f b = Some r.

Lemma pc_exact_nil : pc_exact [].
Proof. intros s f b r H. discriminate. Qed.

Lemma find_node_backwards_spec : forall pc s f b r pc',
  pc_exact pc -> find_node_backwards g pc s f b = Some (r, pc') ->
  pc_exact pc' /\ find_node_backwards_compute g s f b = Some r.
Proof.
  intros pc s f b r pc' Hpc H. unfold find_node_backwards in H.
  destruct (pc_get (s, f, b) pc) as [r0|] eqn:E.
  - injection H as <- <-. split; [exact Hpc | apply Hpc; exact E].
  - destruct (find_node_backwards_compute g s f b) as [r0|] eqn:Ec; [|discriminate].
    injection H as <- <-. split; [|reflexivity].
    intros s' f' b' r' Hget. rewrite pc_get_set in Hget.
    destruct (pkey_eqb (s', f', b') (s, f, b)) eqn:Ek.
    + apply pkey_eqb_eq in Ek. inversion Ek; subst. inversion Hget; subst. exact Ec.
    + apply Hpc. exact Hget.
Qed.
End Path.
