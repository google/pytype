(* Lemmas about id-ordered sets (strictly increasing lists) and the association maps of the model. *)
From Coq Require Import List Arith Bool Lia.
From PV Require Import Typegraph.Graph Typegraph.Solver.
Import ListNotations.

Definition SS (l : list nat) : Prop := ssorted l = true.

Lemma smem_In : forall x l, smem x l = true <-> In x l.
Proof.
  intros x l. unfold smem. rewrite existsb_exists. split.
  - intros [y [Hy He]]. apply Nat.eqb_eq in He. subst. exact Hy.
  - intros H. exists x. split; [exact H | apply Nat.eqb_refl].
Qed.

Lemma smem_false : forall x l, smem x l = false <-> ~ In x l.
Proof.
  intros. rewrite <- smem_In. destruct (smem x l); split; intros H; try congruence; auto.
Qed.

Lemma In_sins : forall x y l, In x (sins y l) <-> x = y \/ In x l.
Proof.
  intros x y l. induction l as [|h t IH]; simpl.
  - split; intros [H|H]; auto; contradiction.
  - destruct (y <? h) eqn:E1; [simpl; split; intros [H|H]; auto|].
    destruct (y =? h) eqn:E2; simpl.
    + apply Nat.eqb_eq in E2. subst h. split; [auto|]. intros [->|H]; [left; reflexivity | exact H].
    + rewrite IH. split; intros [H|[H|H]]; auto.
Qed.

Lemma smem_sins : forall x y l, smem x (sins y l) = (x =? y) || smem x l.
Proof.
  intros. destruct (smem x (sins y l)) eqn:E.
  - apply smem_In in E. apply In_sins in E. destruct E as [E|E].
    + subst. rewrite Nat.eqb_refl. reflexivity.
    + apply smem_In in E. rewrite E. symmetry. apply orb_true_r.
  - symmetry. apply orb_false_iff. split.
    + destruct (x =? y) eqn:E2; auto. apply Nat.eqb_eq in E2. subst.
      apply smem_false in E. exfalso. apply E. apply In_sins. auto.
    + apply smem_false. apply smem_false in E. intro H. apply E. apply In_sins. auto.
Qed.

Lemma SS_cons_inv : forall x l, SS (x :: l) -> SS l /\ forall y, In y l -> x < y.
Proof.
  intros x l. revert x. induction l as [|h t IH]; intros x H.
  - split; [reflexivity | intros y []].
  - unfold SS in H. simpl in H. apply andb_true_iff in H. destruct H as [H1 H2].
    apply Nat.ltb_lt in H1. split; [exact H2|].
    intros y [Hy|Hy]; [subst; exact H1|].
    destruct (IH h H2) as [_ IH2]. specialize (IH2 y Hy). lia.
Qed.

Lemma SS_cons : forall x l, SS l -> (forall y, In y l -> x < y) -> SS (x :: l).
Proof.
  intros x l Hl Hx. destruct l as [|h t]; [reflexivity|].
  unfold SS. simpl. apply andb_true_iff. split; [|exact Hl].
  apply Nat.ltb_lt. apply Hx. left. reflexivity.
Qed.

Lemma SS_nil : SS []. Proof. reflexivity. Qed.

Lemma SS_sins : forall x l, SS l -> SS (sins x l).
Proof.
  intros x l. induction l as [|h t IH]; intros Hl.
  - reflexivity.
  - simpl. destruct (x <? h) eqn:E1.
    + apply Nat.ltb_lt in E1. apply SS_cons; [exact Hl|].
      intros y [Hy|Hy]; [subst; exact E1|].
      destruct (SS_cons_inv _ _ Hl) as [_ H2]. specialize (H2 y Hy). lia.
    + destruct (x =? h) eqn:E2; [exact Hl|].
      destruct (SS_cons_inv _ _ Hl) as [H1 H2].
      apply SS_cons; [apply IH; exact H1|].
      intros y Hy. apply In_sins in Hy. destruct Hy as [Hy|Hy].
      * subst. apply Nat.ltb_ge in E1. apply Nat.eqb_neq in E2. lia.
      * apply H2. exact Hy.
Qed.

Lemma sins_head : forall x l, SS (x :: l) -> sins x l = x :: l.
Proof.
  intros x l H. destruct l as [|h t]; [reflexivity|].
  destruct (SS_cons_inv _ _ H) as [_ H2]. simpl.
  assert (x < h) by (apply H2; left; reflexivity).
  apply Nat.ltb_lt in H0. rewrite H0. reflexivity.
Qed.

Lemma sins_mem : forall x l, SS l -> smem x l = true -> sins x l = l.
Proof.
  intros x l. induction l as [|h t IH]; intros Hl Hx; [discriminate|].
  destruct (SS_cons_inv _ _ Hl) as [H1 H2]. simpl in *.
  destruct (x =? h) eqn:E.
  - apply Nat.eqb_eq in E. subst. rewrite Nat.ltb_irrefl. reflexivity.
  - simpl in Hx. apply smem_In in Hx. specialize (H2 _ Hx).
    assert (x <? h = false) by (apply Nat.ltb_ge; lia). rewrite H.
    f_equal. apply IH; auto. apply smem_In. exact Hx.
Qed.

Lemma srem_sins : forall x l, SS l -> smem x l = false -> srem x (sins x l) = l.
Proof.
  intros x l. induction l as [|h t IH]; intros Hl Hx.
  - simpl. rewrite Nat.eqb_refl. reflexivity.
  - simpl. destruct (x <? h) eqn:E1.
    + simpl. rewrite Nat.eqb_refl. reflexivity.
    + simpl in Hx. apply orb_false_iff in Hx. destruct Hx as [Hx1 Hx2].
      rewrite Hx1. simpl. rewrite Hx1.
      destruct (SS_cons_inv _ _ Hl) as [H1 _]. rewrite IH; auto.
Qed.

Lemma In_srem_incl : forall x y l, In x (srem y l) -> In x l.
Proof.
  intros x y l. induction l as [|h t IH]; simpl; auto.
  destruct (y =? h); simpl; intros H; auto. destruct H; auto.
Qed.

Lemma SS_srem : forall x l, SS l -> SS (srem x l).
Proof.
  intros x l. induction l as [|h t IH]; intros Hl; [reflexivity|].
  simpl. destruct (SS_cons_inv _ _ Hl) as [H1 H2].
  destruct (x =? h); [exact H1|].
  apply SS_cons; [apply IH; exact H1|].
  intros y Hy. apply H2. eapply In_srem_incl. exact Hy.
Qed.

Lemma In_sunion : forall x a b, In x (sunion a b) <-> In x a \/ In x b.
Proof.
  intros x a b. unfold sunion. revert a. induction b as [|h t IH]; intros a; simpl.
  - split; [auto | intros [H|[]]; exact H].
  - split; intros H.
    + apply IH in H. destruct H as [H|H]; [|auto]. apply In_sins in H. destruct H as [->|H]; auto.
    + apply IH. destruct H as [H|[->|H]]; [left; apply In_sins; auto | left; apply In_sins; auto | auto].
Qed.

Lemma SS_sunion : forall a b, SS a -> SS (sunion a b).
Proof.
  intros a b. unfold sunion. revert a. induction b as [|h t IH]; intros a Ha; simpl; auto.
  apply IH. apply SS_sins. exact Ha.
Qed.

Lemma In_sof_list : forall x l, In x (sof_list l) <-> In x l.
Proof.
  intros. unfold sof_list. change (In x (sunion [] l) <-> In x l). rewrite In_sunion. split; [intros [[]|H]; exact H | auto].
Qed.

Lemma SS_sof_list : forall l, SS (sof_list l).
Proof. intros. apply (SS_sunion [] l). reflexivity. Qed.

Lemma SS_filter : forall f l, SS l -> SS (filter f l).
Proof.
  intros f l. induction l as [|h t IH]; intros Hl; [reflexivity|].
  destruct (SS_cons_inv _ _ Hl) as [H1 H2]. simpl.
  destruct (f h); [|apply IH; exact H1].
  apply SS_cons; [apply IH; exact H1|].
  intros y Hy. apply filter_In in Hy. apply H2, Hy.
Qed.

Lemma SS_ext : forall a b, SS a -> SS b -> (forall x, In x a <-> In x b) -> a = b.
Proof.
  induction a as [|x a IH]; intros b Ha Hb H.
  - destruct b as [|y b]; [reflexivity|]. exfalso. apply (H y). left. reflexivity.
  - destruct b as [|y b]; [exfalso; apply (H x); left; reflexivity|].
    destruct (SS_cons_inv _ _ Ha) as [Ha1 Ha2]. destruct (SS_cons_inv _ _ Hb) as [Hb1 Hb2].
    assert (x = y).
    { assert (In x (y :: b)) by (apply H; left; reflexivity).
      assert (In y (x :: a)) by (apply H; left; reflexivity).
      destruct H0 as [H0|H0]; [auto|]. destruct H1 as [H1|H1]; [auto|].
      specialize (Ha2 _ H1). specialize (Hb2 _ H0). lia. }
    subst y. f_equal. apply IH; auto.
    intros z. split; intros Hz.
    + assert (In z (x :: b)) by (apply H; right; exact Hz). destruct H0; [|auto].
      subst. specialize (Ha2 _ Hz). lia.
    + assert (In z (x :: a)) by (apply H; right; exact Hz). destruct H0; [|auto].
      subst. specialize (Hb2 _ Hz). lia.
Qed.

Lemma sof_list_sorted_id : forall l l', SS l -> (forall x, In x l' <-> In x l) -> sof_list l' = l.
Proof.
  intros. apply SS_ext; [apply SS_sof_list | exact H |].
  intros x. rewrite In_sof_list. apply H0.
Qed.

Lemma SS_NoDup : forall l, SS l -> NoDup l.
Proof.
  induction l as [|x t IH]; intros H; [constructor|].
  destruct (SS_cons_inv _ _ H) as [H1 H2]. constructor; [|apply IH; exact H1].
  intros Hin. specialize (H2 _ Hin). lia.
Qed.

(* members of U not yet in the set: the measure of the worklist loops that mark what they visit *)
Definition unseen (U seen : list nat) : nat :=
  length (filter (fun b => negb (smem b seen)) U).

Lemma unseen_le : forall U x seen, unseen U (sins x seen) <= unseen U seen.
Proof.
  intros U x seen. unfold unseen. induction U as [|u U IH]; simpl; [lia|].
  rewrite smem_sins. destruct (u =? x); simpl.
  - destruct (smem u seen); simpl; lia.
  - destruct (smem u seen); simpl; lia.
Qed.

Lemma unseen_lt : forall U x seen, In x U -> smem x seen = false ->
  unseen U (sins x seen) < unseen U seen.
Proof.
  intros U x seen Hin Hx. unfold unseen. induction U as [|u U IH]; [destruct Hin|].
  simpl. rewrite smem_sins. destruct (u =? x) eqn:E.
  - apply Nat.eqb_eq in E. subst u. rewrite Hx. simpl.
    pose proof (unseen_le U x seen) as Hle. unfold unseen in Hle. lia.
  - destruct Hin as [Hin|Hin]; [subst; rewrite Nat.eqb_refl in E; discriminate|].
    specialize (IH Hin). simpl. destruct (smem u seen); simpl; lia.
Qed.

Lemma list_eqb_eq : forall a b, list_eqb a b = true <-> a = b.
Proof.
  induction a as [|x a IH]; destruct b as [|y b]; simpl; split; intros H; try congruence; auto.
  - apply andb_true_iff in H. destruct H as [H1 H2]. apply Nat.eqb_eq in H1. apply IH in H2. congruence.
  - inversion H; subst. rewrite Nat.eqb_refl. simpl. apply IH. reflexivity.
Qed.

Lemma state_eqb_eq : forall a b : state, state_eqb a b = true <-> a = b.
Proof.
  intros [p1 g1] [p2 g2]. unfold state_eqb. simpl. split; intros H.
  - apply andb_prop in H. destruct H as [H1 H2]. apply Nat.eqb_eq in H1. apply list_eqb_eq in H2.
    subst. reflexivity.
  - injection H as -> ->. rewrite Nat.eqb_refl. simpl. apply list_eqb_eq. reflexivity.
Qed.

Lemma state_eqb_refl : forall a, state_eqb a a = true.
Proof. intros. apply state_eqb_eq. reflexivity. Qed.

Lemma pkey_eqb_eq : forall a b : pkey, pkey_eqb a b = true <-> a = b.
Proof.
  intros [[s1 f1] b1] [[s2 f2] b2]. unfold pkey_eqb. split; intros H.
  - apply andb_prop in H. destruct H as [H H3]. apply andb_prop in H. destruct H as [H1 H2].
    apply Nat.eqb_eq in H1. apply Nat.eqb_eq in H2. apply list_eqb_eq in H3. subst. reflexivity.
  - injection H as -> -> ->. rewrite !Nat.eqb_refl. simpl. apply list_eqb_eq. reflexivity.
Qed.

Lemma seen_mem_In : forall s seen, seen_mem s seen = true <-> In s seen.
Proof.
  intros. unfold seen_mem. rewrite existsb_exists. split.
  - intros [y [Hy He]]. apply state_eqb_eq in He. subst. exact Hy.
  - intros H. exists s. split; [exact H | apply state_eqb_refl].
Qed.

Lemma memo_get_set : forall s s' v m,
  memo_get s (memo_set s' v m) = if state_eqb s s' then Some v else memo_get s m.
Proof.
  intros s s' v m. induction m as [|[k w] t IH]; simpl.
  - destruct (state_eqb s s'); reflexivity.
  - destruct (state_eqb s' k) eqn:E1; simpl.
    + apply state_eqb_eq in E1. subst k. destruct (state_eqb s s'); reflexivity.
    + destruct (state_eqb s k) eqn:E2.
      * destruct (state_eqb s s') eqn:E3; [|reflexivity].
        apply state_eqb_eq in E2. apply state_eqb_eq in E3. subst.
        rewrite state_eqb_refl in E1. discriminate.
      * exact IH.
Qed.

Lemma pc_get_set : forall k k' v c,
  pc_get k (pc_set k' v c) = if pkey_eqb k k' then Some v else pc_get k c.
Proof.
  intros k k' v c. induction c as [|[q w] t IH]; simpl.
  - destruct (pkey_eqb k k'); reflexivity.
  - destruct (pkey_eqb k' q) eqn:E1; simpl.
    + apply pkey_eqb_eq in E1. subst q. destruct (pkey_eqb k k'); reflexivity.
    + destruct (pkey_eqb k q) eqn:E2.
      * destruct (pkey_eqb k k') eqn:E3; [|reflexivity].
        apply pkey_eqb_eq in E2. apply pkey_eqb_eq in E3. subst.
        assert (pkey_eqb q q = true) by (apply pkey_eqb_eq; reflexivity). congruence.
      * exact IH.
Qed.

Lemma incoming_overflow : forall g n, n_nodes g <= n -> incoming g n = [].
Proof. intros g n H. unfold incoming, get_node. rewrite nth_overflow by exact H. reflexivity. Qed.

Lemma incoming_in_range : forall g n m, In m (incoming g n) -> n < n_nodes g.
Proof.
  intros g n m H. destruct (Nat.lt_ge_cases n (n_nodes g)) as [Hlt|Hge]; [exact Hlt|].
  rewrite (incoming_overflow g n Hge) in H. destruct H.
Qed.
