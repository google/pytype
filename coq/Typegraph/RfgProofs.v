(* remove_finished_goals: the explicit action-stack machine of solver.cc terminates and computes
   exactly the outcomes of the recursive resolution relation [resolves] (soundness and completeness);
   the structural facts about those outcomes that the search proofs use.
   The machine is followed in big steps (Runs): a TRAVERSE on top of the stack, after a number of
   steps that does not depend on what lies below it, has appended the outcomes of [resolves] and undone
   every change to the traverse state. *)
From Coq Require Import List Arith Bool Lia Wf_nat.
From PV Require Import Typegraph.Graph Typegraph.Solver Typegraph.Spec Typegraph.SetLemmas.
Import ListNotations.

Section Rfg.
Variable g : graph.
Variable pos : node.

Lemma resolves_nil : forall seen rem new r,
  resolves g pos [] seen rem new r <-> r = (sof_list rem, sof_list new).
Proof. intros. split; [intros H; inversion H; reflexivity | intros ->; constructor]. Qed.

Lemma resolves_seen : forall goal gtr seen rem new r, smem goal seen = true ->
  (resolves g pos (goal :: gtr) seen rem new r <-> resolves g pos gtr seen rem new r).
Proof.
  intros goal gtr seen rem new r Hs. split; intros H; [|apply R_seen; assumption].
  inversion H; subst; congruence.
Qed.

Lemma resolves_new : forall goal gtr seen rem new r,
  smem goal seen = false -> find_origin g goal pos = None ->
  (resolves g pos (goal :: gtr) seen rem new r <-> resolves g pos gtr (sins goal seen) rem (goal :: new) r).
Proof.
  intros goal gtr seen rem new r Hs Ho. split; intros H; [|apply R_new; assumption].
  inversion H; subst; congruence.
Qed.

Lemma resolves_rem : forall goal gtr seen rem new r o,
  smem goal seen = false -> find_origin g goal pos = Some o ->
  (resolves g pos (goal :: gtr) seen rem new r <->
   exists ss, In ss (o_ssets o) /\ resolves g pos (sunion gtr ss) (sins goal seen) (goal :: rem) new r).
Proof.
  intros goal gtr seen rem new r o Hs Ho. split.
  - intros H. inversion H; subst; try congruence.
    match goal with Ho' : find_origin g goal pos = Some ?o' |- _ =>
      rewrite Ho in Ho'; inversion Ho'; subst o' end.
    exists ss. split; assumption.
  - intros [ss [Hin H]]. eapply R_rem; eassumption.
Qed.

(* traverse on a non-empty goals_to_remove, branch by branch *)
Lemma traverse_cons : forall results acts goal gtr seen rem new,
  traverse g pos results acts (mkT (goal :: gtr) seen rem new)
  = if smem goal seen then (results, A_TRAVERSE :: A_INSERT_GTR goal :: acts, mkT gtr seen rem new)
    else match find_origin g goal pos with
         | None => (results, A_TRAVERSE :: A_ERASE_NEW :: A_ERASE_SEEN goal :: A_INSERT_GTR goal :: acts,
                    mkT gtr (sins goal seen) rem (goal :: new))
         | Some o =>
           (results,
            match o_ssets o with [] => [] | cur :: rest => [A_TRAVERSE_ALL cur rest] end
              ++ A_ERASE_REMOVED :: A_ERASE_SEEN goal :: A_INSERT_GTR goal :: acts,
            mkT gtr (sins goal seen) (goal :: rem) new)
         end.
Proof.
  intros. unfold traverse. simpl. destruct (smem goal seen); [reflexivity|].
  destruct (find_origin g goal pos) as [o|]; [|reflexivity]. destruct (o_ssets o); reflexivity.
Qed.

Lemma step_traverse : forall f results acts st,
  rfg_loop (S f) g pos results (A_TRAVERSE :: acts) st
  = let '(r, a, s) := traverse g pos results acts st in rfg_loop f g pos r a s.
Proof. reflexivity. Qed.

Lemma step_all : forall f results cur rest acts gtr seen rem new gtr' acts',
  insert_source_set cur gtr (match rest with [] => acts | c :: r => A_TRAVERSE_ALL c r :: acts end)
  = (gtr', acts') ->
  rfg_loop (S f) g pos results (A_TRAVERSE_ALL cur rest :: acts) (mkT gtr seen rem new)
  = rfg_loop f g pos results (A_TRAVERSE :: acts') (mkT gtr' seen rem new).
Proof. intros. simpl. rewrite H. reflexivity. Qed.

(* the three undo actions that close the processing of one goal *)
Lemma step3 : forall fuel results acts a1 goal gtr seen rem new rem' new',
  SS (goal :: gtr) -> SS seen -> smem goal seen = false ->
  (a1 = A_ERASE_NEW /\ rem' = rem /\ new' = goal :: new) \/
  (a1 = A_ERASE_REMOVED /\ rem' = goal :: rem /\ new' = new) ->
  rfg_loop (3 + fuel) g pos results (a1 :: A_ERASE_SEEN goal :: A_INSERT_GTR goal :: acts)
           (mkT gtr (sins goal seen) rem' new')
  = rfg_loop fuel g pos results acts (mkT (goal :: gtr) seen rem new).
Proof.
  intros fuel results acts a1 goal gtr seen rem new rem' new' Hg Hs Hm
    [[E1 [E2 E3]]|[E1 [E2 E3]]]; subst; simpl;
    rewrite srem_sins by assumption; rewrite sins_head by assumption; reflexivity.
Qed.

Lemma erase_run : forall xs fuel results acts gtr seen rem new,
  rfg_loop (length xs + fuel) g pos results (map A_ERASE_GTR xs ++ acts) (mkT gtr seen rem new)
  = rfg_loop fuel g pos results acts (mkT (fold_left (fun l x => srem x l) xs gtr) seen rem new).
Proof.
  induction xs as [|x xs IH]; intros; [reflexivity|]. simpl. apply IH.
Qed.

Lemma iss_cons : forall x cur gtr acts,
  insert_source_set (x :: cur) gtr acts
  = if smem x gtr then insert_source_set cur gtr acts
    else insert_source_set cur (sins x gtr) (A_ERASE_GTR x :: acts).
Proof. intros. unfold insert_source_set. simpl. destruct (smem x gtr); reflexivity. Qed.

Lemma sunion_cons : forall a x b, sunion a (x :: b) = sunion (sins x a) b.
Proof. reflexivity. Qed.

(* the goals a source set adds to goals_to_remove, last added first (= the ERASE actions pushed) *)
Fixpoint added_of (cur gtr : list nat) : list nat :=
  match cur with
  | [] => []
  | x :: c => if smem x gtr then added_of c gtr else added_of c (sins x gtr) ++ [x]
  end.

Lemma insert_source_set_spec : forall cur gtr acts, SS gtr ->
  insert_source_set cur gtr acts = (sunion gtr cur, map A_ERASE_GTR (added_of cur gtr) ++ acts) /\
  fold_left (fun (l : list nat) (x : nat) => srem x l) (added_of cur gtr) (sunion gtr cur) = gtr.
Proof.
  induction cur as [|x cur IH]; intros gtr acts Hg.
  - split; reflexivity.
  - rewrite iss_cons, sunion_cons. simpl. destruct (smem x gtr) eqn:E.
    + destruct (IH gtr acts Hg) as [H1 H2]. rewrite (sins_mem x gtr Hg E). split; assumption.
    + destruct (IH (sins x gtr) (A_ERASE_GTR x :: acts) (SS_sins x gtr Hg)) as [H1 H2].
      rewrite H1. split.
      * rewrite map_app. simpl. rewrite <- app_assoc. reflexivity.
      * rewrite fold_left_app. rewrite H2. cbn [fold_left]. apply srem_sins; assumption.
Qed.

Lemma at_pos_origin : forall b, at_pos g pos b = true <-> find_origin g b pos <> None.
Proof.
  intros b. unfold at_pos, bindings_at. rewrite smem_In, filter_In, in_seq. split.
  - intros [_ H] E. rewrite E in H. discriminate.
  - intros H. split.
    + split; [lia|]. simpl.
      destruct (Nat.lt_ge_cases b (n_bindings g)) as [Hlt|Hge]; [exact Hlt|].
      exfalso. apply H. unfold find_origin, origins, get_binding.
      rewrite nth_overflow by exact Hge. reflexivity.
    + destruct (find_origin g b pos); [reflexivity | congruence].
Qed.

(* big-step form: a TRAVERSE on top of the stack runs for a fixed number of steps, appends
   exactly the outcomes of the recursive enumeration and hands the SAME traverse state to the rest of
   the stack *)
Definition Runs (gtr seen rem new : list bid) : Prop :=
  exists n rs,
    (forall fuel results acts,
       rfg_loop (S (n + fuel)) g pos results (A_TRAVERSE :: acts) (mkT gtr seen rem new)
       = rfg_loop fuel g pos (results ++ rs) acts (mkT gtr seen rem new)) /\
    forall r, In r rs <-> resolves g pos gtr seen rem new r.

Lemma all_runs : forall rest cur gtr seen rem new,
  SS gtr ->
  (forall ss, In ss (cur :: rest) -> Runs (sunion gtr ss) seen rem new) ->
  exists n rs,
    (forall fuel results acts,
       rfg_loop (S (n + fuel)) g pos results (A_TRAVERSE_ALL cur rest :: acts) (mkT gtr seen rem new)
       = rfg_loop fuel g pos (results ++ rs) acts (mkT gtr seen rem new)) /\
    forall r, In r rs <-> exists ss, In ss (cur :: rest) /\ resolves g pos (sunion gtr ss) seen rem new r.
Proof.
  induction rest as [|c r IH]; intros cur gtr seen rem new Hg Hall;
    destruct (Hall cur (or_introl eq_refl)) as [n1 [rs1 [H1 Hrs1]]].
  - exists (S (n1 + length (added_of cur gtr))), rs1. split.
    + intros fuel results acts. destruct (insert_source_set_spec cur gtr acts Hg) as [Hins Hundo].
      rewrite (step_all _ _ cur [] acts _ _ _ _ _ _ Hins). cbn [Nat.add].
      rewrite <- Nat.add_assoc, H1, erase_run, Hundo. reflexivity.
    + intros x. split; [intros Hx; exists cur; split; [left; reflexivity | apply Hrs1; exact Hx]|].
      intros [ss [[<-|[]] Hx]]. apply Hrs1. exact Hx.
  - destruct (IH c gtr seen rem new Hg) as [n2 [rs2 [H2 Hrs2]]].
    { intros ss Hss. apply Hall. right. exact Hss. }
    exists (S (n1 + (length (added_of cur gtr) + S n2))), (rs1 ++ rs2). split.
    + intros fuel results acts.
      destruct (insert_source_set_spec cur gtr (A_TRAVERSE_ALL c r :: acts) Hg) as [Hins Hundo].
      rewrite (step_all _ _ cur (c :: r) acts _ _ _ _ _ _ Hins). cbn [Nat.add].
      rewrite <- !Nat.add_assoc, H1, erase_run, Hundo. cbn [Nat.add]. rewrite H2, app_assoc. reflexivity.
    + intros x. split.
      * intros Hx. apply in_app_or in Hx. destruct Hx as [Hx|Hx].
        -- exists cur. split; [left; reflexivity | apply Hrs1; exact Hx].
        -- apply Hrs2 in Hx. destruct Hx as [ss [Hin Hx]]. exists ss. split; [right; exact Hin | exact Hx].
      * intros [ss [[<-|Hin] Hx]]; apply in_or_app;
          [left; apply Hrs1; exact Hx | right; apply Hrs2; exists ss; split; assumption].
Qed.

Lemma runs : forall k j gtr seen rem new,
  unseen (bindings_at g pos) seen <= k -> length gtr <= j -> SS gtr -> SS seen ->
  Runs gtr seen rem new.
Proof.
  induction k as [k IHk] using lt_wf_ind. induction j as [|j IHj]; intros gtr seen rem new Hk Hj Hg Hs.
  - destruct gtr; [|simpl in Hj; lia]. exists 0, [(sof_list rem, sof_list new)].
    split; [reflexivity|]. intros r. split; [intros [<-|[]]; constructor | intros Hr; apply resolves_nil in Hr; left; symmetry; exact Hr].
  - destruct gtr as [|goal gtr].
    + exists 0, [(sof_list rem, sof_list new)].
      split; [reflexivity|]. intros r. split; [intros [<-|[]]; constructor | intros Hr; apply resolves_nil in Hr; left; symmetry; exact Hr].
    + destruct (SS_cons_inv _ _ Hg) as [Hg' _]. simpl in Hj.
      destruct (smem goal seen) eqn:Es.
      * destruct (IHj gtr seen rem new Hk ltac:(lia) Hg' Hs) as [n1 [rs [H1 Hrs]]].
        exists (S (n1 + 1)), rs. split; [|intros r; apply (iff_trans (Hrs r)), iff_sym, resolves_seen; exact Es].
        intros fuel results acts. cbn [Nat.add]. rewrite step_traverse, traverse_cons, Es.
        rewrite <- Nat.add_assoc, H1. simpl. rewrite sins_head by assumption. reflexivity.
      * destruct (find_origin g goal pos) as [o|] eqn:Eo.
        -- assert (HgU : In goal (bindings_at g pos)).
           { apply smem_In. apply at_pos_origin. congruence. }
           pose proof (unseen_lt _ goal seen HgU Es) as Hlt.
           destruct (o_ssets o) as [|cur rest] eqn:Ess.
           ++ exists 3, []. split.
              ** intros fuel results acts. cbn [Nat.add].
                 rewrite step_traverse, traverse_cons, Es, Eo, Ess. cbn [app].
                 rewrite app_nil_r. apply (step3 fuel); auto.
              ** intros r. split; [intros []|]. intros Hr. apply (resolves_rem _ _ _ _ _ _ o Es Eo) in Hr.
                 rewrite Ess in Hr. destruct Hr as [ss [[] _]].
           ++ destruct (all_runs rest cur gtr (sins goal seen) (goal :: rem) new Hg') as [n1 [rs [H1 Hrs]]].
              { intros ss _. eapply (IHk (unseen (bindings_at g pos) (sins goal seen)) ltac:(lia)
                                         (length (sunion gtr ss))); auto.
                - apply SS_sunion. exact Hg'.
                - apply SS_sins. exact Hs. }
              exists (S (n1 + 3)), rs. split.
              ** intros fuel results acts. cbn [Nat.add].
                 rewrite step_traverse, traverse_cons, Es, Eo, Ess. cbn [app].
                 rewrite <- Nat.add_assoc, H1. apply (step3 fuel); auto.
              ** intros r. apply (iff_trans (Hrs r)).
                 pose proof (resolves_rem goal gtr seen rem new r o Es Eo) as Hr. rewrite Ess in Hr. exact (iff_sym Hr).
        -- pose proof (unseen_le (bindings_at g pos) goal seen) as Hle.
           destruct (IHj gtr (sins goal seen) rem (goal :: new) ltac:(lia) ltac:(lia) Hg' (SS_sins goal seen Hs))
             as [n1 [rs [H1 Hrs]]].
           exists (S (n1 + 3)), rs. split; [|intros r; apply (iff_trans (Hrs r)), iff_sym, resolves_new; assumption].
           intros fuel results acts. cbn [Nat.add]. rewrite step_traverse, traverse_cons, Es, Eo.
           rewrite <- Nat.add_assoc, H1. apply (step3 fuel); auto.
Qed.

Lemma runs_all : forall gtr seen rem new, SS gtr -> SS seen -> Runs gtr seen rem new.
Proof. intros. apply (runs _ _ _ _ _ _ (Nat.le_refl _) (Nat.le_refl _)); assumption. Qed.

Theorem rfg_terminates : forall goals, SS goals ->
  exists n results, forall fuel, remove_finished_goals (n + fuel) g pos goals = Some results.
Proof.
  intros goals Hg. unfold remove_finished_goals.
  destruct (runs_all (filter (fun b => smem b (bindings_at g pos)) goals) [] []
              (rev (filter (fun b => negb (smem b (filter (fun b => smem b (bindings_at g pos)) goals))) goals))
              (SS_filter _ _ Hg) SS_nil) as [n [rs [H _]]].
  exists (S n + 1), rs. intros fuel. cbn [Nat.add]. rewrite <- Nat.add_assoc, H. reflexivity.
Qed.

Lemma rfg_loop_mono : forall fuel results acts st out,
  rfg_loop fuel g pos results acts st = Some out ->
  forall k, rfg_loop (k + fuel) g pos results acts st = Some out.
Proof.
  induction fuel as [|f IH]; intros results acts st out H k; [discriminate|].
  rewrite Nat.add_succ_r. simpl in *. destruct acts as [|a acts]; [exact H|].
  destruct a; try (apply IH; exact H).
  - destruct (traverse g pos results acts st) as [[r a] s]. apply IH. exact H.
  - destruct (insert_source_set cur (t_gtr st) _) as [gtr' acts']. apply IH. exact H.
Qed.

(* a run that returns has passed through every big step *)
Lemma run_frame : forall n rs acts0 acts st,
  (forall fuel results, rfg_loop (S (n + fuel)) g pos results acts0 st = rfg_loop fuel g pos (results ++ rs) acts st) ->
  forall fuel results out, rfg_loop fuel g pos results acts0 st = Some out ->
  exists fuel', fuel' < fuel /\ rfg_loop fuel' g pos (results ++ rs) acts st = Some out.
Proof.
  intros n rs acts0 acts st Hrun fuel results out H.
  destruct (Nat.le_gt_cases fuel n) as [Hle|Hgt].
  - pose proof (rfg_loop_mono _ _ _ _ _ H (S n - fuel)) as Hm.
    replace (S n - fuel + fuel) with (S (n + 0)) in Hm by lia. rewrite Hrun in Hm. discriminate.
  - exists (fuel - S n). split; [lia|]. rewrite <- Hrun.
    replace (S (n + (fuel - S n))) with fuel by lia. exact H.
Qed.

Lemma frame : forall fuel,
  (forall results acts gtr seen rem new out,
     rfg_loop fuel g pos results (A_TRAVERSE :: acts) (mkT gtr seen rem new) = Some out ->
     SS gtr -> SS seen ->
     exists fuel' rs, fuel' < fuel /\
       rfg_loop fuel' g pos (results ++ rs) acts (mkT gtr seen rem new) = Some out /\
       (forall r, In r rs <-> resolves g pos gtr seen rem new r)) /\
  (forall results cur rest acts gtr seen rem new out,
     rfg_loop fuel g pos results (A_TRAVERSE_ALL cur rest :: acts) (mkT gtr seen rem new) = Some out ->
     SS gtr -> SS seen ->
     exists fuel' rs, fuel' < fuel /\
       rfg_loop fuel' g pos (results ++ rs) acts (mkT gtr seen rem new) = Some out /\
       (forall r, In r rs <->
                  exists ss, In ss (cur :: rest) /\ resolves g pos (sunion gtr ss) seen rem new r)).
Proof.
  intros fuel. split.
  - intros results acts gtr seen rem new out H Hg Hs.
    destruct (runs_all gtr seen rem new Hg Hs) as [n [rs [Hrun Hrs]]].
    destruct (run_frame n rs _ acts _ (fun f r => Hrun f r acts) _ _ _ H) as [fuel' [Hlt Hrun']].
    exists fuel', rs. auto.
  - intros results cur rest acts gtr seen rem new out H Hg Hs.
    destruct (all_runs rest cur gtr seen rem new Hg) as [n [rs [Hrun Hrs]]].
    { intros ss _. apply runs_all; [apply SS_sunion|]; assumption. }
    destruct (run_frame n rs _ acts _ (fun f r => Hrun f r acts) _ _ _ H) as [fuel' [Hlt Hrun']].
    exists fuel', rs. auto.
Qed.

Theorem rfg_correct : forall fuel goals results,
  SS goals ->
  remove_finished_goals fuel g pos goals = Some results ->
  forall r, In r results <-> resolves_at g pos goals r.
Proof.
  intros fuel goals results Hg H r. unfold remove_finished_goals in H.
  destruct (frame fuel) as [FT _].
  destruct (FT _ _ _ _ _ _ _ H (SS_filter _ _ Hg) SS_nil) as [f1 [rs [_ [Hrun Hrs]]]].
  destruct f1 as [|f1]; [discriminate|]. simpl in Hrun. injection Hrun as <-.
  unfold resolves_at, at_pos. apply Hrs.
Qed.

Lemma resolves_facts : forall gtr seen rem new R N,
  resolves g pos gtr seen rem new (R, N) ->
  (forall b, In b seen -> In b rem \/ In b new) ->
  (forall b, In b gtr \/ In b rem \/ In b new -> In b R \/ In b N) /\
  (forall b, In b R -> In b rem \/ find_origin g b pos <> None) /\
  (forall b, In b N -> In b new \/ find_origin g b pos = None).
Proof.
  intros gtr seen rem new R N H. remember (R, N) as r eqn:Er. revert R N Er.
  induction H; intros R N Er Hseen.
  - injection Er as <- <-. repeat split.
    + intros b [[]|[Hb|Hb]]; [left|right]; apply In_sof_list; exact Hb.
    + intros b Hb. left. apply In_sof_list. exact Hb.
    + intros b Hb. left. apply In_sof_list. exact Hb.
  - destruct (IHresolves R N Er Hseen) as [A [B C]]. repeat split; auto.
    intros b [[Hb|Hb]|Hb].
    + subst. apply smem_In in H. apply A. right. apply Hseen. exact H.
    + apply A. auto.
    + apply A. auto.
  - destruct (IHresolves R N Er) as [A [B C]].
    { intros b Hb. apply In_sins in Hb. destruct Hb as [Hb|Hb].
      - subst. right. left. reflexivity.
      - destruct (Hseen b Hb); [left | right; right]; assumption. }
    repeat split.
    + intros b [[Hb|Hb]|[Hb|Hb]]; apply A; auto.
      * subst. right. right. left. reflexivity.
      * right. right. right. exact Hb.
    + exact B.
    + intros b Hb. destruct (C b Hb) as [[Hc|Hc]|Hc]; auto. subst. right. exact H0.
  - destruct (IHresolves R N Er) as [A [B C]].
    { intros b Hb. apply In_sins in Hb. destruct Hb as [Hb|Hb].
      - subst. left. left. reflexivity.
      - destruct (Hseen b Hb); [left; right | right]; assumption. }
    repeat split.
    + intros b [[Hb|Hb]|[Hb|Hb]]; apply A.
      * subst. right. left. left. reflexivity.
      * left. apply In_sunion. left. exact Hb.
      * right. left. right. exact Hb.
      * right. right. exact Hb.
    + intros b Hb. destruct (B b Hb) as [[Hc|Hc]|Hc]; auto. subst. right. congruence.
    + exact C.
Qed.

Theorem resolves_at_facts : forall goals R N,
  resolves_at g pos goals (R, N) ->
  (forall b, In b goals -> In b R \/ In b N) /\
  (forall b, In b R -> find_origin g b pos <> None) /\
  (forall b, In b N -> find_origin g b pos = None).
Proof.
  intros goals R N H. unfold resolves_at in H.
  destruct (resolves_facts _ _ _ _ _ _ H) as [A [B C]]; [intros b []|].
  repeat split.
  - intros b Hb. apply A. destruct (at_pos g pos b) eqn:E.
    + left. apply filter_In. split; assumption.
    + right. right. rewrite <- in_rev. apply filter_In. split; [exact Hb|].
      apply negb_true_iff. apply smem_false. intros Hc. apply filter_In in Hc. destruct Hc. congruence.
  - intros b Hb. destruct (B b Hb) as [[]|Hc]. exact Hc.
  - intros b Hb. destruct (C b Hb) as [Hc|Hc]; [|exact Hc].
    rewrite <- in_rev in Hc. apply filter_In in Hc. destruct Hc as [Hc1 Hc2].
    apply negb_true_iff in Hc2. apply smem_false in Hc2.
    destruct (find_origin g b pos) eqn:E; [|reflexivity]. exfalso. apply Hc2.
    apply filter_In. split; [exact Hc1|]. apply at_pos_origin. congruence.
Qed.

Lemma resolves_sorted : forall gtr seen rem new R N,
  resolves g pos gtr seen rem new (R, N) -> SS R /\ SS N.
Proof.
  intros gtr seen rem new R N H. remember (R, N) as r eqn:Er. revert R N Er.
  induction H; intros R N Er; auto.
  injection Er as <- <-. split; apply SS_sof_list.
Qed.
Lemma resolves_at_sorted : forall goals R N, resolves_at g pos goals (R, N) -> SS R /\ SS N.
Proof. intros goals R N H. eapply resolves_sorted. exact H. Qed.

Lemma origin_at : forall b, find_origin g b pos <> None ->
  exists o, In o (origins g b) /\ o_where o = pos.
Proof.
  intros b H. unfold find_origin in H.
  destruct (find (fun o => o_where o =? pos) (origins g b)) as [o|] eqn:E; [|congruence].
  apply find_some in E. destruct E as [E1 E2]. apply Nat.eqb_eq in E2. exists o. auto.
Qed.
End Rfg.
