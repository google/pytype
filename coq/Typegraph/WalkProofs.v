(* On graphs without node conditions the node-by-node walk reading of the statement (ExplC, the
   reading the Python oracle implements) and the jump reading (Expl, the one the solver is proved
   exact for) coincide. *)
From Coq Require Import List Arith Bool Lia Relations.
From PV Require Import Typegraph.Graph Typegraph.Solver Typegraph.Spec Typegraph.SetLemmas
  Typegraph.RfgProofs Typegraph.PathProofs Typegraph.ResolveMono Typegraph.SearchProofs
  Typegraph.SolverProofs Typegraph.ExactProofs.
Import ListNotations.

Section Walk.
Variable g : graph.
Hypothesis Hnc : no_conditions g = true.

Lemma with_cond_nocond : forall n S, with_cond g n S = S.
Proof. intros. unfold with_cond. rewrite (no_conditions_cond g n Hnc). reflexivity. Qed.

Lemma creach_first : forall blocked n x, creach g blocked n x ->
  x = n \/ exists m, smem n blocked = false /\ In m (incoming g n) /\ creach g blocked m x.
Proof.
  intros blocked n x H. induction H as [|p m Hp IH Hb Hm]; [left; reflexivity|]. right.
  destruct IH as [->|[m0 [Hb0 [Hm0 Hc]]]].
  - exists m. split; [exact Hb|]. split; [exact Hm | constructor].
  - exists m0. split; [exact Hb0|]. split; [exact Hm0 | eapply creach_step; eassumption].
Qed.

Lemma In_var_nodes_origin : forall b y o,
  find_origin g b y = Some o -> In y (var_nodes g (var_of g b)).
Proof.
  intros b y o H. unfold find_origin in H. apply find_some in H. destruct H as [Ho Hw].
  apply Nat.eqb_eq in Hw. unfold var_nodes. apply In_sof_list. apply in_flat_map.
  unfold origins, get_binding in Ho.
  destruct (Nat.lt_ge_cases b (length (g_bindings g))) as [Hlt|Hge].
  - exists (nth b (g_bindings g) (mkBinding 0 [])). split; [apply nth_In; exact Hlt|].
    unfold var_of, get_binding. rewrite Nat.eqb_refl. apply in_map_iff. exists o. auto.
  - rewrite nth_overflow in Ho by exact Hge. destruct Ho.
Qed.

Lemma unblocked_no_origin : forall y new,
  smem y (blocked_of g new) = false -> forall b, In b new -> find_origin g b y = None.
Proof.
  intros y new H b Hb. destruct (find_origin g b y) as [o|] eqn:E; [|reflexivity]. exfalso.
  apply smem_false in H. apply H. apply In_blocked_of. exists b. split; [exact Hb|].
  eapply In_var_nodes_origin. exact E.
Qed.

Lemma filter_nil : forall {A} (f : A -> bool) l, (forall x, In x l -> f x = false) -> filter f l = [].
Proof.
  intros A f. induction l as [|a t IH]; intros H; [reflexivity|]. simpl.
  rewrite (H a (or_introl eq_refl)). apply IH. intros x Hx. apply H. right. exact Hx.
Qed.

Lemma resolves_at_trivial : forall y new,
  SS new -> (forall b, In b new -> find_origin g b y = None) -> resolves_at g y new ([], new).
Proof.
  intros y new Hss H. apply resolves_at_nothing; [exact Hss | | reflexivity].
  apply filter_nil. intros b Hb. destruct (at_pos g y b) eqn:E; [|reflexivity].
  apply at_pos_origin in E. specialize (H b Hb). congruence.
Qed.

Lemma ExplC_Expl : forall n S, ExplC g n S -> Expl g n S.
Proof.
  intros n S H. induction H as [n S removed Hr Hc | n S removed new m Hr Hc Hb Hm Hw IH].
  - rewrite with_cond_nocond in Hr. eapply Expl_done; eauto.
  - rewrite with_cond_nocond in Hr. destruct (resolves_at_sorted _ _ _ _ _ Hr) as [_ HssN].
    eapply Expl_via; [exact Hr | exact Hc | exact HssN | | exact IH].
    eapply creach_step; [constructor | exact Hb | exact Hm].
Qed.

Lemma creach_walk : forall new start x, SS new ->
  creach g (blocked_of g new) start x -> ExplC g x new -> ExplC g start new.
Proof.
  intros new start x Hss H. induction H; intros Hx; [exact Hx|].
  apply IHcreach. eapply EC_step with (removed := []) (new := new) (m := m); auto.
  rewrite with_cond_nocond. apply resolves_at_trivial; [exact Hss|].
  apply unblocked_no_origin. exact H0.
Qed.

Lemma Expl_ExplC : forall n S, Expl g n S -> ExplC g n S.
Proof.
  intros n S H. induction H as [n S removed Hr Hc | n S removed new b o Hr Hc Hb Ho Hcr Hex IH].
  - eapply EC_done; [rewrite with_cond_nocond; exact Hr | exact Hc].
  - destruct (resolves_at_sorted _ _ _ _ _ Hr) as [_ HssN].
    destruct (creach_first _ _ _ Hcr) as [E|[m [Hnb [Hm Hcm]]]].
    + (* the origin node is n itself: impossible, b is still a goal so it does not originate at n *)
      exfalso. destruct (resolves_at_facts g n _ _ _ Hr) as [_ [_ C]]. specialize (C b Hb).
      unfold find_origin in C. eapply find_none in C; [|exact Ho]. simpl in C.
      rewrite E, Nat.eqb_refl in C. discriminate.
    + eapply EC_step; [rewrite with_cond_nocond; exact Hr | exact Hc | exact Hnb | exact Hm |].
      exact (creach_walk new m _ HssN Hcm IH).
Qed.

Theorem Expl_iff_ExplC : forall n S, Expl g n S <-> ExplC g n S.
Proof. intros. split; [apply Expl_ExplC | apply ExplC_Expl]. Qed.
End Walk.
