(* Clause (i) of C07: on an acyclic graph without node conditions the MEMOISED search answers true
   exactly when the declarative explanation relation Expl holds.  On such a graph the position
   strictly decreases in a topological rank, so the provisional memo entry and seen_states are never
   consulted; the invariant is that every memo entry is exact (or provisional for a stack state).
   The argument is made once (StepE, solve_exact_on) for any set of search states that is closed under
   Succ and meets no Succ-cycle; here that set is all states, in CleanExact.v the accessible ones. *)
From Coq Require Import List Arith Bool Lia Relations.
From PV Require Import Typegraph.Graph Typegraph.Solver Typegraph.Spec Typegraph.SetLemmas
  Typegraph.RfgProofs Typegraph.PathProofs Typegraph.SearchProofs Typegraph.SolverProofs
  Typegraph.ResolveMono.
Import ListNotations.

Section Exact.
Variable g : graph.
Hypothesis Hnc : no_conditions g = true.

Definition ExplS (s : state) : Prop := Expl g (fst s) (snd s).

Definition InvE (m : memo) (seen : list state) : Prop :=
  forall s b, memo_get s m = Some b -> (In s seen /\ b = true) \/ (b = true <-> ExplS s).

Lemma nocond_path_nil : forall start finish blocked ex path,
  find_node_backwards_compute g start finish blocked = Some (ex, path) -> path = [].
Proof.
  intros start finish blocked ex path H. destruct (fnb_compute_spec g _ _ _ _ _ H) as [_ Hp].
  destruct path as [|x t]; [reflexivity|]. exfalso.
  destruct (Hp x (or_introl eq_refl)) as [_ Hc]. apply Hc. apply no_conditions_cond. exact Hnc.
Qed.

(* with no conditions a successor sits at an origin node of a remaining goal, reached by a clear path *)
Lemma Succ_expl : forall s s', Succ g s s' -> ExplS s' -> ExplS s.
Proof.
  intros [pos sg] [p nw] [removed [new [Hr [Hc [Hne [Hp Hs]]]]]] He. simpl in *. subst nw.
  rewrite (goals_of_nocond g Hnc) in Hr. simpl in Hr.
  destruct Hp as [fin [path [Hf [Hcomp Hw]]]].
  pose proof (nocond_path_nil _ _ _ _ _ Hcomp) as Hpn. subst path. unfold where_of in Hw. simpl in Hw. subst p.
  apply In_finish_nodes in Hf. destruct Hf as [b [o [Hb [Ho Hwo]]]]. subst fin.
  destruct (fnb_compute_spec g _ _ _ _ _ Hcomp) as [Hex _].
  unfold ExplS. simpl. eapply Expl_jump; eauto. apply Hex. reflexivity.
Qed.

Lemma Leaf_expl : forall s, Leaf g s -> ExplS s.
Proof.
  intros [pos sg] [removed [Hr Hc]]. rewrite (goals_of_nocond g Hnc) in Hr. simpl in Hr.
  unfold ExplS. simpl. eapply Expl_done; eauto.
Qed.

(* conversely, the jump of an explanation is a successor of the search, provided FindNodeBackwards
   returned for the origin nodes of the new goals *)
Lemma jump_Succ : forall pos sg removed new b o,
  resolves_at g pos sg (removed, new) -> goals_conflict g removed = false ->
  In b new -> In o (origins g b) -> creach g (blocked_of g new) pos (o_where o) ->
  Defined g pos new -> Succ g (pos, sg) (o_where o, new).
Proof.
  intros pos sg removed new b o Hr Hc Hb Ho Hcr Hdef.
  assert (Hfin : In (o_where o) (finish_nodes g new)) by (apply In_finish_nodes; exists b, o; auto).
  destruct (Hdef _ Hfin) as [[ex path] Hcomp].
  pose proof (nocond_path_nil _ _ _ _ _ Hcomp) as Hpn. subst path.
  destruct (fnb_compute_spec g _ _ _ _ _ Hcomp) as [Hex _].
  assert (ex = true) by (apply Hex; exact Hcr). subst ex.
  exists removed, new. rewrite (goals_of_nocond g Hnc). simpl.
  repeat split; auto; [intros E; subst; contradiction|].
  exists (o_where o), []. repeat split; auto.
Qed.

Definition st_okE (st : sstate) : Prop := pc_exact g (s_paths st) /\ InvE (s_memo st) [].

Lemma st_okE_empty : st_okE sstate_empty.
Proof. split; [apply pc_exact_nil | intros s b H; discriminate]. Qed.

(* Exactness on a set W of search states that is closed under Succ and meets no Succ-cycle: below a
   state of W the provisional entries and seen_states are never consulted, so every finished answer
   for a state of W is the Expl truth.  Entries of states outside W are unconstrained. *)
Variable W : state -> Prop.
Hypothesis W_succ : forall s s', W s -> Succ g s s' -> W s'.
Hypothesis W_nocycle : forall s, W s -> ~ clos_trans _ (Succ g) s s.

Definition AnsE (s : state) (b : bool) : Prop := W s -> (b = true <-> ExplS s).

Lemma StepE : forall s seen r, SS (snd s) -> Anc g s seen -> Searched g AnsE s (s :: seen) r -> AnsE s r.
Proof.
  intros s seen r _ Hanc Hs Hw.
  assert (Hstack : forall s', Succ g s s' -> ~ In s' (s :: seen)).
  { intros s' Hs' [E|Hin]; apply (W_nocycle s Hw).
    - subst s'. apply t_step. exact Hs'.
    - eapply t_trans; [apply t_step; exact Hs' | apply Hanc; exact Hin]. }
  destruct r; simpl in Hs.
  - split; [|reflexivity]. intros _. destruct Hs as [Hl|[s' [Hs' [HQ|HQ]]]].
    + apply Leaf_expl. exact Hl.
    + eapply Succ_expl; [exact Hs' | apply HQ; [eapply W_succ; eauto | reflexivity]].
    + destruct (Hstack _ Hs' HQ).
  - split; [discriminate|]. intros He. exfalso. destruct Hs as [C1 [C2 C3]].
    destruct s as [pos sg]. unfold ExplS in He. simpl in He.
    inversion He as [n0 S0 removed Hra Hcf | n0 S0 removed new b o Hra Hcf Hb Ho Hcr Hex']; subst.
    + apply C1. exists removed. rewrite (goals_of_nocond g Hnc). simpl. split; assumption.
    + assert (Hsucc : Succ g (pos, sg) (o_where o, new)).
      { eapply jump_Succ; eauto. apply (C3 removed); auto.
        - rewrite (goals_of_nocond g Hnc). exact Hra.
        - intros E; subst; contradiction. }
      destruct (C2 _ Hsucc) as [Hin|Hn]; [exact (Hstack _ Hsucc Hin)|].
      assert (X : false = true) by (apply (Hn (W_succ _ _ Hw Hsucc)); exact Hex'). discriminate.
Qed.

(* Solve: the CanHaveSolution short-circuit never changes an answer, because Expl is monotone *)
Lemma solve_exact_on : forall fuel st attrs n st' r,
  solve fuel g st attrs n = Some (st', r) -> MOk g AnsE st ->
  MOk g AnsE st' /\
  (W (n, sof_list attrs) -> (forall a, In a attrs -> W (n, sof_list [a])) ->
   (r = true <-> Expl g n (sof_list attrs))).
Proof.
  intros fuel st attrs n st' r H Hok.
  destruct (solve_cases g fuel _ AnsE (top_inv g AnsE StepE fuel) _ _ _ _ _ H Hok) as [A [B _]].
  split; [exact A|]. intros Hw Hws. destruct B as [B|[-> [a [Ha B]]]]; [exact (B Hw)|].
  split; [discriminate|]. intros He. apply (B (Hws a Ha)).
  eapply Expl_mono; [exact He | apply SS_sof_list |].
  intros b Hb. apply In_sof_list in Hb. destruct Hb as [<-|[]]. apply In_sof_list. exact Ha.
Qed.
End Exact.

Lemma st_okE_MOk : forall g st, st_okE g st <-> MOk g (AnsE g (fun _ => True)) st.
Proof.
  intros g st. split; intros [Hpc Hi]; (split; [exact Hpc|]); intros s b H;
    (destruct (Hi s b H) as [L|R]; [left; exact L | right]).
  - intros _. exact R.
  - exact (R I).
Qed.

Section Acyclic.
Variable g : graph.
Variable rank : node -> nat.
Hypothesis Hrank : ranked g rank.
Hypothesis Hnc : no_conditions g = true.

Lemma ranked_nocycle : forall s, ~ clos_trans _ (Succ g) s s.
Proof. intros s H. pose proof (Succ_trans_rank g rank Hrank _ _ H). lia. Qed.

Lemma solve_exact_full : forall fuel st attrs n st' r,
  solve fuel g st attrs n = Some (st', r) -> st_okE g st ->
  st_okE g st' /\ (r = true <-> Expl g n (sof_list attrs)).
Proof.
  intros fuel st attrs n st' r H Hok. apply st_okE_MOk in Hok.
  destruct (solve_exact_on g Hnc _ (fun _ _ _ _ => I) (fun s _ => ranked_nocycle s) _ _ _ _ _ _ H Hok) as [A B].
  split; [apply st_okE_MOk; exact A | apply B; auto].
Qed.

(* the search proper (what Solve runs after the short-circuit) is exact, any goal set *)
Lemma search_exact : forall fuel s st' r, SS (snd s) ->
  recall_or_find fuel fuel g sstate_empty s [] = Some (st', r) -> (r = true <-> ExplS g s).
Proof.
  intros fuel s st' r Hss H.
  destruct (top_inv g _ (StepE g Hnc _ (fun _ _ _ _ => I) (fun s _ => ranked_nocycle s)) _ _ _ _ _ H Hss (MOk_empty _ _))
    as [_ A].
  exact (A I).
Qed.
End Acyclic.

Theorem solver_exact_acyclic_lemma : forall g fuel qs st' answers,
  acyclic g -> no_conditions g = true ->
  run_queries fuel g sstate_empty qs = Some (st', answers) ->
  Forall2 (fun q a => a = true <-> Expl g (snd q) (sof_list (fst q))) qs answers.
Proof.
  intros g fuel qs st' answers [rank Hrank] Hnc H.
  exact (proj2 (run_queries_inv g fuel (st_okE g) _ (solve_exact_full g rank Hrank Hnc fuel) qs _ _ _ H
                  (st_okE_empty g))).
Qed.

(* the weaker reading: a rejection is justified by the goal set or by a single unexplained goal *)
Definition exact_answer (g : graph) (q : list bid * node) (a : bool) : Prop :=
  (a = true -> Expl g (snd q) (sof_list (fst q))) /\
  (a = false -> ~ Expl g (snd q) (sof_list (fst q)) \/
                (1 < length (fst q) /\ exists b, In b (fst q) /\ ~ Expl g (snd q) [b])).

Theorem solver_exact_acyclic_partial_lemma : forall g fuel qs st' answers,
  acyclic g -> no_conditions g = true ->
  run_queries fuel g sstate_empty qs = Some (st', answers) ->
  Forall2 (exact_answer g) qs answers.
Proof.
  intros g fuel qs st' answers Ha Hnc H.
  pose proof (solver_exact_acyclic_lemma g fuel qs st' answers Ha Hnc H) as HF.
  clear H. induction HF as [|q a qs0 as0 Hq _ IH]; [constructor|]. constructor; [|exact IH].
  split; [apply Hq|]. intros ->. left. intros He. apply Hq in He. discriminate.
Qed.

Lemma Forall2_combine_In : forall {A B} (P : A -> B -> Prop) l1 l2 x y,
  Forall2 P l1 l2 -> In (x, y) (combine l1 l2) -> P x y.
Proof.
  intros A B P l1 l2 x y H. induction H; simpl; intros Hin; [destruct Hin|].
  destruct Hin as [Hin|Hin]; [inversion Hin; subst; assumption | auto].
Qed.
