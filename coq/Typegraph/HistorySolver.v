(* C08 x C07: the history model of History.v instantiated with the REAL memoised solver of Solver.v
   (memo table with provisional entries, seen_states rule, path cache, CanHaveSolution short-circuit).

   S     := sstate (solved_states_ + path_trie_),  fresh := sstate_empty,
   ask v st (n, goals) := Solver.solve at node n on the goal vector `goals`, threading st, run with a
   fuel that suffices (first a cheap guess computed from the graph; if that runs out, the least
   sufficient fuel, found by constructive search whose termination is the C07 fuel theorem
   FuelProofs.solve_total; if the graph is not recognisably acyclic or the path cache is not exact
   for it, the query is answered `false` and the state kept - that branch is never taken on the
   histories the theorems speak about).

   Main result (history_independent_solver): for every well-formed history, from any start graph,
   under a safe invalidation table, if the solver-visible graph is acyclic and condition-free at every
   query, then the run with the live memoised solver equals the reference run in which every query is
   answered by a fresh solver, and every answer is the declarative Expl truth on the graph at that
   point.  No well-formedness of the graph is needed (the C07 exactness and fuel theorems do not
   need it). *)
From Coq Require Import List Arith Bool Lia ConstructiveEpsilon.
From PV Require Import Typegraph.Graph Typegraph.Solver Typegraph.Spec Typegraph.SetLemmas
  Typegraph.PathProofs Typegraph.SolverProofs Typegraph.ExactProofs Typegraph.FuelProofs.
From PV Require Typegraph.History Typegraph.HistoryProofs.
Import ListNotations.

Definition hview : Type := (list History.gnode * list History.gbinding)%type.

(* total; binding id = position in the list; source sets in the order History keeps them *)
Definition to_solver_graph (v : hview) : graph :=
  mkGraph (map (fun n => mkNode (History.incoming n) (History.cond n)) (fst v))
          (map (fun b => mkBinding (History.bvar b)
                                   (map (fun o => mkOrigin (fst o) (snd o)) (History.origins b)))
               (snd v)).

(* acyclicity certificate: the length of the longest backward path (cut at depth d) is a rank *)
Fixpoint depth (g : graph) (d : nat) (n : node) : nat :=
  match d with
  | O => 0
  | S d' => S (fold_right (fun m acc => Nat.max (depth g d' m) acc) 0 (incoming g n))
  end.

Definition ranked_check (g : graph) : bool :=
  let f := depth g (S (n_nodes g)) in
  forallb (fun n => forallb (fun m => f m <? f n) (incoming g n)) (seq 0 (n_nodes g)).

Lemma ranked_check_acyclic : forall g, ranked_check g = true -> acyclic g.
Proof.
  intros g H. exists (depth g (S (n_nodes g))). intros n m Hm.
  pose proof (incoming_in_range g n m Hm) as Hlt.
  unfold ranked_check in H. rewrite forallb_forall in H.
  assert (Hin : In n (seq 0 (n_nodes g))) by (apply in_seq; lia).
  specialize (H n Hin). rewrite forallb_forall in H. apply Nat.ltb_lt. exact (H m Hm).
Qed.

(* the solver-visible graph is acyclic (certified) and has no node condition *)
Definition solver_okb (v : hview) : bool :=
  ranked_check (to_solver_graph v) && no_conditions (to_solver_graph v).
Definition solver_ok (v : hview) : Prop := solver_okb v = true.

Lemma solver_ok_facts : forall v, solver_ok v ->
  acyclic (to_solver_graph v) /\ no_conditions (to_solver_graph v) = true.
Proof.
  intros v H. unfold solver_ok, solver_okb in H. apply andb_true_iff in H. destruct H as [H1 H2].
  split; [apply ranked_check_acyclic; exact H1 | exact H2].
Qed.

Definition qres_eqb (a b : qresult) : bool := Bool.eqb (fst a) (fst b) && list_eqb (snd a) (snd b).
Definition oqres_eqb (a b : option qresult) : bool :=
  match a, b with Some x, Some y => qres_eqb x y | None, None => true | _, _ => false end.

Lemma qres_eqb_eq : forall a b, qres_eqb a b = true <-> a = b.
Proof.
  intros [a1 a2] [b1 b2]. unfold qres_eqb. simpl. rewrite andb_true_iff, eqb_true_iff, list_eqb_eq.
  split; intros H; [destruct H; congruence | inversion H; auto].
Qed.

Lemma oqres_eqb_eq : forall a b, oqres_eqb a b = true <-> a = b.
Proof.
  intros [a|] [b|]; simpl; try (split; congruence).
  rewrite qres_eqb_eq. split; congruence.
Qed.

(* only an entry that pc_get returns for its key is checked: one shadowed by an earlier entry with the
   same key is never read *)
Definition pc_exactb (g : graph) (pc : pcache) : bool :=
  forallb (fun e : pkey * qresult =>
             match pc_get (fst e) pc with
             | Some r' =>
               if qres_eqb (snd e) r'
               then let '(s, f, b) := fst e in oqres_eqb (find_node_backwards_compute g s f b) (Some r')
               else true
             | None => true
             end) pc.

Lemma pc_get_In : forall k pc r, pc_get k pc = Some r -> In (k, r) pc.
Proof.
  intros k pc r. induction pc as [|[k' v] t IH]; simpl; intros H; [discriminate|].
  destruct (pkey_eqb k k') eqn:E.
  - apply pkey_eqb_eq in E. subst. inversion H; subst. left. reflexivity.
  - right. apply IH. exact H.
Qed.

Lemma pc_exactb_sound : forall g pc, pc_exactb g pc = true -> pc_exact g pc.
Proof.
  intros g pc H s f b r Hget. unfold pc_exactb in H. rewrite forallb_forall in H.
  specialize (H _ (pc_get_In _ _ _ Hget)). simpl in H. rewrite Hget in H.
  assert (E : qres_eqb r r = true) by (apply qres_eqb_eq; reflexivity). rewrite E in H.
  apply oqres_eqb_eq in H. exact H.
Qed.

Lemma pc_exactb_complete : forall g pc, pc_exact g pc -> pc_exactb g pc = true.
Proof.
  intros g pc H. unfold pc_exactb. apply forallb_forall. intros [[[s f] b] r] _. simpl.
  destruct (pc_get (s, f, b) pc) as [r'|] eqn:E; [|reflexivity].
  destruct (qres_eqb r r'); [|reflexivity]. apply oqres_eqb_eq. apply H. exact E.
Qed.

Definition guess_fuel (g : graph) : nat :=
  100 + 10 * (n_nodes g + n_bindings g) * (n_nodes g + n_bindings g + 4).

Definition guardb (g : graph) (st : sstate) : bool := ranked_check g && pc_exactb g (s_paths st).

Definition Pfuel (g : graph) (st : sstate) (goals : list bid) (n : node) (F : nat) : Prop :=
  solve F g st goals n <> None.

Lemma Pfuel_dec : forall g st goals n F, {Pfuel g st goals n F} + {~ Pfuel g st goals n F}.
Proof.
  intros. unfold Pfuel. destruct (solve F g st goals n); [left; discriminate | right; intros H; apply H; reflexivity].
Defined.

Lemma Pfuel_ex : forall g st goals n, guardb g st = true -> exists F, Pfuel g st goals n F.
Proof.
  intros g st goals n H. unfold guardb in H. apply andb_true_iff in H. destruct H as [H1 H2].
  destruct (ranked_check_acyclic g H1) as [rank Hrank].
  destruct (solve_total g rank Hrank goals n) as [F HF]. exists F. unfold Pfuel.
  destruct (HF F st (Nat.le_refl _) (pc_exactb_sound g _ H2)) as [st' [r [E _]]]. congruence.
Qed.

(* the least fuel with which this query returns (constructive search; terminates by FuelProofs.solve_total) *)
Definition search_fuel (g : graph) (st : sstate) (goals : list bid) (n : node)
    (H : guardb g st = true) : nat :=
  proj1_sig (constructive_indefinite_ground_description_nat
               (Pfuel g st goals n) (Pfuel_dec g st goals n) (Pfuel_ex g st goals n H)).

Lemma search_fuel_spec : forall g st goals n H, Pfuel g st goals n (search_fuel g st goals n H).
Proof.
  intros. unfold search_fuel.
  exact (proj2_sig (constructive_indefinite_ground_description_nat
                      (Pfuel g st goals n) (Pfuel_dec g st goals n) (Pfuel_ex g st goals n H))).
Qed.

Definition ask (v : hview) (st : sstate) (q : History.query) : sstate * bool :=
  let g := to_solver_graph v in
  match solve (guess_fuel g) g st (snd q) (fst q) with
  | Some r => r
  | None =>
    match bool_dec (guardb g st) true with
    | left H =>
      match solve (search_fuel g st (snd q) (fst q) H) g st (snd q) (fst q) with
      | Some r => r
      | None => (st, false)
      end
    | right _ => (st, false)
    end
  end.

(* ask is Solver.solve run with some fuel, or it gave up and kept the state *)
Lemma ask_cases : forall v st (q : History.query),
  (exists F, solve F (to_solver_graph v) st (snd q) (fst q) = Some (ask v st q)) \/
  (guardb (to_solver_graph v) st <> true /\ ask v st q = (st, false)).
Proof.
  intros v st q. unfold ask. cbv zeta.
  destruct (solve (guess_fuel (to_solver_graph v)) (to_solver_graph v) st (snd q) (fst q)) as [r|] eqn:E.
  - left. exists (guess_fuel (to_solver_graph v)). exact E.
  - destruct (bool_dec (guardb (to_solver_graph v) st) true) as [H|H]; [left | right; split; [exact H | reflexivity]].
    pose proof (search_fuel_spec (to_solver_graph v) st (snd q) (fst q) H) as Hs. unfold Pfuel in Hs.
    destruct (solve (search_fuel (to_solver_graph v) st (snd q) (fst q) H) (to_solver_graph v) st (snd q) (fst q))
      as [r|] eqn:E2; [|congruence].
    exists (search_fuel (to_solver_graph v) st (snd q) (fst q) H). exact E2.
Qed.

(* on an acyclic graph, from a state whose path cache is exact, ask IS Solver.solve run to completion *)
Lemma ask_is_solve : forall v st (q : History.query),
  ranked_check (to_solver_graph v) = true -> pc_exact (to_solver_graph v) (s_paths st) ->
  exists F, solve F (to_solver_graph v) st (snd q) (fst q) = Some (ask v st q).
Proof.
  intros v st q Hr Hpc. destruct (ask_cases v st q) as [H|[H _]]; [exact H|].
  exfalso. apply H. unfold guardb. rewrite Hr. apply pc_exactb_complete. exact Hpc.
Qed.

(* Good: the memo-exactness invariant of ExactProofs (every memo entry is the Expl truth, the path
   cache is exact) for the solver graph of the view *)
Definition Good (v : hview) (st : sstate) : Prop := st_okE (to_solver_graph v) st.

Lemma good_fresh : forall v, Good v sstate_empty.
Proof. intros v. apply st_okE_empty. Qed.

Lemma bool_iff_eq : forall (a b : bool) (P : Prop), (a = true <-> P) -> (b = true <-> P) -> a = b.
Proof. intros a b P H1 H2. apply eq_true_iff_eq. rewrite H1, H2. reflexivity. Qed.

(* asking a Good state: the state stays Good and the answer is the declarative truth *)
Lemma ask_exact : forall v st (q : History.query), solver_ok v -> Good v st ->
  Good v (fst (ask v st q)) /\
  (snd (ask v st q) = true <-> Expl (to_solver_graph v) (fst q) (sof_list (snd q))).
Proof.
  intros v st q Hok Hg. destruct (solver_ok_facts v Hok) as [[rank Hrank] Hnc].
  unfold solver_ok, solver_okb in Hok. apply andb_true_iff in Hok. destruct Hok as [Hr _].
  destruct (ask_is_solve v st q Hr (proj1 Hg)) as [F HF].
  destruct (ask v st q) as [st' r]. simpl.
  exact (solve_exact_full (to_solver_graph v) rank Hrank Hnc F st (snd q) (fst q) st' r HF Hg).
Qed.

(* the memo laws of HistoryProofs.history_independent_generic, under solver_ok *)
Lemma good_ask : forall v st (q : History.query), solver_ok v -> Good v st ->
  Good v (fst (ask v st q)) /\ snd (ask v st q) = snd (ask v sstate_empty q).
Proof.
  intros v st q Hok Hg. destruct (ask_exact v st q Hok Hg) as [A B].
  destruct (ask_exact v sstate_empty q Hok (good_fresh v)) as [_ B0].
  split; [exact A | eapply bool_iff_eq; eassumption].
Qed.

(* the solver-visible graph is acyclic and condition-free whenever a query is asked *)
Fixpoint asks_ok (g : History.graph) (ops : list History.hop) : Prop :=
  match ops with
  | [] => True
  | History.Api ms :: t => asks_ok (History.apply_all g ms) t
  | History.Ask _ :: t => solver_ok (History.view g) /\ asks_ok g t
  end.

(* stronger, simpler to state: every graph reached along the history is acyclic and condition-free *)
Fixpoint all_ok (g : History.graph) (ops : list History.hop) : Prop :=
  solver_ok (History.view g) /\
  match ops with
  | [] => True
  | History.Api ms :: t => all_ok (History.apply_all g ms) t
  | History.Ask _ :: t => all_ok g t
  end.

Lemma all_ok_asks_ok : forall ops g, all_ok g ops -> asks_ok g ops.
Proof.
  induction ops as [|[ms|q] t IH]; intros g H; simpl in *; [exact I | |].
  - apply IH, H.
  - destruct H as [H1 H2]. split; [exact H1|]. apply IH. exact H2.
Qed.

(* each answered query is the declarative truth on the graph at that point *)
Fixpoint exact_run (g : History.graph) (ops : list History.hop) (outs : list (option bool)) : Prop :=
  match ops, outs with
  | [], [] => True
  | History.Api ms :: t, None :: o => exact_run (History.apply_all g ms) t o
  | History.Ask q :: t, Some b :: o =>
    (b = true <-> Expl (to_solver_graph (History.view g)) (fst q) (sof_list (snd q))) /\ exact_run g t o
  | _, _ => False
  end.

Section Coherence.
Variable tbl : History.inv_table.
Hypothesis Hsafe : HistoryProofs.tbl_safe tbl = true.

Definition st_good (st : @History.hst sstate) : Prop :=
  match History.hs st with Some s => Good (History.view (History.hg st)) s | None => True end.

Lemma run_coherent_solver : forall ops st,
  HistoryProofs.ops_wf ops -> asks_ok (History.hg st) ops -> st_good st ->
  History.hrun tbl sstate_empty ask st ops = History.href sstate_empty ask (History.hg st) ops.
Proof.
  intros ops st Hwf Hok Hg.
  exact (HistoryProofs.run_coherent_where tbl sstate_empty ask Good solver_ok good_fresh good_ask Hsafe
           ops st Hwf Hok Hg).
Qed.
End Coherence.

Lemma href_exact : forall ops g, asks_ok g ops -> exact_run g ops (History.href sstate_empty ask g ops).
Proof.
  induction ops as [|[ms|q] t IH]; intros g Hok; simpl in *; [exact I | apply IH; exact Hok |].
  destruct Hok as [Hv Hok]. split; [|apply IH; exact Hok].
  apply (ask_exact (History.view g) sstate_empty q Hv (good_fresh _)).
Qed.

(* C08 with the real memoised solver, on acyclic condition-free graphs *)
Theorem history_independent_solver : forall tbl ops g,
  HistoryProofs.tbl_safe tbl = true -> HistoryProofs.ops_wf ops -> asks_ok g ops ->
  History.hrun tbl sstate_empty ask (History.mkSt g None) ops = History.href sstate_empty ask g ops /\
  exact_run g ops (History.hrun tbl sstate_empty ask (History.mkSt g None) ops).
Proof.
  intros tbl ops g Hsafe Hwf Hok.
  assert (E : History.hrun tbl sstate_empty ask (History.mkSt g None) ops = History.href sstate_empty ask g ops).
  { apply (run_coherent_solver tbl Hsafe ops (History.mkSt g None) Hwf Hok). exact I. }
  split; [exact E|]. rewrite E. apply href_exact. exact Hok.
Qed.

(* the same with the hypothesis "every graph reached along the history is acyclic and condition-free" *)
Corollary history_independent_solver_all_ok : forall tbl ops g,
  HistoryProofs.tbl_safe tbl = true -> HistoryProofs.ops_wf ops -> all_ok g ops ->
  History.hrun tbl sstate_empty ask (History.mkSt g None) ops = History.href sstate_empty ask g ops /\
  exact_run g ops (History.hrun tbl sstate_empty ask (History.mkSt g None) ops).
Proof. intros. apply history_independent_solver; auto. apply all_ok_asks_ok. assumption. Qed.

(* one query of the live solver is one Solver.solve on the threaded state, with some fuel *)
Lemma ask_threads_solve : forall v st (q : History.query), solver_ok v -> Good v st ->
  exists F, solve F (to_solver_graph v) st (snd q) (fst q) = Some (ask v st q).
Proof.
  intros v st q Hok Hg. unfold solver_ok, solver_okb in Hok. apply andb_true_iff in Hok.
  apply ask_is_solve; [exact (proj1 Hok) | exact (proj1 Hg)].
Qed.

(* build 0 -> 1, bind variable 0 to data 0 at node 0; ask at node 1; extend 1 -> 2; ask at node 2;
   RE-BIND variable 0 (data 1) at node 1; ask the old binding, the new one, and both together *)
Definition ex_ops : list History.hop :=
  [History.Api [History.MNewNode None];
   History.Api [History.MNewNode None; History.MConnect 0 1];
   History.Api [History.MNewVariable];
   History.Api [History.MFindOrAddBinding 0 0; History.MAddOrigin 0 0; History.MAddSourceSet 0 0 []];
   History.Ask (1, [0]);
   History.Api [History.MNewNode None; History.MConnect 1 2];
   History.Ask (2, [0]);
   History.Api [History.MFindOrAddBinding 0 1; History.MAddOrigin 1 1; History.MAddSourceSet 1 1 []];
   History.Ask (2, [0]); History.Ask (2, [1]); History.Ask (2, [0; 1])].

Example ex_run :
  History.hrun History.tbl_current sstate_empty ask (History.mkSt History.graph0 None) ex_ops
  = [None; None; None; None; Some true; None; Some true; None; Some false; Some true; Some false].
Proof. vm_compute. reflexivity. Qed.

Example ex_hyps : HistoryProofs.ops_wf ex_ops /\ asks_ok History.graph0 ex_ops /\ all_ok History.graph0 ex_ops.
Proof.
  assert (H : all_ok History.graph0 ex_ops) by (simpl; unfold solver_ok; repeat split; vm_compute; reflexivity).
  split; [repeat constructor|]. split; [apply all_ok_asks_ok|]; exact H.
Qed.

(* the theorem applied to the example: the stale-looking third answer (binding 0 at node 2 after the
   re-binding) is the declarative truth on the graph at that point *)
Example ex_applied :
  exact_run History.graph0 ex_ops
    (History.hrun History.tbl_current sstate_empty ask (History.mkSt History.graph0 None) ex_ops).
Proof.
  destruct ex_hyps as [Hwf [Hok _]].
  apply (history_independent_solver History.tbl_current ex_ops History.graph0 eq_refl Hwf Hok).
Qed.

(* the model does capture staleness: under the invalidation table of the tree BEFORE the two C08 fixes
   (node.condition = b did not drop the solver) the live memo answers `true` from its stale entry where
   a fresh solver answers `false` - so the hypothesis tbl_safe of the theorem is not decorative *)
Definition ex_stale_ops : list History.hop :=
  [History.Api [History.MNewNode None]; History.Api [History.MNewVariable]; History.Api [History.MNewVariable];
   History.Api [History.MFindOrAddBinding 0 0; History.MAddOrigin 0 0; History.MAddSourceSet 0 0 []];
   History.Api [History.MFindOrAddBinding 1 0];
   History.Ask (0, [0]);
   History.Api [History.MSetCondition 0 (Some 1)];
   History.Ask (0, [0])].

Example ex_stale_before_fixes :
  HistoryProofs.ops_wf ex_stale_ops /\
  History.hrun History.tbl_before_fixes sstate_empty ask (History.mkSt History.graph0 None) ex_stale_ops
  = [None; None; None; None; None; Some true; None; Some true] /\
  History.href sstate_empty ask History.graph0 ex_stale_ops
  = [None; None; None; None; None; Some true; None; Some false] /\
  History.hrun History.tbl_current sstate_empty ask (History.mkSt History.graph0 None) ex_stale_ops
  = History.href sstate_empty ask History.graph0 ex_stale_ops.
Proof. split; [repeat constructor|]. vm_compute. repeat split; reflexivity. Qed.
