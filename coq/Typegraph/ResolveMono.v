(* Monotonicity of the resolution step and of the explanation relation in the goal set:
   a subset of an explained goal set is explained (the mathematical core of clause (iv), and what
   makes the CanHaveSolution short-circuit invisible on acyclic condition-free graphs). *)
From Coq Require Import List Arith Bool Lia Relations.
From PV Require Import Typegraph.Graph Typegraph.Solver Typegraph.Spec Typegraph.SetLemmas
  Typegraph.RfgProofs Typegraph.PathProofs.
Import ListNotations.

Section Mono.
Variable g : graph.
Variable pos : node.

(* closure property of an outcome: there is a choice of source sets under which every removed goal
   chose a valid source set all of whose members ended up removed or as new goals *)
Lemma resolves_choice : forall gtr seen rem new R N,
  resolves g pos gtr seen rem new (R, N) ->
  (forall b, In b seen -> In b rem \/ In b new) ->
  exists sg : bid -> list bid, forall b, In b R ->
    In b rem \/
    exists o, find_origin g b pos = Some o /\ In (sg b) (o_ssets o) /\
              forall c, In c (sg b) -> In c R \/ In c N.
Proof.
  intros gtr seen rem new R N H. remember (R, N) as r eqn:Er. revert R N Er.
  induction H as [seen rem new | goal gtr seen rem new r Hs H IH | goal gtr seen rem new r Hs Ho H IH
                  | goal gtr seen rem new r o ss Hs Ho Hss H IH]; intros R N Er Hseen.
  - injection Er as <- <-. exists (fun _ => []). intros b Hb. left. apply In_sof_list. exact Hb.
  - apply (IH R N Er Hseen).
  - apply (IH R N Er). intros c Hc. apply In_sins in Hc. destruct Hc as [->|Hc].
    + right. left. reflexivity.
    + destruct (Hseen c Hc); [left | right; right]; assumption.
  - assert (Hseen' : forall c, In c (sins goal seen) -> In c (goal :: rem) \/ In c new).
    { intros c Hc. apply In_sins in Hc. destruct Hc as [->|Hc].
      - left. left. reflexivity.
      - destruct (Hseen c Hc); [left; right | right]; assumption. }
    destruct (IH R N Er Hseen') as [sg0 Hsg0]. subst r.
    destruct (resolves_facts g pos _ _ _ _ _ _ H Hseen') as [A _].
    exists (fun b => if b =? goal then ss else sg0 b). intros b Hb.
    destruct (b =? goal) eqn:Eb.
    + apply Nat.eqb_eq in Eb. subst b. right. exists o. split; [exact Ho|]. split; [exact Hss|].
      intros c Hc. apply A. left. apply In_sunion. right. exact Hc.
    + destruct (Hsg0 b Hb) as [[E|Hr]|Hc]; [|left; exact Hr | right; exact Hc].
      subst b. rewrite Nat.eqb_refl in Eb. discriminate.
Qed.

Section SubRun.
Variable sg : bid -> list bid.
Variables R N : list bid.
Hypothesis HR : forall b, In b R ->
  exists o, find_origin g b pos = Some o /\ In (sg b) (o_ssets o) /\
            forall c, In c (sg b) -> In c R \/ In c N.
Hypothesis HN : forall b, In b N -> find_origin g b pos = None.

(* a run from this state whose outcome stays inside (R, N) *)
Definition sub_run (gtr seen rem new : list bid) : Prop :=
  exists R' N', resolves g pos gtr seen rem new (R', N') /\
                (forall b, In b R' -> In b R) /\ (forall b, In b N' -> In b N).

Lemma sub_run_step : forall gtr seen rem new gtr' seen' rem' new',
  (forall r, resolves g pos gtr' seen' rem' new' r -> resolves g pos gtr seen rem new r) ->
  sub_run gtr' seen' rem' new' -> sub_run gtr seen rem new.
Proof.
  intros gtr seen rem new gtr' seen' rem' new' Hstep [R' [N' [Hrun H12]]].
  exists R', N'. split; [apply Hstep; exact Hrun | exact H12].
Qed.

Lemma sub_run_done : forall seen rem new,
  (forall b, In b rem -> In b R) -> (forall b, In b new -> In b N) -> sub_run [] seen rem new.
Proof.
  intros seen rem new Hrem Hnew. exists (sof_list rem), (sof_list new). split; [constructor|].
  split; intros b Hb; rewrite In_sof_list in Hb; auto.
Qed.

Lemma sub_exists : forall k j gtr seen rem new,
  unseen R seen <= k -> length gtr <= j ->
  (forall b, In b gtr -> In b R \/ In b N) ->
  (forall b, In b rem -> In b R) -> (forall b, In b new -> In b N) ->
  sub_run gtr seen rem new.
Proof.
  induction k as [k IHk] using lt_wf_ind. induction j as [|j IHj]; intros gtr seen rem new Hk Hj Hg Hrem Hnew.
  - destruct gtr; [apply sub_run_done; assumption | simpl in Hj; lia].
  - destruct gtr as [|goal gtr]; [apply sub_run_done; assumption|].
    assert (Hg' : forall b, In b gtr -> In b R \/ In b N) by (intros b Hb; apply Hg; right; exact Hb).
    simpl in Hj.
    destruct (smem goal seen) eqn:Es.
    + apply (sub_run_step _ _ _ _ gtr seen rem new); [intros r; apply R_seen; exact Es|].
      apply IHj; [exact Hk | lia | assumption..].
    + destruct (find_origin g goal pos) as [o|] eqn:Eo.
      * (* removed: goal must be in R *)
        assert (HgR : In goal R).
        { destruct (Hg goal (or_introl eq_refl)) as [Hr|Hn]; [exact Hr|]. apply HN in Hn. congruence. }
        destruct (HR goal HgR) as [o' [Ho' [Hv Hcl]]]. rewrite Eo in Ho'. injection Ho' as <-.
        pose proof (unseen_lt R goal seen HgR Es) as Hlt.
        apply (sub_run_step _ _ _ _ (sunion gtr (sg goal)) (sins goal seen) (goal :: rem) new);
          [intros r; apply (R_rem g pos goal gtr seen rem new r o (sg goal) Es Eo Hv)|].
        apply (IHk (unseen R (sins goal seen)) ltac:(lia) (length (sunion gtr (sg goal))));
          [apply Nat.le_refl | apply Nat.le_refl | | | exact Hnew].
        -- intros b Hb. apply In_sunion in Hb. destruct Hb as [Hb|Hb]; [apply Hg'; exact Hb | apply Hcl; exact Hb].
        -- intros b [Hb|Hb]; [subst; exact HgR | apply Hrem; exact Hb].
      * (* new goal: goal must be in N *)
        assert (HgN : In goal N).
        { destruct (Hg goal (or_introl eq_refl)) as [Hr|Hn]; [|exact Hn].
          destruct (HR goal Hr) as [o' [Ho' _]]. congruence. }
        pose proof (unseen_le R goal seen) as Hle.
        apply (sub_run_step _ _ _ _ gtr (sins goal seen) rem (goal :: new)); [intros r; apply R_new; assumption|].
        apply IHj; [lia | lia | exact Hg' | exact Hrem|].
        intros b [Hb|Hb]; [subst; exact HgN | apply Hnew; exact Hb].
Qed.
End SubRun.

Theorem resolves_at_mono : forall S S' R N,
  (forall b, In b S' -> In b S) ->
  resolves_at g pos S (R, N) ->
  exists R' N', resolves_at g pos S' (R', N') /\
                (forall b, In b R' -> In b R) /\ (forall b, In b N' -> In b N).
Proof.
  intros S S' R N Hsub H.
  destruct (resolves_at_facts g pos _ _ _ H) as [FA [FB FC]].
  destruct (resolves_choice _ _ _ _ _ _ H ltac:(intros c [])) as [sg Hsg].
  assert (HR : forall b, In b R ->
             exists o, find_origin g b pos = Some o /\ In (sg b) (o_ssets o) /\
                       forall c, In c (sg b) -> In c R \/ In c N).
  { intros b Hb. destruct (Hsg b Hb) as [[]|Hc]. exact Hc. }
  set (gtr' := filter (at_pos g pos) S').
  set (new' := rev (filter (fun b => negb (smem b gtr')) S')).
  destruct (sub_exists sg R N HR FC (unseen R []) (length gtr') gtr' [] [] new'
              (Nat.le_refl _) (Nat.le_refl _)) as [R' [N' [Hrun [H1 H2]]]].
  - intros b Hb. subst gtr'. apply filter_In in Hb. apply FA, Hsub, Hb.
  - intros b [].
  - intros b Hb. subst new'. rewrite <- in_rev in Hb. apply filter_In in Hb. destruct Hb as [Hb1 Hb2].
    destruct (FA b (Hsub b Hb1)) as [Hr|Hn]; [|exact Hn]. exfalso.
    apply negb_true_iff in Hb2. apply smem_false in Hb2. apply Hb2. subst gtr'.
    apply filter_In. split; [exact Hb1|]. apply at_pos_origin. apply FB. exact Hr.
  - exists R', N'. split; [exact Hrun | split; assumption].
Qed.
End Mono.

Lemma goals_conflict_from_false : forall g goals vars,
  goals_conflict_from g vars goals = false <->
  (forall b, In b goals -> ~ In (var_of g b) vars) /\ NoDup (map (var_of g) goals).
Proof.
  intros g. induction goals as [|b t IH]; intros vars; simpl.
  - split; [intros _; split; [intros b [] | constructor] | reflexivity].
  - destruct (smem (var_of g b) vars) eqn:E.
    + split; [discriminate|]. intros [H _]. apply smem_In in E. exfalso. apply (H b); auto.
    + rewrite IH. apply smem_false in E. split.
      * intros [H1 H2]. split.
        -- intros c [Hc|Hc]; [subst; exact E|]. intros Hin. apply (H1 c Hc). right. exact Hin.
        -- constructor; [|exact H2]. intros Hin. apply in_map_iff in Hin. destruct Hin as [c [Hc1 Hc2]].
           apply (H1 c Hc2). left. symmetry. exact Hc1.
      * intros [H1 H2]. inversion H2; subst. split; [|assumption].
        intros c Hc [Hin|Hin].
        -- apply H3. apply in_map_iff. exists c. split; [symmetry; exact Hin | exact Hc].
        -- apply (H1 c); [right; exact Hc | exact Hin].
Qed.

Lemma NoDup_map_inj : forall {A B} (f : A -> B) l, NoDup (map f l) ->
  forall x y, In x l -> In y l -> f x = f y -> x = y.
Proof.
  intros A B f. induction l as [|a t IH]; intros H x y Hx Hy E; [destruct Hx|].
  simpl in H. inversion H; subst. destruct Hx as [Hx|Hx]; destruct Hy as [Hy|Hy]; subst; auto.
  - exfalso. apply H2. rewrite E. apply in_map. exact Hy.
  - exfalso. apply H2. rewrite <- E. apply in_map. exact Hx.
Qed.

Lemma NoDup_map_of_inj : forall {A B} (f : A -> B) l, NoDup l ->
  (forall x y, In x l -> In y l -> f x = f y -> x = y) -> NoDup (map f l).
Proof.
  intros A B f. induction l as [|a t IH]; intros Hnd Hinj; simpl; [constructor|].
  inversion Hnd; subst. constructor.
  - intros Hin. apply in_map_iff in Hin. destruct Hin as [c [Hc1 Hc2]].
    assert (c = a) by (apply Hinj; [right; exact Hc2 | left; reflexivity | exact Hc1]). subst. contradiction.
  - apply IH; [assumption|]. intros x y Hx Hy. apply Hinj; right; assumption.
Qed.

Lemma goals_conflict_mono : forall g R R',
  SS R' -> (forall b, In b R' -> In b R) ->
  goals_conflict g R = false -> goals_conflict g R' = false.
Proof.
  intros g R R' Hs Hsub H. unfold goals_conflict in *.
  apply goals_conflict_from_false in H. destruct H as [_ Hnd].
  apply goals_conflict_from_false. split; [intros b _ []|].
  apply NoDup_map_of_inj; [apply SS_NoDup; exact Hs|].
  intros x y Hx Hy. apply (NoDup_map_inj _ _ Hnd); apply Hsub; assumption.
Qed.

Lemma In_blocked_of : forall g new x,
  In x (blocked_of g new) <-> exists b, In b new /\ In x (var_nodes g (var_of g b)).
Proof.
  intros g new x. unfold blocked_of.
  assert (H : forall acc, In x (fold_left (fun acc b => sunion acc (var_nodes g (var_of g b))) new acc) <->
                          In x acc \/ exists b, In b new /\ In x (var_nodes g (var_of g b))).
  { induction new as [|b t IH]; intros acc; simpl.
    - split; [auto | intros [H|[b [[] _]]]; exact H].
    - rewrite IH, In_sunion. split.
      + intros [[H|H]|[c [Hc Hx]]]; [left; exact H | right; exists b; auto | right; exists c; auto].
      + intros [H|[c [[Hc|Hc] Hx]]]; [left; left; exact H | subst; left; right; exact Hx | right; exists c; auto]. }
  rewrite H. simpl. split; [intros [[]|H0]; exact H0 | intros H0; right; exact H0].
Qed.

Lemma resolves_at_nothing : forall g p N r, SS N -> filter (at_pos g p) N = [] ->
  (resolves_at g p N r <-> r = ([], N)).
Proof.
  intros g p N r Hss Ef. unfold resolves_at. rewrite Ef, resolves_nil. simpl.
  replace (sof_list (rev (filter (fun _ => true) N))) with N; [reflexivity|].
  symmetry. apply sof_list_sorted_id; [exact Hss|]. intros z. rewrite <- in_rev, filter_In.
  split; [intros [H0 _]; exact H0 | intros H0; split; [exact H0 | reflexivity]].
Qed.

(* an explanation may continue at any node reached by a clear path, whether or not a remaining
   goal originates there: if none does, the jump is fused with the next one *)
Lemma Expl_via : forall g n S removed new m,
  resolves_at g n S (removed, new) -> goals_conflict g removed = false -> SS new ->
  creach g (blocked_of g new) n m -> Expl g m new -> Expl g n S.
Proof.
  intros g n S removed new m Hr Hc Hss Hcr Hex.
  destruct (filter (at_pos g m) new) as [|b rest] eqn:Ef.
  - inversion Hex as [n0 S0 rm2 Hr2 Hc2 | n0 S0 rm2 nw2 b2 o2 Hr2 Hc2 Hb2 Ho2 Hcr2 Hex2]; subst;
      apply (resolves_at_nothing _ _ _ _ Hss Ef) in Hr2; inversion Hr2; subst.
    + eapply Expl_done; eauto.
    + eapply Expl_jump; [exact Hr | exact Hc | exact Hb2 | exact Ho2 | | exact Hex2].
      eapply creach_trans; eassumption.
  - assert (Hb : In b (filter (at_pos g m) new)) by (rewrite Ef; left; reflexivity).
    apply filter_In in Hb. destruct Hb as [Hb1 Hb2]. apply at_pos_origin in Hb2.
    destruct (origin_at _ _ _ Hb2) as [o [Ho Hw]]. subst m.
    eapply Expl_jump; eauto.
Qed.

Theorem Expl_mono : forall g n S,
  Expl g n S -> forall S', SS S' -> (forall b, In b S' -> In b S) -> Expl g n S'.
Proof.
  intros g n S H. induction H as [n S removed Hr Hc | n S removed new b o Hr Hc Hb Ho Hcr Hex IH];
    intros S' Hss Hsub;
    destruct (resolves_at_mono g n S S' _ _ Hsub Hr) as [R' [N' [Hr' [H1 H2]]]];
    destruct (resolves_at_sorted _ _ _ _ _ Hr') as [HssR HssN];
    assert (Hc' : goals_conflict g R' = false) by (eapply goals_conflict_mono; eauto).
  - assert (N' = []) by (destruct N' as [|x t]; [reflexivity | destruct (H2 x (or_introl eq_refl))]). subst N'.
    eapply Expl_done; eauto.
  - eapply Expl_via; [exact Hr' | exact Hc' | exact HssN | | apply IH; assumption].
    eapply creach_antitone; [|exact Hcr]. intros m Hm. apply smem_In. apply smem_In in Hm.
    apply In_blocked_of in Hm. destruct Hm as [c [Hc1 Hc2]].
    apply In_blocked_of. exists c. split; [apply H2; exact Hc1 | exact Hc2].
Qed.
