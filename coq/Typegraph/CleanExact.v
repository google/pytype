(* C08 on CYCLIC condition-free graphs: history independence for the queries whose search cannot run into a
   cycle.  WFS s ("clean"): there is no infinite FindSolution descent from the search state s (s is accessible
   for the successor relation Succ).  On a graph without node conditions, in ANY sequence of queries sharing one
   solver - whatever else was asked before or in between, clean or not - a query whose start states are clean is
   answered with the declarative truth Expl, hence with what a fresh solver answers.  On an acyclic graph every
   state is clean (Props/C08.v, every_query_clean_on_acyclic_graphs), so this contains the acyclic theorem.
   Invariant (InvW): every memo entry OF A CLEAN STATE is exact (or provisional for a stack state); entries of
   unclean states are unconstrained - they are never consulted by the search below a clean state, because Succ
   preserves cleanness and a clean state lies on no Succ-cycle. *)
From Coq Require Import List Arith Bool Lia Relations Wf_nat.
From PV Require Import Typegraph.Graph Typegraph.Solver Typegraph.Spec Typegraph.SetLemmas
  Typegraph.RfgProofs Typegraph.PathProofs Typegraph.SearchProofs Typegraph.SolverProofs
  Typegraph.ResolveMono Typegraph.ExactProofs.
Import ListNotations.

Section Clean.
Variable g : graph.
Hypothesis Hnc : no_conditions g = true.

Definition WFS (s : state) : Prop := Acc (fun a b => Succ g b a) s.

Lemma WFS_succ : forall s s', WFS s -> Succ g s s' -> WFS s'.
Proof. intros s s' H Hs. exact (Acc_inv H Hs). Qed.

Lemma WFS_no_cycle : forall s, WFS s -> ~ clos_trans _ (Succ g) s s.
Proof.
  intros s H. induction H as [s _ IH]. intros Hc.
  apply clos_trans_t1n in Hc. inversion Hc as [y Hy | y z Hy Hrest]; subst.
  - apply (IH s Hy). apply t_step. exact Hy.
  - apply (IH y Hy). eapply t_trans; [apply clos_t1n_trans; exact Hrest | apply t_step; exact Hy].
Qed.

Definition InvW (m : memo) (seen : list state) : Prop :=
  forall s b, WFS s -> memo_get s m = Some b -> (In s seen /\ b = true) \/ (b = true <-> ExplS g s).

Definition st_okW (st : sstate) : Prop := pc_exact g (s_paths st) /\ InvW (s_memo st) [].

Lemma st_okW_empty : st_okW sstate_empty.
Proof. split; [apply pc_exact_nil | intros s b _ H; discriminate]. Qed.

Lemma st_okW_MOk : forall st, st_okW st <-> MOk g (AnsE g WFS) st.
Proof.
  intros st. split; intros [Hpc Hi]; (split; [exact Hpc|]).
  - intros s b H. right. intros Hw. destruct (Hi s b Hw H) as [[[] _]|R]. exact R.
  - intros s b Hw H. right. destruct (Hi s b H) as [[[] _]|R]. exact (R Hw).
Qed.

(* a query is clean when its start state is and, for a vector of more than one binding, the start states of the
   CanHaveSolution pre-check are *)
Definition clean_query (attrs : list bid) (n : node) : Prop :=
  WFS (n, sof_list attrs) /\ forall a, In a attrs -> WFS (n, sof_list [a]).

Theorem solve_exact_wf : forall fuel st attrs n st' r,
  solve fuel g st attrs n = Some (st', r) -> st_okW st ->
  st_okW st' /\ (clean_query attrs n -> (r = true <-> Expl g n (sof_list attrs))).
Proof.
  intros fuel st attrs n st' r H Hok. apply st_okW_MOk in Hok.
  destruct (solve_exact_on g Hnc WFS WFS_succ WFS_no_cycle _ _ _ _ _ _ H Hok) as [A B].
  split; [apply st_okW_MOk; exact A | intros [Hw Hws]; exact (B Hw Hws)].
Qed.

Theorem run_queries_exact_wf : forall fuel qs st st' answers,
  run_queries fuel g st qs = Some (st', answers) -> st_okW st ->
  st_okW st' /\
  Forall2 (fun q a => clean_query (fst q) (snd q) -> (a = true <-> Expl g (snd q) (sof_list (fst q)))) qs answers.
Proof. intros fuel. apply (run_queries_inv g fuel st_okW). apply solve_exact_wf. Qed.
End Clean.

(* non-vacuity on a graph WITH a CFG cycle: nodes 0 <-> 1, binding 0 defined at node 0, binding 1 never defined;
   every search state is clean although the graph is cyclic *)
Definition loop2 : graph :=
  mkGraph [mkNode [1] None; mkNode [0] None] [mkBinding 0 [mkOrigin 0 [[]]]; mkBinding 1 []].

Lemma loop2_origins : forall b o, In o (origins loop2 b) -> b = 0 /\ o_where o = 0.
Proof.
  intros [|[|b]] o H; simpl in H.
  - destruct H as [H|[]]. subst o. split; reflexivity.
  - destruct H.
  - destruct b; destruct H.
Qed.

Lemma loop2_succ_at_0 : forall s t, Succ loop2 s t -> fst t = 0.
Proof.
  intros s t [removed [new [_ [_ [_ [[fin [path [Hf [Hc Hw]]]] _]]]]]].
  apply In_finish_nodes in Hf. destruct Hf as [b [o [_ [Ho Hwo]]]].
  destruct (loop2_origins _ _ Ho) as [_ E]. rewrite E in Hwo. subst fin.
  rewrite (nocond_path_nil loop2 eq_refl _ _ _ _ _ Hc) in Hw. exact Hw.
Qed.

Lemma loop2_no_succ_from_0 : forall goals t, ~ Succ loop2 (0, goals) t.
Proof.
  intros goals t [removed [new [Hr [_ [_ [[fin [path [Hf _]]] _]]]]]].
  apply In_finish_nodes in Hf. destruct Hf as [b [o [Hb [Ho _]]]].
  destruct (loop2_origins _ _ Ho) as [E _]. subst b.
  destruct (resolves_at_facts _ _ _ _ _ Hr) as [_ [_ C]]. specialize (C 0 Hb). simpl in C. discriminate.
Qed.

Lemma loop2_all_clean : forall s, WFS loop2 s.
Proof.
  intros s. constructor. intros t Hs. constructor. intros u Hu. exfalso.
  pose proof (loop2_succ_at_0 _ _ Hs) as E. destruct t as [p gl]. simpl in E. subst p.
  exact (loop2_no_succ_from_0 _ _ Hu).
Qed.
