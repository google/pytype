(* Fuel.  The fuels the model computes from the graph for the loops of the path finder (BFS,
   FindHighestReachableWeight, the articulation loop, the path reconstruction) always suffice:
   FindNodeBackwards never returns None, on any graph.  The recursion depth of the search and the steps
   of remove_finished_goals are parameters of the model: on an acyclic graph every large enough value
   makes Solve return (solve_total); elsewhere `... = Some ...` is a hypothesis of the theorems and is
   monitored by the correspondence check: a model answer `?` is a mismatch. *)
From Coq Require Import List Arith Bool Lia.
From PV Require Import Typegraph.Graph Typegraph.Solver Typegraph.Spec Typegraph.SetLemmas
  Typegraph.RfgProofs Typegraph.PathProofs Typegraph.SearchProofs Typegraph.SolverProofs.
Import ListNotations.

Section Fuel.
Variable g : graph.

(* edges into nodes of l that have not been expanded yet *)
Fixpoint unexp (l : list node) (seen : list node) : nat :=
  match l with
  | [] => 0
  | n :: t => (if smem n seen then 0 else length (incoming g n)) + unexp t seen
  end.

Lemma unexp_sins_notin : forall l nd seen, ~ In nd l -> unexp l (sins nd seen) = unexp l seen.
Proof.
  induction l as [|n t IH]; intros nd seen H; [reflexivity|]. simpl.
  rewrite smem_sins. destruct (n =? nd) eqn:E.
  - apply Nat.eqb_eq in E. subst. exfalso. apply H. left. reflexivity.
  - simpl. rewrite IH; [reflexivity|]. intros Hin. apply H. right. exact Hin.
Qed.

Lemma unexp_sins_in : forall l nd seen, NoDup l -> In nd l -> smem nd seen = false ->
  unexp l (sins nd seen) + length (incoming g nd) = unexp l seen.
Proof.
  induction l as [|n t IH]; intros nd seen Hnd Hin Hs; [destruct Hin|].
  inversion Hnd; subst. simpl. rewrite smem_sins. destruct Hin as [Hin|Hin].
  - subst n. rewrite Nat.eqb_refl, Hs. simpl. rewrite unexp_sins_notin by assumption. lia.
  - destruct (n =? nd) eqn:E.
    + apply Nat.eqb_eq in E. subst. contradiction.
    + simpl. specialize (IH nd seen H2 Hin Hs). lia.
Qed.

Definition all_nodes : list node := seq 0 (n_nodes g).

Lemma incoming_out_of_range : forall nd, ~ In nd all_nodes -> incoming g nd = [].
Proof.
  intros nd H. apply incoming_overflow. unfold all_nodes in H. rewrite in_seq in H. lia.
Qed.

(* marking a node pays for the edges into it, once *)
Lemma unexp_visit : forall nd seen, smem nd seen = false ->
  unexp all_nodes (sins nd seen) + length (incoming g nd) = unexp all_nodes seen.
Proof.
  intros nd seen Es. destruct (in_dec Nat.eq_dec nd all_nodes) as [Hin|Hout].
  - apply unexp_sins_in; [apply seq_NoDup | exact Hin | exact Es].
  - rewrite (incoming_out_of_range nd Hout), unexp_sins_notin by assumption. apply Nat.add_0_r.
Qed.

Lemma bfs_total : forall fuel finish blocked queue seen prev,
  length queue + unexp all_nodes seen < fuel ->
  bfs_loop fuel g finish blocked queue seen prev <> None.
Proof.
  induction fuel as [|f IH]; intros finish blocked queue seen prev H; [lia|].
  simpl. destruct queue as [|nd q]; [discriminate|].
  destruct (nd =? finish); [discriminate|].
  destruct (smem nd seen || smem nd blocked) eqn:E.
  - apply IH. simpl in H. lia.
  - apply orb_false_iff in E. destruct E as [Es _]. apply IH. rewrite app_length. simpl in H.
    pose proof (unexp_visit nd seen Es). lia.
Qed.

Lemma map_nth_seq : forall {A} (l : list A) d, map (fun i => nth i l d) (seq 0 (length l)) = l.
Proof.
  intros A. induction l as [|a t IH]; intros d; [reflexivity|].
  simpl. f_equal. rewrite <- seq_shift, map_map. apply IH.
Qed.

Lemma unexp_nil_edges : unexp all_nodes [] = edge_count g.
Proof.
  unfold all_nodes, edge_count, n_nodes, incoming, get_node.
  rewrite <- (map_nth_seq (g_nodes g) (mkNode [] None)) at 2.
  generalize (seq 0 (length (g_nodes g))). induction l as [|n t IH]; [reflexivity|].
  simpl. rewrite IH. reflexivity.
Qed.

Theorem bfs_fuel_sufficient : forall start finish blocked,
  bfs_loop (edge_count g + 2) g finish blocked [start] [] [(start, None)] <> None.
Proof.
  intros. apply bfs_total. rewrite unexp_nil_edges. simpl. lia.
Qed.
End Fuel.

(* FindHighestReachableWeight: its fuel (2 * edges + 2) suffices, and it returns a node of the
   shortest path at least as far along it as every path node it is started next to *)
Section Fhrw.
Variable g : graph.

Lemma unexp_le_nil : forall l seen, unexp g l seen <= unexp g l [].
Proof.
  induction l as [|n t IH]; intros seen; simpl; [lia|]. specialize (IH seen).
  destruct (smem n seen); simpl; lia.
Qed.

Lemma incoming_le_edges : forall n, length (incoming g n) <= edge_count g.
Proof.
  intros n. rewrite <- (unexp_nil_edges g), <- (unexp_visit g n (@nil node) eq_refl). apply Nat.le_add_l.
Qed.

Lemma fhrw_total : forall fuel start sp stack seen best,
  length stack + unexp g (all_nodes g) seen < fuel ->
  fhrw_loop fuel g start sp stack seen best <> None.
Proof.
  induction fuel as [|f IH]; intros start sp stack seen best H; [lia|].
  simpl. destruct stack as [|nd stk]; [discriminate|]. simpl in H.
  destruct (nd =? start); [apply IH; lia|].
  destruct (smem nd seen) eqn:Es; [apply IH; lia|].
  apply IH. rewrite app_length, rev_length. pose proof (unexp_visit g nd seen Es). lia.
Qed.

Lemma find_highest_total : forall start sp seen,
  find_highest_reachable_weight g start sp seen <> None.
Proof.
  intros. unfold find_highest_reachable_weight. apply fhrw_total. rewrite rev_length.
  pose proof (incoming_le_edges start). pose proof (unexp_le_nil (all_nodes g) seen).
  rewrite (unexp_nil_edges g) in H0. lia.
Qed.

(* best_weight / best_node after looking at nd *)
Definition upd_best (sp : list node) (nd : node) (best : option (nat * node)) : option (nat * node) :=
  match windex nd sp with
  | Some w => match best with
              | None => Some (w, nd)
              | Some (bw, _) => if bw <? w then Some (w, nd) else best
              end
  | None => best
  end.

Lemma upd_best_wt : forall sp nd best,
  (forall bw bn, best = Some (bw, bn) -> windex bn sp = Some bw) ->
  forall bw bn, upd_best sp nd best = Some (bw, bn) -> windex bn sp = Some bw.
Proof.
  intros sp nd best Hb bw bn E. unfold upd_best in E. destruct (windex nd sp) as [w0|] eqn:Ew; [|exact (Hb _ _ E)].
  destruct best as [[bw0 bn0]|]; [destruct (bw0 <? w0); [|exact (Hb _ _ E)]|]; inversion E; subst; exact Ew.
Qed.

Lemma upd_best_ge : forall sp nd best bw bn, best = Some (bw, bn) ->
  exists bw' bn', upd_best sp nd best = Some (bw', bn') /\ bw <= bw'.
Proof.
  intros sp nd best bw bn ->. unfold upd_best. destruct (windex nd sp) as [w0|]; [|exists bw, bn; auto].
  destruct (bw <? w0) eqn:El; [|exists bw, bn; auto].
  apply Nat.ltb_lt in El. exists w0, nd. split; [reflexivity | apply Nat.lt_le_incl; exact El].
Qed.

Lemma upd_best_nd : forall sp nd best w, windex nd sp = Some w ->
  exists bw' bn', upd_best sp nd best = Some (bw', bn') /\ w <= bw'.
Proof.
  intros sp nd best w Hw. unfold upd_best. rewrite Hw. destruct best as [[bw0 bn0]|]; [|exists w, nd; auto].
  destruct (bw0 <? w) eqn:El; [exists w, nd; auto|].
  apply Nat.ltb_ge in El. exists bw0, bn0. auto.
Qed.

(* the weight of the result dominates the current best and the weight of every node on the stack *)
Lemma fhrw_best : forall fuel start sp stack seen best res seen',
  fhrw_loop fuel g start sp stack seen best = Some (res, seen') ->
  (forall bw bn, best = Some (bw, bn) -> windex bn sp = Some bw) ->
  forall w, (exists bn, best = Some (w, bn)) \/ (exists x, In x stack /\ x <> start /\ windex x sp = Some w) ->
  exists nx w', res = Some nx /\ windex nx sp = Some w' /\ w <= w'.
Proof.
  induction fuel as [|f IH]; intros start sp stack seen best res seen' H Hb w Hw; [discriminate|].
  simpl in H. destruct stack as [|nd stk].
  - injection H as <- <-. destruct Hw as [[bn E]|[x [[] _]]]. subst best.
    exists bn, w. split; [reflexivity|]. split; [apply Hb; reflexivity | apply Nat.le_refl].
  - destruct (nd =? start) eqn:Est.
    + apply (IH _ _ _ _ _ _ _ H Hb). destruct Hw as [Hw|[x [[Hx|Hx] [Hne Hwx]]]]; [left; exact Hw | | right; exists x; auto].
      subst x. apply Nat.eqb_eq in Est. contradiction.
    + change (match windex nd sp with
              | Some w => match best with
                          | None => Some (w, nd)
                          | Some (bw, _) => if bw <? w then Some (w, nd) else best
                          end
              | None => best
              end) with (upd_best sp nd best) in H.
      (* every weight to dominate is carried over, possibly increased, to the next iteration *)
      assert (Hnext : forall stack', (forall x, In x stk -> In x stack') ->
                exists w1, w <= w1 /\
                  ((exists bn, upd_best sp nd best = Some (w1, bn)) \/
                   (exists x, In x stack' /\ x <> start /\ windex x sp = Some w1))).
      { intros stack' Hsub. destruct Hw as [[bn E]|[x [[Hx|Hx] [Hne Hwx]]]].
        - destruct (upd_best_ge sp nd best w bn E) as [w1 [bn1 [E1 Hle]]]. exists w1. split; [exact Hle | left; exists bn1; exact E1].
        - subst x. destruct (upd_best_nd sp nd best w Hwx) as [w1 [bn1 [E1 Hle]]]. exists w1. split; [exact Hle | left; exists bn1; exact E1].
        - exists w. split; [apply Nat.le_refl | right; exists x; auto]. }
      assert (Hrun : exists stack' seen2, fhrw_loop f g start sp stack' seen2 (upd_best sp nd best) = Some (res, seen') /\
                                          forall x, In x stk -> In x stack').
      { destruct (smem nd seen).
        - exists stk, seen. split; [exact H | auto].
        - exists (rev (incoming g nd) ++ stk), (sins nd seen). split; [exact H|].
          intros x Hx. apply in_app_iff. right. exact Hx. }
      destruct Hrun as [stack' [seen2 [Hrun Hsub]]]. destruct (Hnext stack' Hsub) as [w1 [Hle Hw1]].
      destruct (IH _ _ _ _ _ _ _ Hrun (upd_best_wt sp nd best Hb) w1 Hw1) as [nx [w' [E1 [E2 E3]]]].
      exists nx, w'. split; [exact E1|]. split; [exact E2 | eapply Nat.le_trans; eassumption].
Qed.
End Fhrw.

(* the articulation loop of FindNodeBackwards terminates (and never meets the nullptr) when the
   shortest path is a simple backward path from start to finish *)
Section Artic.
Variable g : graph.

Definition consecutive (l : list node) : Prop :=
  forall i, S i < length l -> In (nth (S i) l 0) (incoming g (nth i l 0)).

Definition good_path (sp : list node) (start finish : node) : Prop :=
  NoDup sp /\ sp <> [] /\ nth 0 sp 0 = start /\ last sp 0 = finish /\ consecutive sp.

Lemma windex_nth : forall sp x w, windex x sp = Some w -> nth w sp 0 = x /\ w < length sp.
Proof.
  induction sp as [|h t IH]; intros x w H; [discriminate|]. simpl in H.
  destruct (h =? x) eqn:E.
  - inversion H; subst. apply Nat.eqb_eq in E. simpl. split; [exact E | lia].
  - destruct (windex x t) as [w'|] eqn:Ew; [|discriminate]. simpl in H. inversion H; subst.
    destruct (IH _ _ Ew) as [A B]. simpl. split; [exact A | lia].
Qed.

Lemma windex_NoDup : forall sp j, NoDup sp -> j < length sp -> windex (nth j sp 0) sp = Some j.
Proof.
  induction sp as [|h t IH]; intros j Hnd Hj; [simpl in Hj; lia|].
  inversion Hnd; subst. destruct j as [|j]; simpl.
  - rewrite Nat.eqb_refl. reflexivity.
  - simpl in Hj. destruct (h =? nth j t 0) eqn:E.
    + apply Nat.eqb_eq in E. exfalso. apply H1. rewrite E. apply nth_In. lia.
    + rewrite IH by (assumption || lia). reflexivity.
Qed.

Lemma last_nth : forall (l : list node) d, l <> [] -> last l d = nth (length l - 1) l d.
Proof.
  induction l as [|a t IH]; intros d H; [congruence|]. destruct t as [|b t'].
  - reflexivity.
  - change (last (a :: b :: t') d) with (last (b :: t') d). rewrite IH by discriminate.
    simpl. rewrite Nat.sub_0_r. reflexivity.
Qed.

Lemma NoDup_nth_neq : forall (l : list node) i j, NoDup l -> i < length l -> j < length l -> i <> j ->
  nth i l 0 <> nth j l 0.
Proof.
  intros l i j Hnd Hi Hj Hne E. apply Hne. eapply (proj1 (NoDup_nth l 0)); eauto.
Qed.

Lemma artic_total : forall sp start finish, good_path sp start finish ->
  forall fuel i blk path, i < length sp -> length sp - i < fuel ->
  artic_loop fuel g finish sp (nth i sp 0) blk path <> None.
Proof.
  intros sp start finish [Hnd [Hne [Hs [Hl Hc]]]].
  induction fuel as [|f IH]; intros i blk path Hi Hf; [lia|].
  simpl. destruct (nth i sp 0 =? finish) eqn:E; [discriminate|]. apply Nat.eqb_neq in E.
  assert (Hsi : S i < length sp).
  { destruct (Nat.eq_dec (S i) (length sp)) as [Heq|Hneq]; [|lia].
    exfalso. apply E. rewrite <- Hl, (last_nth sp 0 Hne). f_equal. lia. }
  destruct (find_highest_reachable_weight g (nth i sp 0) sp blk) as [[res blk']|] eqn:Ef;
    [|exfalso; eapply find_highest_total; exact Ef].
  unfold find_highest_reachable_weight in Ef.
  destruct (fhrw_best g _ _ _ _ _ _ _ _ Ef ltac:(intros; discriminate) (S i)) as [nx [w [E1 [E2 E3]]]].
  { right. exists (nth (S i) sp 0). split; [rewrite <- in_rev; apply Hc; exact Hsi|].
    split; [apply NoDup_nth_neq; auto; lia | apply windex_NoDup; assumption]. }
  subst res. destruct (windex_nth _ _ _ E2) as [Hnx Hw]. rewrite <- Hnx. apply IH; lia.
Qed.
End Artic.

(* the `previous` map of FindShortestPathToNode: following it from any discovered node yields a
   simple backward path from start; so the path reconstruction terminates within its fuel *)
Section Prev.
Variable g : graph.
Variable start : node.

Inductive chain (prev : prevmap) : node -> list node -> Prop :=
| ch_root : forall n, plookup n prev = Some None -> chain prev n [n]
| ch_step : forall n m l, plookup n prev = Some (Some m) -> chain prev m l -> chain prev n (l ++ [n]).

Definition is_key (prev : prevmap) (x : node) : Prop := plookup x prev <> None.

Definition chain_ok (prev : prevmap) (n : node) (l : list node) : Prop :=
  chain prev n l /\ NoDup l /\ (forall x, In x l -> is_key prev x) /\ nth 0 l 0 = start /\ consecutive g l.

Definition prev_ok (prev : prevmap) : Prop :=
  forall n v, plookup n prev = Some v -> exists l, chain_ok prev n l.

Lemma plookup_app : forall n p q,
  plookup n (p ++ q) = match plookup n p with Some v => Some v | None => plookup n q end.
Proof.
  induction p as [|[k v] t IH]; intros q; simpl; [reflexivity|].
  destruct (k =? n); [reflexivity | apply IH].
Qed.

Lemma chain_last : forall prev n l, chain prev n l -> l <> [] /\ last l 0 = n.
Proof.
  intros prev n l H. induction H.
  - split; [discriminate | reflexivity].
  - split; [destruct l; discriminate | apply last_last].
Qed.

Lemma chain_ext : forall prev x v n l, plookup x prev = None ->
  chain prev n l -> chain (prev ++ [(x, v)]) n l.
Proof.
  intros prev x v n l Hx H. induction H.
  - apply ch_root. rewrite plookup_app, H. reflexivity.
  - eapply ch_step; [|exact IHchain]. rewrite plookup_app, H. reflexivity.
Qed.

Lemma consecutive_snoc : forall l x, l <> [] -> consecutive g l -> In x (incoming g (last l 0)) ->
  consecutive g (l ++ [x]).
Proof.
  intros l x Hne Hc Hx i Hi. rewrite app_length in Hi. simpl in Hi.
  destruct (Nat.eq_dec (S i) (length l)) as [E|E].
  - rewrite app_nth2 by lia. replace (S i - length l) with 0 by lia. simpl.
    rewrite app_nth1 by lia. rewrite (last_nth l 0 Hne) in Hx. replace (length l - 1) with i in Hx by lia. exact Hx.
  - rewrite !app_nth1 by lia. apply Hc. lia.
Qed.

Lemma NoDup_app_snoc : forall (l : list node) x, NoDup l -> ~ In x l -> NoDup (l ++ [x]).
Proof.
  induction l as [|a t IH]; intros x Hnd Hx; simpl.
  - constructor; [intros [] | constructor].
  - inversion Hnd; subst. constructor.
    + intros Hin. apply in_app_iff in Hin. destruct Hin as [Hin|[Hin|[]]]; [contradiction|].
      subst. apply Hx. left. reflexivity.
    + apply IH; [assumption|]. intros Hin. apply Hx. right. exact Hin.
Qed.

Lemma pemplace_ok : forall prev x nd,
  prev_ok prev -> is_key prev nd -> In x (incoming g nd) ->
  prev_ok (pemplace x (Some nd) prev) /\
  (forall y, is_key prev y -> is_key (pemplace x (Some nd) prev) y) /\
  is_key (pemplace x (Some nd) prev) x.
Proof.
  intros prev x nd Hok Hnd Hx. unfold pemplace. destruct (plookup x prev) as [v|] eqn:Ex.
  - split; [exact Hok|]. split; [auto|]. unfold is_key. congruence.
  - assert (Hkeys : forall y, is_key prev y -> is_key (prev ++ [(x, Some nd)]) y).
    { intros y Hy. unfold is_key in *. rewrite plookup_app. destruct (plookup y prev); congruence. }
    split; [|split; [exact Hkeys|]].
    + intros n v Hn. rewrite plookup_app in Hn. destruct (plookup n prev) as [v0|] eqn:En.
      * destruct (Hok n v0 En) as [l [A [B [C [D E]]]]]. exists l. split; [apply chain_ext; assumption|].
        split; [exact B|]. split; [intros y Hy; apply Hkeys; apply C; exact Hy|]. split; assumption.
      * simpl in Hn. destruct (x =? n) eqn:Exn; [|discriminate]. apply Nat.eqb_eq in Exn. subst n.
        unfold is_key in Hnd. destruct (plookup nd prev) as [vd|] eqn:End; [|congruence].
        destruct (Hok nd vd End) as [l [A [B [C [D E]]]]].
        destruct (chain_last _ _ _ A) as [Hne Hlast].
        exists (l ++ [x]). split.
        -- eapply ch_step; [|apply chain_ext; eassumption]. rewrite plookup_app, Ex. simpl. rewrite Nat.eqb_refl. reflexivity.
        -- split.
           ++ apply NoDup_app_snoc; [exact B|]. intros Hin. apply C in Hin. unfold is_key in Hin. congruence.
           ++ split.
              ** intros y Hy. apply in_app_iff in Hy. destruct Hy as [Hy|[Hy|[]]].
                 --- apply Hkeys. apply C. exact Hy.
                 --- subst y. unfold is_key. rewrite plookup_app, Ex. simpl. rewrite Nat.eqb_refl. discriminate.
              ** split.
                 --- rewrite app_nth1; [exact D|]. destruct l; [congruence | simpl; lia].
                 --- apply consecutive_snoc; [exact Hne | exact E | rewrite Hlast; exact Hx].
    + unfold is_key. rewrite plookup_app, Ex. simpl. rewrite Nat.eqb_refl. discriminate.
Qed.
End Prev.

Section BfsPath.
Variable g : graph.
Variable start : node.

Lemma emplace_all_ok : forall inc nd prev,
  prev_ok g start prev -> is_key prev nd -> (forall x, In x inc -> In x (incoming g nd)) ->
  let prev' := fold_left (fun p n => pemplace n (Some nd) p) inc prev in
  prev_ok g start prev' /\ (forall y, is_key prev y -> is_key prev' y) /\ (forall x, In x inc -> is_key prev' x).
Proof.
  induction inc as [|x t IH]; intros nd prev Hok Hnd Hinc; simpl.
  - split; [exact Hok|]. split; [auto | intros x []].
  - destruct (pemplace_ok g start prev x nd Hok Hnd (Hinc x (or_introl eq_refl))) as [A [B C]].
    destruct (IH nd (pemplace x (Some nd) prev) A (B _ Hnd) (fun y Hy => Hinc y (or_intror Hy))) as [A' [B' C']].
    split; [exact A'|]. split; [intros y Hy; apply B'; apply B; exact Hy|].
    intros y [Hy|Hy]; [subst; apply B'; exact C | apply C'; exact Hy].
Qed.

Lemma bfs_prev_ok : forall fuel finish blocked queue seen prev b prev',
  bfs_loop fuel g finish blocked queue seen prev = Some (b, prev') ->
  prev_ok g start prev -> (forall x, In x queue -> is_key prev x) ->
  prev_ok g start prev' /\ (b = true -> is_key prev' finish).
Proof.
  induction fuel as [|f IH]; intros finish blocked queue seen prev b prev' H Hok Hq; [discriminate|].
  simpl in H. destruct queue as [|nd q].
  - injection H as <- <-. split; [exact Hok | discriminate].
  - destruct (nd =? finish) eqn:E.
    + injection H as <- <-. apply Nat.eqb_eq in E. subst. split; [exact Hok|]. intros _. apply Hq. left. reflexivity.
    + destruct (smem nd seen || smem nd blocked).
      * eapply IH; [exact H | exact Hok|]. intros x Hx. apply Hq. right. exact Hx.
      * destruct (emplace_all_ok (incoming g nd) nd prev Hok (Hq nd (or_introl eq_refl)) (fun x Hx => Hx))
          as [A [B C]].
        eapply IH; [exact H | exact A|]. intros x Hx. apply in_app_iff in Hx. destruct Hx as [Hx|Hx].
        -- apply B. apply Hq. right. exact Hx.
        -- apply C. exact Hx.
Qed.

Lemma build_chain : forall prev n l, chain prev n l ->
  forall fuel acc, length l < fuel -> build_path fuel prev (Some n) acc = Some (l ++ acc).
Proof.
  intros prev n l H. induction H; intros fuel acc Hf.
  - destruct fuel as [|[|f]]; simpl in Hf; try lia. simpl. rewrite H. reflexivity.
  - rewrite app_length in Hf. simpl in Hf. destruct fuel as [|f]; [lia|]. simpl. rewrite H.
    rewrite IHchain by lia. rewrite <- app_assoc. reflexivity.
Qed.

Lemma keys_length : forall prev (l : list node), NoDup l -> (forall x, In x l -> is_key prev x) ->
  length l <= length prev.
Proof.
  intros prev l Hnd Hk. rewrite <- (map_length fst prev). apply NoDup_incl_length; [exact Hnd|].
  intros x Hx. specialize (Hk x Hx). unfold is_key in Hk. clear - Hk.
  induction prev as [|[k v] t IH]; simpl in *; [congruence|].
  destruct (k =? x) eqn:E; [left; apply Nat.eqb_eq; exact E | right; apply IH; exact Hk].
Qed.

Lemma prev_ok_init : prev_ok g start [(start, None)].
Proof.
  intros n v H. simpl in H. destruct (start =? n) eqn:E; [|discriminate]. apply Nat.eqb_eq in E. subst n.
  exists [start]. split; [apply ch_root; simpl; rewrite Nat.eqb_refl; reflexivity|].
  split; [constructor; [intros [] | constructor]|].
  split; [intros x [Hx|[]]; subst; unfold is_key; simpl; rewrite Nat.eqb_refl; discriminate|].
  split; [reflexivity | intros i Hi; simpl in Hi; lia].
Qed.

Theorem find_shortest_path_total : forall finish blocked,
  exists sp, find_shortest_path g start finish blocked = Some sp /\
             (sp = [] \/ good_path g sp start finish).
Proof.
  intros finish blocked. unfold find_shortest_path.
  destruct (bfs_loop (edge_count g + 2) g finish blocked [start] [] [(start, None)]) as [[b prev]|] eqn:E;
    [|exfalso; eapply bfs_fuel_sufficient; exact E].
  destruct (bfs_prev_ok _ _ _ _ _ _ _ _ E prev_ok_init) as [Hok Hfin].
  { intros x [Hx|[]]. subst. unfold is_key. simpl. rewrite Nat.eqb_refl. discriminate. }
  destruct b.
  - specialize (Hfin eq_refl). unfold is_key in Hfin.
    destruct (plookup finish prev) as [v|] eqn:Ev; [|congruence].
    destruct (Hok finish v Ev) as [l [A [B [C [D F]]]]].
    exists l. rewrite (build_chain _ _ _ A) by (pose proof (keys_length prev l B C); lia).
    rewrite app_nil_r. split; [reflexivity|]. right.
    destruct (chain_last _ _ _ A) as [Hne Hl]. repeat split; assumption.
  - exists []. split; [reflexivity | left; reflexivity].
Qed.

Theorem fnb_compute_total : forall finish blocked,
  find_node_backwards_compute g start finish blocked <> None.
Proof.
  intros finish blocked. unfold find_node_backwards_compute.
  destruct (find_shortest_path_total finish blocked) as [sp [E Hsp]]. rewrite E.
  destruct sp as [|x t]; [discriminate|]. destruct Hsp as [Hsp|Hsp]; [discriminate|].
  destruct (artic_loop (length (x :: t) + 1) g finish (x :: t) start (sunion blocked (x :: t)) []) eqn:Ea;
    [discriminate|].
  exfalso. pose proof Hsp as Hgp. destruct Hsp as [A [B [C D]]]. simpl in C. subst x.
  apply (artic_total g (start :: t) start finish Hgp (length (start :: t) + 1) 0 (sunion blocked (start :: t)) []);
    [simpl; lia | simpl; lia |]. exact Ea.
Qed.
End BfsPath.

(* on an acyclic graph the whole search terminates: some fuel makes Solve return *)

Section SearchTotal.
Variable g : graph.

Lemma find_node_backwards_total : forall pc s f b, find_node_backwards g pc s f b <> None.
Proof.
  intros. unfold find_node_backwards. destruct (pc_get (s, f, b) pc); [discriminate|].
  destruct (find_node_backwards_compute g s f b) eqn:E; [discriminate|].
  exfalso. eapply fnb_compute_total. exact E.
Qed.

Lemma collect_positions_total : forall pos blocked finishes pc acc,
  collect_positions g pc pos blocked finishes acc <> None.
Proof.
  intros pos blocked. induction finishes as [|fin rest IH]; intros pc acc; simpl; [discriminate|].
  destruct (find_node_backwards g pc pos fin blocked) as [[[ex path] pc']|] eqn:E;
    [|exfalso; eapply find_node_backwards_total; exact E].
  destruct ex; apply IH.
Qed.

Section WithRecT.
Variable rec : sstate -> state -> list state -> option (sstate * bool).
Variable seen : list state.
Variable pos : node.
Variable results : list rresult.

Definition SuccP (s' : state) : Prop :=
  (exists removed, In (removed, snd s') results) /\ position_of g pos (snd s') (fst s').

Hypothesis Hrec : forall st0 s', pc_exact g (s_paths st0) -> SuccP s' ->
  exists st1 r, rec st0 s' seen = Some (st1, r) /\ pc_exact g (s_paths st1).

Lemma try_positions_total : forall removed new npos, In (removed, new) results ->
  forall positions st, (forall p, In p positions -> position_of g pos new p) -> pc_exact g (s_paths st) ->
  exists st' r, try_positions rec st new seen npos positions = Some (st', r) /\ pc_exact g (s_paths st').
Proof.
  intros removed new npos Hin. induction positions as [|p rest IH]; intros st Hpos Hpc; simpl.
  - exists st, false. split; [reflexivity | exact Hpc].
  - assert (Hrest : forall q, In q rest -> position_of g pos new q) by (intros q Hq; apply Hpos; right; exact Hq).
    destruct (seen_mem (p, new) seen && (1 <? npos)); [apply IH; assumption|].
    destruct (Hrec st (p, new) Hpc) as [st1 [r [E Hpc1]]].
    { split; [exists removed; exact Hin | apply Hpos; left; reflexivity]. }
    rewrite E. destruct r; [exists st1, true; split; [reflexivity | exact Hpc1] | apply IH; assumption].
Qed.

Lemma try_results_total : forall rs st, (forall x, In x rs -> In x results) -> pc_exact g (s_paths st) ->
  exists st' r, try_results rec g st pos seen rs = Some (st', r) /\ pc_exact g (s_paths st').
Proof.
  induction rs as [|[removed new] rest IH]; intros st Hsub Hpc; simpl.
  - exists st, false. split; [reflexivity | exact Hpc].
  - assert (Hrest : forall x, In x rest -> In x results) by (intros x Hx; apply Hsub; right; exact Hx).
    destruct (goals_conflict g removed); [apply IH; assumption|].
    destruct new as [|b0 nt]; [exists st, true; split; [reflexivity | exact Hpc]|].
    destruct (collect_positions g (s_paths st) pos (blocked_of g (b0 :: nt)) (finish_nodes g (b0 :: nt)) [])
      as [[positions pc']|] eqn:Ecp; [|exfalso; eapply collect_positions_total; exact Ecp].
    destruct (collect_positions_spec g _ _ _ _ _ _ _ Hpc Ecp) as [Hpc' [Hposs _]].
    destruct (try_positions_total removed (b0 :: nt) (length positions) (Hsub _ (or_introl eq_refl))
                positions (mkS (s_memo st) pc')) as [st1 [r [E Hpc1]]].
    + intros p Hp. apply In_cand. apply Hposs in Hp. destruct Hp as [[]|Hp]. exact Hp.
    + exact Hpc'.
    + rewrite E. destruct r; [exists st1, true; split; [reflexivity | exact Hpc1] | apply IH; assumption].
Qed.
End WithRecT.

Variable rank : node -> nat.
Hypothesis Hrank : ranked g rank.

Definition TotalS (s : state) (F : nat) : Prop :=
  forall fuel0 fuel st seen, F <= fuel0 -> F <= fuel -> pc_exact g (s_paths st) ->
  exists st' r, recall_or_find fuel0 fuel g st s seen = Some (st', r) /\ pc_exact g (s_paths st').

Lemma TotalS_mono : forall s F F', F <= F' -> TotalS s F -> TotalS s F'.
Proof. intros s F F' Hle H fuel0 fuel st seen H0 H1. apply H; eapply Nat.le_trans; eassumption. Qed.

Lemma max_total : forall l : list state, (forall s', In s' l -> exists F, TotalS s' F) ->
  exists F, forall s', In s' l -> TotalS s' F.
Proof.
  induction l as [|a t IH]; intros H; [exists 0; intros s' []|].
  destruct (H a (or_introl eq_refl)) as [Fa Ha].
  destruct (IH (fun s' Hs => H s' (or_intror Hs))) as [Ft Ht].
  exists (Fa + Ft). intros s' [Hs|Hs].
  - subst. eapply TotalS_mono; [|exact Ha]. lia.
  - eapply TotalS_mono; [|apply Ht; exact Hs]. lia.
Qed.

Lemma recall_unfold : forall fuel0 f st s seen,
  recall_or_find fuel0 (S f) g st s seen =
  match memo_get s (s_memo st) with
  | Some b => Some (st, b)
  | None =>
    match find_solution (recall_or_find fuel0 f g) fuel0 g (mkS (memo_set s true (s_memo st)) (s_paths st)) s
                        (if seen_mem s seen then seen else s :: seen) with
    | None => None
    | Some (st2, result) => Some (mkS (memo_set s result (s_memo st2)) (s_paths st2), result)
    end
  end.
Proof. reflexivity. Qed.

Lemma state_total : forall k s, rank (fst s) < k -> SS (snd s) -> exists F, TotalS s F.
Proof.
  induction k as [|k IHk]; intros [pos sg] Hk Hss; [lia|]. simpl in *.
  destruct (rfg_terminates g pos (goals_of g (pos, sg)) (SS_goals_of g (pos, sg) Hss)) as [nr [results Hr]].
  pose proof (rfg_correct g pos _ _ _ (SS_goals_of g (pos, sg) Hss) (Hr 0)) as Hres.
  set (allsucc := flat_map (fun rn : rresult => map (fun p => (p, snd rn)) (cand_of g pos (blocked_of g (snd rn)) (finish_nodes g (snd rn)))) results).
  destruct (max_total allsucc) as [Fs HFs].
  { intros [p new] Hin. subst allsucc. apply in_flat_map in Hin. destruct Hin as [[removed new'] [Hin Hp]].
    simpl in Hp. apply in_map_iff in Hp. destruct Hp as [p' [Hp1 Hp2]]. inversion Hp1; subst p' new'. clear Hp1.
    apply Hres in Hin.
    destruct (resolves_at_facts g pos _ _ _ Hin) as [_ [_ C]].
    assert (Hpo : position_of g pos new p) by (apply In_cand; exact Hp2).
    apply IHk.
    - simpl. destruct (breach_rank g rank pos p Hrank (position_reach g pos new p Hpo)) as [E|L]; [|lia].
      exfalso. eapply position_neq; eauto.
    - simpl. apply resolves_at_sorted in Hin. apply Hin. }
  exists (S (nr + Fs)). intros fuel0 fuel st seen H0 H1 Hpc.
  destruct fuel as [|f]; [lia|]. rewrite recall_unfold.
  destruct (memo_get (pos, sg) (s_memo st)) as [b|]; [exists st, b; split; [reflexivity | exact Hpc]|].
  match goal with |- context [find_solution _ _ _ _ _ ?sn] => remember sn as seen1 eqn:Hs1; clear Hs1 end.
  assert (Er : remove_finished_goals fuel0 g pos (goals_of g (pos, sg)) = Some results)
    by (replace fuel0 with (nr + (fuel0 - nr)) by lia; apply Hr).
  rewrite find_solution_unfold. cbn [fst]. rewrite Er.
  destruct (try_results_total (recall_or_find fuel0 f g) seen1 pos results) with
      (rs := results) (st := mkS (memo_set (pos, sg) true (s_memo st)) (s_paths st)) as [st2 [r [E Hpc2]]].
  - intros st0 [p new] Hpc0 [[removed Hin] Hpo]. simpl in *.
    apply (HFs (p, new)); [|lia|lia|exact Hpc0].
    subst allsucc. apply in_flat_map. exists (removed, new). split; [exact Hin|].
    simpl. apply in_map_iff. exists p. split; [reflexivity | apply In_cand; exact Hpo].
  - auto.
  - exact Hpc.
  - rewrite E. exists (mkS (memo_set (pos, sg) r (s_memo st2)) (s_paths st2)), r. split; [reflexivity | exact Hpc2].
Qed.

Lemma can_have_solution_total : forall attrs n, exists F, forall fuel st, F <= fuel -> pc_exact g (s_paths st) ->
  exists st' r, can_have_solution fuel g st attrs n = Some (st', r) /\ pc_exact g (s_paths st').
Proof.
  induction attrs as [|a rest IH]; intros n.
  - exists 0. intros fuel st _ Hpc. exists st, true. split; [reflexivity | exact Hpc].
  - destruct (IH n) as [Fr Hrest].
    destruct (state_total (S (rank n)) (n, sof_list [a]) ltac:(simpl; lia) (SS_sof_list [a])) as [Fa Ha].
    exists (Fa + Fr). intros fuel st Hf Hpc. simpl. unfold solve_single.
    destruct (Ha fuel fuel st [] ltac:(lia) ltac:(lia) Hpc) as [st1 [r [E Hpc1]]]. rewrite E.
    destruct r; [apply Hrest; [lia | exact Hpc1] | exists st1, false; split; [reflexivity | exact Hpc1]].
Qed.

Theorem solve_total : forall attrs n, exists F, forall fuel st, F <= fuel -> pc_exact g (s_paths st) ->
  exists st' r, solve fuel g st attrs n = Some (st', r) /\ pc_exact g (s_paths st').
Proof.
  intros attrs n.
  destruct (can_have_solution_total attrs n) as [Fc Hc].
  destruct (state_total (S (rank n)) (n, sof_list attrs) ltac:(simpl; lia) (SS_sof_list attrs)) as [Fm Hm].
  exists (Fc + Fm). intros fuel st Hf Hpc. unfold solve.
  destruct (1 <? length attrs).
  - destruct (Hc fuel st ltac:(lia) Hpc) as [st1 [r [E Hpc1]]]. rewrite E.
    destruct r; [apply Hm; [lia | lia | exact Hpc1] | exists st1, false; split; [reflexivity | exact Hpc1]].
  - apply Hm; [lia | lia | exact Hpc].
Qed.
End SearchTotal.

Theorem run_queries_total_lemma : forall g qs, acyclic g ->
  exists F, forall fuel, F <= fuel -> run_queries fuel g sstate_empty qs <> None.
Proof.
  intros g qs [rank Hrank].
  assert (Hgen : forall qs, exists F, forall fuel st, F <= fuel -> pc_exact g (s_paths st) ->
                   run_queries fuel g st qs <> None).
  { induction qs0 as [|[attrs n] rest IH].
    - exists 0. intros. discriminate.
    - destruct IH as [Fr Hr]. destruct (solve_total g rank Hrank attrs n) as [Fs Hs].
      exists (Fs + Fr). intros fuel st Hf Hpc. simpl.
      destruct (Hs fuel st ltac:(lia) Hpc) as [st1 [r [E Hpc1]]]. rewrite E.
      specialize (Hr fuel st1 ltac:(lia) Hpc1).
      destruct (run_queries fuel g st1 rest) as [[st2 ans]|]; [discriminate | congruence]. }
  destruct (Hgen qs) as [F HF]. exists F. intros fuel Hf. apply HF; [exact Hf | apply pc_exact_nil].
Qed.
