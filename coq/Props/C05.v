(* C05 — every stub pytype emits is a valid stub that pytype reads back unchanged.
   Holds the stated theorems of the property, each followed by Print Assumptions, with non-vacuity examples and the
   witnesses of the refuted statements; the lemmas are in coq/Print/.
   Model: coq/Print/Model.v (token level; print_ty/print_sig mirror pytype/pytd/printer.py, parse_ty/parse_sig
   mirror pytype/pyi/{parser,definitions,function}.py + pytd/pep484.py + pytd/codegen/pytdgen.py for exactly the
   expression/def-line subset the printer emits; norm/norm_sig = the form the round trip lands on).
   [wf env t] is the emitted dialect; [stable]/[eq_stable]/[stable_sig] are the extra conditions under which the
   unchanged code really is a fixed point / structurally equal; every condition that is not implied by [wf] has
   a _refuted theorem with a witness that is replayed on the real printer and parser (harness/props/c05.py). *)
From Coq Require Import List NArith ZArith Bool.
From PV Require Import Print.Model Print.Proofs.
Import ListNotations.

(* Reading back the printed form of any dialect type (any depth/width, any printer context) succeeds and
   yields exactly norm t. *)
Theorem parse_print : forall env c t, wf env t = true ->
  parse_ty env (print_ty c t) = Some (norm c t).
Proof. exact parse_print_lemma. Qed.
Print Assumptions parse_print.

(* Full statement  forall t, wf t -> print (norm t) = print t  is REFUTED on the unchanged code: *)
(* Literal[True, 1]: the reader's Literal(True) and Literal(1) are the same dict key (True == 1), one is dropped *)
Definition w_bool_int : ty := Union [Lit (LBool true true); Lit (LInt 1)].
(* Callable[[nothing], int]: pytd_callable turns the argument list [nothing] into no arguments *)
Definition w_callable_nothing : ty := CallableT (NT id_Callable) [NothingT; Named (NB id_int)].

Theorem print_norm_refuted : exists env c t,
  wf env t = true /\ print_ty c (norm c t) <> print_ty c t.
Proof. exists [], (mkCtx false None), w_bool_int. split; [reflexivity | vm_compute; discriminate]. Qed.
Print Assumptions print_norm_refuted.

Theorem print_norm_refuted_callable : exists env c t,
  wf env t = true /\ print_ty c (norm c t) <> print_ty c t.
Proof. exists [], (mkCtx false None), w_callable_nothing. split; [reflexivity | vm_compute; discriminate]. Qed.
Print Assumptions print_norm_refuted_callable.

Theorem print_norm_partial : forall env c t, wf env t = true -> stable c t = true ->
  print_ty c (norm c t) = print_ty c t.
Proof. exact print_norm_lemma. Qed.
Print Assumptions print_norm_partial.

(* parse-then-print reproduces the text exactly *)
Theorem print_fixed_point_partial : forall env c t, wf env t = true -> stable c t = true ->
  exists t', parse_ty env (print_ty c t) = Some t' /\ print_ty c t' = print_ty c t.
Proof.
  intros env c t Hw Hs. exists (norm c t). split; [apply parse_print_lemma; exact Hw|].
  apply (print_norm_lemma env); assumption.
Qed.
Print Assumptions print_fixed_point_partial.

Theorem print_fixed_point_refuted : exists env c t t',
  wf env t = true /\ parse_ty env (print_ty c t) = Some t' /\ print_ty c t' <> print_ty c t.
Proof.
  exists [], (mkCtx false None), w_bool_int, (Lit (LBool false true)).
  split; [reflexivity | split; [reflexivity | vm_compute; discriminate]].
Qed.
Print Assumptions print_fixed_point_refuted.

(* The re-read type equals the printed one under pytd's structural equality (set equality on unions), where
   "builtins.X" and "X" are the same name (unqual).  Full statement REFUTED: *)
(* a parameter typed Union[int, float] is printed as float (pep484 compat rule, in_parameter only) *)
Definition w_compat : ty := Union [Named (NP id_int); Named (NP id_float)].
(* a one-member union is printed as its member *)
Definition w_singleton : ty := Union [Named (NP id_int)].

Theorem reparse_equal_refuted : exists env c t,
  wf env t = true /\ stable c t = true /\ ty_eq (norm c t) (unqual t) = false.
Proof. exists [], (mkCtx true None), w_compat. repeat split; reflexivity. Qed.
Print Assumptions reparse_equal_refuted.

Theorem reparse_equal_refuted_singleton : exists env c t,
  wf env t = true /\ stable c t = true /\ ty_eq (norm c t) (unqual t) = false.
Proof. exists [], (mkCtx false None), w_singleton. repeat split; reflexivity. Qed.
Print Assumptions reparse_equal_refuted_singleton.

Theorem reparse_equal_partial : forall env c t,
  wf env t = true -> stable c t = true -> eq_stable c t = true ->
  ty_eq (norm c t) (unqual t) = true.
Proof. exact reparse_equal_lemma. Qed.
Print Assumptions reparse_equal_partial.

(* for a type already in the reader's naming convention (what parse_string itself produces) *)
Corollary reparse_equal_parsed_partial : forall env c t,
  wf env t = true -> stable c t = true -> eq_stable c t = true -> unqual t = t ->
  ty_eq (norm c t) t = true.
Proof. intros env c t H1 H2 H3 E. rewrite <- E at 2. apply (reparse_equal_lemma env); assumption. Qed.
Print Assumptions reparse_equal_parsed_partial.

(* VerifyVisitor (the clauses about types: GenericType / CallableType have parameters) accepts what is read back *)
Theorem verify_ok : forall env c t, wf env t = true -> verify_ty (norm c t) = true.
Proof. exact verify_ok_lemma. Qed.
Print Assumptions verify_ok.

(* non-vacuity: a type using every construct meets wf, stable and eq_stable, and the round trip is visible *)
Definition ex_env : penv := [70%N].
Definition ex_ty : ty :=
  Generic (NB 64) [                                             (* builtins.list[...] *)
    Union [Named (NB id_NoneType);                              (* None first: printed as Optional[...] *)
           Lit (LInt 1); Named (NP id_int); Lit (LStr 90); Lit (LBool true false);
           Generic (NP id_tuple) [TParam 70];                   (* tuple[T, ...] *)
           TupleT (NB id_tuple) [];                             (* tuple[()] *)
           CallableT (NT id_Callable) [Named (NB id_str); Named (NP id_NoneType)];
           Generic (NT id_Callable) [AnyT; Annot (Named (NP 65)) [91%N]]]].
Example ex_wf : wf ex_env ex_ty = true /\ stable (mkCtx false None) ex_ty = true /\
                eq_stable (mkCtx false None) ex_ty = true.
Proof. vm_compute. repeat split; reflexivity. Qed.
Example ex_roundtrip :
  parse_ty ex_env (print_ty (mkCtx false None) ex_ty) = Some (norm (mkCtx false None) ex_ty) /\
  norm (mkCtx false None) ex_ty <> ex_ty /\
  print_ty (mkCtx false None) ex_ty =
    [TName 64; TLBr; TName id_Optional; TLBr; TName id_Union; TLBr;
       TName id_int; TComma;
       TName id_tuple; TLBr; TName 70; TComma; TEllipsis; TRBr; TComma;
       TName id_tuple; TLBr; TLPar; TRPar; TRBr; TComma;
       TName id_Callable; TLBr; TLBr; TName id_str; TRBr; TComma; TNone; TRBr; TComma;
       TName id_Callable; TLBr; TEllipsis; TComma; TName id_Annotated; TLBr; TName 65; TComma; TStr 91; TRBr; TRBr; TComma;
       TName id_Literal; TLBr; TInt 1; TComma; TStr 90; TComma; TBool false; TRBr;
     TRBr; TRBr; TRBr].
Proof. vm_compute. repeat split; try reflexivity. discriminate. Qed.
(* the parameter-only compat rule is exercised and stable: Union[int, float, None] in a parameter prints Optional[float] *)
Example ex_param :
  print_ty (mkCtx true None) (Union [Named (NB id_int); Named (NB id_float); Named (NB id_NoneType)]) =
    [TName id_Optional; TLBr; TName id_float; TRBr] /\
  stable (mkCtx true None) (Union [Named (NB id_int); Named (NB id_float); Named (NB id_NoneType)]) = true.
Proof. vm_compute. split; reflexivity. Qed.

(* [simple_sig]: no type-mutation body lines (explicit `x = T`, or the implicit one the reader adds for a generic
   `self`).  Signatures with mutations are part of the model and of the correspondence check, but the theorems
   below are stated for simple signatures (hence _partial).  The printing and the equality one hold without that
   hypothesis (Print/Proofs.v: print_sig_norm_general, sig_reparse_equal_general); for reading see parse_fsig_print. *)

Theorem parse_sig_print_partial : forall env scope c s,
  wf_sig env scope c s = true -> simple_sig c s = true ->
  parse_sig env scope (print_sig c s) = Some (norm_sig c s).
Proof. exact parse_sig_print_lemma. Qed.
Print Assumptions parse_sig_print_partial.

Theorem print_sig_norm_partial : forall env scope c s,
  wf_sig env scope c s = true -> simple_sig c s = true -> stable_sig c s = true ->
  print_sig c (norm_sig c s) = print_sig c s.
Proof. exact print_sig_norm_lemma. Qed.
Print Assumptions print_sig_norm_partial.

Theorem sig_fixed_point_partial : forall env scope c s,
  wf_sig env scope c s = true -> simple_sig c s = true -> stable_sig c s = true ->
  exists s', parse_sig env scope (print_sig c s) = Some s' /\ print_sig c s' = print_sig c s.
Proof.
  intros env scope c s H1 H2 H3. exists (norm_sig c s). split.
  - apply parse_sig_print_lemma; assumption.
  - apply (print_sig_norm_lemma env scope); assumption.
Qed.
Print Assumptions sig_fixed_point_partial.

(* def f(self: list[int]) -> None: ...  — NameAndSig.from_function adds the mutation `self = list[int]`
   because the first parameter is called self and its annotation is a GenericType; the re-printed stub has a
   body line that the emitted one did not have. *)
Definition w_self_generic : sig :=
  mkSig [mkParam id_self (Generic (NB 64) [Named (NB id_int)]) Regular false None] None None (Named (NB id_NoneType)).

Theorem sig_fixed_point_refuted : exists env scope c s s',
  wf_sig env scope c s = true /\ parse_sig env scope (print_sig c s) = Some s' /\
  print_sig c s' <> print_sig c s.
Proof.
  exists [], [], (mkCtx false None), w_self_generic,
    (mkSig [mkParam id_self (Generic (NP 64) [Named (NP id_int)]) Regular false (Some (Generic (NP 64) [Named (NP id_int)]))]
           None None (Named (NP id_NoneType))).
  split; [reflexivity | split; [reflexivity | vm_compute; discriminate]].
Qed.
Print Assumptions sig_fixed_point_refuted.

Theorem sig_reparse_equal_partial : forall env scope c s,
  wf_sig env scope c s = true -> simple_sig c s = true -> stable_sig c s = true -> eq_stable_sig c s = true ->
  sig_eq (norm_sig c s) (unqual_sig s) = true.
Proof. exact sig_reparse_equal_lemma. Qed.
Print Assumptions sig_reparse_equal_partial.

(* inside class K, `def m(self: K) -> nothing` is printed `def m(self) -> Never: ...` and re-read with
   self: Any and the return type typing.Never (both re-derived only later, by the loader) *)
Definition w_method : sig :=
  mkSig [mkParam id_self (Named (NP 70)) Regular false None] None None NothingT.
Theorem sig_reparse_equal_refuted : exists env scope c s,
  wf_sig env scope c s = true /\ simple_sig c s = true /\ stable_sig c s = true /\
  sig_eq (norm_sig c s) (unqual_sig s) = false.
Proof. exists [], [], (mkCtx false (Some 70%N)), w_method. repeat split; reflexivity. Qed.
Print Assumptions sig_reparse_equal_refuted.

Theorem sig_verify_ok : forall env scope c s,
  wf_sig env scope c s = true -> simple_sig c s = true -> verify_sig (norm_sig c s) = true.
Proof. exact sig_verify_ok_lemma. Qed.
Print Assumptions sig_verify_ok.

(* non-vacuity: def f(self, a: int, b: Optional[str] = ..., /, c=..., *args: T, k: list[int], **kw) -> tuple[T, ...] in class K *)
Definition ex_sig : sig :=
  mkSig [mkParam id_self AnyT PosOnly false None;
         mkParam 80 (Named (NB id_int)) PosOnly false None;
         mkParam 81 (Union [Named (NB id_str); Named (NB id_NoneType)]) PosOnly true None;
         mkParam 82 AnyT Regular true None;
         mkParam 83 (Generic (NB 64) [Named (NB id_int)]) KwOnly false None]
        (Some (84%N, Generic (NB id_tuple) [TParam 70]))
        (Some (85%N, Named (NB id_dict)))
        (Generic (NB id_tuple) [TParam 70]).
Example ex_sig_ok :
  wf_sig ex_env [] (mkCtx false (Some 71%N)) ex_sig = true /\ simple_sig (mkCtx false (Some 71%N)) ex_sig = true /\
  stable_sig (mkCtx false (Some 71%N)) ex_sig = true /\ eq_stable_sig (mkCtx false (Some 71%N)) ex_sig = true.
Proof. vm_compute. repeat split; reflexivity. Qed.
Example ex_sig_print :
  print_sig (mkCtx false (Some 71%N)) ex_sig =
    [TLPar; TName id_self; TComma; TName 80; TColon; TName id_int; TComma;
     TName 81; TColon; TName id_Optional; TLBr; TName id_str; TRBr; TEq; TEllipsis; TComma; TSlash; TComma;
     TName 82; TEq; TEllipsis; TComma; TStar; TName 84; TColon; TName 70; TComma;
     TName 83; TColon; TName 64; TLBr; TName id_int; TRBr; TComma; TDStar; TName 85; TRPar; TArrow;
     TName id_tuple; TLBr; TName 70; TComma; TEllipsis; TRBr; TColon; TEllipsis] /\
  parse_sig ex_env [] (print_sig (mkCtx false (Some 71%N)) ex_sig) = Some (norm_sig (mkCtx false (Some 71%N)) ex_sig).
Proof. vm_compute. split; reflexivity. Qed.
(* a mutated parameter (outside simple_sig) still round-trips in the model: def f(x: list[int]) -> None: x = list[Union[int, str]] *)
Example ex_mutation :
  let s := mkSig [mkParam 80 (Generic (NP 64) [Named (NP id_int)]) Regular false
                          (Some (Generic (NP 64) [Union [Named (NP id_int); Named (NP id_str)]]))] None None (Named (NP id_NoneType)) in
  parse_sig [] [] (print_sig (mkCtx false None) s) = Some s.
Proof. vm_compute. reflexivity. Qed.

(* Model: coq/Print/Decl.v (statement trees of token lines; print_const/print_alias/print_tparam/print_fsig/print_func/
   print_cls/print_unit mirror PrintVisitor's declaration methods; parse_simple/parse_fsig/merge_funcs/parse_class/
   parse_unit mirror pyi/parser.py's definition handling, function.py, codegen/function.py, classdef.py and
   definitions.py's build_class/build_type_decl_unit/finalize_ast for what the printer emits).  Proofs:
   coq/Print/DeclProofs.v. *)
From PV Require Import Print.Decl Print.DeclProofs.

(* one-line declarations *)
Theorem parse_const_print : forall env c in_class k, wf_const env k = true ->
  parse_simple env in_class (print_const c k) = Some (DConst (norm_const c k)).
Proof. exact parse_simple_const. Qed.
Print Assumptions parse_const_print.

Theorem parse_alias_print_partial : forall env a, wf_alias env a = true ->
  parse_simple env false (print_alias plain0 a) = Some (DAlias (norm_alias plain0 a)).
Proof. exact parse_simple_alias. Qed.
Print Assumptions parse_alias_print_partial.

Theorem parse_tparam_print : forall env t, wf_tparam env t = true ->
  parse_simple env false (print_tparam plain0 t) = Some (DTvar (norm_tparam plain0 t)).
Proof. exact parse_simple_tparam. Qed.
Print Assumptions parse_tparam_print.

(* signatures WITH mutated-parameter lines, raise lines and the implicit mutation of a generic self: any wf signature,
   any number of body lines (the statement of parse_sig_print_partial without simple_sig, for the reader of Decl.v) *)
Theorem parse_fsig_print : forall env scope c nm f, wf_fsig env scope c f = true ->
  parse_fsig env nm (print_fsig c f) = Some (norm_fsig c nm f).
Proof. exact parse_fsig_print_lemma. Qed.
Print Assumptions parse_fsig_print.

(* overloads: func_defs gives, for functions with distinct names, one definition per signature as the reader holds it
   after the decorator lines (DeclProofs.rdef_of); merging them gives exactly the canonical functions.  Nothing is
   printed or parsed in this statement; parse_class_print and parse_unit_print use it on what was read *)
Theorem merge_funcs_print : forall fixed c fs,
  (forall f, In f fs -> decos_ok fixed c f = true /\ fn_sigs f <> []) -> NoDup (map fn_name fs) ->
  merge_funcs (func_defs fixed c fs) = Some (map (norm_func fixed c) fs).
Proof. exact DeclProofs.merge_funcs_print. Qed.
Print Assumptions merge_funcs_print.

(* a class of any size and nesting depth, read inside any suite *)
Theorem parse_class_print : forall fixed cl env scope nested ic X l, wf_cls fixed env scope nested cl = true ->
  suite_loop (parse_line env scope ic) (parse_class env scope) [] X = Some l ->
  suite_loop (parse_line env scope ic) (parse_class env scope) [] (print_cls fixed cl ++ X) = Some (DCls (norm_cls fixed cl) :: l).
Proof. exact class_reads_all. Qed.
Print Assumptions parse_class_print.

(* whole units: sections, blank lines, TypeVars in sorted order, aliases, constants, classes, functions *)
Theorem parse_unit_print : forall fixed u, wf_unit fixed u = true -> parse_unit (print_unit fixed u) = Some (norm_unit fixed u).
Proof. exact parse_unit_print_lemma. Qed.
Print Assumptions parse_unit_print.

(* The fixed-point statement  forall u, wf_unit u -> print_unit (norm_unit u) = print_unit u  is REFUTED: *)
(* a property whose getter returns a TypeVar stays a method; the reader keeps the `property` decorator AND sets
   kind = PROPERTY, so the re-printed stub has two @property lines, which the reader itself rejects *)
Definition w_prop_sig (ret : ty) : fsig := mkF (mkSig [mkParam id_self AnyT Regular false None] None None ret) [].
Definition w_unit_prop2 : unit_ :=
  mkU [mkTP 100 101 [] None] [] []
      [mkCls 110 [] [] [] None [] [] [mkFn 120 [w_prop_sig (TParam 100)] KProp false false false []]] [].
Theorem unit_second_generation_before_fix_refuted : exists u u',
  wf_unit false u = true /\ parse_unit (print_unit false u) = Some u' /\ parse_unit (print_unit false u') = None.
Proof. exists w_unit_prop2, (norm_unit false w_unit_prop2). vm_compute. repeat split; reflexivity. Qed.
Print Assumptions unit_second_generation_before_fix_refuted.
(* with fixes/C05-property-decorator-printed-twice.patch the same unit is a fixed point from the first re-read on *)
Example w_unit_prop2_fixed :
  wf_unit true w_unit_prop2 = true /\ stable_unit true w_unit_prop2 = true /\
  print_unit true (norm_unit true w_unit_prop2) = print_unit true w_unit_prop2 /\
  parse_unit (print_unit true (norm_unit true w_unit_prop2)) = Some (norm_unit true w_unit_prop2).
Proof. vm_compute. repeat split; reflexivity. Qed.

(* a property whose getter is not parametrised is re-read as a constant  x: Annotated[int, 'property'] *)
Definition w_unit_propconst : unit_ :=
  mkU [] [] [] [mkCls 110 [] [] [] None [] [] [mkFn 120 [w_prop_sig (Named (NP id_int))] KProp false false false []]] [].
Theorem unit_fixed_point_refuted : forall fixed, exists u u',
  wf_unit fixed u = true /\ parse_unit (print_unit fixed u) = Some u' /\ print_unit fixed u' <> print_unit fixed u.
Proof. intros fixed. exists w_unit_propconst, (norm_unit fixed w_unit_propconst). destruct fixed; vm_compute; repeat split; try reflexivity; discriminate. Qed.
Print Assumptions unit_fixed_point_refuted.

(* why wf_alias excludes a target printed as `None`: the alias  x = None  is re-read as the constant  x: None *)
Definition w_unit_alias_none : unit_ := mkU [] [(130%N, Named (NB id_NoneType))] [] [] [].
Theorem alias_none_refuted : forall fixed, exists u u',
  parse_unit (print_unit fixed u) = Some u' /\ u_aliases u <> [] /\ u_aliases u' = [] /\ print_unit fixed u' <> print_unit fixed u.
Proof. intros fixed. exists w_unit_alias_none, (norm_unit fixed w_unit_alias_none). destruct fixed; vm_compute; repeat split; try reflexivity; discriminate. Qed.
Print Assumptions alias_none_refuted.

(* one-line declarations are fixed points when their type is *)
Theorem print_const_norm_partial : forall env c k, wf_const env k = true -> stable (ctx_plain c) (k_ty k) = true ->
  print_const c (norm_const c k) = print_const c k.
Proof. exact print_const_norm. Qed.
Print Assumptions print_const_norm_partial.

(* non-vacuity: a unit with every kind of declaration meets wf_unit, and its printed form is visible *)
Definition ex_fsig : fsig :=
  mkF (mkSig [mkParam id_self AnyT Regular false None;
              mkParam 140 (Generic (NP 64) [TParam 100]) Regular false (Some (Generic (NP 64) [Named (NP id_int)]))]
             None None (Named (NP id_NoneType)))
      [Named (NP 150)].
Definition ex_unit : unit_ :=
  mkU [mkTP 102 103 [] (Some (Named (NP id_int))); mkTP 100 101 [Named (NP id_int); Named (NP id_str)] None]
      [(131%N, Generic (NP 64) [Named (NP id_int)])]
      [mkK 132 (Union [Named (NP id_int); Named (NP id_NoneType)]) true]
      [mkCls 110 [Generic (NT 49) [TParam 100]] [(id_metaclass, Named (NP 111))] [id_final; id_final] (Some [160%N])
             [mkCls 112 [Named (NP id_object)] [] [] None [] [] []]
             [mkK 133 (Named (NP id_int)) false]
             [mkFn 121 [ex_fsig; ex_fsig] KMethod true false false [];
              mkFn id_new [mkF (mkSig [mkParam id_cls AnyT Regular false None] None None AnyT) []] KStatic false false false []]]
      [mkFn 122 [mkF (mkSig [] None None (Named (NP id_int))) []] KMethod false false true [170%N]].
Example ex_unit_wf : forall fixed, wf_unit fixed ex_unit = true.
Proof. intros []; vm_compute; reflexivity. Qed.
Example ex_unit_roundtrip : forall fixed, parse_unit (print_unit fixed ex_unit) = Some (norm_unit fixed ex_unit) /\ norm_unit fixed ex_unit <> ex_unit.
Proof. intros []; vm_compute; (split; [reflexivity|discriminate]). Qed.
Example ex_unit_print : print_unit false ex_unit =
  [SLine [TName 100; TEq; TName id_TypeVar; TLPar; TStr 101; TComma; TName id_int; TComma; TName id_str; TRPar];
   SLine [TName 102; TEq; TName id_TypeVar; TLPar; TStr 103; TComma; TName id_bound; TEq; TName id_int; TRPar];
   SBlank;
   SLine [TName 131; TEq; TName 64; TLBr; TName id_int; TRBr];
   SBlank;
   SLine [TName 132; TColon; TName id_Optional; TLBr; TName id_int; TRBr; TEq; TEllipsis];
   SBlank;
   SLine [TName id_at; TName id_final];
   SClass [TName id_class; TName 110; TLPar; TName 49; TLBr; TName 100; TRBr; TComma; TName id_metaclass; TEq; TName 111; TRPar; TColon]
     [SLine [TName id_slots; TEq; TLBr; TStr 160; TRBr];
      SLine [TName id_class; TName 112; TColon; TEllipsis];
      SLine [TName 133; TColon; TName id_int];
      SLine [TName id_at; TName id_abstractmethod]; SLine [TName id_at; TName id_overload];
      SLine [TName id_def; TName 121; TLPar; TName id_self; TComma; TName 140; TColon; TName 64; TLBr; TName 100; TRBr; TRPar; TArrow; TNone; TColon;
             TNewline; TName 140; TEq; TName 64; TLBr; TName id_int; TRBr; TNewline; TName id_raise; TName 150; TLPar; TRPar];
      SLine [TName id_at; TName id_abstractmethod]; SLine [TName id_at; TName id_overload];
      SLine [TName id_def; TName 121; TLPar; TName id_self; TComma; TName 140; TColon; TName 64; TLBr; TName 100; TRBr; TRPar; TArrow; TNone; TColon;
             TNewline; TName 140; TEq; TName 64; TLBr; TName id_int; TRBr; TNewline; TName id_raise; TName 150; TLPar; TRPar];
      SLine [TName id_def; TName id_new; TLPar; TName id_cls; TRPar; TArrow; TName id_Any; TColon; TEllipsis]];
   SBlank;
   SLine [TName id_at; TName 170]; SLine [TName id_at; TName id_final];
   SLine [TName id_def; TName 122; TLPar; TRPar; TArrow; TName id_int; TColon; TEllipsis]].
Proof. vm_compute. reflexivity. Qed.

From PV Require Import Print.DeclFix.

(* signatures with body lines are re-printed as they were (print_sig_norm_partial with body lines and without simple_sig) *)
Theorem print_fsig_norm_partial : forall env scope c nm f,
  wf_fsig env scope c f = true -> stable_fsig c nm f = true ->
  print_fsig c (norm_fsig c nm f) = print_fsig c f.
Proof. exact print_fsig_norm_lemma. Qed.
Print Assumptions print_fsig_norm_partial.

(* [stable_unit]: every type stable (as in print_norm_partial), signatures stable_sig, explicit decorators free of the
   names the reader interprets and without repetitions, kinds consistent with __new__/__init_subclass__, no base
   `nothing`, no property method that the reader turns into a constant, and a property that stays a method only on
   the fixed tree (and not @final).  The alias `x = None` is excluded by wf_unit already. *)
Theorem print_unit_fixed_point_partial : forall fixed u, wf_unit fixed u = true -> stable_unit fixed u = true ->
  print_unit fixed (norm_unit fixed u) = print_unit fixed u.
Proof. exact print_unit_fixed_point_lemma. Qed.
Print Assumptions print_unit_fixed_point_partial.

(* the second generation is read back as the first; with fixed = true this covers properties that stay methods
   (w_unit_prop2_fixed), which unit_second_generation_before_fix_refuted shows to fail on the unpatched printer *)
Theorem unit_second_generation : forall fixed u, wf_unit fixed u = true -> stable_unit fixed u = true ->
  parse_unit (print_unit fixed (norm_unit fixed u)) = Some (norm_unit fixed u).
Proof.
  intros fixed u Hwf Hst. rewrite (print_unit_fixed_point_lemma fixed u Hwf Hst). apply parse_unit_print_lemma. exact Hwf.
Qed.
Print Assumptions unit_second_generation.

(* [eq_stable_unit]: additionally every type eq_stable, signatures eq_stable_sig, no property methods, class
   decorators without repetitions, every class lists a base and is not called object, TypeVars in the printer's order *)
Theorem unit_reparse_equal_partial : forall fixed u,
  wf_unit fixed u = true -> stable_unit fixed u = true -> eq_stable_unit u = true ->
  unit_eq (norm_unit fixed u) (unqual_unit u) = true.
Proof. exact unit_reparse_equal_lemma. Qed.
Print Assumptions unit_reparse_equal_partial.

(* the structural-equality statement without eq_stable_unit is REFUTED: a class without bases is re-read with the base
   object *)
Definition w_unit_nobase : unit_ := mkU [] [] [] [mkCls 110 [] [] [] None [] [] []] [].
Theorem unit_reparse_equal_refuted : forall fixed, exists u,
  wf_unit fixed u = true /\ stable_unit fixed u = true /\ unit_eq (norm_unit fixed u) (unqual_unit u) = false.
Proof. intros fixed. exists w_unit_nobase. destruct fixed; vm_compute; repeat split; reflexivity. Qed.
Print Assumptions unit_reparse_equal_refuted.

(* non-vacuity: TypeVars with constraints and bound, alias, constant, a generic class with metaclass, decorator,
   slots, nested class, class constant, an overloaded abstract method with a mutated parameter and a raise line,
   __new__, and a final decorated module function meet all three hypotheses, in both variants *)
Definition ex_unit_stable : unit_ :=
  mkU [mkTP 100 101 [Named (NP id_int); Named (NP id_str)] None; mkTP 102 103 [] (Some (Named (NP id_int)))]
      [(131%N, Generic (NP 64) [Named (NP id_int)])]
      [mkK 132 (Union [Named (NP id_int); Named (NP id_NoneType)]) true]
      [mkCls 110 [Generic (NT 49) [TParam 100]] [(id_metaclass, Named (NP 111))] [id_final] (Some [160%N])
             [mkCls 112 [Named (NP 64)] [] [] None [] [] []]
             [mkK 133 (Named (NP id_int)) false]
             [mkFn 121 [ex_fsig; ex_fsig] KMethod true false false [];
              mkFn id_new [mkF (mkSig [mkParam id_cls AnyT Regular false None] None None AnyT) []] KStatic false false false []]]
      [mkFn 122 [mkF (mkSig [] None None (Named (NP id_int))) []] KMethod false false true [170%N]].
Example ex_unit_stable_ok : forall fixed,
  wf_unit fixed ex_unit_stable = true /\ stable_unit fixed ex_unit_stable = true /\ eq_stable_unit ex_unit_stable = true /\
  print_unit fixed (norm_unit fixed ex_unit_stable) = print_unit fixed ex_unit_stable /\
  unit_eq (norm_unit fixed ex_unit_stable) (unqual_unit ex_unit_stable) = true.
Proof. intros []; vm_compute; repeat split; reflexivity. Qed.

(* the import block (coq/Print/Imports.v): printer.py's _Imports bookkeeping over the declaration model *)
From PV Require Import Print.Imports Print.ImportsProofs.

(* every member of typing that occurs in a printed type is counted (> 0) by the events the visitor records for that
   type, and no count is driven below zero; for every type of the dialect, at any depth, whatever the use sites of
   type variables record (members other than Tuple / Dict, which _FormatContainerContents decrements unconditionally) *)
Theorem imports_complete_ty : forall bev env, (forall i k, (0 <= net k (bev i))%Z) ->
  forall t c, wf env t = true -> forall k, tk k ->
  (0 <= net k (tev_ty bev c t))%Z /\ (In (TName k) (print_ty c t) -> (0 < net k (tev_ty bev c t))%Z).
Proof.
  intros bev env Hbev t c Hwf k Hk. pose proof (cov_ty bev env Hbev t c Hwf) as C.
  split; [apply (C k Hk) | apply (cov_tnames_elim _ _ _ C Hk)].
Qed.
Print Assumptions imports_complete_ty.

(* the `from typing import` line lists exactly the recorded members whose count is not zero *)
Theorem typing_line_characterised : forall evs k, In k (typing_targets evs) <-> In (EAdd k) evs /\ net k evs <> 0%Z.
Proof.
  intros evs k. unfold typing_targets. rewrite filter_In, In_members, negb_true_iff, Z.eqb_neq. reflexivity.
Qed.
Print Assumptions typing_line_characterised.

(* every module-qualified name handed to VisitNamedType has an imported prefix, and that prefix has its `import m` line *)
Theorem imports_complete_modules : forall T iu n, In n (np_unit T (iu_unit iu)) ->
  nt_chain T n = [] \/ exists q, In q (nt_chain T n) /\ In q (import_mods T iu) /\ get q (direct_imports T iu) = Some q.
Proof.
  intros T iu n H. destruct (modules_complete T iu n H) as [E|[q [Hq Hm]]]; [left; exact E|].
  right. exists q. repeat split; [exact Hq | exact Hm | apply module_line_emitted, Hm].
Qed.
Print Assumptions imports_complete_modules.

Theorem imports_sorted_unique : forall T rich iu,
  Sorted.Sorted (fun a b => line_leb T a b = true) (import_lines T rich iu) /\
  (forall evs, let tg := sort_targets T (map (fun k => (k, k)) (typing_targets evs)) in
               Sorted.Sorted (fun a b => target_leb T a b = true) tg /\ NoDup tg).
Proof. intros T rich iu. split; [apply lines_sorted | intros evs; apply typing_line_sorted_unique]. Qed.
Print Assumptions imports_sorted_unique.

(* the round trip of the whole text: the declarations are read back as norm_unit and the import lines as alias
   declarations, PROVIDED every member of typing used by the printed declarations is on the typing line (the hypothesis
   is evaluated on every generated unit by the harness; it is what imports_complete_ty gives site by site) *)
Theorem parse_print_text_partial : forall T fixed rich iu,
  wf_unit fixed (iu_unit iu) = true ->
  (forall k, In (TName k) (stmts_tokens (print_unit fixed (iu_unit iu))) -> is_typing k = true ->
             In k (typing_targets (typing_events rich iu))) ->
  parse_text (print_text T fixed rich iu) = Some (norm_iunit T fixed rich iu).
Proof.
  intros T fixed rich iu Hwf Hcomplete. unfold parse_text, print_text. cbn [fst snd].
  rewrite (parse_unit_print_lemma fixed (iu_unit iu) Hwf), (proj2 (forallb_forall _ _)); [reflexivity|].
  intros k Hk. apply in_tok_names in Hk. destruct (is_typing k) eqn:Et; [|reflexivity].
  apply mem_In, In_typing_imported, Hcomplete; assumption.
Qed.
Print Assumptions parse_print_text_partial.

(* witnesses: ids 80.. are ordinary names (C, f, x, args, k, list) *)
Definition T0 : ntab := mkNT (fun _ => []) (fun _ => false) (fun i => i).
Definition seq_int : ty := Generic (NT 32) [Named (NP id_int)].
(* class C: def f(self: C[Sequence[Sequence[int]]]) -> int *)
Definition w_over : iunit :=
  mkIU [] (mkU [] [] [] [mkCls 80 [] [] [] None [] []
     [mkFn 81 [mkF (mkSig [mkParam id_self (Generic (NP 80) [Generic (NT 32) [seq_int]]) Regular false None] None None
                          (Named (NP id_int))) []] KMethod false false false []]] []).
(* def f(x: list[int]) -> int:  x = Union[int, float] *)
Definition w_mut : iunit :=
  mkIU [] (mkU [] [] [] [] [mkFn 81 [mkF (mkSig [mkParam 82 (Generic (NP 85) [Named (NP id_int)]) Regular false
                                                          (Some (Union [Named (NP id_int); Named (NP id_float)]))]
                                                 None None (Named (NP id_int))) []] KMethod false false false []]).
(* k: Tuple[int]    def f( *args: int) -> int *)
Definition w_tuple : iunit :=
  mkIU [] (mkU [] [] [mkK 84 (Generic (NT id_Tuple) [Named (NP id_int)]) false] []
              [mkFn 81 [mkF (mkSig [] (Some (83%N, Generic (NP id_tuple) [Named (NP id_int)])) None (Named (NP id_int))) []]
                    KMethod false false false []]).

Definition printed_typing (fixed : bool) (iu : iunit) : list N :=
  filter is_typing (tok_names (stmts_tokens (print_unit fixed (iu_unit iu)))).

(* minimality fails: an elided self annotation that mentions Sequence twice leaves `from typing import Sequence`
   although nothing printed uses it (finding unused-typing-import-after-elided-annotation) *)
Theorem imports_minimal_refuted : exists iu, wf_unit false (iu_unit iu) = true /\
  In 32%N (typing_targets (typing_events false iu)) /\ ~ In 32%N (printed_typing false iu).
Proof. exists w_over. split; [vm_compute; reflexivity|]. split; [vm_compute; auto|]. vm_compute. intros []. Qed.
Print Assumptions imports_minimal_refuted.

(* completeness fails for a mutated type that prints differently under in_parameter: the uses are recorded while
   in_parameter is set (Union[int, float] collapses to float: no Union), the text comes from a copy afterwards;
   the witness lies outside wf_imports, as the last conjunct says *)
Theorem imports_complete_mutated_refuted : exists iu,
  In id_Union (printed_typing false iu) /\ ~ In id_Union (typing_targets (typing_events false iu)) /\ wf_imports iu = false.
Proof. exists w_mut. split; [vm_compute; auto|]. split; [vm_compute; intros []|vm_compute; reflexivity]. Qed.
Print Assumptions imports_complete_mutated_refuted.

(* and for typing.Tuple next to a typed star-args parameter: _FormatContainerContents decrements "Tuple" (the statement
   puts no dialect condition on this witness) *)
Theorem imports_complete_tuple_refuted : exists iu,
  In id_Tuple (printed_typing false iu) /\ ~ In id_Tuple (typing_targets (typing_events false iu)).
Proof. exists w_tuple. split; [vm_compute; auto|]. vm_compute. intros []. Qed.
Print Assumptions imports_complete_tuple_refuted.

Example ex_imports_nonvacuous :
  wf_imports w_over = true /\ import_lines T0 false w_over = [LFrom id_typing [(32%N, 32%N)]] /\
  parse_text (print_text T0 false false w_over) = Some (norm_iunit T0 false false w_over).
Proof. vm_compute. repeat split. Qed.
