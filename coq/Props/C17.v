(* C17 -- boolean-equation terms (pytype/pytd/booleq.py) are built and simplified to logically
   equivalent terms.  The stated theorems, each followed by Print Assumptions, with non-vacuity examples; the lemmas
   are in Booleq/.
   All statements are for arbitrary names (any strings), terms of any size/depth, any assignment sigma and
   any table; nothing is bounded.  [sigma : name -> name] gives every variable (a name starting with "~")
   a value; any other name denotes itself.  TAnd/TOr nodes are Python sets, modelled as lists. *)
From Coq Require Import List Bool String Ascii Arith.
From PV Require Import Booleq.Model Booleq.Proofs.
Import ListNotations.
Open Scope string_scope.

(* the constructors are the plain connectives, under every assignment *)

(* And(es) (es any list of terms, also hand-made ones) is true exactly when every e in es is *)
Theorem and_equiv : forall (sigma : name -> name) (es : list term),
  eval sigma (AndC es) = forallb (eval sigma) es.
Proof. exact (opc_equiv_lemma KAnd). Qed.
Print Assumptions and_equiv.

Theorem or_equiv : forall (sigma : name -> name) (es : list term),
  eval sigma (OrC es) = existsb (eval sigma) es.
Proof. exact (opc_equiv_lemma KOr). Qed.
Print Assumptions or_equiv.

(* Eq(l, r) is true exactly when both sides denote the same value (var=var, var=value, value=value) *)
Theorem eq_equiv : forall (sigma : name -> name) (l r : name),
  eval sigma (EqC l r) = String.eqb (val sigma l) (val sigma r).
Proof.
  intros. unfold EqC. destruct (String.eqb l r) eqn:E.
  - apply String.eqb_eq in E. subst. simpl. symmetry. apply String.eqb_refl.
  - destruct (String.ltb r l); simpl; [reflexivity | apply String.eqb_sym].
Qed.
Print Assumptions eq_equiv.

(* Eq(l, r) is TRUE when l == r and otherwise the _Eq over the same two names with the greater string on
   the left *)
Theorem eq_shape : forall l r : name,
  (l = r /\ EqC l r = T) \/
  (l <> r /\ exists a b, EqC l r = TEq a b /\ String.ltb b a = true /\
                         ((a = l /\ b = r) \/ (a = r /\ b = l))).
Proof. exact eq_shape_lemma. Qed.
Print Assumptions eq_shape.

(* normal form *)

(* FALSE anywhere in the argument list absorbs a conjunction, TRUE a disjunction *)
Theorem and_false_absorbed : forall es, In F es -> AndC es = F.
Proof. exact (opc_stop_lemma KAnd). Qed.
Print Assumptions and_false_absorbed.

Theorem or_true_absorbed : forall es, In T es -> OrC es = T.
Proof. exact (opc_stop_lemma KOr). Qed.
Print Assumptions or_true_absorbed.

(* TRUE arguments of And (FALSE arguments of Or) are dropped *)
Theorem and_true_dropped : forall es,
  AndC es = AndC (filter (fun e => negb (is_ident e T)) es).
Proof. exact (opc_skip_lemma KAnd). Qed.
Print Assumptions and_true_dropped.

Theorem or_false_dropped : forall es,
  OrC es = OrC (filter (fun e => negb (is_ident e F)) es).
Proof. exact (opc_skip_lemma KOr). Qed.
Print Assumptions or_false_dropped.

(* What simplify_exprs guarantees about ANY argument list (the precise extent of flattening): the result
   is TRUE, FALSE, or a term that is an argument which is not TRUE/FALSE/same-class or an immediate child
   of a same-class argument ([origin]); and when it is a freshly made node of class k, that node has at
   least two children, pairwise different under __eq__, each with such an origin.  Flattening is one
   level deep: children of a same-class argument are taken as they are. *)
Theorem constructor_shape : forall (k : kind) (es : list term),
  match OpC k es with
  | Op k' xs => (k' = k /\ 2 <= List.length xs /\ dupfree xs = true /\ forall x, In x xs -> origin k es x)
                \/ origin k es (Op k' xs)
  | T | F => True
  | TEq l r => origin k es (TEq l r)
  end.
Proof. exact opc_shape_lemma. Qed.
Print Assumptions constructor_shape.

(* hence: if the arguments are in normal form (hereditarily: no TRUE/FALSE/same-class child, >= 2 pairwise
   different children), so is the result -- in particular no nested And-in-And / Or-in-Or at any depth *)
Theorem and_normal : forall es, forallb normal es = true -> normal (AndC es) = true.
Proof. exact (opc_normal_lemma KAnd). Qed.
Print Assumptions and_normal.

Theorem or_normal : forall es, forallb normal es = true -> normal (OrC es) = true.
Proof. exact (opc_normal_lemma KOr). Qed.
Print Assumptions or_normal.

(* every term obtainable through the public API (TRUE, FALSE, Eq, And, Or) is in normal form and every
   _Eq in it has right < left *)
Theorem built_normal : forall t, built t -> normal t = true /\ oriented t = true.
Proof.
  fix IH 2. intros t B. destruct B as [| |l r|k es HB].
  - auto.
  - auto.
  - split; [apply eqc_normal | apply eqc_oriented].
  - assert (HH : forallb normal es = true /\ forallb oriented es = true).
    { induction HB as [|x xs Hx Hxs IHxs]; [auto|].
      destruct (IH x Hx) as [A B]. destruct IHxs as [C D]. simpl. rewrite A, B, C, D. auto. }
    destruct HH as [A B]. split; [apply opc_normal_lemma | apply opc_oriented_lemma]; assumption.
Qed.
Print Assumptions built_normal.

(* simplify(assignments) *)

(* Same truth value under every assignment drawn from the table, for ANY term (API-built or hand-made).
   Hypotheses: every variable of the term is a key of the table (else no assignment can be "drawn from
   the table"), sigma picks for every key variable one of its still-possible values, and the call
   returned (no KeyError). *)
Theorem simplify_equiv : forall (sigma : name -> name) (tbl : table) (t r : term),
  covers tbl t = true -> consistent sigma tbl ->
  simplify tbl t = Some r -> eval sigma r = eval sigma t.
Proof. exact simplify_equiv_lemma. Qed.
Print Assumptions simplify_equiv.

(* the call returns whenever every equality has a side that is a key of the table ... *)
Theorem simplify_total : forall tbl t, keyed tbl t = true -> exists r, simplify tbl t = Some r.
Proof.
  intros tbl t. induction t as [| |l r0|k es IH] using term_ind'; intro Hk; simpl.
  - eauto.
  - eauto.
  - simpl in Hk. destruct (has_key tbl r0) eqn:Kr; [eauto|]. simpl in Hk.
    apply has_key_true in Hk. destruct Hk as [vs ->]. eauto.
  - simpl in Hk. rewrite forallb_forall in Hk. rewrite Forall_forall in IH.
    destruct (gen_take_some (stop_of k) (simplify tbl) es) as [pre ->]; [|eauto].
    intros x Hx. apply IH; auto.
Qed.
Print Assumptions simplify_total.

(* ... which is the case when the variables are covered and every equality mentions a variable ... *)
Theorem covered_is_keyed : forall tbl t,
  covers tbl t = true -> mentions_var t = true -> keyed tbl t = true.
Proof.
  intros tbl t. induction t as [| |l r0|k es IH] using term_ind'; intros Hc Hm; simpl in *; try reflexivity.
  - apply andb_true_iff in Hc. destruct Hc as [Cl Cr].
    apply orb_true_iff in Hm. destruct Hm as [V|V]; rewrite V in *; simpl in *.
    + rewrite Cl. apply orb_true_r.
    + rewrite Cr. reflexivity.
  - rewrite forallb_forall in *. rewrite Forall_forall in IH. intros x Hx. apply IH; auto.
Qed.
Print Assumptions covered_is_keyed.

(* ... and a KeyError can only come from an equality neither side of which is a key *)
Theorem simplify_keyerror : forall tbl t, simplify tbl t = None -> keyed tbl t = false.
Proof.
  intros tbl t H. destruct (keyed tbl t) eqn:K; [|reflexivity].
  destruct (simplify_total tbl t K) as [r Hr]. congruence.
Qed.
Print Assumptions simplify_keyerror.

(* simplification keeps the normal form (TRUE/FALSE produced by pruning are absorbed, a child that
   collapses to a same-class node is flattened) and the _Eq invariant *)
Theorem simplify_normal : forall tbl t r,
  normal t = true -> simplify tbl t = Some r -> normal r = true.
Proof.
  intros tbl t r Hn H. revert Hn. revert t r H.
  apply (simplify_cases tbl (fun t r => normal t = true -> normal r = true)); auto.
  - intros l r vs _ _ _. destruct (mem_name r vs); reflexivity.
  - intros k es pre G IH Hn. apply opc_normal_lemma. eapply gen_take_forallb; [|exact G].
    rewrite normal_Op in Hn. apply andb_true_iff in Hn. destruct Hn as [_ Hn].
    rewrite forallb_forall in Hn.
    intros x Hx y Hy. apply (IH x Hx y Hy).
    specialize (Hn x Hx). apply andb_true_iff in Hn. apply Hn.
Qed.
Print Assumptions simplify_normal.

Theorem simplify_oriented : forall tbl t r,
  oriented t = true -> simplify tbl t = Some r -> oriented r = true.
Proof. apply (simplify_preserves oriented); reflexivity. Qed.
Print Assumptions simplify_oriented.

(* every equality left in the result offers a still-possible value (or compares with another key) *)
Theorem simplify_pruned : forall tbl t r, simplify tbl t = Some r -> pruned tbl r = true.
Proof.
  intro tbl. apply (simplify_cases tbl (fun _ r => pruned tbl r = true)); try reflexivity.
  - intros l r K. simpl. rewrite K. reflexivity.
  - intros l r vs _ Ll. destruct (mem_name r vs) eqn:M; [|reflexivity].
    simpl. rewrite Ll, M. apply orb_true_r.
  - intros k es pre G IH. apply opc_forallb_lemma; try reflexivity.
    eapply gen_take_forallb; [|exact G]. exact IH.
Qed.
Print Assumptions simplify_pruned.

(* the property for API-built terms in one statement: the simplified term has the same truth value under
   every assignment drawn from the table, is again in normal form, and offers only still-possible values *)
Theorem api_simplify : forall (sigma : name -> name) (tbl : table) (t r : term),
  built t -> covers tbl t = true -> consistent sigma tbl -> simplify tbl t = Some r ->
  eval sigma r = eval sigma t /\ normal r = true /\ oriented r = true /\ pruned tbl r = true.
Proof.
  intros sigma tbl t r B C S H. destruct (built_normal t B) as [N O].
  split; [eapply simplify_equiv; eassumption|].
  split; [eapply simplify_normal; eassumption|].
  split; [eapply simplify_oriented; eassumption|].
  eapply simplify_pruned; eassumption.
Qed.
Print Assumptions api_simplify.

(* non-vacuity *)
Definition va := "~a". Definition vb := "~b". Definition vc := "~c".

(* a depth-3 term through the public API with var=value, var=var, duplicates, TRUE, nested same-kind *)
Definition ex_t : term :=
  AndC [ OrC [EqC va "x"; EqC "y" va; EqC va "x"];
         AndC [EqC vb va; T; OrC [EqC vb "x"; AndC [EqC vc "z"; EqC vc vb]]] ].
Definition ex_tbl : table := [(va, ["x"; "y"]); (vb, ["x"]); (vc, ["y"; "z"])].
Definition ex_sigma (n : name) : name :=
  if String.eqb n va then "x" else if String.eqb n vb then "x" else "z".

(* the nested And was flattened into the outer one; the duplicate and TRUE are gone; Eq sorted its sides *)
Example ex_t_value :
  ex_t = TAnd [ TOr [TEq va "x"; TEq va "y"]; TEq vb va;
                TOr [TEq vb "x"; TAnd [TEq vc "z"; TEq vc vb]] ].
Proof. vm_compute. reflexivity. Qed.

Example ex_t_built : built ex_t.
Proof.
  (* [built_Op] first: it matches an [OpC] goal as written, so no constructor call is evaluated *)
  unfold ex_t, AndC, OrC.
  repeat first [apply built_Op | apply built_Eq | apply built_T | apply Forall_cons | apply Forall_nil].
Qed.

(* the hypotheses of simplify_equiv hold for it, with a non-trivial result *)
Example ex_hyps : oriented ex_t = true /\ covers ex_tbl ex_t = true /\ keyed ex_tbl ex_t = true /\
                  normal ex_t = true.
Proof. vm_compute. repeat split; reflexivity. Qed.

Example ex_consistent : consistent ex_sigma ex_tbl.
Proof. apply consistentb_ok. vm_compute. reflexivity. Qed.

(* ~c = ~b is kept (both keys); ~b = x is kept; nothing is pruned here except through the table below *)
Example ex_simplify :
  simplify ex_tbl ex_t
  = Some (TAnd [ TOr [TEq va "x"; TEq va "y"]; TEq vb va;
                 TOr [TEq vb "x"; TAnd [TEq vc "z"; TEq vc vb]] ]) /\
  eval ex_sigma ex_t = true.
Proof. vm_compute. split; reflexivity. Qed.

(* pruning: with ~a restricted to {y} and ~c to {y}, the Or loses ~a = x and collapses to one equality,
   the inner And becomes FALSE and its Or collapses to ~b = x, which the outer And absorbs as a child *)
Example ex_simplify_pruning :
  simplify [(va, ["y"]); (vb, ["x"]); (vc, ["y"])] ex_t
  = Some (TAnd [TEq va "y"; TEq vb va; TEq vb "x"]).
Proof. vm_compute. reflexivity. Qed.

(* a child that simplifies to a same-class node is flattened into its parent *)
Example ex_simplify_flattens :
  simplify [(va, ["x"]); (vb, ["x"; "y"])]
           (AndC [EqC va "x"; OrC [EqC va "z"; AndC [EqC vb "x"; EqC vb va]]])
  = Some (TAnd [TEq va "x"; TEq vb "x"; TEq vb va]).
Proof. vm_compute. reflexivity. Qed.

(* KeyError: a value=value equality, or a variable that is not a key compared with a value *)
Example ex_keyerror :
  simplify ex_tbl (EqC "x" "y") = None /\ simplify ex_tbl (EqC "~d" "x") = None /\
  keyed ex_tbl (EqC "~d" "x") = false.
Proof. vm_compute. repeat split; reflexivity. Qed.

(* the generator is consumed lazily: the KeyError of a later child is not seen once FALSE was produced *)
Example ex_lazy_keyerror :
  simplify [(va, ["y"])] (TAnd [TEq va "x"; TEq "~d" "x"]) = Some F /\
  simplify [(va, ["y"])] (TAnd [TEq "~d" "x"; TEq va "x"]) = None.
Proof. vm_compute. split; reflexivity. Qed.

(* the coverage hypothesis of simplify_equiv is needed *)

(* without coverage: ~a is not a key, so ~b = ~a is read as "~b = the value called ~a" and pruned *)
Example ex_needs_covers :
  let tbl := [(vb, ["x"])] in
  let sigma := fun _ : name => "x" in
  consistent sigma tbl /\ covers tbl (EqC vb va) = false /\
  simplify tbl (EqC vb va) = Some F /\ eval sigma (EqC vb va) = true.
Proof.
  cbv zeta. split; [apply consistentb_ok; reflexivity|].
  vm_compute. repeat split; reflexivity.
Qed.

(* limit of the flattening on hand-made (non-API) input: And's docstring ("none of its immediate subterms
   is ... another conjunction") holds for API-built arguments (and_normal) but not for a raw _And whose
   own children were not flattened -- one level only *)
Example ex_one_level_only :
  AndC [TAnd [TAnd [TEq va "x"; TEq vb "x"]; TEq vc "x"]]
  = TAnd [TAnd [TEq va "x"; TEq vb "x"]; TEq vc "x"].
Proof. vm_compute. reflexivity. Qed.

(* The consumer: extract_pivots / extract_equalities and Solver.solve (model: Booleq/Solver.v).
   [ord] (and [eord]) is the order in which the interpreter iterates a set; every statement holds for
   every order.  Exceptions are [None]/[Raised]. *)
From PV Require Import Booleq.Solver Booleq.SolverProofs.

(* extract_pivots, extract_equalities *)

(* the contract of extract_pivots: if sigma is drawn from the table and satisfies the term, every pivot that is a
   key of the table contains the value sigma gives it.  Holds for every term all of whose disjunctions are
   [guarded] (each table key among an _Or's pivots is a pivot of EVERY disjunct); in particular for every term
   without _Or.  var=var equalities: both sides get the intersection of their table entries. *)
Theorem pivots_sound_partial : forall (sigma : name -> name) (tbl : table) (t : term),
  keys_vars tbl -> consistent sigma tbl -> covers tbl t = true -> guarded tbl t = true ->
  eval sigma t = true ->
  forall p pv, In (p, pv) (extract_pivots tbl t) -> has_key tbl p = true -> In (sigma p) pv.
Proof.
  intros sigma tbl t Hkv Hs Hc Hg He.
  exact (lsound_psound _ _ _ (nodup_extract_pivots tbl t) (pivots_sound_lookup sigma tbl t Hkv Hs Hc Hg He)).
Qed.
Print Assumptions pivots_sound_partial.

(* without [guarded] the contract fails: (~a = x | ~b = y) under ~a in {x,z}, ~b in {y} yields the pivot
   ~a -> {x}, although ~a = z, ~b = y satisfies the term.  _Or.extract_pivots takes the union over the
   disjuncts that mention a name; a disjunct that does not mention it allows any value.  FINDING. *)
Theorem pivots_sound_refuted :
  exists (sigma : name -> name) (tbl : table) (t : term),
    keys_vars tbl /\ consistent sigma tbl /\ covers tbl t = true /\ eval sigma t = true /\
    ~ (forall p pv, In (p, pv) (extract_pivots tbl t) -> has_key tbl p = true -> In (sigma p) pv).
Proof.
  exists w_sigma, w_tbl, w_term. exact pivots_refuted_lemma.
Qed.
Print Assumptions pivots_sound_refuted.

(* the result of extract_pivots is a dict: no key twice *)
Theorem pivots_keys_unique : forall tbl t, NoDup (map fst (extract_pivots tbl t)).
Proof. exact nodup_extract_pivots. Qed.
Print Assumptions pivots_keys_unique.

(* extract_equalities returns exactly the (left, right) pairs of the _Eq nodes of the term *)
Theorem equalities_spec : forall t l r, In (l, r) (extract_equalities t) <-> occurs_eq l r t.
Proof.
  intro t. induction t as [| |l0 r0|k es IH] using term_ind'; intros l r.
  - simpl. tauto.
  - simpl. tauto.
  - simpl. split; [intros [H|[]]; inversion H; auto | intros [A B]; subst; auto].
  - rewrite occurs_eq_op. cbn [extract_equalities]. rewrite in_flat_map. rewrite Forall_forall in IH.
    split; intros [x [Hx H]]; exists x; (split; [exact Hx|]); apply (IH x Hx); exact H.
Qed.
Print Assumptions equalities_spec.

(* Solver.solve *)

(* termination: the fuel solve() is run with (1 + size of the table) is never exhausted ... *)
Theorem solve_never_out_of_fuel : forall ord eord s, solve ord eord s <> OutOfFuel.
Proof.
  intros ord eord s. unfold solve. destruct (complete ord eord s) as [im|]; [|discriminate].
  match goal with |- context [simplify ?a ?b] => destruct (simplify a b) end; [|discriminate].
  cbv zeta. apply solve_loop_fuel. apply Nat.lt_succ_diag_r.
Qed.
Print Assumptions solve_never_out_of_fuel.

(* ... because one iteration of `while something_changed` only shrinks the table: no key gains a value, the
   keys stay, the total size does not grow, it strictly decreases when the iteration reports a change, and
   the table is literally unchanged when it reports none *)
Theorem round_shrinks : forall ord variables tbl im tbl' im' ch site,
  round ord variables tbl im = Some (tbl', im', ch, site) ->
  tsize tbl' <= tsize tbl /\ (ch = true -> tsize tbl' < tsize tbl) /\ (ch = false -> tbl' = tbl) /\
  tbl_le tbl' tbl /\ (forall k, has_key tbl' k = has_key tbl k).
Proof.
  intros ord variables tbl im tbl' im' ch site H. destruct (round_rel _ _ _ _ _ _ _ _ H) as [A [B [C [D E]]]].
  split; [exact A|]. split; [intro X; destruct (B X); [discriminate | assumption]|].
  split; [intro X; apply C; exact X|]. split; assumption.
Qed.
Print Assumptions round_shrinks.

(* the result: its keys are the registered variables, every value it offers is a non-FALSE candidate of the
   completed implications, and the run stopped on it: the last iteration that was executed started from this very
   table (with some implications [im0]), returned it unchanged together with the returned implications, and reported
   "nothing changed".  That an iteration started from the returned implications does the same is not stated. *)
Theorem solve_fixed_point : forall ord eord s im tbl im' tr,
  complete ord eord s = Some im -> solve ord eord s = Done (tbl, im', tr) ->
  (forall v vs, lookup tbl v = Some vs -> incl vs (nonfalse_values im v)) /\
  (forall k, has_key tbl k = mem_name k (ord (vars s))) /\
  exists im0 site, round ord (vars s) tbl im0 = Some (tbl, im', false, site).
Proof. exact solve_shape_lemma. Qed.
Print Assumptions solve_fixed_point.

(* _complete never replaces a registered implication and only ever adds TRUE *)
Theorem complete_extends : forall ord eord s im, complete ord eord s = Some im ->
  (forall var value imp, alookup (adict (imps s) var) value = Some imp -> alookup (adict im var) value = Some imp) /\
  (forall var value imp, alookup (adict im var) value = Some imp ->
     alookup (adict (imps s) var) value = Some imp \/ imp = T).
Proof. exact complete_ext_lemma. Qed.
Print Assumptions complete_extends.

(* one iteration never loses a solution -- this is where simplify_equiv is relied on: every implication is
   replaced by its simplification against the current table (same truth value under every assignment drawn
   from the table, [simplify_equiv]), a value is dropped only when its implication became FALSE, and the
   conjunction of the per-variable disjunctions is true under every solution, so its (guarded) pivots are sound.
   [sinv]: sigma is drawn from the table, and every variable's current implication at sigma's value is true. *)
Theorem round_preserves_solutions : forall sigma ord variables tbl0 tbl im tbl' im' ch site,
  ord_ok ord -> (forall v, In v variables -> is_var v = true) ->
  (forall k, has_key tbl0 k = true -> In k variables) ->
  sinv sigma variables tbl0 tbl im ->
  round ord variables tbl im = Some (tbl', im', ch, site) ->
  guarded (fst site) (snd site) = true ->
  sinv sigma variables tbl0 tbl' im'.
Proof.
  intros sigma ord variables tbl0 tbl im tbl' im' ch site Ho Hv Hk.
  exact (round_sound sigma ord variables tbl0 Ho Hv Hk tbl im tbl' im' ch site).
Qed.
Print Assumptions round_preserves_solutions.

(* SOUNDNESS (partial): for a well-formed system (variables = the "~"-names, every "~"-name in a term registered),
   every solution sigma of the completed system -- ground truth true, every variable takes a candidate value whose
   implication is true -- survives: sigma(v) is in result(v) for every variable, PROVIDED every term pivots were
   extracted from during the run (the simplified ground truth, then And(Or(implications...)) of each iteration;
   the model returns them as [tr]) is [guarded]. *)
Theorem solve_sound_partial : forall sigma ord eord s im tbl im' tr,
  ord_ok ord -> wf_solver s ->
  complete ord eord s = Some im ->
  solution sigma (vars s) (ground s) im ->
  solve ord eord s = Done (tbl, im', tr) -> trace_guarded tr = true ->
  forall v, In v (vars s) -> exists vs, lookup tbl v = Some vs /\ In (sigma v) vs.
Proof. exact solve_sound_lemma. Qed.
Print Assumptions solve_sound_partial.

(* SOUNDNESS is FALSE in general (FINDING): ~a=x => ~b=p; ~a=y => ~c=q; ~b in {p,r}, ~c in {q,s} free.
   sigma = {~a:y, ~b:r, ~c:q} satisfies every implication, but solve() returns ~b = {p}: the pivots of
   (~b=p | ~c=q) restrict ~b although the second disjunct does not mention it. *)
Theorem solve_sound_refuted :
  exists sigma s im tbl im' tr,
    wf_solver s /\ complete oid eid s = Some im /\ solution sigma (vars s) (ground s) im /\
    solve oid eid s = Done (tbl, im', tr) /\
    exists v vs, In v (vars s) /\ lookup tbl v = Some vs /\ ~ In (sigma v) vs.
Proof.
  exists u_sigma, u_solver. exact solve_refuted_lemma.
Qed.
Print Assumptions solve_sound_refuted.

(* NOT guaranteed -- completeness: a value in the result need not extend to a solution.  Witness (inside the
   guarded fragment): ~a=x => ~b=x; ~a=y => ~b=y; ~b=x => ~a=y; ~b=y => ~a=x has no solution at all, yet solve()
   returns ~a = ~b = {x, y}. *)
Theorem solve_complete_refuted :
  exists s im tbl im' tr,
    wf_solver s /\ complete oid eid s = Some im /\ solve oid eid s = Done (tbl, im', tr) /\
    trace_guarded tr = true /\ lookup tbl "~a" = Some ["x"; "y"] /\
    forall sigma, ~ solution sigma (vars s) (ground s) im.
Proof.
  exists i_solver. exact solve_incomplete_lemma.
Qed.
Print Assumptions solve_complete_refuted.

(* non-vacuity of solve_sound_partial *)
(* test_solve_and-like system with a ground truth, var=var, a FALSE implication: guarded, solvable, pruned *)
Definition ex_script : list call := [CReg "~a"; CReg "~b"; CReg "~c";
  CTrue (OrC [EqC "~a" "x"; EqC "~a" "y"]);
  CImp (EqC "~a" "x") (AndC [EqC "~b" "x"; EqC "~c" "~b"]); CImp (EqC "~a" "y") (EqC "~b" "z");
  CImp (EqC "~a" "w") T;
  CImp (EqC "~b" "x") T; CImp (EqC "~b" "z") F; CImp (EqC "~c" "x") T; CImp (EqC "~c" "y") T].
Definition ex_solver : solver := match run_script ex_script with Some s => s | None => new_solver end.
Definition ex_sol (n : name) : name := "x".

Example ex_solve :
  exists im tbl im' tr,
    run_script ex_script = Some ex_solver /\ wf_solver ex_solver /\ complete oid eid ex_solver = Some im /\
    solution ex_sol (vars ex_solver) (ground ex_solver) im /\
    solve oid eid ex_solver = Done (tbl, im', tr) /\ trace_guarded tr = true /\
    tbl = [("~a", ["x"]); ("~b", ["x"]); ("~c", ["x"])] /\ List.length tr = 4.
Proof.
  destruct (solve_run_spec oid eid ex_solver (fun im tbl tr =>
              wf_solverb ex_solver && solutionb ex_sol (vars ex_solver) (ground ex_solver) im
              && trace_guarded tr && Nat.eqb (List.length tr) 4
              && table_eqb tbl [("~a", ["x"]); ("~b", ["x"]); ("~c", ["x"])]))
    as [im [tbl [im' [tr [Hc [Hs H]]]]]]; [vm_compute; reflexivity|].
  destruct (andb_prop _ _ H) as [Ha H4]. destruct (andb_prop _ _ Ha) as [Hb H5].
  destruct (andb_prop _ _ Hb) as [Hd H3]. destruct (andb_prop _ _ Hd) as [H1 H2].
  exists im, tbl, im', tr.
  split; [vm_compute; reflexivity|]. split; [apply wf_solverb_ok; exact H1|]. split; [exact Hc|].
  split; [apply solutionb_ok; exact H2|]. split; [exact Hs|]. split; [exact H3|].
  split; [apply table_eqb_eq; exact H4 | apply Nat.eqb_eq; exact H5].
Qed.

(* exceptions are modelled: a value=value equality inside an implication makes _get_first_approximation raise *)
Example ex_solve_raises :
  match run_script [CReg "~a"; CImp (EqC "~a" "x") (EqC "x" "y")] with
  | Some s => solve oid eid s = Raised
  | None => False
  end.
Proof. vm_compute. reflexivity. Qed.
