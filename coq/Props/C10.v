(* C10 — class linearisation agrees with CPython's MRO.
   The stated theorems, each followed by Print Assumptions, with non-vacuity examples; the lemmas are in
   Mro/Proofs.v and Mro/AttrProofs.v.

   Model: Mro/Model.v.  [merge_py]/[class_mro_py]/[mros_py]/[get_bases_in_mro] mirror pytype
   (pytd/mro.py, abstract/class_mixin.py compute_mro); [merge_c]/[pmerge]/[class_mro_c]/[mros_c] mirror
   CPython 3.12 Objects/typeobject.c (pmerge, check_duplicates, mro_implementation).  A class table [H] lists,
   per class statement in program order, the tuple of bases as written (class = its index).
   [dupcheck] = whether compute_mro rejects a class listed twice among the bases:
   false = the unchanged tree, true = the tree with fixes/C10-duplicate-base.patch; the check establishes on
   every run which of the two describes the tree under test. *)
From Coq Require Import List Arith Bool.
From PV Require Import Mro.Model Mro.Proofs Mro.Attr Mro.AttrProofs.
Import ListNotations.

(* the two merge algorithms *)

(* For ALL lists of duplicate-free sequences (any number, any length) pytype's MROMerge and CPython's pmerge
   return the same list, or both fail. *)
Theorem merge_agree : forall seqs : list (list nat),
  Forall (@NoDup nat) seqs -> merge_py seqs = merge_c seqs.
Proof. exact merge_agree_lemma. Qed.
Print Assumptions merge_agree.

(* Without the hypothesis: pytype is exactly CPython run on the de-duplicated sequences. *)
Theorem merge_agree_dedup : forall seqs : list (list nat), merge_py seqs = merge_c (map dedup seqs).
Proof. exact merge_agree_dedup_lemma. Qed.
Print Assumptions merge_agree_dedup.

(* The SINGLETON branch of MergeSequences (abstract.Unsolvable among the bases) is dead when no class in
   the sequences carries the SINGLETON attribute. *)
Theorem merge_singleton_branch_dead : forall (sing : nat -> bool) (seqs : list (list nat)),
  (forall s x, In s seqs -> In x s -> sing x = false) -> merge_py_gen sing seqs = merge_py seqs.
Proof. intros sing seqs H. rewrite merge_py_spec. apply merge_py_gen_spec. exact H. Qed.
Print Assumptions merge_singleton_branch_dead.

(* Fuel sufficiency: neither merge ever ends in the fuel-exhausted (or crashed) outcome, for any input,
   with or without singleton classes. *)
Theorem fuel_enough : forall (sing : nat -> bool) (seqs : list (list nat)) (acc0 : list nat) (tm : list (list nat)),
  merge_py_gen sing seqs <> OutOfFuel /\ merge_py_gen sing seqs <> Crash /\
  pmerge acc0 tm <> OutOfFuel /\ pmerge acc0 tm <> Crash.
Proof. intros. destruct (merge_py_gen_fuel_lemma sing seqs), (pmerge_fuel_lemma acc0 tm). auto. Qed.
Print Assumptions fuel_enough.

Theorem tables_never_bad : forall (dupcheck : bool) (H : list (list nat)) m i,
  mros_py dupcheck H <> TableBad m i /\ mros_c H <> TableBad m i.
Proof.
  intros. split; apply run_table_not_bad; [intros; apply class_mro_py_total | apply class_mro_c_total].
Qed.
Print Assumptions tables_never_bad.

(* class tables *)

(* Any program of class statements (any number of classes, any number of bases, every base created by an
   earlier statement) in which no statement lists the same base twice: pytype and CPython create the same
   classes with the same MROs and stop at the same statement (if any). *)
Theorem mro_agree_partial : forall (dupcheck : bool) (H : list (list nat)),
  wf_table H = true -> no_dup_bases H = true -> mros_py dupcheck H = mros_c H.
Proof. intros dupcheck H Hw Hn. apply mro_agree_gen; auto. rewrite Hn. apply orb_true_r. Qed.
Print Assumptions mro_agree_partial.

(* pytype reports an mro-error on statement i  <=>  CPython raises TypeError on statement i. *)
Theorem mro_error_iff_partial : forall (dupcheck : bool) (H : list (list nat)) (i : nat),
  wf_table H = true -> no_dup_bases H = true ->
  (table_error (mros_py dupcheck H) = Some i <-> table_error (mros_c H) = Some i).
Proof. intros. apply mro_error_iff_lemma; auto using orb_true_intro. Qed.
Print Assumptions mro_error_iff_partial.

(* The full-strength statements (no hypothesis on repeated bases) are REFUTED for the unchanged code:
   `class A: pass; class B(A, A): pass` -- MROMerge de-duplicates, pytype accepts B with MRO [B, A, object];
   CPython raises TypeError: duplicate base class A. *)
Theorem mro_error_iff_refuted :
  exists H, wf_table H = true /\
            table_error (mros_py false H) = None /\ table_error (mros_c H) = Some 2.
Proof. exists [[]; [0]; [1; 1]]. vm_compute. auto. Qed.
Print Assumptions mro_error_iff_refuted.

Theorem mro_agree_refuted : exists H, wf_table H = true /\ mros_py false H <> mros_c H.
Proof. exists [[]; [0]; [1; 1]]. vm_compute. split; auto. discriminate. Qed.
Print Assumptions mro_agree_refuted.

(* ... and hold at full strength for the code with the duplicate-base check. *)
Theorem mro_agree_with_dupcheck : forall H : list (list nat),
  wf_table H = true -> mros_py true H = mros_c H.
Proof. exact mro_agree_fixed_lemma. Qed.
Print Assumptions mro_agree_with_dupcheck.

Theorem mro_error_iff_with_dupcheck : forall (H : list (list nat)) (i : nat),
  wf_table H = true ->
  (table_error (mros_py true H) = Some i <-> table_error (mros_c H) = Some i).
Proof. intros. apply mro_error_iff_lemma; auto. Qed.
Print Assumptions mro_error_iff_with_dupcheck.

(* every MRO produced starts with the class itself, has no repetition and only mentions earlier classes *)
Theorem mro_wellformed : forall (H : list (list nat)) (i : nat),
  wf_table H = true -> no_dup_bases H = true -> i < length (table_mros (mros_c H)) ->
  exists m', nth i (table_mros (mros_c H)) [] = i :: m' /\ NoDup (i :: m') /\ forall x, In x m' -> x < i.
Proof.
  intros H i Hw _ Hi. destruct (mros_c_good H Hw i Hi) as [m' [E [H1 H2]]].
  exists m'. rewrite <- E. auto.
Qed.
Print Assumptions mro_wellformed.

(* attribute lookup *)

(* An attribute read through class c (or an instance) resolves to the same defining class. *)
Theorem lookup_agree_partial : forall (dupcheck : bool) (H attrs : list (list nat)) (c name : nat),
  wf_table H = true -> no_dup_bases H = true ->
  lookup_py dupcheck H attrs c name = lookup_c H attrs c name.
Proof. intros. apply lookup_agree_lemma; auto using orb_true_intro. Qed.
Print Assumptions lookup_agree_partial.

Theorem lookup_agree_with_dupcheck : forall (H attrs : list (list nat)) (c name : nat),
  wf_table H = true -> lookup_py true H attrs c name = lookup_c H attrs c name.
Proof. intros. apply lookup_agree_lemma; auto. Qed.
Print Assumptions lookup_agree_with_dupcheck.

(* lookup returns the FIRST class of the MRO that defines the name *)
Theorem lookup_first : forall (attrs : list (list nat)) (mro : list nat) (name c : nat),
  lookup attrs mro name = Some c ->
  exists pre post, mro = pre ++ c :: post /\ defines attrs name c = true /\
                   forall x, In x pre -> defines attrs name x = false.
Proof.
  unfold lookup. induction mro as [|h t IH]; simpl; intros name c Hf; try discriminate.
  destruct (defines attrs name h) eqn:E.
  - injection Hf as <-. exists [], t. split; [reflexivity|]. split; [exact E | intros x []].
  - destruct (IH _ _ Hf) as [pre [post [-> [E2 E3]]]]. exists (h :: pre), post.
    split; [reflexivity|]. split; [exact E2|]. intros x [<-|Hx]; auto.
Qed.
Print Assumptions lookup_first.

(* stub classes outside the VM (mro.GetBasesInMRO / _ComputeMRO with its memo dict) *)

(* For a stub module whose classes H are all creatable in CPython (MROs [done]) and a further class with
   duplicate-free bases: GetBasesInMRO returns CPython's MRO minus the class itself, or both fail. *)
Theorem pytd_agree : forall (H done : list (list nat)),
  wf_table H = true -> no_dup_bases H = true -> mros_c H = TableOk done ->
  forall bases : list nat,
  wf_bases (length H) bases = true -> check_duplicates bases = true ->
  class_mro_c done (length H) bases =
  match get_bases_in_mro H bases with Ok l => Ok (length H :: l) | r => r end.
Proof.
  intros H done Hwf Hnd Hok bases Hb Hd.
  rewrite (get_bases_in_mro_is_merge H done Hwf Hnd Hok) by exact Hb.
  rewrite <- (pytd_len H done Hwf Hok) in *.
  pose proof (pytd_good H done Hwf Hok) as Hg.
  rewrite (step_c_is_pmerge done _ bases Hg (le_n _) Hb Hd), pmerge_acc.
  rewrite merge_agree_lemma by exact (step_Y_nodup done _ bases Hg (le_n _) Hb Hd). reflexivity.
Qed.
Print Assumptions pytd_agree.

(* Without the hypothesis on the new class's bases the statement is refuted: GetBasesInMRO has no duplicate
   check (it de-duplicates like MROMerge).  It is used by VerifyContainers only, which reports no error. *)
Theorem pytd_agree_refuted :
  exists H done bases,
    wf_table H = true /\ no_dup_bases H = true /\ mros_c H = TableOk done /\
    wf_bases (length H) bases = true /\
    class_mro_c done (length H) bases = Reject /\ get_bases_in_mro H bases = Ok [1; 0].
Proof. exists [[]; [0]], [[0]; [1; 0]], [1; 1]. vm_compute. repeat split; reflexivity. Qed.
Print Assumptions pytd_agree_refuted.

(* non-vacuity *)

(* object; A; B; C(A,B); D(B,A) [both legal]; E(C,D) [inconsistent]: hypotheses hold, classes 0..4 are
   created with the expected MROs, statement 5 fails in both. *)
Definition diamond : list (list nat) := [[]; [0]; [0]; [1; 2]; [2; 1]; [3; 4]].
Example diamond_hyps : wf_table diamond = true /\ no_dup_bases diamond = true.
Proof. vm_compute. split; reflexivity. Qed.
Example diamond_result :
  mros_c diamond = TableErr [[0]; [1; 0]; [2; 0]; [3; 1; 2; 0]; [4; 2; 1; 0]] 5 /\
  mros_py false diamond = mros_c diamond /\ mros_py true diamond = mros_c diamond.
Proof. vm_compute. repeat split; reflexivity. Qed.

(* a legal 7-class hierarchy with a three-base class; lookup finds the C3-first definition *)
Definition legal7 : list (list nat) := [[]; [0]; [1]; [1]; [2; 3]; [1; 0]; [4; 5; 0]].
Example legal7_hyps : wf_table legal7 = true /\ no_dup_bases legal7 = true.
Proof. vm_compute. split; reflexivity. Qed.
Example legal7_result :
  mros_c legal7 = TableOk [[0]; [1; 0]; [2; 1; 0]; [3; 1; 0]; [4; 2; 3; 1; 0]; [5; 1; 0]; [6; 4; 2; 3; 5; 1; 0]].
Proof. vm_compute. reflexivity. Qed.
(* attribute 7 is defined by classes 1, 3 and 5: read through class 6 it comes from class 3 *)
Example legal7_lookup :
  lookup_c legal7 [[]; [7]; []; [7]; []; [7]; []] 6 7 = Some 3 /\
  lookup_py false legal7 [[]; [7]; []; [7]; []; [7]; []] 6 7 = Some 3.
Proof. vm_compute. split; reflexivity. Qed.

(* merge with duplicate-free sequences that fails in both, and one that de-duplication changes *)
Example merge_fail_both : merge_py [[1; 2]; [2; 1]] = Reject /\ merge_c [[1; 2]; [2; 1]] = Reject.
Proof. vm_compute. split; reflexivity. Qed.
Example merge_dedup_differs : merge_py [[1; 1]] = Ok [1] /\ merge_c [[1; 1]] = Reject.
Proof. vm_compute. split; reflexivity. Qed.

(* the pytd hypotheses are satisfiable; GetBasesInMRO over the first five classes for a new class with bases
   (C, object), and with bases (C, D), which has no linearisation *)
Example pytd_hyps :
  mros_c (firstn 5 diamond) = TableOk [[0]; [1; 0]; [2; 0]; [3; 1; 2; 0]; [4; 2; 1; 0]] /\
  get_bases_in_mro (firstn 5 diamond) [3; 0] = Ok [3; 1; 2; 0] /\
  get_bases_in_mro (firstn 5 diamond) [3; 4] = Reject.
Proof. vm_compute. repeat split; reflexivity. Qed.

(* Mro/Attr.v: super() lookups, instance dictionaries filled by __init__ chains, Generic bases *)

(* super() *)

(* pytype's skip SET (attribute.py _get_attribute_from_super_instance + _lookup_from_mro with skip) and CPython's index
   walk (_super_lookup_descr) find the same definition, for every duplicate-free MRO, calling class and name ... *)
Theorem super_lookup_agree : forall (attrs : list (list nat)) (mro : list nat) (cur name : nat),
  NoDup mro -> super_lookup_py attrs mro cur name = super_lookup_c attrs mro cur name.
Proof. exact super_lookup_agree_lemma. Qed.
Print Assumptions super_lookup_agree.

(* ... namely the first definition STRICTLY AFTER the calling class in the instance's MRO (none if the calling class is
   not in that MRO: pytype then reports attribute-error, CPython raises TypeError at the super() call). *)
Theorem super_lookup_after_calling_class : forall (attrs : list (list nat)) (mro : list nat) (cur name : nat),
  super_lookup_c attrs mro cur name = find (defines attrs name) (after cur mro) /\
  (NoDup mro -> super_lookup_py attrs mro cur name = find (defines attrs name) (after cur mro)).
Proof. intros. split. apply super_lookup_c_after. apply super_lookup_py_after. Qed.
Print Assumptions super_lookup_after_calling_class.

(* the hypothesis is needed (a set forgets positions) and is met by every MRO a class table produces (mro_nodup) *)
Theorem super_lookup_needs_nodup :
  exists attrs mro cur name, super_lookup_py attrs mro cur name <> super_lookup_c attrs mro cur name.
Proof. exists [[]; [7]; []], [1; 2; 1], 2, 7. vm_compute. discriminate. Qed.
Print Assumptions super_lookup_needs_nodup.

Theorem mro_nodup : forall (H : list (list nat)) (c : nat),
  wf_table H = true -> NoDup (mro_of (table_mros (mros_c H)) c).
Proof. exact mros_c_nodup. Qed.
Print Assumptions mro_nodup.

(* Cooperative chains: if every definition of a method calls super().<name>(), the definitions that run for an instance
   are exactly the classes of the instance's MRO that define the name, in MRO order, each once -- in both. *)
Theorem super_chain_visits_every_definition : forall (attrs : list (list nat)) (mro : list nat) (name : nat),
  NoDup mro ->
  super_chain_py attrs mro name = filter (defines attrs name) mro /\
  super_chain_c attrs mro name = filter (defines attrs name) mro.
Proof. intros. split. apply super_chain_py_lemma; auto. apply super_chain_c_lemma; auto. Qed.
Print Assumptions super_chain_visits_every_definition.

(* On class tables, super(cur, <instance of c>).name (zero- or two-argument form, any cur, c, name, hierarchy). *)
Theorem super_agree_with_dupcheck : forall (H attrs : list (list nat)) (c cur name : nat),
  wf_table H = true -> super_py true H attrs (SInst c) cur name = super_c H attrs (SInst c) cur name.
Proof. intros. apply super_agree_lemma; auto. Qed.
Print Assumptions super_agree_with_dupcheck.

Theorem super_agree_partial : forall (dupcheck : bool) (H attrs : list (list nat)) (c cur name : nat),
  wf_table H = true -> no_dup_bases H = true ->
  super_py dupcheck H attrs (SInst c) cur name = super_c H attrs (SInst c) cur name.
Proof. intros. apply super_agree_lemma; auto using orb_true_intro. Qed.
Print Assumptions super_agree_partial.

(* super() inside a CLASSMETHOD: REFUTED.  pytype takes the MRO of the calling class (starting_cls = super_cls whenever
   super_obj is a class), CPython the MRO of the class the method was called on.  Diamond A; B(A); C(A); D(B, C), f defined
   by A, B, C; inside B.f called as D.f(): CPython continues with C.f, pytype with A.f. *)
Theorem super_classmethod_refuted :
  exists H attrs c cur name,
    wf_table H = true /\ no_dup_bases H = true /\ In cur (mro_of (table_mros (mros_c H)) c) /\
    super_py true H attrs (SCls c) cur name = Some 1 /\ super_c H attrs (SCls c) cur name = Some 3.
Proof.
  exists [[]; [0]; [1]; [1]; [2; 3]], [[]; [7]; [7]; [7]; []], 4, 2, 7. vm_compute. repeat split; auto.
Qed.
Print Assumptions super_classmethod_refuted.

(* ... it holds when the classmethod is called on the calling class itself *)
Theorem super_classmethod_same_class_partial : forall (H attrs : list (list nat)) (cur name : nat),
  wf_table H = true -> super_py true H attrs (SCls cur) cur name = super_c H attrs (SCls cur) cur name.
Proof. intros. apply super_agree_lemma; auto. Qed.
Print Assumptions super_classmethod_same_class_partial.

(* instance attributes *)

(* The instance dictionary left by the chain of __init__ methods (own stores before / after / without a super().__init__()
   call, per class) is the same list of stores in the same order. *)
Theorem instance_dict_agree : forall (inits : list (nat * list nat)) (mro : list nat) (n : nat),
  NoDup mro -> inst_dict_py inits mro n = inst_dict_c inits mro n.
Proof. exact inst_dict_agree_lemma. Qed.
Print Assumptions instance_dict_agree.

(* `C<c>().name`: __getattribute__ hook, instance dictionary, class MRO, __getattr__ hook -- same answer, same source. *)
Theorem read_instance_agree_with_dupcheck :
  forall (H attrs hooks : list (list nat)) (inits : list (nat * list nat)) (c name : nat),
  wf_table H = true -> read_inst_py true H attrs hooks inits c name = read_inst_c H attrs hooks inits c name.
Proof. intros. apply read_inst_agree_lemma; auto. Qed.
Print Assumptions read_instance_agree_with_dupcheck.

Theorem read_instance_agree_partial :
  forall (dupcheck : bool) (H attrs hooks : list (list nat)) (inits : list (nat * list nat)) (c name : nat),
  wf_table H = true -> no_dup_bases H = true ->
  read_inst_py dupcheck H attrs hooks inits c name = read_inst_c H attrs hooks inits c name.
Proof. intros. apply read_inst_agree_lemma; auto using orb_true_intro. Qed.
Print Assumptions read_instance_agree_partial.

(* When every __init__ calls super().__init__() first and stores afterwards, the value read back from the instance is the
   one stored by the FIRST class in MRO order whose __init__ stores the name (in both). *)
Theorem instance_attr_first_in_mro : forall (inits : list (nat * list nat)) (mro : list nat) (n name : nat),
  NoDup mro -> (forall c, In c mro -> c < n) -> all_post inits mro ->
  inst_get (inst_dict_py inits mro n) name = find (stores_name inits name) mro /\
  inst_get (inst_dict_c inits mro n) name = find (stores_name inits name) mro.
Proof.
  intros inits mro n name Hn Hlt Hp.
  destruct (inst_dict_post_lemma inits mro n Hn Hlt Hp) as [Ec Ep].
  rewrite Ec, Ep. split; apply inst_get_stores_post.
Qed.
Print Assumptions instance_attr_first_in_mro.

(* Generic[...] / parameterised bases in compute_mro *)

(* What is compared: the classes (base_cls) of the entries of the MRO pytype computes -- get_mro_bases, identity-based
   duplicate check, renaming parameterised class -> base_cls, MROMerge, base2cls -- against the __mro__ CPython computes
   from the bases that remain after typing's __mro_entries__ (A[...] -> A; Generic[...] -> Generic, or nothing if a later
   base is an alias).  First: the renaming is transparent -- pytype's result is exactly CPython's linearisation of the
   class statement AS get_mro_bases READS IT, for every table in which no statement names the same class twice. *)
Theorem generic_renaming_preserves_linearisation : forall G : list (list gref),
  gwf_table G = true -> no_dup_bases (map py_resolve G) = true ->
  gproject (gmros_py G) = gmros_c_py_reading G.
Proof. exact generic_rename_lemma. Qed.
Print Assumptions generic_renaming_preserves_linearisation.

(* hence agreement with CPython whenever the two readings of the statements lead CPython to the same classes
   (monitored on every generated table), in particular when they are literally the same lists of distinct classes *)
Theorem generic_agree_partial : forall G : list (list gref),
  gwf_table G = true -> no_dup_bases (map py_resolve G) = true -> readings_agree G ->
  gproject (gmros_py G) = gmros_c G.
Proof. exact generic_agree_partial_lemma. Qed.
Print Assumptions generic_agree_partial.

Theorem generic_agree_same_reading : forall G : list (list gref),
  gwf_table G = true -> same_reading_table G = true -> gproject (gmros_py G) = gmros_c G.
Proof.
  intros G Hw Hs.
  assert (Hr : forall w, In w G -> py_resolve w = c_resolve w /\ check_duplicates (c_resolve w) = true).
  { intros w Hi. unfold same_reading_table in Hs. rewrite forallb_forall in Hs.
    apply Hs, andb_true_iff in Hi. destruct Hi as [H1 H2]. split; [apply list_eqb_eq; exact H1 | exact H2]. }
  assert (Hmap : map py_resolve G = map c_resolve G) by (apply map_ext_in; intros w Hi; apply Hr, Hi).
  apply generic_agree_partial_lemma; auto.
  - rewrite Hmap. apply forallb_forall. intros bs Hb.
    apply in_map_iff in Hb. destruct Hb as [w [<- Hi]]. apply Hr, Hi.
  - unfold readings_agree, gmros_c_py_reading, gmros_c. rewrite Hmap. reflexivity.
Qed.
Print Assumptions generic_agree_same_reading.

(* The full statement is REFUTED twice.  (1) `class Y(X[T], Bp, Generic[T])` with X(A[T], Bp): typing keeps Generic as a
   base, which contradicts X's MRO -> TypeError; get_mro_bases drops every Generic once a user generic is present. *)
Theorem generic_dropped_refuted :
  exists G, gwf_table G = true /\ no_dup_bases (map py_resolve G) = true /\
            table_error (gproject (gmros_py G)) = None /\ table_error (gmros_c G) = Some 5.
Proof. exists gen_witness. exact generic_dropped_refuted_lemma. Qed.
Print Assumptions generic_dropped_refuted.

(* (2) `class E(A[int], A[int])`: two parameterised class objects pass the identity-based duplicate check and are merged
   into one by the renaming; CPython: TypeError duplicate base class A. *)
Theorem generic_alias_duplicate_refuted :
  exists G, gwf_table G = true /\
            table_error (gproject (gmros_py G)) = None /\ table_error (gmros_c G) = Some 3.
Proof. exists alias_dup_witness. exact alias_duplicate_refuted_lemma. Qed.
Print Assumptions generic_alias_duplicate_refuted.

(* non-vacuity for Mro/Attr.v *)

(* diamond object; P; Q(P); R(P); S(Q, R), name 7 defined by P, Q, R: super() inside Q on an S instance finds R (the
   sibling), on a Q instance finds P; the cooperative chain on S runs Q, R, P. *)
Definition dia : list (list nat) := [[]; [0]; [1]; [1]; [2; 3]].
Definition dia_attrs : list (list nat) := [[]; [7]; [7]; [7]; []].
Example dia_super :
  wf_table dia = true /\ NoDup (mro_of (table_mros (mros_c dia)) 4) /\
  super_c dia dia_attrs (SInst 4) 2 7 = Some 3 /\ super_py true dia dia_attrs (SInst 4) 2 7 = Some 3 /\
  super_c dia dia_attrs (SInst 2) 2 7 = Some 1 /\
  super_chain_py dia_attrs (mro_of (table_mros (mros_c dia)) 4) 7 = [2; 3; 1].
Proof. vm_compute. repeat split; try reflexivity. apply check_duplicates_NoDup. reflexivity. Qed.

(* __init__: P stores x (kind 2), Q stores x (kind 2), R stores x,y (kind 1: stores first): S().x comes from Q, S().y
   from R; with a __getattr__ in P a missing name is computed by P's hook *)
Definition dia_inits : list (nat * list nat) := [(3, []); (2, [5]); (2, [5]); (1, [5; 6]); (0, [])].
Example dia_instance :
  read_inst_c dia dia_attrs [[]; [1]; []; []; []] dia_inits 4 5 = AInst 2 /\
  read_inst_py true dia dia_attrs [[]; [1]; []; []; []] dia_inits 4 6 = AInst 3 /\
  read_inst_c dia dia_attrs [[]; [1]; []; []; []] dia_inits 4 7 = ACls 2 /\
  read_inst_c dia dia_attrs [[]; [1]; []; []; []] dia_inits 4 9 = AHook 1 1.
Proof. vm_compute. repeat split; reflexivity. Qed.
Definition dia_inits_post : list (nat * list nat) := [(0, []); (2, [5]); (2, [5]); (2, [5; 6]); (0, [])].
Example dia_all_post : all_post dia_inits_post [4; 2; 3; 1; 0] /\
  find (stores_name dia_inits_post 6) [4; 2; 3; 1; 0] = Some 3.
Proof. split; [|reflexivity]. intros c [<-|[<-|[<-|[<-|[<-|[]]]]]]; vm_compute; auto. Qed.

(* Generic: object; Generic; A(Generic[T]); B(Generic[T], A[T]); C(A[int]); D(C, B[int]): same reading, created alike *)
Definition gen_ok : list (list gref) := [[]; [(0, 0)]; [(1, 1)]; [(1, 1); (2, 1)]; [(2, 2)]; [(4, 0); (3, 2)]].
Example gen_ok_result :
  gwf_table gen_ok = true /\ same_reading_table gen_ok = true /\
  gmros_c gen_ok = TableOk [[0]; [1; 0]; [2; 1; 0]; [3; 2; 1; 0]; [4; 2; 1; 0]; [5; 4; 3; 2; 1; 0]] /\
  gmros_py gen_ok = GOk [[(0, 0)]; [(1, 0); (0, 0)]; [(2, 0); (1, 1); (0, 0)]; [(3, 0); (2, 1); (1, 1); (0, 0)];
                         [(4, 0); (2, 2); (1, 1); (0, 0)]; [(5, 0); (4, 0); (3, 2); (2, 1); (1, 1); (0, 0)]].
Proof. vm_compute. repeat split; reflexivity. Qed.
(* the usual spelling `class C(A[T], Generic[T])`: different readings ([A] vs [A; Generic]), same classes created *)
Definition gen_trailing : list (list gref) := [[]; [(0, 0)]; [(1, 1)]; [(2, 1); (1, 1)]].
Example gen_trailing_readings :
  same_reading_table gen_trailing = false /\ gmros_c_py_reading gen_trailing = gmros_c gen_trailing.
Proof. vm_compute. split; reflexivity. Qed.
