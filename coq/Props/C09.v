(* C09 — CFG reachability answers equal true graph reachability at all times.
   The stated theorems, each followed by Print Assumptions, and non-vacuity examples with the lemmas about
   their histories; the lemmas the theorems rest on are in Typegraph/. *)
From Coq Require Import List NArith Arith Bool Relations Lia.
From PV Require Import Typegraph.Reach Typegraph.ReachProofs Typegraph.Prune Typegraph.PruneProofs.
From PV Require Import Typegraph.Entry Typegraph.EntryProofs.
Import ListNotations.

(* For every well-formed insertion history h (any length, any number of 64-bit buckets, self edges,
   duplicate edges, any order) and all existing nodes a b: the program reports b reachable from a
   exactly when a directed path a ->* b exists among the edges inserted so far. *)
Theorem reach_correct : forall (h : list op) (a b : nat),
  wf_hist h = true -> a < nodes (run h) -> b < nodes (run h) ->
  (is_reachable (run h) a b = true <->
   clos_refl_trans nat (fun x y => In (x, y) (edges h)) a b).
Proof. exact reach_correct_lemma. Qed.
Print Assumptions reach_correct.

(* every node reaches itself *)
Theorem reach_refl : forall (h : list op) (a : nat),
  wf_hist h = true -> a < nodes (run h) -> is_reachable (run h) a a = true.
Proof. intros h a Hwf Ha. apply reach_correct; auto. apply rt_refl. Qed.
Print Assumptions reach_refl.

(* the matrix stays rectangular and every index the C++ reads is in range *)
Theorem rows_wf : forall (h : list op),
  wf_hist h = true ->
  let r := reach (run h) in
  length (rows r) = num r /\ size r = (num r + 63) / 64 /\
  (forall i, i < num r -> length (nth i (rows r) []) = size r) /\
  (forall j, j < num r -> j / 64 < size r).
Proof.
  intros h Hwf r. destruct (run_Inv h Hwf) as [[H1 H2 H3 _ _ _ _] _].
  subst r. repeat split; auto. intros j Hj. rewrite H1. apply bucket_lt, Hj.
Qed.
Print Assumptions rows_wf.

(* The model's words are unbounded N; every word of every row stays below 2^64 for every history (well-formed
   or not), so the unbounded reading never leaves the int64 machine word of reachable.cc. *)
Theorem words_bounded : forall (h : list op),
  Forall (Forall (fun w => (w < 2 ^ 64)%N)) (rows (reach (run h))).
Proof. intro h. apply fold_step_ok. constructor. Qed.
Print Assumptions words_bounded.

(* Non-vacuity: a 130-node chain (three buckets) closed into a cycle by a late back edge, with a
   self edge and a duplicate edge; the hypotheses hold and the answers are the expected ones. *)
Definition chain130 : list op :=
  repeat NewNode 130 ++ map (fun i => Connect i (S i)) (seq 0 129)
  ++ [Connect 5 5; Connect 3 4].
Example chain_wf : wf_hist chain130 = true /\ nodes (run chain130) = 130.
Proof. split; [reflexivity|]. rewrite nodes_run. reflexivity. Qed.

Lemma chain130_edges : edges chain130 = map (fun i => (i, S i)) (seq 0 129) ++ [(5, 5); (3, 4)].
Proof. reflexivity. Qed.

Lemma chain130_paths a b : b <= 129 -> (rtc (edges chain130) a b <-> a <= b).
Proof.
  rewrite chain130_edges. apply rtc_chain_order.
  intros x y [[= <- <-]|[[= <- <-]|[]]]; [apply le_n|apply Nat.le_succ_diag_r].
Qed.

Lemma eq_leb_of_iff (c : bool) a b : (c = true <-> a <= b) -> c = (a <=? b).
Proof.
  intro H. destruct (Nat.leb_spec a b) as [L|L]; [apply H, L|].
  apply not_true_is_false. intro T. apply H in T. exact (Nat.lt_irrefl _ (Nat.lt_le_trans _ _ _ L T)).
Qed.

(* no edge of the chain goes down, so before the back edge reachability is the order of the nodes *)
Lemma chain130_reach a b : a < 130 -> b < 130 -> is_reachable (run chain130) a b = (a <=? b).
Proof.
  intros Ha Hb.
  assert (R : is_reachable (run chain130) a b = true <-> rtc (edges chain130) a b).
  { apply reach_correct; [apply chain_wf| |]; rewrite (proj2 chain_wf); assumption. }
  apply eq_leb_of_iff, (iff_trans R), chain130_paths, Nat.lt_succ_r, Hb.
Qed.

Example chain_before_cycle :
  is_reachable (run chain130) 0 129 = true /\ is_reachable (run chain130) 129 0 = false /\
  is_reachable (run chain130) 64 63 = false /\ is_reachable (run chain130) 63 64 = true.
Proof.
  rewrite (chain130_reach 0 129), (chain130_reach 129 0), (chain130_reach 64 63), (chain130_reach 63 64) by lia.
  repeat split; reflexivity.
Qed.

Lemma chain130_closed_wf :
  wf_hist (chain130 ++ [Connect 129 0]) = true /\ nodes (run (chain130 ++ [Connect 129 0])) = 130.
Proof. split; [reflexivity|]. rewrite nodes_run. reflexivity. Qed.

(* with the back edge every node reaches every other: up to 129, back to 0, up again *)
Lemma chain130_closed_path a b : a <= 129 -> b <= 129 -> rtc (edges (chain130 ++ [Connect 129 0])) a b.
Proof.
  intros Ha Hb. rewrite edges_app.
  assert (Hup : forall x y, x <= y <= 129 -> rtc (edges chain130 ++ [(129, 0)]) x y).
  { intros x y H. apply (rtc_mono (edges chain130)); [apply incl_appl, incl_refl|apply chain130_paths; apply H]. }
  apply rt_trans with 129; [apply Hup; lia|]. apply rt_trans with 0; [|apply Hup; lia].
  apply rt_step, in_or_app. right. left. reflexivity.
Qed.

Lemma chain130_closed_reach a b : a <= 129 -> b <= 129 ->
  is_reachable (run (chain130 ++ [Connect 129 0])) a b = true.
Proof.
  intros Ha Hb. apply reach_correct; [apply chain130_closed_wf| | |apply chain130_closed_path; assumption];
    rewrite (proj2 chain130_closed_wf); apply Nat.lt_succ_r; assumption.
Qed.

Example chain_closed :
  is_reachable (run (chain130 ++ [Connect 129 0])) 129 0 = true /\
  is_reachable (run (chain130 ++ [Connect 129 0])) 128 64 = true.
Proof. split; apply chain130_closed_reach; lia. Qed.

(* The Python-visible reachability surface (cfg.cc).
   Histories are lists of Python-level calls (Prune.pyop): program.NewCFGNode, node.ConnectNew, node.ConnectTo,
   program.NewVariable, var.AddBinding, binding.AddOrigin, var.PasteBinding, var.PasteVariable,
   var.AssignToNewVariable.  py_wf: every call names existing nodes / variables / bindings (all the API can
   express) and Paste* never pastes a variable into itself. *)

(* program.is_reachable(src, dst) <-> a directed path src ->* dst among the edges inserted by ConnectTo and
   ConnectNew (ConnectNew a = NewCFGNode; a.ConnectTo(new)), argument order as exposed by cfg.cc. *)
Theorem py_reach_correct : forall (d : nat) (h : list pyop) (a b : nat),
  py_wf d h = true -> a < nodes (ps_prog (py_run d h)) -> b < nodes (ps_prog (py_run d h)) ->
  (py_is_reachable (py_run d h) a b = true <->
   clos_refl_trans nat (fun x y => In (x, y) (py_edges h)) a b).
Proof. intros d h a b Hwf. apply is_reachable_rtc, py_run_PInv, Hwf. Qed.
Print Assumptions py_reach_correct.

(* Variable::Prune(viewpoint = n) (Python: var.Bindings(n)) terminates within the model's fuel, returns no
   binding twice, and returns exactly the reaching definitions: the bindings b of v that have an origin node m
   with a path m -> ... -> n on which no node after m (n included when m <> n) carries an origin of any binding
   of v.  This covers both branches of Prune (single-binding shortcut through the bit matrix, general walk). *)
Theorem prune_reaching_definitions : forall (d : nat) (h : list pyop) (v n : nat),
  py_wf d h = true -> n < nodes (ps_prog (py_run d h)) ->
  exists r, prune (py_run d h) v (Some n) = Some r /\ NoDup r /\
            forall b, In b r <-> reaching_def (py_edges h) (py_run d h) v b n.
Proof. intros d h v n Hwf. apply prune_correct_lemma, py_run_PInv, Hwf. Qed.
Print Assumptions prune_reaching_definitions.

(* the general backward walk alone (the code after the shortcut), for variables of any size *)
Theorem prune_walk_reaching_definitions : forall (d : nat) (h : list pyop) (v n : nat),
  py_wf d h = true -> n < nodes (ps_prog (py_run d h)) ->
  exists r, prune_general (py_run d h) v n = Some r /\ NoDup r /\
            forall b, In b r <-> reaching_def (py_edges h) (py_run d h) v b n.
Proof. intros d h v n Hwf. apply prune_general_correct_lemma, py_run_PInv, Hwf. Qed.
Print Assumptions prune_walk_reaching_definitions.

(* the bindings_.size() == 1 shortcut (bit matrix) returns the very list the
   general walk over incoming_ would have returned: the two can never disagree *)
Theorem prune_shortcut_agrees : forall (d : nat) (h : list pyop) (v n : nat),
  py_wf d h = true -> n < nodes (ps_prog (py_run d h)) ->
  length (pv_bindings (get_var (py_run d h) v)) = 1 ->
  prune (py_run d h) v (Some n) = prune_general (py_run d h) v n.
Proof. intros d h v n Hwf. apply prune_shortcut_lemma with (E := py_edges h), py_run_PInv, Hwf. Qed.
Print Assumptions prune_shortcut_agrees.

(* var.Bindings(None): every binding, creation order *)
Theorem prune_none_all : forall (s : pstate) (v : nat), prune s v None = Some (all_bindings (get_var s v)).
Proof. reflexivity. Qed.
Print Assumptions prune_none_all.

(* Variable::Filter does not call Prune: it is the solver (Binding::IsVisible = Solver::Solve({b}, n), C07's
   subject, the argument `vis` here) applied to every binding, except that a non-strict call on a single-binding
   variable returns that binding without consulting the CFG or the solver at all. *)
Theorem filter_strict_is_solver : forall vis s v n,
  filter_model vis s v n true = filter (fun b => vis b n) (all_bindings (get_var s v)).
Proof. intros vis s v n. apply filter_ext. reflexivity. Qed.
Print Assumptions filter_strict_is_solver.

Theorem filter_nonstrict_multi_is_solver : forall vis s v n, length (pv_bindings (get_var s v)) <> 1 ->
  filter_model vis s v n false = filter (fun b => vis b n) (all_bindings (get_var s v)).
Proof.
  intros vis s v n H. apply filter_ext. intro b. apply Nat.eqb_neq in H. rewrite H. reflexivity.
Qed.
Print Assumptions filter_nonstrict_multi_is_solver.

Theorem filter_nonstrict_single_unconditional : forall vis s v n, length (pv_bindings (get_var s v)) = 1 ->
  filter_model vis s v n false = all_bindings (get_var s v).
Proof.
  intros vis s v n H. unfold filter_model. rewrite H. cbn [negb Nat.eqb andb orb].
  induction (all_bindings (get_var s v)) as [|b t IH]; cbn [filter]; [reflexivity|]. rewrite IH. reflexivity.
Qed.
Print Assumptions filter_nonstrict_single_unconditional.

(* "non-strict Filter returns only CFG-visible bindings (a subset of Prune)" is refuted: a binding whose only
   origin cannot reach the viewpoint is pruned by Bindings(n) but returned by Filter(n, strict=False). *)
Definition h_unreachable : list pyop := [PNewCFGNode; PNewCFGNode; PNewVariable; PAddBinding 0 1 (Some 1)].
Theorem filter_nonstrict_subset_of_prune_refuted :
  exists h v n, py_wf 0 h = true /\ n < nodes (ps_prog (py_run 0 h)) /\
    prune (py_run 0 h) v (Some n) = Some [] /\
    forall vis, filter_model vis (py_run 0 h) v n false = [0].
Proof. exists h_unreachable, 0, 0. vm_compute. repeat split; auto. Qed.
Print Assumptions filter_nonstrict_subset_of_prune_refuted.

(* Non-vacuity: entry 0 -> {1, 2} -> 3 (join) -> 4 -> 3 (loop) and 3 -> 5; x assigned at 0 (d1), at 1 (d2), in the
   loop body 4 (d3).  At 2 only the entry definition arrives, at the join all three, at 1 only its own. *)
Definition h_loop : list pyop :=
  [PNewCFGNode; PConnectNew 0; PConnectNew 0; PConnectNew 1; PConnectTo 2 3; PConnectNew 3; PConnectTo 4 3;
   PConnectNew 3; PNewVariable;
   PAddBinding 0 1 (Some 0); PAddBinding 0 2 (Some 1); PAddBinding 0 3 (Some 4)].
Example loop_wf : py_wf 0 h_loop = true /\ nodes (ps_prog (py_run 0 h_loop)) = 6.
Proof. vm_compute. split; reflexivity. Qed.
Example loop_prune :
  prune (py_run 0 h_loop) 0 (Some 2) = Some [0] /\ prune (py_run 0 h_loop) 0 (Some 1) = Some [1] /\
  prune (py_run 0 h_loop) 0 (Some 3) = Some [2; 0; 1] /\ prune (py_run 0 h_loop) 0 (Some 5) = Some [2; 0; 1] /\
  prune (py_run 0 h_loop) 0 (Some 4) = Some [2].
Proof. vm_compute. repeat split; reflexivity. Qed.
(* a single-binding variable across three buckets: the shortcut's hypotheses hold and it answers both ways *)
Definition h_single : list pyop :=
  PNewCFGNode :: map PConnectNew (seq 0 129) ++ [PNewVariable; PAddBinding 0 1 (Some 64)].
(* The variable table and the edge list are evaluated; what the bit matrix answers follows from py_reach_correct. *)
Lemma single_var : get_var (py_run 0 h_single) 0 = mkPV [mkPB 0 1 [64]] [(64, [0])].
Proof. vm_compute. reflexivity. Qed.

Example single_wf : py_wf 0 h_single = true /\ length (pv_bindings (get_var (py_run 0 h_single) 0)) = 1.
Proof. split; [vm_compute; reflexivity|]. rewrite single_var. reflexivity. Qed.

Lemma single_edges : py_edges h_single = map (fun i => (i, S i)) (seq 0 129).
Proof. reflexivity. Qed.

Lemma single_nodes : nodes (ps_prog (py_run 0 h_single)) = 130.
Proof. rewrite py_run_nodes by apply single_wf. reflexivity. Qed.

Lemma single_reach n : n < 130 -> py_is_reachable (py_run 0 h_single) 64 n = (64 <=? n).
Proof.
  intro Hn.
  assert (R : py_is_reachable (py_run 0 h_single) 64 n = true <-> rtc (py_edges h_single) 64 n).
  { apply py_reach_correct; [apply single_wf| |]; rewrite single_nodes; [lia|exact Hn]. }
  rewrite single_edges in R.
  assert (P : rtc (map (fun i => (i, S i)) (seq 0 129)) 64 n <-> 64 <= n).
  { rewrite <- (app_nil_r (map _ _)). apply rtc_chain_order; [intros x y []|apply Nat.lt_succ_r, Hn]. }
  exact (eq_leb_of_iff _ _ _ (iff_trans R P)).
Qed.

(* the one binding sits at node 64 of a chain: the shortcut asks whether 64 reaches the viewpoint *)
Lemma single_prune_at n : n < 130 ->
  prune (py_run 0 h_single) 0 (Some n) = if 64 <=? n then Some [0] else Some [].
Proof.
  intro Hn. unfold prune. rewrite single_var. cbn [pv_bindings pv_nodemap length Nat.eqb existsb fst].
  rewrite single_reach, orb_false_r by exact Hn. reflexivity.
Qed.

Example single_prune :
  prune (py_run 0 h_single) 0 (Some 129) = Some [0] /\ prune (py_run 0 h_single) 0 (Some 63) = Some [] /\
  prune_general (py_run 0 h_single) 0 129 = Some [0].
Proof.
  rewrite <- prune_shortcut_agrees, (single_prune_at 129), (single_prune_at 63)
    by (try apply single_wf; rewrite ?single_nodes; lia).
  repeat split; reflexivity.
Qed.

(* Program state outside the graph: the entrypoint attribute.
   Extended histories (Entry.pyop_e) interleave the calls above with `program.entrypoint = node | None`
   (cfg.cc ProgramSetAttro -> Program::set_entrypoint).  The attribute is part of the program's state but
   Program::is_reachable reads only the bit matrix, so: *)

(* the graph-level state after an extended history is the state after its graph-building calls alone *)
Theorem pe_run_core : forall (d : nat) (h : list pyop_e), pe_core (pe_run d h) = py_run d (core_ops h).
Proof. intros d h. apply pe_run_from_core. Qed.
Print Assumptions pe_run_core.

(* is_reachable equals graph reachability over the inserted edges whatever was written to the attribute *)
Theorem pe_reach_correct : forall (d : nat) (h : list pyop_e) (a b : nat),
  pe_wf d h = true ->
  a < nodes (ps_prog (pe_core (pe_run d h))) -> b < nodes (ps_prog (pe_core (pe_run d h))) ->
  (pe_is_reachable (pe_run d h) a b = true <->
   clos_refl_trans nat (fun x y => In (x, y) (py_edges (core_ops h))) a b).
Proof.
  intros d h a b Hwf. unfold pe_is_reachable. rewrite pe_run_core. apply py_reach_correct, pe_wf_core, Hwf.
Qed.
Print Assumptions pe_reach_correct.

(* histories that differ only in entrypoint writes answer every reachability query identically *)
Theorem entrypoint_irrelevant : forall (d : nat) (h1 h2 : list pyop_e) (a b : nat),
  core_ops h1 = core_ops h2 -> (pe_is_reachable (pe_run d h1) a b) = (pe_is_reachable (pe_run d h2) a b).
Proof. intros d h1 h2 a b E. unfold pe_is_reachable. rewrite !pe_run_core, E. reflexivity. Qed.
Print Assumptions entrypoint_irrelevant.

(* reading the attribute back gives the last value written (None before any write) *)
Theorem entrypoint_last_write : forall (d : nat) (h : list pyop_e), pe_entry (pe_run d h) = last_entry None h.
Proof. intros d h. apply pe_run_from_entry. Qed.
Print Assumptions entrypoint_last_write.

(* Non-vacuity: a 3-cycle through the entrypoint; the node is reachable from the others although it is the entrypoint. *)
Definition entry_cycle : list pyop_e :=
  [ECore PNewCFGNode; ESetEntry (Some 0); ECore (PConnectNew 0); ECore (PConnectNew 1); ECore (PConnectTo 2 0);
   ESetEntry None; ESetEntry (Some 0)].
Example entry_cycle_ok :
  pe_wf 0 entry_cycle = true /\ pe_entry (pe_run 0 entry_cycle) = Some 0 /\
  pe_is_reachable (pe_run 0 entry_cycle) 2 0 = true /\ pe_is_reachable (pe_run 0 entry_cycle) 1 0 = true.
Proof. vm_compute. repeat split; reflexivity. Qed.
