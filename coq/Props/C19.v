(* C19 — the whole-project build plan orders every analysis after the stubs it reads.
   The stated theorems, each followed by Print Assumptions, with refutations of the weakened statements and
   non-vacuity examples on concrete inputs; the lemmas are in Plan/.
   Model: Plan/Model.v (pytype/tools/analyze_project/pytype_runner.py as written).  [req] is
   self.filenames, [ss] is sorted_sources, [setup_build req ss = Some s] means setup_build returned
   (None = KeyError) having written the statements [plan s] and the imports files [store s]. *)
From Coq Require Import List NArith Bool Arith Relations.
From PV Require Import Plan.Model Plan.Proofs Plan.StmtProofs Plan.CoverProofs Plan.GraphProofs.
From PV Require Import Plan.Text Plan.ReaderProofs Plan.CommandProofs Plan.NamesProofs.
Import ListNotations.

(* every requested file that is analysed at all is checked exactly once *)
(* get_module_action req m = CHECK requires that m's file is requested and m is not a Builtin/System module
   outside pytype_extensions (check_action below).  Any sorted_sources in which each file occurs once: any size, any
   cycles, any requested subset, whatever the early `files >= filenames` skip does. *)
Theorem checked_once : forall req ss s m,
  setup_build req ss = Some s -> NoDup (map m_full (members ss)) ->
  In m (members ss) -> get_module_action req m = CHECK ->
  checks_of (m_full m) (plan s) = 1.
Proof. exact checked_once_lemma. Qed.
Print Assumptions checked_once.

(* ... and nothing else is: a CHECK statement is for a requested file and is never a first pass *)
Theorem check_only_requested : forall req ss s t,
  setup_build req ss = Some s -> In t (plan s) -> s_action t = CHECK ->
  In (s_input t) req /\ exists k, s_out t = PPyi k false.
Proof.
  intros req ss s t H. revert t.
  apply (run_inv (fun s => forall t, In t (plan s) -> s_action t = CHECK ->
                           In (s_input t) req /\ exists k, s_out t = PPyi k false) _ _ _ _ H); [|intros t []].
  intros i s1 s2 Hi Hp E.
  destruct (setup_step_cases _ _ _ _ E) as [_ | _ Hd | im ds _ Hnd Hg Hdd]; auto.
  simpl. intros t Hin Hact. apply in_app_or in Hin. destruct Hin as [Hin|[<-|[]]]; auto.
  simpl in *. unfold item_out. destruct (yield_ok _ _ _ Hi) as [_ [Hf Hnf]].
  destruct (is_first (it_stage i)) eqn:Ef.
  - specialize (Hf eq_refl). rewrite Hact in Hf. discriminate.
  - split; [|eexists; reflexivity]. rewrite (Hnf eq_refl) in Hact. apply (check_action_lemma _ _ Hact).
Qed.
Print Assumptions check_only_requested.

(* imports maps *)
(* every entry of every imports map is the default stub or the declared output of a statement that
   is a transitive declared-dependency ancestor of the reader (no hypothesis on ss at all) *)
Theorem imports_entries_produced : forall req ss s,
  setup_build req ss = Some s ->
  forall t k p, In t (plan s) -> In (k, p) (s_imports t) ->
  p = PDefault \/ exists t', In t' (plan s) /\ s_out t' = p /\ clos_trans step (dep_edge (plan s)) t' t.
Proof. exact imports_entries_produced_lemma. Qed.
Print Assumptions imports_entries_produced.

(* completeness: every statement is the one written for some yielded item, and its map has an entry
   (keyed by _module_to_output_path) for each module the item was given as a dependency ... *)
Theorem imports_cover_deps : forall req ss s,
  setup_build req ss = Some s ->
  forall t, In t (plan s) -> exists i, In i (yield_sorted_modules req ss) /\ written_for t i.
Proof. intros req ss s H t Hin. destruct (plan_written _ _ _ H t Hin) as [i [Hi [Hw _]]]. exists i. auto. Qed.
Print Assumptions imports_cover_deps.

(* ... where a single-pass or first-pass item is given its group's direct deps, and a second-pass item
   the direct deps plus every member of its import cycle (the first-pass outputs feed the second pass) *)
Theorem item_deps : forall req ss i, In i (yield_sorted_modules req ss) ->
  exists g d, In (g, d) ss /\ In (it_mod i) g /\
  match it_stage i with
  | SECOND_PASS => it_deps i = d ++ g /\ length g <> 1
  | FIRST_PASS => it_deps i = d /\ length g <> 1
  | SINGLE_PASS => it_deps i = d /\ length g = 1
  end.
Proof.
  intros req ss i H. apply in_yield in H. destruct H as [[g d] [Hg Hi]]. exists g, d.
  destruct (in_yield_group _ _ _ _ Hi) as [Hm [Hd _]]. auto.
Qed.
Print Assumptions item_deps.

(* what a statement wrote is what its .imports file holds at the end, when module names are distinct
   (monitored hypothesis: the file is named after module.name) *)
Theorem imports_files_stable : forall req ss s,
  setup_build req ss = Some s -> NoDup (map m_name (members ss)) ->
  forall t, In t (plan s) -> store_get (s_impfile t) (store s) = Some (s_imports t).
Proof.
  intros req ss s H Hn. unfold setup_build in H.
  apply (run_store req _ _ _ H); simpl; try tauto. apply (yield_labels_nodup m_name), Hn.
Qed.
Print Assumptions imports_files_stable.

(* schedules *)
(* any parallel schedule (start/finish times) in which a statement starts only after the producers of
   its declared inputs have finished: every non-default stub a statement reads has been produced *)
Theorem any_schedule_safe : forall req ss s (start finish : step -> nat),
  setup_build req ss = Some s -> respects (plan s) start finish ->
  forall t k p, In t (plan s) -> In (k, p) (s_imports t) -> p <> PDefault ->
  exists t', In t' (plan s) /\ s_out t' = p /\ finish t' <= start t.
Proof. exact any_schedule_safe_lemma. Qed.
Print Assumptions any_schedule_safe.

(* the same for every sequential order that puts declared dependencies first *)
Theorem any_linear_schedule_safe : forall req ss s sigma,
  setup_build req ss = Some s -> topological (plan s) sigma ->
  forall l1 t l2 k p, sigma = l1 ++ t :: l2 -> In t (plan s) -> In (k, p) (s_imports t) -> p <> PDefault ->
  exists t', In t' l1 /\ s_out t' = p.
Proof.
  intros req ss s sigma H Ht l1 t l2 k p Hs Hin He Hne.
  destruct (imports_entries_produced_lemma _ _ _ H _ _ _ Hin He) as [Hd | [t' [H1 [H2 H3]]]]; [congruence|].
  exists t'. split; auto. eapply anc_occurs_before; eauto.
Qed.
Print Assumptions any_linear_schedule_safe.

(* the plan is a DAG with unique outputs (monitored hypothesis: _module_to_output_path is injective on the
   modules, each occurring once) *)
Theorem outputs_unique : forall req ss s,
  setup_build req ss = Some s -> NoDup (map m_key (members ss)) -> NoDup (map s_out (plan s)).
Proof. exact outputs_unique_lemma. Qed.
Print Assumptions outputs_unique.

Theorem plan_acyclic : forall req ss s,
  setup_build req ss = Some s -> NoDup (map m_key (members ss)) ->
  forall t, ~ clos_trans step (dep_edge (plan s)) t t.
Proof.
  exact (fun req ss s H Hk => plan_acyclic_lemma req ss s H (outputs_unique_lemma req ss s H Hk)).
Qed.
Print Assumptions plan_acyclic.

(* the hypothesis of any_schedule_safe is satisfiable: the order of the file, sequentially or with
   unit-length jobs, is such a schedule *)
Theorem file_order_is_a_schedule : forall req ss s,
  setup_build req ss = Some s -> NoDup (map m_key (members ss)) ->
  respects (plan s) (file_rank (plan s)) (fun t => S (file_rank (plan s) t)) /\
  respects (plan s) (fun t => 2 * file_rank (plan s) t) (fun t => 2 * file_rank (plan s) t + 1).
Proof.
  exact (fun req ss s H Hk => file_order_respects_lemma req ss s H (outputs_unique_lemma req ss s H Hk)).
Qed.
Print Assumptions file_order_is_a_schedule.

(* well-formed sorted_sources never hit a missing dictionary key *)
Theorem no_keyerror : forall req ss, wf ss -> setup_build req ss <> None.
Proof. exact (fun req ss H => no_keyerror_lemma req ss (proj2 H)). Qed.
Print Assumptions no_keyerror.

(* names survive: escape_ninja_path then ninja's lexer *)
(* a path survives when it contains no newline, CR, '|' or NUL (space, colon, dollar and everything else
   do); a variable value when it contains no newline, CR or NUL *)
Theorem escape_roundtrip : forall s t rest,
  (forall c, In c s -> path_char c) -> path_terminator t ->
  lex_path (escape s ++ t :: rest) = LDone (lits s) (t :: rest).
Proof. exact escape_roundtrip_lemma. Qed.
Print Assumptions escape_roundtrip.

Theorem escape_roundtrip_value : forall s rest,
  (forall c, In c s -> value_char c) ->
  lex_value (escape s ++ c_nl :: rest) = LDone (lits s) rest.
Proof. exact escape_roundtrip_value_lemma. Qed.
Print Assumptions escape_roundtrip_value.

(* the token lists above are all-literal: the evaluated string does not depend on any variable *)
Theorem lits_evaluate_to_the_name : forall env s, eval_toks env (lits s) = s.
Proof. exact eval_lits. Qed.
Print Assumptions lits_evaluate_to_the_name.

(* `module = <module.name>` is written WITHOUT escaping (code as found): refuted for '$' ... *)
Theorem module_binding_roundtrip_refuted : exists name rest,
  (forall c, In c name -> value_char c) /\
  lex_value (name ++ c_nl :: rest) <> LDone (lits name) rest.
Proof. exists [97; 36; 98]%N, []. split; [intros c [<-|[<-|[<-|[]]]]; repeat split; discriminate | discriminate]. Qed.
Print Assumptions module_binding_roundtrip_refuted.

(* ... and holds for names without '$' *)
Theorem module_binding_roundtrip_partial : forall s rest,
  (forall c, In c s -> value_char c /\ c <> c_dollar) ->
  lex_value (s ++ c_nl :: rest) = LDone (lits s) rest.
Proof. exact raw_value_lemma. Qed.
Print Assumptions module_binding_roundtrip_partial.

(* the whole build statement as write_build_statement writes it (output, rule, input, `| deps`, the two
   indented bindings), read by the model of ninja's manifest parser: exactly the strings that went in.
   good_path = non-empty, no newline/CR/'|'/NUL; ident = rule name over [a-zA-Z0-9_.-];
   module_ok: with esc_mod = true (fixed tree) any value; with esc_mod = false (code as found) additionally
   no '$' and no leading space. *)
Theorem build_statement_roundtrip : forall esc_mod t rest,
  good_path (t_out t) -> good_path (t_input t) -> (forall d, In d (t_deps t) -> good_path d) ->
  ident (t_action t) -> good_value (t_imports t) -> module_ok esc_mod (t_module t) ->
  parse_build (render esc_mod t ++ rest) =
  Some (Parsed [lits (t_out t)] (t_action t) [lits (t_input t)] (map lits (t_deps t))
               [(kw_imports, lits (t_imports t)); (kw_module, lits (t_module t))], rest).
Proof. exact build_statement_roundtrip_lemma. Qed.
Print Assumptions build_statement_roundtrip.

(* without the restriction on the raw module name it is refuted: module "x$y" (file x$y.py) *)
Definition st_dollar : stmt :=
  Stmt [111]%N [99; 104; 101; 99; 107]%N [105]%N [] [109]%N [120; 36; 121]%N.   (* build o: check i / imports = m / module = x$y *)
Theorem build_statement_roundtrip_raw_module_refuted : exists t,
  good_path (t_out t) /\ good_path (t_input t) /\ ident (t_action t) /\ good_value (t_imports t) /\ good_value (t_module t) /\
  parse_build (render false t ++ []) <>
  Some (Parsed [lits (t_out t)] (t_action t) [lits (t_input t)] (map lits (t_deps t))
               [(kw_imports, lits (t_imports t)); (kw_module, lits (t_module t))], []).
Proof.
  exists st_dollar.
  split; [apply good_path_b; [discriminate | reflexivity]|].
  split; [apply good_path_b; [discriminate | reflexivity]|].
  split; [split; [discriminate | apply forallb_forall; reflexivity]|].
  split; [apply good_value_b; reflexivity|].
  split; [apply good_value_b; reflexivity|].
  vm_compute. discriminate.
Qed.
Print Assumptions build_statement_roundtrip_raw_module_refuted.

(* the two hypotheses are needed (findings on the unchanged code) *)
Definition mk (p t n : N) (k : kind) (f key : N) : module := Module p t n k f key false.
(* /p/d1/x.py and /p/d2/x.py, both requested, both named x -> one output path *)
Definition dup_ss : sources :=
  [([mk 1 2 3 Local 4 5], []); ([mk 6 7 8 Local 9 10], []);
   ([mk 11 12 13 Direct 14 15], [mk 1 2 3 Local 4 5]);
   ([mk 16 12 13 Direct 17 15], [mk 6 7 8 Local 9 10])].
Definition dup_st : st := match setup_build [14; 17]%N dup_ss with Some s => s | None => st0 end.
Theorem outputs_unique_without_injectivity_refuted : exists req ss s t1 t2,
  wf ss /\ setup_build req ss = Some s /\
  nth_error (plan s) 2 = Some t1 /\ nth_error (plan s) 3 = Some t2 /\ s_out t1 = s_out t2.
Proof.
  exists [14; 17]%N, dup_ss, dup_st. do 2 eexists.
  split; [apply wfb_wf; reflexivity|].
  split; [vm_compute; reflexivity|]. split; [vm_compute; reflexivity|]. split; [vm_compute; reflexivity | reflexivity].
Qed.
Print Assumptions outputs_unique_without_injectivity_refuted.

(* two requested scripts outside the pythonpath: importlab names both '' -> both write imports/.imports;
   output paths are distinct, yet the first statement's file ends up holding the second's map *)
Definition ovw_ss : sources :=
  [([mk 1 2 3 Local 4 5], []); ([mk 6 7 8 Local 9 10], []);
   ([mk 11 12 20 Direct 14 15], [mk 1 2 3 Local 4 5]);
   ([mk 11 16 20 Direct 17 18], [mk 6 7 8 Local 9 10])].
Definition ovw_st : st := match setup_build [14; 17]%N ovw_ss with Some s => s | None => st0 end.
Theorem imports_files_stable_without_distinct_names_refuted : exists req ss s t,
  wf ss /\ NoDup (map m_key (members ss)) /\ setup_build req ss = Some s /\ In t (plan s) /\
  store_get (s_impfile t) (store s) <> Some (s_imports t).
Proof.
  exists [14; 17]%N, ovw_ss, ovw_st. eexists.
  split; [apply wfb_wf; reflexivity|].
  split; [apply nodupN_NoDup; reflexivity|].
  split; [vm_compute; reflexivity|]. split; [vm_compute; right; right; left; reflexivity|]. vm_compute. discriminate.
Qed.
Print Assumptions imports_files_stable_without_distinct_names_refuted.

(* non-vacuity *)
(* a 3-cycle {a, b, sys} below d, a requested: first pass a-1 b-1 (sys: default), second pass a (CHECK),
   then the early skip drops b's second pass *)
Definition ex_d := mk 1 1 1 Local 1 1.
Definition ex_a := mk 1 2 2 Local 2 2.
Definition ex_b := mk 1 3 3 Local 3 3.
Definition ex_s := mk 9 4 4 System 4 4.
Definition ex_ss : sources := [([ex_d], []); ([ex_a; ex_b; ex_s], [ex_d])].
Example ex_wf : wfb ex_ss = true /\ nodupN (map m_key (members ex_ss)) = true /\
                nodupN (map m_name (members ex_ss)) = true.
Proof. vm_compute. repeat split; reflexivity. Qed.
Example ex_plan :
  option_map (fun s => map (fun t => (s_out t, s_action t, s_deps t, s_imports t)) (plan s))
             (setup_build [2%N] ex_ss) =
  Some [ (PPyi 1 false, INFER, [], []);
         (PPyi 2 true, INFER, [PPyi 1 false], [(1%N, PPyi 1 false)]);
         (PPyi 3 true, INFER, [PPyi 1 false], [(1%N, PPyi 1 false)]);
         (PPyi 2 false, CHECK, [PPyi 1 false; PPyi 2 true; PPyi 3 true],
          [(1%N, PPyi 1 false); (2%N, PPyi 2 true); (3%N, PPyi 3 true); (4%N, PDefault)]) ].
Proof. vm_compute. reflexivity. Qed.
Example ex_checked : get_module_action [2%N] ex_a = CHECK /\
  option_map (fun s => checks_of 2 (plan s)) (setup_build [2%N] ex_ss) = Some 1.
Proof. vm_compute. split; reflexivity. Qed.
(* everything requested: b's second pass is written and reads a's final stub *)
Example ex_plan_all :
  option_map (fun s => map (fun t => (s_out t, s_action t, s_deps t)) (plan s))
             (setup_build [1; 2; 3; 4]%N ex_ss) =
  Some [ (PPyi 1 false, CHECK, []);
         (PPyi 2 true, INFER, [PPyi 1 false]); (PPyi 3 true, INFER, [PPyi 1 false]);
         (PPyi 2 false, CHECK, [PPyi 1 false; PPyi 2 true; PPyi 3 true]);
         (PPyi 3 false, CHECK, [PPyi 1 false; PPyi 2 false; PPyi 3 true]) ].
Proof. vm_compute. reflexivity. Qed.
(* "a b:c$d" escaped, lexed as a path up to the ':' that follows an output *)
Example ex_escape :
  escape [97; 32; 98; 58; 99; 36; 100]%N = [97; 36; 32; 98; 36; 58; 99; 36; 36; 100]%N /\
  lex_path (escape [97; 32; 98; 58; 99; 36; 100]%N ++ [58; 32; 120]%N) =
  LDone (lits [97; 32; 98; 58; 99; 36; 100]%N) [58; 32; 120]%N.
Proof. vm_compute. split; reflexivity. Qed.
(* the lexer model does treat '|' and an unescaped '$x' the way ninja does *)
Example ex_lexer :
  lex_path [97; 124; 98; 10]%N = LDone [TLit 97] [124; 98; 10]%N /\
  lex_value [97; 36; 120; 45; 121; 36; 123; 122; 125; 10]%N = LDone [TLit 97; TVar [120; 45; 121]%N; TVar [122]%N] [].
Proof. vm_compute. split; reflexivity. Qed.
(* a statement with space, colon and dollar in every path, two dependencies, escaped module name *)
Example ex_statement :
  let t := Stmt [47; 111; 32; 36; 120; 58; 121]%N [105; 110; 102; 101; 114]%N [47; 112; 32; 113; 47; 97; 36; 98; 46; 112; 121]%N
                [[100; 32; 49]; [100; 58; 36; 50]]%N [47; 105; 32; 58; 36]%N [97; 36; 98]%N in
  parse_build (render true t ++ [120]%N) =
  Some (Parsed [lits (t_out t)] (t_action t) [lits (t_input t)] (map lits (t_deps t))
               [(kw_imports, lits (t_imports t)); (kw_module, lits (t_module t))], [120]%N).
Proof. vm_compute. reflexivity. Qed.

(* deps_from_import_graph: the wf hypothesis above is discharged for every well-formed import graph *)
(* Input: reversed(import_graph.deps_list()) as [(files of the node, [files of each dependency node])]; a node is
   one file or a collapsed import cycle; files are stub or source, of any kind.  wf_graph g :=
   graph_closed [] g (every file of every dependency node occurs in an EARLIER node - the order importlab's
   topological sort of the collapsed graph yields) /\ NoDup of the full paths of the source files. *)
Theorem deps_output_wf : forall g, wf_graph g -> wf (deps_from_import_graph g).
Proof. exact deps_output_wf_lemma. Qed.
Print Assumptions deps_output_wf.

(* characterisation: the members of the produced groups are exactly the source files of the graph, in order and
   with multiplicity - a file is in two groups iff the input lists it twice; stubs are in none *)
Theorem deps_members : forall g, graph_closed [] g ->
  members (deps_from_import_graph g) = graph_sources g.
Proof. exact deps_members_lemma. Qed.
Print Assumptions deps_members.

(* nothing is silently dropped: every source file of every node of the graph is in some group *)
Theorem deps_complete : forall g node deps f,
  graph_closed [] g -> In (node, deps) g -> In f node -> g_stub f = false ->
  In (g_mod f) (members (deps_from_import_graph g)).
Proof. exact deps_complete_lemma. Qed.
Print Assumptions deps_complete.

(* Builtin/System modules outside pytype_extensions never get CHECK or INFER, whatever was requested ... *)
Theorem sys_action : forall req m,
  is_sys (m_kind m) = true -> m_ext m = false -> get_module_action req m = GENERATE_DEFAULT.
Proof. exact sys_action_lemma. Qed.
Print Assumptions sys_action.

Theorem check_action : forall req m,
  get_module_action req m = CHECK -> In (m_full m) req /\ (is_sys (m_kind m) = false \/ m_ext m = true).
Proof. exact check_action_lemma. Qed.
Print Assumptions check_action.

(* ... and no build statement is ever written for one *)
Theorem sys_never_analysed : forall req ss s t,
  setup_build req ss = Some s -> In t (plan s) ->
  exists i, In i (yield_sorted_modules req ss) /\ written_for t i /\
            (is_sys (m_kind (it_mod i)) = false \/ m_ext (it_mod i) = true).
Proof.
  intros req ss s t H Hin. destruct (plan_written _ _ _ H t Hin) as [i [Hi [Hw Hnd]]].
  exists i. split; auto. split; auto.
  destruct (yield_ok _ _ _ Hi) as [Hk _]. rewrite Hnd in Hk.
  destruct (is_sys (m_kind (it_mod i))) eqn:Es; auto. destruct (m_ext (it_mod i)) eqn:Ee; auto.
  rewrite (sys_action_lemma req (it_mod i) Es Ee) in Hk. discriminate.
Qed.
Print Assumptions sys_never_analysed.

(* the composition setup_build . deps_from_import_graph, hypotheses discharged: it returns (no KeyError); every
   requested analysable source file of the graph gets exactly one CHECK statement; imports entries are produced
   by declared ancestors; every schedule respecting the declared dependencies is safe *)
Theorem composed_plan_correct : forall req g, wf_graph g ->
  exists s, setup_build req (deps_from_import_graph g) = Some s /\
  (forall node deps f, In (node, deps) g -> In f node -> g_stub f = false ->
     get_module_action req (g_mod f) = CHECK -> checks_of (m_full (g_mod f)) (plan s) = 1) /\
  (forall t k p, In t (plan s) -> In (k, p) (s_imports t) ->
     p = PDefault \/ exists t', In t' (plan s) /\ s_out t' = p /\ clos_trans step (dep_edge (plan s)) t' t) /\
  (forall start finish, respects (plan s) start finish ->
     forall t k p, In t (plan s) -> In (k, p) (s_imports t) -> p <> PDefault ->
     exists t', In t' (plan s) /\ s_out t' = p /\ finish t' <= start t).
Proof.
  intros req g Hg. pose proof (deps_output_wf_lemma g Hg) as Hwf.
  destruct (setup_build req (deps_from_import_graph g)) as [s|] eqn:E.
  - exists s. split; [reflexivity|]. split; [|split].
    + intros node deps f Hn Hf Hs Ha.
      apply (checked_once_lemma req _ s (g_mod f) E (proj1 Hwf)); auto.
      eapply deps_complete_lemma; eauto. exact (proj2 Hg).
    + intros t k p. apply (imports_entries_produced_lemma _ _ _ E).
    + intros start finish Hr. apply (any_schedule_safe_lemma _ _ _ _ _ E Hr).
  - exfalso. apply (no_keyerror_lemma req _ (proj2 Hwf)). exact E.
Qed.
Print Assumptions composed_plan_correct.

(* both halves of wf_graph are needed (importlab produces neither input; see the monitored hypothesis): *)
Definition gf (id : N) (stub : bool) (m : module) : gfile := GFile id stub m.
Definition ga := gf 1 false (mk 1 2 2 Local 2 2).
Definition gb := gf 2 false (mk 1 3 3 Local 3 3).
(* a dependency listed AFTER its user: the output is not in dependency order and setup_build raises KeyError *)
Theorem deps_output_wf_without_order_refuted : exists g,
  NoDup (map m_full (graph_sources g)) /\ ~ deps_closed [] (deps_from_import_graph g) /\
  setup_build [2%N] (deps_from_import_graph g) = None.
Proof.
  exists [([ga], [[gb]]); ([gb], [])]. split; [apply nodupN_NoDup; vm_compute; reflexivity|]. split.
  - vm_compute. intros [H _]. destruct (H _ (or_introl eq_refl)).
  - vm_compute. reflexivity.
Qed.
Print Assumptions deps_output_wf_without_order_refuted.

(* a source file listed in two nodes ends up in two groups and is checked twice (while another request is pending) *)
Theorem deps_file_listed_twice_refuted : exists g s,
  graph_closed [] g /\ setup_build [2; 3]%N (deps_from_import_graph g) = Some s /\ checks_of 2 (plan s) = 2.
Proof.
  exists [([ga], []); ([ga], []); ([gb], [])]. eexists.
  split; [simpl; tauto|]. split; [vm_compute; reflexivity | reflexivity].
Qed.
Print Assumptions deps_file_listed_twice_refuted.

(* non-vacuity: a System leaf, a stub that depends on a source, a 2-cycle containing a stub, and a requested
   source that reaches the first source only through the stub *)
Definition g_sys := gf 1 false (mk 9 1 1 System 1 1).
Definition g_src := gf 2 false (mk 1 2 2 Local 2 2).
Definition g_stub1 := gf 3 true (mk 1 3 3 Local 3 3).
Definition g_c1 := gf 4 false (mk 1 4 4 Local 4 4).
Definition g_c2 := gf 5 true (mk 1 5 5 Local 5 5).
Definition g_top := gf 6 false (mk 1 6 6 Direct 6 6).
Definition ex_graph : graph :=
  [([g_sys], []); ([g_src], [[g_sys]]); ([g_stub1], [[g_src]]); ([g_c1; g_c2], [[g_stub1]]);
   ([g_top], [[g_c1; g_c2]; [g_stub1]])].
Example ex_graph_wf : wf_graphb ex_graph = true.
Proof. vm_compute. reflexivity. Qed.
Example ex_graph_sources :
  map (fun gd => (map m_name (fst gd), map m_name (snd gd))) (deps_from_import_graph ex_graph) =
  [([1], []); ([2], [1]); ([4], [2]); ([6], [4; 2; 2])]%N.
Proof. vm_compute. reflexivity. Qed.

(* the *.imports files: PytypeRunner.write_imports then imports_map_loader (Plan/Text.v) *)
Local Open Scope N_scope.
(* Strings are lists of code points.  items_ok: every key is non-empty, does not start with a str.isspace()
   character and contains no ' ', "\n", "\r"; every value is non-empty, does not end with a str.isspace()
   character and contains no "\n", "\r".  Spaces, colons, dollars (and leading blanks) in VALUES survive. *)
Theorem imports_file_roundtrip : forall im : items,
  items_ok im = true -> read_from_file (write_imports im) = Some im.
Proof. exact imports_file_roundtrip_lemma. Qed.
Print Assumptions imports_file_roundtrip.

(* the values the plan writes - join(pyi_dir, key + '.pyi' [+ '-1']) and join(imports_dir, 'default.pyi') -
   always meet the value condition when the two directories and the keys contain no line break: any other
   character (space, colon, dollar, ...) in the output directory survives *)
Theorem plan_imports_roundtrip : forall pyi_dir imports_dir kstr (im : imports),
  clean pyi_dir = true -> clean imports_dir = true ->
  (forall k p, In (k, p) im -> key_ok (kstr k) = true) ->
  (forall k p k' f, In (k, p) im -> p = PPyi k' f -> clean (kstr k') = true) ->
  read_from_file (write_imports (render_imports pyi_dir imports_dir kstr im)) =
  Some (render_imports pyi_dir imports_dir kstr im).
Proof.
  intros pd idir kstr im Hp Hi Hk Hv. apply imports_file_roundtrip_lemma.
  unfold items_ok, render_imports. rewrite forallb_forall. intros [k v] Hin.
  apply in_map_iff in Hin. destruct Hin as [[k0 p0] [E Hin]]. inversion E; subst. simpl.
  rewrite (Hk _ _ Hin). simpl. apply rendered_value_ok; auto. intros k' f E'. eapply Hv; eauto.
Qed.
Print Assumptions plan_imports_roundtrip.

(* the whole reader (build_from_file = _read_from_file, _build_multimap, _finalize): for distinct keys without
   an extension (splitext leaves them alone) other than "%", the map it returns is exactly the written one with
   os.path.abspath applied to the values, plus `dir/__init__ -> os.devnull` entries under keys that were not
   written; nothing is reported unused.  abspath/devnull are parameters (any function / string). *)
Theorem reader_returns_exactly_the_map : forall (abspath : str -> str) devnull (its : items),
  its <> [] -> items_ok its = true ->
  (forall kv, In kv its -> no_ext (fst kv) = true) -> NoDup (map fst its) -> ~ In [c_pct] (map fst its) ->
  exists extra,
    build_from_file abspath devnull (write_imports its) =
      Some (Some (map (fun kv => (fst kv, abspath (snd kv))) its ++ extra, [])) /\
    forall e, In e extra -> snd e = devnull /\ ~ In (fst e) (map fst its).
Proof.
  intros ab dn its Hn Hok Hne Hnd Hpct. unfold build_from_file.
  rewrite imports_file_roundtrip_lemma; auto.
  destruct (finalize_exact_lemma ab dn its Hne Hnd Hpct) as [extra [E H]].
  exists extra. split; auto. destruct its; [contradiction|]. rewrite E. reflexivity.
Qed.
Print Assumptions reader_returns_exactly_the_map.

(* the conditions on keys and values are needed.  "a b" -> the reader returns key "a", path "b /o/a b.pyi" *)
Definition v_pyi : str := [47; 111; 47; 97; 46; 112; 121; 105].                    (* "/o/a.pyi" *)
Theorem imports_key_with_space_refuted : exists k v,
  val_ok v = true /\ read_from_file (write_imports [(k, v)]) = Some [([97], 98 :: 32 :: v)] /\
  read_from_file (write_imports [(k, v)]) <> Some [(k, v)].
Proof. exists [97; 32; 98], v_pyi. vm_compute. repeat split; discriminate. Qed.
Print Assumptions imports_key_with_space_refuted.

(* a key starting with a tab (or U+00A0, U+2028, ...) loses it to line.strip() *)
Theorem imports_key_leading_blank_refuted : exists k v,
  val_ok v = true /\ no_char c_sp k = true /\ clean k = true /\
  read_from_file (write_imports [(k, v)]) <> Some [(k, v)].
Proof. exists [160; 97], v_pyi. vm_compute. repeat split; discriminate. Qed.
Print Assumptions imports_key_leading_blank_refuted.

(* a carriage return anywhere is a line break for the reader (universal newlines): one entry becomes a
   ValueError (the second half has no space) *)
Theorem imports_carriage_return_refuted : exists k v,
  key_ok k = true /\ no_char c_nl v = true /\ read_from_file (write_imports [(k, v)]) = None.
Proof. exists [97], [47; 111; 13; 112]. vm_compute. repeat split. Qed.
Print Assumptions imports_carriage_return_refuted.

(* a value ending in white space loses it; cannot arise from the plan (plan_imports_roundtrip) *)
Theorem imports_value_trailing_blank_refuted : exists k v,
  key_ok k = true /\ clean v = true /\ read_from_file (write_imports [(k, v)]) <> Some [(k, v)].
Proof. exists [97], [47; 111; 32]. vm_compute. repeat split; discriminate. Qed.
Print Assumptions imports_value_trailing_blank_refuted.

(* a key whose last component has an extension (module_to_output_path of a file "b.c.py") is filed under the
   stem, and the key "%" is diverted to the unused list *)
Theorem reader_key_with_extension_refuted : exists k v,
  items_ok [(k, v)] = true /\
  build_from_file (fun x => x) [] (write_imports [(k, v)]) = Some (Some ([([97; 47; 98], v); ([97; 47; 95; 95; 105; 110; 105; 116; 95; 95], [])], [])).
Proof. exists [97; 47; 98; 46; 99], v_pyi. vm_compute. split; reflexivity. Qed.
Print Assumptions reader_key_with_extension_refuted.

Theorem reader_percent_key_refuted : exists v,
  items_ok [([c_pct], v)] = true /\ no_ext [c_pct] = true /\
  build_from_file (fun x => x) [] (write_imports [([c_pct], v)]) = Some (Some ([], [v])).
Proof. exists v_pyi. vm_compute. repeat split. Qed.
Print Assumptions reader_percent_key_refuted.

(* non-vacuity: output directory "/my dir/$x:y" - two entries, one the default stub *)
Example ex_imports_roundtrip :
  let pyi := [47; 109; 121; 32; 100; 105; 114; 47; 36; 120; 58; 121; 47; 112; 121; 105] in   (* "/my dir/$x:y/pyi" *)
  let imp := [47; 109; 121; 32; 100; 105; 114; 47; 36; 120; 58; 121; 47; 105] in              (* "/my dir/$x:y/i" *)
  let kstr := fun k : N => if (k =? 1)%N then [112; 47; 97] else [98] in                  (* "p/a", "b" *)
  let im := render_imports pyi imp kstr [(1%N, PPyi 1 true); (2%N, PDefault)] in
  items_ok im = true /\ read_from_file (write_imports im) = Some im /\
  map snd im = [pyi ++ [47; 112; 47; 97; 46; 112; 121; 105; 45; 49]; imp ++ [47; 100; 101; 102; 97; 117; 108; 116; 46; 112; 121; 105]].
Proof. vm_compute. repeat split; reflexivity. Qed.

(* the rule block and the command handed to /bin/sh *)
(* the command line get_pytype_command_for_ninja joins with ' ' is a list of words: literal words and the
   four references $imports $out $module $in *)
Theorem command_text_of_words : forall words, command_text (map classify words) = join_sp words.
Proof. exact command_text_classify. Qed.
Print Assumptions command_text_of_words.

(* the rule block as written, read by the model of ninja's parser: the command is the word list with TVar
   tokens for the references *)
Theorem rule_block_roundtrip : forall action ws rest,
  ident action -> sh_plain_str action -> ws <> [] -> (forall w, In w ws -> cmd_word_ok w) ->
  parse_rule (render_rule action (map cword_text ws) ++ rest) =
  Some (action, [(kw_command, join_toks (map cword_toks ws));
                 (kw_description, lits action ++ [TLit c_sp; TVar kw_module])], rest).
Proof. intros action ws rest Hid Hpl _. apply rule_block_roundtrip_lemma; assumption. Qed.
Print Assumptions rule_block_roundtrip.

(* ninja's evaluation of the command for the edge of statement t ($in/$out shell-escaped by
   GetShellEscapedString, $imports/$module inserted raw) followed by the shell's word splitting yields exactly
   the words with the references replaced by the statement's input file, output path, imports file and module
   name - for ANY non-empty input/output path (spaces, colons, dollars, quotes), and for imports paths and
   module names made of characters the shell leaves alone (sh_plain: everything except blank ' \ $ NUL \n \r
   double quote ` ; & | < > ( ) * ? [ ] # ~ { } !  - colons are fine, spaces and dollars are not) *)
Theorem command_names_the_step : forall env ws t rest,
  (forall w, In w ws -> cmd_word_ok w) ->
  t_input t <> [] -> t_out t <> [] -> sh_plain_str (t_imports t) -> sh_plain_str (t_module t) ->
  exists cmd, lex_value (command_text ws ++ c_nl :: rest) = LDone cmd rest /\
              sh_words env (edge_command cmd t) = Some (map (subst t) ws).
Proof.
  intros env ws t rest Hw Hi Ho Him Hmd. eexists. split; [apply lex_command_lemma; auto|].
  unfold sh_words, edge_command. fold (stmt_env t). rewrite eval_join.
  pose (l := map (fun w => (cword_val (stmt_env t) w, subst t w)) ws).
  assert (E1 : map (cword_val (stmt_env t)) ws = map fst l) by (unfold l; rewrite map_map; reflexivity).
  assert (E2 : map (subst t) ws = map snd l) by (unfold l; rewrite map_map; reflexivity).
  rewrite E1, E2. apply sh_words_join.
  intros [x d] Hin. unfold l in Hin. apply in_map_iff in Hin. destruct Hin as [w [E Hin]].
  inversion E; subst. simpl. apply word_enc; auto.
Qed.
Print Assumptions command_names_the_step.

(* "x --imports_info $imports -o $out --module-name $module $in" *)
Definition ex_words : list cword :=
  [WLit [120]; WLit [45; 45; 105; 109; 112; 111; 114; 116; 115; 95; 105; 110; 102; 111]; WVar kw_imports;
   WLit [45; 111]; WVar kw_out; WLit [45; 45; 109; 111; 100; 117; 108; 101; 45; 110; 97; 109; 101]; WVar kw_module;
   WVar kw_in].
Definition ex_cmd : list tok := join_toks (map cword_toks ex_words).
Example ex_words_ok : forall w, In w ex_words -> cmd_word_ok w.
Proof.
  intros w H. apply cmd_word_okb_ok. revert w H. apply forallb_forall. reflexivity.
Qed.

Definition st_space : stmt :=
  Stmt [47; 111; 32; 112; 47; 97] [] [47; 115; 32; 36; 58; 39; 47; 97] [] [47; 111; 32; 112; 47; 109] [97].
(* an output directory with a space: the imports file path is split in two by the shell *)
Theorem command_space_in_imports_refuted : exists t,
  good_path (t_out t) /\ good_path (t_input t) /\ good_value (t_imports t) /\ sh_plain_str (t_module t) /\
  sh_words (fun _ => []) (edge_command ex_cmd t) =
    Some [[120]; [45; 45; 105; 109; 112; 111; 114; 116; 115; 95; 105; 110; 102; 111]; [47; 111]; [112; 47; 109];
          [45; 111]; t_out t; [45; 45; 109; 111; 100; 117; 108; 101; 45; 110; 97; 109; 101]; t_module t; t_input t] /\
  sh_words (fun _ => []) (edge_command ex_cmd t) <> Some (map (subst t) ex_words).
Proof.
  exists st_space.
  split; [apply good_path_b; [discriminate | reflexivity]|].
  split; [apply good_path_b; [discriminate | reflexivity]|].
  split; [apply good_value_b; reflexivity|].
  split; [split; [discriminate | apply forallb_forall; reflexivity]|].
  split; [vm_compute; reflexivity | vm_compute; discriminate].
Qed.
Print Assumptions command_space_in_imports_refuted.

Definition st_dollar_b : stmt :=
  Stmt [47; 111; 47; 97; 36; 98] [] [47; 115; 47; 97; 36; 98] [] [47; 105; 47; 97; 36; 98; 46; 105] [97; 36; 98].
(* a dollar sign in the module name (file a$b.py): the shell expands $b (here: unset) in both the imports
   path and the module name *)
Theorem command_dollar_in_module_refuted : exists t,
  t_input t <> [] /\ t_out t <> [] /\ good_value (t_imports t) /\ good_value (t_module t) /\
  sh_words (fun _ => []) (edge_command ex_cmd t) =
    Some [[120]; [45; 45; 105; 109; 112; 111; 114; 116; 115; 95; 105; 110; 102; 111]; [47; 105; 47; 97; 46; 105];
          [45; 111]; t_out t; [45; 45; 109; 111; 100; 117; 108; 101; 45; 110; 97; 109; 101]; [97]; t_input t] /\
  sh_words (fun _ => []) (edge_command ex_cmd t) <> Some (map (subst t) ex_words).
Proof.
  exists st_dollar_b.
  split; [discriminate|]. split; [discriminate|].
  split; [apply good_value_b; reflexivity|]. split; [apply good_value_b; reflexivity|].
  split; [vm_compute; reflexivity | vm_compute; discriminate].
Qed.
Print Assumptions command_dollar_in_module_refuted.

(* non-vacuity: input "/s $:'/a" and output "/o p/a" (space, dollar, colon, quote) with a plain imports path
   and module name: all four survive *)
Example ex_command :
  let t := Stmt [47; 111; 32; 112; 47; 97] [] [47; 115; 32; 36; 58; 39; 47; 97] [] [47; 105; 58; 47; 109] [112; 46; 97] in
  edge_command ex_cmd t =
    [120; 32; 45; 45; 105; 109; 112; 111; 114; 116; 115; 95; 105; 110; 102; 111; 32; 47; 105; 58; 47; 109; 32; 45; 111; 32;
     39; 47; 111; 32; 112; 47; 97; 39; 32; 45; 45; 109; 111; 100; 117; 108; 101; 45; 110; 97; 109; 101; 32; 112; 46; 97; 32;
     39; 47; 115; 32; 36; 58; 39; 92; 39; 39; 47; 97; 39] /\
  sh_words (fun _ => [120]) (edge_command ex_cmd t) = Some (map (subst t) ex_words).
Proof. vm_compute. split; reflexivity. Qed.

(* module names and keys (module_utils, _module_to_output_path, the loader's lookup) *)
(* plain_comp: non-empty, no '/' and no '.'.  For a file c1/.../cn.py below its pythonpath entry, named
   c1.....cn: the key written into the imports maps is c1/.../cn, which is the path the module loader of
   pytype-single looks up for that name, has no extension for the reader to strip, and (when the name has no
   ".__init__" inside) path_to_module_name maps it back to the name *)
Theorem key_link : forall cs, cs <> [] -> (forall c, In c cs -> plain_comp c) ->
  let target := join_c c_slash cs ++ c_dot :: s_py in
  let name := join_c c_dot cs in
  let key := module_to_output_path target name in
  key = join_c c_slash cs /\ key = loader_path name /\ no_ext key = true /\
  (no_init name = true -> path_to_module_name key = Some name).
Proof. exact key_link_lemma. Qed.
Print Assumptions key_link.

(* ... and is a key the *.imports reader returns unchanged when no component contains ' ', "\n", "\r" and the
   first character is not white space *)
Theorem key_survives_the_imports_file : forall cs, cs <> [] -> (forall c, In c cs -> plain_comp c) ->
  (forall c x, In c cs -> In x c -> x <> c_sp /\ x <> c_nl /\ x <> c_cr) ->
  (forall c r x, cs = (x :: c) :: r -> py_space x = false) ->
  key_ok (join_c c_slash cs) = true.
Proof. exact key_ok_comps_lemma. Qed.
Print Assumptions key_survives_the_imports_file.

(* module_utils.path_to_module_name on the file name, and infer_module's split at the pythonpath entry *)
Theorem path_to_module_name_file : forall cs, cs <> [] -> (forall c, In c cs -> plain_comp c) ->
  no_init (join_c c_dot cs) = true ->
  starts_with s_pardir (dirname (join_c c_slash cs ++ c_dot :: s_py)) = false ->
  path_to_module_name (join_c c_slash cs ++ c_dot :: s_py) = Some (join_c c_dot cs).
Proof.
  intros cs Hn H Hi D. unfold path_to_module_name. rewrite D.
  rewrite splitext_comps; auto; [| intros [E|[E|[]]]; discriminate | intros [E|[E|[]]]; discriminate].
  change (starts_with s_dot_py (c_dot :: s_py)) with true. cbn [is_nil negb andb].
  rewrite dotted_name_of_stem by assumption. reflexivity.
Qed.
Print Assumptions path_to_module_name_file.

Theorem infer_module_split : forall pythonpath filename,
  let m := infer_module filename pythonpath in
  filename = cm_path m ++ cm_target m /\ cm_name m = path_to_module_name (cm_target m) /\
  (cm_path m = [] \/ (ends_with_slash (cm_path m) = true /\
                      exists p, In p pythonpath /\ (cm_path m = p \/ cm_path m = p ++ [c_slash]))).
Proof. exact infer_module_split_lemma. Qed.
Print Assumptions infer_module_split.

(* a directory with a dot in its name: file "a.b/c.py" is named a.b.c, its key is "a.b/c", but the loader
   looks up "a/b/c" *)
Theorem dotted_directory_key_refuted : exists target name,
  path_to_module_name target = Some name /\ module_to_output_path target name <> loader_path name.
Proof. exists [97; 46; 98; 47; 99; 46; 112; 121], [97; 46; 98; 46; 99]. vm_compute. split; [reflexivity | discriminate]. Qed.
Print Assumptions dotted_directory_key_refuted.

(* non-vacuity and two quirks kept by the model: "/src/pkg/mod.py" under pythonpath ["/x"; "/src"];
   str.partition cuts at the first ".__init__" even inside a component ("a/__init__x.py" is named "a");
   pkg/__init__.py: resolved_file_to_module appends ".__init__", the key is "pkg/__init__", which is what the
   loader tries first for `import pkg` *)
Example ex_names :
  infer_module [47; 115; 114; 99; 47; 112; 107; 103; 47; 109; 111; 100; 46; 112; 121] [[47; 120]; []; [47; 115; 114; 99]] =
    CModule [47; 115; 114; 99; 47] [112; 107; 103; 47; 109; 111; 100; 46; 112; 121] (Some [112; 107; 103; 46; 109; 111; 100]) /\
  path_to_module_name [97; 47; 95; 95; 105; 110; 105; 116; 95; 95; 120; 46; 112; 121] = Some [97] /\
  path_to_module_name [46; 46; 47; 97; 46; 112; 121] = None /\
  path_to_module_name [97; 46; 116; 120; 116] = None /\
  (let '(p, t, n) := resolved_file_to_module [47; 115; 47; 112; 107; 103; 47; 95; 95; 105; 110; 105; 116; 95; 95; 46; 112; 121]
                        [112; 107; 103; 47; 95; 95; 105; 110; 105; 116; 95; 95; 46; 112; 121] [112; 107; 103] in
   p = [47; 115; 47] /\ n = [112; 107; 103; 46; 95; 95; 105; 110; 105; 116; 95; 95] /\
   module_to_output_path t n = loader_init_path [112; 107; 103]).
Proof. vm_compute. repeat split; reflexivity. Qed.
Example ex_key_link_hyp : plain_comp [112; 107; 103] /\ plain_comp [109; 111; 100] /\
  no_init (join_c c_dot [[112; 107; 103]; [109; 111; 100]]) = true.
Proof.
  assert (P : forall c : str, c <> [] ->
              forallb (fun y => negb (y =? c_slash) && negb (y =? c_dot)) c = true -> plain_comp c).
  { intros c Hn Hb. split; auto. intros y Hy. rewrite forallb_forall in Hb. specialize (Hb y Hy).
    rewrite andb_true_iff, !negb_true_iff, !N.eqb_neq in Hb. exact Hb. }
  split; [apply P; [discriminate | reflexivity]|]. split; [apply P; [discriminate | reflexivity]|].
  vm_compute. reflexivity.
Qed.
