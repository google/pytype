(* C13 — calls bind arguments exactly as CPython does.
   The stated theorems, each followed by Print Assumptions, with non-vacuity examples; the lemmas are in Bind/.

   Model (coq/Bind/Model.v): bind_py = SignedFunction._map_args before fix 98ee907, bind_py_fixed = the same
   with fixes/C13-posonly-kwargs.patch (the repository's code), bind_c = CPython's initialize_locals.  [agree s r1 r2]: both are
   errors, or both succeed and every parameter of s (incl. *args and **kwargs) is bound and holds the
   same thing (Pos i / Kw k / Default / VarArgs [..] / KwArgs [..]).  wf_sig = a def Python accepts
   (distinct parameter names, defaults form a suffix of the positional parameters); wf_shape = a call
   Python accepts (no repeated keyword).  All statements are for signatures and calls of any size. *)
From Coq Require Import List Arith Bool.
From PV Require Import Bind.Model Bind.Proofs Bind.PytdModel Bind.PytdProofs Bind.SplatModel Bind.SplatProofs Bind.SplatFacts Bind.FormsModel Bind.FormsProofs.
Import ListNotations.

(* The repaired mapper binds exactly as CPython does. *)
Theorem bind_agree_fixed :
  forall s c, wf_sig s -> wf_shape c -> agree s (bind_py_fixed s c) (bind_c s c).
Proof. exact bind_agree_fixed_lemma. Qed.
Print Assumptions bind_agree_fixed.

(* The mapper before the fix does not: def f(x, /, **kw); f(x=1) is accepted, CPython raises TypeError ... *)
Theorem bind_agree_refuted :
  exists s c, wf_sig s /\ wf_shape c /\ is_err (bind_py s c) = false /\ is_err (bind_c s c) = true
              /\ ~ agree s (bind_py s c) (bind_c s c).
Proof.
  exists sig_posonly_kwargs, (mkShape 0 [0]). split; [exact wf_sig_posonly_kwargs|].
  split; [apply wf_shapeb_sound; reflexivity|]. split; [reflexivity|]. split; [reflexivity|].
  vm_compute. exact (fun H => H).
Qed.
Print Assumptions bind_agree_refuted.

(* ... and f(a0, x=1) binds x to the keyword and leaves kw empty; CPython binds x = a0, kw = {x: ..}. *)
Theorem bind_agree_refuted_binding :
  exists s c, wf_sig s /\ wf_shape c /\ is_err (bind_py s c) = false /\ is_err (bind_c s c) = false
              /\ lookup_all s (bind_py s c) = Some [Some (Kw 0); Some (KwArgs [])]
              /\ lookup_all s (bind_c s c) = Some [Some (Pos 0); Some (KwArgs [0])]
              /\ ~ agree s (bind_py s c) (bind_c s c).
Proof.
  exists sig_posonly_kwargs, (mkShape 1 [0]). split; [exact wf_sig_posonly_kwargs|].
  split; [apply wf_shapeb_sound; reflexivity|]. repeat split.
  vm_compute. intros H. destruct (H 0 (or_introl eq_refl)) as [H1 _]. discriminate H1.
Qed.
Print Assumptions bind_agree_refuted_binding.

(* It does agree whenever the function has no **kwargs or no keyword names a positional-only parameter. *)
Theorem bind_agree_partial :
  forall s c, wf_sig s -> wf_shape c ->
  (kwargs s = None \/ forall k, In k (kws c) -> ~ In k (posonly s)) ->
  agree s (bind_py s c) (bind_c s c).
Proof. exact bind_agree_partial_lemma. Qed.
Print Assumptions bind_agree_partial.

(* That boundary is exact: outside it, every call the mapper accepts is bound differently from CPython ... *)
Theorem bind_disagree_exact :
  forall s c d, wf_sig s -> wf_shape c ->
  kwargs s <> None -> (exists k, In k (kws c) /\ In k (posonly s)) ->
  bind_py s c = Ok d -> ~ agree s (bind_py s c) (bind_c s c).
Proof. exact bind_disagree_exact_lemma. Qed.
Print Assumptions bind_disagree_exact.

(* ... so agreement holds iff: no **kwargs, or no keyword names a positional-only parameter, or the mapper
   raises (then CPython raises too). *)
Theorem bind_agree_boundary :
  forall s c, wf_sig s -> wf_shape c ->
  (agree s (bind_py s c) (bind_c s c) <->
   (kwargs s = None \/ (forall k, In k (kws c) -> ~ In k (posonly s)) \/ is_err (bind_py s c) = true)).
Proof.
  intros s c WS WC. apply agree_boundary.
  - apply bind_agree_partial_lemma; auto.
  - intros d. apply bind_disagree_exact_lemma; auto.
  - apply bind_err_sound_lemma; auto.
Qed.
Print Assumptions bind_agree_boundary.

(* One direction holds for the mapper before the fix without any restriction: a reported arity/keyword
   error is always a CPython TypeError. *)
Theorem bind_err_sound :
  forall s c, wf_sig s -> wf_shape c -> is_err (bind_py s c) = true -> is_err (bind_c s c) = true.
Proof. exact bind_err_sound_lemma. Qed.
Print Assumptions bind_err_sound.

(* Non-vacuity.  def g(a, b=.., /, d=.., *va, g, h=.., **kw)  -- names a=0 b=1 d=3 va=9 g=6 h=7 kw=10 *)
Definition sig_rich : sig := mkSig [0; 1] [3] [6; 7] [1; 3; 7] (Some 9) (Some 10).
Example sig_rich_wf : wf_sig sig_rich.
Proof. apply wf_sigb_sound. reflexivity. Qed.

(* g(p0, p1, p2, p3, g=.., zz=..): binds, with overflow into *va and the foreign keyword into **kw;
   the hypothesis of bind_agree_partial holds although **kw is present *)
Example rich_call_ok :
  let c := mkShape 4 [6; 11] in
  wf_shape c /\ (forall k, In k (kws c) -> ~ In k (posonly sig_rich)) /\
  lookup_all sig_rich (bind_py sig_rich c)
    = Some [Some (Pos 0); Some (Pos 1); Some (Pos 2); Some (Kw 6); Some Default; Some (VarArgs [3]); Some (KwArgs [11])] /\
  lookup_all sig_rich (bind_c sig_rich c) = lookup_all sig_rich (bind_py sig_rich c).
Proof.
  cbv zeta. split; [apply wf_shapeb_sound; reflexivity|]. split.
  - simpl. intros k [H|[H|[]]] [H1|[H1|[]]]; subst; discriminate.
  - vm_compute. split; reflexivity.
Qed.

(* g(p0, d=.., h=..): keyword-only g is missing -> both raise; g(p0, p1, p2, d=.., g=..): d given twice -> both raise *)
Example rich_call_errors :
  bind_py sig_rich (mkShape 1 [3; 7]) = Err (EMissingParameter 6) /\
  bind_c sig_rich (mkShape 1 [3; 7]) = Err (CMissingKwonly [6]) /\
  bind_py sig_rich (mkShape 3 [3; 6]) = Err (EDuplicateKeyword [3]) /\
  bind_c sig_rich (mkShape 3 [3; 6]) = Err (CMultipleValues 3).
Proof. vm_compute. repeat split; reflexivity. Qed.

(* outside the boundary: g(p0, b=.., g=..) -- the mapper accepts and binds b to the keyword; CPython
   gives b its default and puts b into **kw *)
Example rich_call_outside_boundary :
  let c := mkShape 1 [1; 6] in
  lookup_all sig_rich (bind_py sig_rich c)
    = Some [Some (Pos 0); Some (Kw 1); Some Default; Some (Kw 6); Some Default; Some (VarArgs []); Some (KwArgs [])] /\
  lookup_all sig_rich (bind_c sig_rich c)
    = Some [Some (Pos 0); Some Default; Some Default; Some (Kw 6); Some Default; Some (VarArgs []); Some (KwArgs [1])] /\
  lookup_all sig_rich (bind_py_fixed sig_rich c) = lookup_all sig_rich (bind_c sig_rich c).
Proof. vm_compute. repeat split; reflexivity. Qed.

(* Calls of functions whose signature comes from a stub (PyTDFunction, single signature).
   bind_pytd (coq/Bind/PytdModel.v) = PyTDSignature._map_args + _fill_in_missing_parameters.
   [va_annotated] = the stub annotates *args; [argname] = function.argname, the placeholder names
   ("_<i>") under which the mapper then files the overflowing positional arguments;
   argname_fresh: no keyword of the call and no parameter is spelled like such a placeholder. *)

(* Error iff error, for every stub signature and call: pytype reports an arity/keyword error exactly when
   CPython raises TypeError. *)
Theorem bind_pytd_err_agree :
  forall va_annotated argname s c, wf_sig s -> wf_shape c -> argname_fresh argname s c ->
  is_err (bind_pytd va_annotated argname s c) = is_err (bind_c s c).
Proof. exact bind_pytd_err_agree_lemma. Qed.
Print Assumptions bind_pytd_err_agree.

(* ... and on success every parameter other than **kwargs (incl. *args) holds what CPython gives it. *)
Theorem bind_pytd_agree_except_kwargs :
  forall va_annotated argname s c, wf_sig s -> wf_shape c -> argname_fresh argname s c ->
  agree_except_kwargs s (bind_pytd va_annotated argname s c) (bind_c s c).
Proof. exact bind_pytd_agree_except_kwargs_lemma. Qed.
Print Assumptions bind_pytd_agree_except_kwargs.

(* Full agreement is refuted by the stub mapper: stub def f(x, /, **kw); f(a0, x=..) -- the keyword is
   dropped (checked against nothing) instead of landing in **kw. *)
Theorem bind_pytd_agree_refuted_binding :
  exists s c, wf_sig s /\ wf_shape c /\ argname_fresh argname14 s c
              /\ lookup_all s (bind_pytd false argname14 s c) = Some [Some (Pos 0); Some (KwArgs [])]
              /\ lookup_all s (bind_c s c) = Some [Some (Pos 0); Some (KwArgs [0])]
              /\ ~ agree s (bind_pytd false argname14 s c) (bind_c s c).
Proof.
  exists sig_posonly_kwargs, (mkShape 1 [0]). split; [exact wf_sig_posonly_kwargs|]. split; [|split; [|repeat split]].
  - apply wf_shapeb_sound. reflexivity.
  - intros i. unfold argname14. simpl. split; intros H; repeat (destruct H as [H|H]; [discriminate H|]); exact H.
  - vm_compute. intros H. destruct (H 1 (or_intror (or_introl eq_refl))) as [H1 _]. discriminate H1.
Qed.
Print Assumptions bind_pytd_agree_refuted_binding.

(* It holds whenever the stub has no **kwargs or no keyword names a positional-only parameter ... *)
Theorem bind_pytd_agree_partial :
  forall va_annotated argname s c, wf_sig s -> wf_shape c -> argname_fresh argname s c ->
  (kwargs s = None \/ forall k, In k (kws c) -> ~ In k (posonly s)) ->
  agree s (bind_pytd va_annotated argname s c) (bind_c s c).
Proof. exact bind_pytd_agree_partial_lemma. Qed.
Print Assumptions bind_pytd_agree_partial.

(* ... and that boundary is exact. *)
Theorem bind_pytd_disagree_exact :
  forall va_annotated argname s c d, wf_sig s -> wf_shape c -> argname_fresh argname s c ->
  kwargs s <> None -> (exists k, In k (kws c) /\ In k (posonly s)) ->
  bind_pytd va_annotated argname s c = Ok d -> ~ agree s (bind_pytd va_annotated argname s c) (bind_c s c).
Proof. exact bind_pytd_disagree_exact_lemma. Qed.
Print Assumptions bind_pytd_disagree_exact.

Theorem bind_pytd_agree_boundary :
  forall va_annotated argname s c, wf_sig s -> wf_shape c -> argname_fresh argname s c ->
  (agree s (bind_pytd va_annotated argname s c) (bind_c s c) <->
   (kwargs s = None \/ (forall k, In k (kws c) -> ~ In k (posonly s))
    \/ is_err (bind_pytd va_annotated argname s c) = true)).
Proof.
  intros b an s c WS WC FR. apply agree_boundary.
  - apply bind_pytd_agree_partial_lemma; auto.
  - intros d. apply bind_pytd_disagree_exact_lemma; auto.
  - rewrite bind_pytd_err_agree_lemma; auto.
Qed.
Print Assumptions bind_pytd_agree_boundary.

(* The freshness hypothesis is needed: stub def h( *va: int, **kw); h(a0, _0=..) -- the keyword collides with
   the placeholder of the overflowing positional argument: duplicate-keyword-argument, CPython accepts.
   (Without the annotation on *va the same call is accepted.) *)
Theorem bind_pytd_argname_refuted :
  exists s c, wf_sig s /\ wf_shape c /\ In (argname14 0) (kws c)
              /\ is_err (bind_pytd true argname14 s c) = true /\ is_err (bind_c s c) = false
              /\ is_err (bind_pytd false argname14 s c) = false.
Proof.
  exists (mkSig [] [] [] [] (Some 9) (Some 10)), (mkShape 1 [14]).
  split; [apply wf_sigb_sound; reflexivity|]. split; [apply wf_shapeb_sound; reflexivity|].
  split; [simpl; auto|]. vm_compute. repeat split; reflexivity.
Qed.
Print Assumptions bind_pytd_argname_refuted.

(* Non-vacuity: the rich signature as a stub with annotated *va; g(p0..p4, g=.., zz=..) overflows two
   positional arguments (filed under _3, _4 = names 17, 18) and one foreign keyword: same as CPython. *)
Example pytd_rich_call :
  let c := mkShape 5 [6; 11] in
  wf_shape c /\ argname_fresh argname14 sig_rich c /\
  lookup_all sig_rich (bind_pytd true argname14 sig_rich c)
    = Some [Some (Pos 0); Some (Pos 1); Some (Pos 2); Some (Kw 6); Some Default; Some (VarArgs [3; 4]); Some (KwArgs [11])] /\
  lookup_all sig_rich (bind_c sig_rich c) = lookup_all sig_rich (bind_pytd true argname14 sig_rich c) /\
  bind_pytd true argname14 sig_rich (mkShape 3 [3; 6]) = Err (EDuplicateKeyword [3]) /\
  bind_pytd true argname14 sig_rich (mkShape 6 [6]) = Ok [(0, Pos 0); (1, Pos 1); (3, Pos 2); (6, Kw 6); (7, Default);
                                                          (9, VarArgs [3; 4; 5]); (10, KwArgs [])].
Proof.
  cbv zeta. split; [apply wf_shapeb_sound; reflexivity|]. split.
  - intros i. unfold argname14. simpl. split; intros H; repeat (destruct H as [H|H]; [discriminate H|]); exact H.
  - vm_compute. repeat split; reflexivity.
Qed.

(* Call sites with * / ** splats (coq/Bind/SplatModel.v).  An [xcall] is the call as pytype's VM hands it to
   the callee: x_npos bound arguments (self), the entries x_items of Args.starargs (IArg = one argument, IStar =
   an indefinite-length splat), the keyword names x_kws (plain keywords and the constant keys of ** dict
   literals), x_opaque = a non-concrete ** dict.  bind_px = Args.simplify (_unpack_and_match_args) followed by
   SignedFunction._map_args with its starargs / starstarargs branches, as in the repository (after 98ee907).
   expand c lens extra = the call CPython performs when the indefinite splats have the lengths [lens] and the
   opaque dict the keys [extra]. *)

(* Without splats and ** the extended mapper is the one of the first part of this file. *)
Theorem bind_py_star_plain_eq :
  forall fixed s c, bind_py_star fixed None false s c = bind_py_gen fixed s c.
Proof. exact bind_py_star_plain. Qed.
Print Assumptions bind_py_star_plain_eq.

(* Concrete splats (tuple / list literals of known length, ** dict literals with constant keys, no argument
   written after a splat -- site_items keeps those argument by argument): pytype binds exactly the expanded
   call, ... *)
Theorem splat_concrete_expands :
  forall s c, wf_sig s -> NoDup (x_kws c) -> concrete c -> bind_px s c = bind_py_fixed s (expand c [] []).
Proof. exact bind_px_concrete. Qed.
Print Assumptions splat_concrete_expands.

(* ... hence (composed with bind_agree_fixed) exactly as CPython binds the expanded call. *)
Theorem splat_concrete_agree :
  forall s c, wf_sig s -> NoDup (x_kws c) -> concrete c -> agree s (bind_px s c) (bind_c s (expand c [] [])).
Proof. exact splat_concrete_agree_lemma. Qed.
Print Assumptions splat_concrete_agree.

(* What is given up on: a plain argument written after a splat makes the VM hand over ONE indefinite splat. *)
Theorem site_items_collapse :
  forall l, plain_after_splat false l = true -> site_items l = [IStar].
Proof. intros l H. unfold site_items. rewrite H. reflexivity. Qed.
Print Assumptions site_items_collapse.

Theorem site_items_plain : forall n, site_items (repeat PA n) = repeat IArg n.
Proof.
  intros n. unfold site_items.
  assert (plain_after_splat false (repeat PA n) = false) as -> by (induction n; simpl; auto).
  induction n; simpl; auto. f_equal. exact IHn.
Qed.
Print Assumptions site_items_plain.

(* Indefinite splats, "no false positives": pytype reports an arity / keyword error only if EVERY length of the
   splats (and every key set of the opaque dict) makes CPython raise.  Refuted twice by the repository's code:
   def f(d); f( *xs, *(a,)) -- the splat is counted as one argument: wrong-arg-count, CPython binds for len(xs) = 0 *)
Theorem splat_no_false_positive_refuted_args_after_star :
  exists s c lens, wf_sig s /\ NoDup (x_kws c) /\ (forall k, In k (x_kws c) -> ~ In k (posonly s))
    /\ bind_px s c = Err EWrongArgCount /\ is_err (bind_c s (expand c lens [])) = false.
Proof.
  exists sig_one, call_star_then_arg, [0]. split; [apply wf_sigb_sound; reflexivity|].
  split; [constructor|]. split; [intros k []|]. split; vm_compute; reflexivity.
Qed.
Print Assumptions splat_no_false_positive_refuted_args_after_star.

(* def f(a, /, d, **kw); f( *xs, a=k) -- the expansion of the splat stops at the keyword's name although it can only
   go to **kw: missing-parameter a, CPython binds a = xs[0], d = xs[1], kw = {a: k} for len(xs) = 2 *)
Theorem splat_no_false_positive_refuted_posonly_keyword :
  exists s c lens, wf_sig s /\ NoDup (x_kws c) /\ star_last c
    /\ bind_px s c = Err (EMissingParameter 0) /\ is_err (bind_c s (expand c lens [])) = false
    /\ lookup_all s (bind_c s (expand c lens [])) = Some [Some (Pos 0); Some (Pos 1); Some (KwArgs [0])].
Proof.
  exists sig_posonly_kw, call_star_posonly_kw, [2]. split; [apply wf_sigb_sound; reflexivity|].
  split; [constructor; [intros []|constructor]|]. split; [reflexivity|]. repeat split; vm_compute; reflexivity.
Qed.
Print Assumptions splat_no_false_positive_refuted_posonly_keyword.

(* Outside these two situations it holds, for every signature, every call, all lengths and all key sets:
   no argument after the last indefinite splat, no keyword naming a positional-only parameter. *)
Theorem splat_no_false_positive_partial :
  forall s c lens extra, wf_sig s -> NoDup (x_kws c ++ (if x_opaque c then extra else [])) ->
  star_last c -> (forall k, In k (x_kws c) -> ~ In k (posonly s)) ->
  is_err (bind_px s c) = true -> is_err (bind_c s (expand c lens extra)) = true.
Proof. exact splat_no_false_positive_partial_lemma. Qed.
Print Assumptions splat_no_false_positive_partial.

(* Call depth (InterpreterFunction.call: simplify + match the signature FIRST, then give up at maximum depth):
   a binding error is raised at every depth ... *)
Theorem depth_raise_iff :
  forall max_depth frames is_init s c e,
  call_at_depth max_depth frames is_init s c = ORaise e <-> bind_px s c = Err e.
Proof.
  intros. unfold call_at_depth. destruct (bind_px s c) as [d|e'].
  - split; [|discriminate]. destruct ((max_depth <? frames) && negb is_init); discriminate.
  - split; intros H; inversion H; reflexivity.
Qed.
Print Assumptions depth_raise_iff.

(* ... and the body of a function handed through n helper frames from module level (limit 4) is given up on
   exactly from n = 4 on, only when the arguments bind. *)
Theorem depth_helpers :
  forall helpers s c, is_err (bind_px s c) = false ->
  (call_at_depth 4 (frames_at_call helpers) false s c = OUnsolvable <-> 4 <= helpers).
Proof. exact depth_helpers_lemma. Qed.
Print Assumptions depth_helpers.

(* Non-vacuity.  g( *(p0, p1), *[p2, p3], **{g: .., zz: ..}) on sig_rich: concrete, binds like g(p0..p3, g=.., zz=..) *)
Example splat_concrete_call :
  let c := mkX 0 (site_items [PT 2; PT 2]) [6; 11] false in
  concrete c /\ NoDup (x_kws c) /\
  lookup_all sig_rich (bind_px sig_rich c)
    = Some [Some (Pos 0); Some (Pos 1); Some (Pos 2); Some (Kw 6); Some Default; Some (VarArgs [3]); Some (KwArgs [11])] /\
  lookup_all sig_rich (bind_c sig_rich (expand c [] [])) = lookup_all sig_rich (bind_px sig_rich c).
Proof.
  cbv zeta. split; [split; [|reflexivity]|split].
  - simpl. intros x H. repeat (destruct H as [H|H]; [symmetry; exact H|]). destruct H.
  - apply (wf_shapeb_sound (mkShape 0 [6; 11])). reflexivity.
  - vm_compute. split; reflexivity.
Qed.

(* def h(a, b, c, *, k): h(p0, *xs, c=..) -- star last, no positional-only name as keyword: the hypotheses of the
   partial theorem hold, the mapper reports missing-parameter k, and indeed CPython raises for lengths 0, 1, 2, 3 *)
Example splat_star_call :
  let s := mkSig [] [0; 1; 2] [6] [] None None in
  let c := mkX 0 (site_items [PA; PX]) [2] false in
  wf_sig s /\ star_last c /\ (forall k, In k (x_kws c) -> ~ In k (posonly s)) /\
  bind_px s c = Err (EMissingParameter 6) /\
  forallb (fun n => is_err (bind_c s (expand c [n] []))) [0; 1; 2; 3] = true /\
  (* with the keyword-only argument supplied the call is accepted: b holds the splat's element type *)
  lookup_all s (bind_px s (mkX 0 (site_items [PA; PX]) [2; 6] false))
    = Some [Some (Pos 0); Some (Elem 1); Some (Kw 2); Some (Kw 6)].
Proof.
  cbv zeta. split; [apply wf_sigb_sound; reflexivity|]. split; [reflexivity|]. split; [intros k _ []|].
  vm_compute. repeat split; reflexivity.
Qed.

(* Call forms (coq/Bind/FormsModel.v): how the callee is reached.  [receiver f]: the attribute is a bound method
   object (obj.m, C.cm, obj.cm, obj(..) via __call__); otherwise (f, C.m(obj, ..), static methods) the arguments
   reach the mapper as written.  call_form_py = BoundFunction.call in front of the mapper B, call_form_c = CPython's
   method object in front of initialize_locals.  insert c = the call with the receiver as argument 0. *)

(* Receiver insertion, pytype side: a bound callee that has a positional parameter is mapped on (receiver, args..) ... *)
Theorem form_insert_py :
  forall E (argcount : sig -> nat) (B : sig -> shape -> result E) f s c,
  receiver f = true -> 1 <= argcount s -> call_form_py argcount B f s c = B s (insert c).
Proof. exact form_insert_py_lemma. Qed.
Print Assumptions form_insert_py.

(* ... and an unbound one on the arguments as written. *)
Theorem form_plain_py :
  forall E (argcount : sig -> nat) (B : sig -> shape -> result E) f s c,
  receiver f = false -> call_form_py argcount B f s c = B s c.
Proof. exact form_plain_py_lemma. Qed.
Print Assumptions form_plain_py.

(* Hence, by bind_agree_fixed: for every call form, every signature and every call, pytype reports an arity / keyword
   error iff CPython raises while binding, and otherwise binds every parameter alike -- provided a callee reached
   through a receiver has a positional parameter to take it. *)
Theorem form_agree_fixed :
  forall f s c, wf_sig s -> wf_shape c -> (receiver f = true -> param_names s <> []) ->
  agree s (call_form_py argcount_src bind_py_fixed f s c) (call_form_c f s c).
Proof.
  intros f s c WS WC Hp. apply form_agree_gen; [|assumption].
  intros c' Hk. apply bind_agree_fixed_lemma; [assumption|]. unfold wf_shape in *. rewrite Hk. assumption.
Qed.
Print Assumptions form_agree_fixed.

(* The same for the mapper before fix 98ee907, inside its boundary. *)
Theorem form_agree_partial :
  forall f s c, wf_sig s -> wf_shape c -> (receiver f = true -> param_names s <> []) ->
  (kwargs s = None \/ forall k, In k (kws c) -> ~ In k (posonly s)) ->
  agree s (call_form_py argcount_src bind_py f s c) (call_form_c f s c).
Proof.
  intros f s c WS WC Hp Hh. apply form_agree_gen; [|assumption].
  intros c' Hk. apply bind_agree_partial_lemma; [assumption| |].
  - unfold wf_shape in *. rewrite Hk. assumption.
  - rewrite Hk. assumption.
Qed.
Print Assumptions form_agree_partial.

(* The proviso is needed: class C: def m(): ...   C().m() -- BoundFunction.call does not put self in front of a
   callee without positional parameters ("only if the function actually takes any arguments"): no error, CPython
   raises "takes 0 positional arguments but 1 was given" ... *)
Theorem form_agree_refuted :
  exists f s c, receiver f = true /\ wf_sig s /\ wf_shape c /\ param_names s = []
    /\ is_err (call_form_py argcount_src bind_py_fixed f s c) = false
    /\ is_err (call_form_c f s c) = true
    /\ ~ agree s (call_form_py argcount_src bind_py_fixed f s c) (call_form_c f s c).
Proof.
  exists FInstanceMethod, (mkSig [] [] [] [] None None), (mkShape 0 []).
  split; [reflexivity|]. split; [apply wf_sigb_sound; reflexivity|]. split; [apply wf_shapeb_sound; reflexivity|].
  split; [reflexivity|]. split; [reflexivity|]. split; [reflexivity|]. vm_compute. tauto.
Qed.
Print Assumptions form_agree_refuted.

(* ... and class C: def n( *va): ...   C().n(x) binds va = (x,); CPython binds va = (self, x). *)
Theorem form_agree_refuted_binding :
  exists f s c, receiver f = true /\ wf_sig s /\ wf_shape c
    /\ lookup_all s (call_form_py argcount_src bind_py_fixed f s c) = Some [Some (VarArgs [1])]
    /\ lookup_all s (call_form_c f s c) = Some [Some (VarArgs [0; 1])]
    /\ ~ agree s (call_form_py argcount_src bind_py_fixed f s c) (call_form_c f s c).
Proof.
  exists FInstanceMethod, (mkSig [] [] [] [] (Some 9) None), (mkShape 1 []).
  split; [reflexivity|]. split; [apply wf_sigb_sound; reflexivity|]. split; [apply wf_shapeb_sound; reflexivity|].
  split; [reflexivity|]. split; [reflexivity|].
  vm_compute. intro H. destruct (H 9 (or_introl eq_refl)) as [H1 _]. discriminate H1.
Qed.
Print Assumptions form_agree_refuted_binding.

(* Stub callees, every call form: error iff error. *)
Theorem form_pytd_err_agree :
  forall va_annotated argname f s c, wf_sig s -> wf_shape c ->
  argname_fresh argname s c -> (receiver f = true -> 1 <= argcount_pytd s) ->
  is_err (call_form_py argcount_pytd (bind_pytd va_annotated argname) f s c) = is_err (call_form_c f s c).
Proof.
  intros va an f s c WS WC HF Hp. unfold call_form_c. destruct (receiver f) eqn:Hr.
  - rewrite form_insert_py_lemma by auto. apply bind_pytd_err_agree_lemma; auto.
  - rewrite form_plain_py_lemma by assumption. apply bind_pytd_err_agree_lemma; auto.
Qed.
Print Assumptions form_pytd_err_agree.

(* Constructors C(..).  m = what the user classes on C's MRO define (most derived first); ctor_py = Class.call /
   _call_new_and_init / call_init with object.__init__ as special_builtins.Object hands it out; ctor_c = type_call
   with object_new / object_init's excess-argument rule.  For every hierarchy and every call: both raise, or both
   run the same user constructors (the first __new__ and the first __init__ on the MRO) with every parameter bound
   alike; with no user constructor at all both raise iff an argument is written.  One exclusion: ... *)
Theorem ctor_agree_fixed :
  forall argname m c, wf_mro m -> wf_shape c ->
  (lookup c_new m <> None -> lookup c_init m = None -> ~ In SELF (kws c)) ->
  ctor_agree m (ctor_py bind_py_fixed argname m c) (ctor_c m c).
Proof. exact ctor_agree_fixed_lemma. Qed.
Print Assumptions ctor_agree_fixed.

Theorem ctor_err_iff_fixed :
  forall argname m c, wf_mro m -> wf_shape c ->
  (lookup c_new m <> None -> lookup c_init m = None -> ~ In SELF (kws c)) ->
  ctor_is_err (ctor_py bind_py_fixed argname m c) = ctor_is_err (ctor_c m c).
Proof.
  intros an m c WM WC Hs. pose proof (ctor_agree_fixed_lemma an m c WM WC Hs) as H.
  unfold ctor_agree in H. destruct (ctor_py bind_py_fixed an m c); destruct (ctor_c m c); cbn; tauto.
Qed.
Print Assumptions ctor_err_iff_fixed.

(* ... a class with its own __new__ and object's __init__, called with the keyword self: pytype maps the call onto the
   stub  def __init__extra_args(self, *args, **kwargs)  and reports self as duplicate keyword; CPython accepts. *)
Theorem ctor_agree_refuted_self_keyword :
  exists m c, wf_mro m /\ wf_shape c /\ In SELF (kws c)
    /\ ctor_py bind_py_fixed argname14 m c = CtorErr (EDuplicateKeyword [SELF])
    /\ ctor_is_err (ctor_c m c) = false.
Proof.
  exists [mkCls (Some new_kw) None], (mkShape 0 [SELF]).
  split; [|split; [apply wf_shapeb_sound; reflexivity|split; [left; reflexivity|split; reflexivity]]].
  split; cbn.
  - intros s H. injection H as <-. apply wf_sigb_sound. reflexivity.
  - intros s H. discriminate H.
Qed.
Print Assumptions ctor_agree_refuted_self_keyword.

(* Inherited constructors: classes that define neither __new__ nor __init__ are transparent, on both sides. *)
Theorem ctor_inherited :
  forall B argname m1 m2 c,
  (forall k, In k m1 -> c_new k = None /\ c_init k = None) ->
  ctor_py B argname (m1 ++ m2) c = ctor_py B argname m2 c /\ ctor_c (m1 ++ m2) c = ctor_c m2 c.
Proof.
  intros B an m1 m2 c H.
  assert (Hn : lookup c_new (m1 ++ m2) = lookup c_new m2).
  { rewrite lookup_app, (lookup_none c_new m1); [reflexivity|]. intros k Hk. apply (H k Hk). }
  assert (Hi : lookup c_init (m1 ++ m2) = lookup c_init m2).
  { rewrite lookup_app, (lookup_none c_init m1); [reflexivity|]. intros k Hk. apply (H k Hk). }
  unfold ctor_py, ctor_c. rewrite Hn, Hi. split; reflexivity.
Qed.
Print Assumptions ctor_inherited.

(* Several stub signatures (PyTDFunction._match_args_sequentially = call_overloaded): an arity / keyword error is
   reported iff EVERY signature fails to bind under CPython's rules, ... *)
Theorem overload_err_iff :
  forall va_annotated argname sigs c, wf_shape c ->
  (forall s, In s sigs -> wf_sig s /\ argname_fresh argname s c) ->
  ov_is_err (call_overloaded (bind_pytd va_annotated argname) sigs c)
  = forallb (fun s => is_err (bind_c s c)) sigs.
Proof.
  intros va an sigs c WC H. rewrite overload_err_iff_gen.
  induction sigs as [|s rest IH]; [reflexivity|]. cbn.
  destruct (H s (or_introl eq_refl)) as [WS HF].
  rewrite bind_pytd_err_agree_lemma by assumption. f_equal. apply IH. intros s' Hs'. apply H. right. assumption.
Qed.
Print Assumptions overload_err_iff.

(* ... the error reported is then the one of the FIRST signature, ... *)
Theorem overload_error_first :
  forall E (B : sig -> shape -> result E) s rest c e,
  call_overloaded B (s :: rest) c = OvErr e -> B s c = Err e.
Proof.
  intros E B s rest c e. unfold call_overloaded. rewrite match_seq_spec. cbn [app first_err oks flat_map].
  destruct (B s c) as [d|e1]; cbn.
  - discriminate.
  - fold (oks B rest c). destruct (oks B rest c); [|discriminate]. intro H. injection H as <-. reflexivity.
Qed.
Print Assumptions overload_error_first.

(* ... and otherwise the signatures handed on to type matching are exactly those CPython could bind, in order. *)
Theorem overload_matched :
  forall va_annotated argname sigs c matched, wf_shape c ->
  (forall s, In s sigs -> wf_sig s /\ argname_fresh argname s c) ->
  call_overloaded (bind_pytd va_annotated argname) sigs c = OvOk matched ->
  map fst matched = filter (fun s => negb (is_err (bind_c s c))) sigs /\ matched <> [].
Proof.
  intros va an sigs c matched WC H. unfold call_overloaded. rewrite match_seq_spec. cbn [app].
  destruct (oks (bind_pytd va an) sigs c) eqn:Ho.
  - destruct (first_err (bind_pytd va an) sigs c); discriminate.
  - intro Hm. injection Hm as <-. split; [|discriminate]. rewrite <- Ho. clear Ho.
    induction sigs as [|s rest IH]; [reflexivity|]. cbn [oks flat_map filter].
    destruct (H s (or_introl eq_refl)) as [WS HF].
    rewrite <- (bind_pytd_err_agree_lemma va an s c WS WC HF).
    fold (oks (bind_pytd va an) rest c).
    destruct (bind_pytd va an s c); cbn; [f_equal|]; apply IH; intros s' Hs'; apply H; right; assumption.
Qed.
Print Assumptions overload_matched.

(* Non-vacuity.  class B2: def __new__(cls, d, e=.., *, g=..)   class B1(B2): def __init__(self, d, *va, **kw)
   class C(B1): pass.   C(p1, p2, g=..): both constructors run, both sides bind alike; C(p1, zz=..): __new__ rejects *)
Definition sig_new : sig := mkSig [] [13; 3; 4] [6] [4; 6] None None.
Definition sig_init : sig := mkSig [] [12; 3] [] [] (Some 9) (Some 10).
Definition mro3 : list cls_def := [mkCls None None; mkCls None (Some sig_init); mkCls (Some sig_new) None].
Example ctor_example :
  wf_mro mro3 /\
  ctor_py bind_py_fixed argname14 mro3 (mkShape 2 [6])
    = CtorOk (Some [(4, Pos 2); (6, Kw 6); (13, Pos 0); (3, Pos 1)])
             (Some [(12, Pos 0); (3, Pos 1); (6, Kw 6); (9, VarArgs [2]); (10, KwArgs [6])]) /\
  ctor_is_err (ctor_c mro3 (mkShape 2 [6])) = false /\
  ctor_is_err (ctor_py bind_py_fixed argname14 mro3 (mkShape 1 [11])) = true /\
  ctor_is_err (ctor_c mro3 (mkShape 1 [11])) = true /\
  (* no constructor anywhere: C() is fine, C(x) is not *)
  ctor_is_err (ctor_py bind_py_fixed argname14 [mkCls None None] (mkShape 0 [])) = false /\
  ctor_py bind_py_fixed argname14 [mkCls None None] (mkShape 1 []) = CtorErr EWrongArgCount /\
  ctor_c [mkCls None None] (mkShape 1 []) = CtorErr CNoArguments.
Proof.
  split.
  - split; cbn; intros s H; injection H as <-; [|split; [|discriminate]]; apply wf_sigb_sound; reflexivity.
  - vm_compute. repeat split; reflexivity.
Qed.

(* overloads  def f(a, /) ; def f(a, b, *, g) : f(p0) uses the first, f(p0, p1, g=..) the second,
   f(p0, p1) matches neither and the error is the first signature's *)
Example overload_example :
  let sigs := [mkSig [0] [] [] [] None None; mkSig [] [0; 1] [6] [] None None] in
  map fst (match call_overloaded (bind_pytd false argname14) sigs (mkShape 1 []) with OvOk l => l | _ => [] end)
    = [mkSig [0] [] [] [] None None] /\
  map fst (match call_overloaded (bind_pytd false argname14) sigs (mkShape 2 [6]) with OvOk l => l | _ => [] end)
    = [mkSig [] [0; 1] [6] [] None None] /\
  call_overloaded (bind_pytd false argname14) sigs (mkShape 2 []) = OvErr EWrongArgCount /\
  forallb (fun s => is_err (bind_c s (mkShape 2 []))) sigs = true.
Proof. vm_compute. repeat split; reflexivity. Qed.
