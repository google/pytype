(* C14 -- errors on fully known code are real, and plain type mistakes are caught.
   The stated theorems, each followed by Print Assumptions, with non-vacuity examples; the lemmas are in Ops/.

   PY UT / RT UR : the class table made of this run's REGENERATED builtin rows (py_rows: what pytype's loader,
   attribute handler, PyTDFunction.call and matcher answer over builtins.pytd; rt_rows: what CPython answers)
   and an ARBITRARY user part (any number of classes, any inheritance, any subset of dunders, any instance
   attributes).  user_class_ok UR UT u says that class u is the same class definition on both sides: same
   lookup chain (user classes, then object), same defined names and __init__ assignments along it, and each of
   its definitions is at run time at most as permissive as pytype's view of it (an unannotated def accepts
   every argument; at run time it may answer NotImplemented).
   Names are ids: 2i / 2i+1 = forward / reflected dunder of the i-th binary operator of + - * / // % ** << >>
   & | ^, 24 __getitem__, 25 __neg__, 26 __call__, >= 28 attribute names.
   The explicit exclusions excl_fp_* / excl_mc_bin (coq/Ops/Model.v) are the listed findings F1..F5.
   The other operators (coq/Ops/Ext.v): 30..35 __lt__ __le__ __gt__ __ge__ __eq__ __ne__,
   36 __contains__, 37+i the in-place dunder of operator i, 49 __pos__, 50 __invert__, 51 __bool__, 52 __len__,
   53 __iter__, 54 __setitem__, 55 __delitem__; NATIVE = what compare.cmp_rel answers before any dunder is looked up (observed on the real VM and
   regenerated), HARD = the builtin in-place dunders whose rejection ends the operation (observed under CPython). *)
From Coq Require Import List Bool PeanoNat.
From PV Require Import Ops.Model Generated.C14_Builtins Ops.Proofs Ops.Closed.
From PV Require Import Ops.Ext Ops.ExtProofs Ops.ExtClosed.
Import ListNotations.

(* The closed obligations over the regenerated builtin rows, re-decided by vm_compute on every run: those of the
   no-false-positive theorems *)
Theorem builtin_tables_faithful :
  shape_ok py_rows rt_rows = true /\ pair_faithful py_rows rt_rows = true /\
  ucol_faithful py_rows rt_rows = true /\ obj_faithful py_rows rt_rows = true /\
  unary_faithful py_rows rt_rows = true.
Proof.
  exact (conj shape_ok_holds (conj pair_faithful_holds (conj ucol_faithful_holds
        (conj obj_faithful_holds unary_faithful_holds)))).
Qed.
Print Assumptions builtin_tables_faithful.

(* Those of the mistake-caught theorems (refl_closed: pytype also tries the reflected dunder on operands of one class) *)
Theorem builtin_tables_complete :
  pair_caught py_rows rt_rows = true /\ presence_caught py_rows rt_rows = true /\
  obj_complete py_rows rt_rows = true /\ refl_closed py_rows = true.
Proof.
  exact (conj pair_caught_holds (conj presence_caught_holds (conj obj_complete_holds refl_closed_holds))).
Qed.
Print Assumptions builtin_tables_complete.

(* General form: for ANY pair of builtin tables that pass the closed checks and any user part, an error of
   pytype's binary-operator / subscript dispatch is an error of CPython's. *)
Theorem reported_is_real_general : forall (rowsT rowsR : list brow) (UT UR : table) x n y,
  shape_ok rowsT rowsR = true -> pair_faithful rowsT rowsR = true ->
  ucol_faithful rowsT rowsR = true -> obj_faithful rowsT rowsR = true ->
  user_ok (length rowsT) UR UT x -> user_ok (length rowsT) UR UT y ->
  In n binop_names -> excl_fp_bin x n y = false ->
  binop_py (mk_table rowsT UT) x n y = Err -> binop_c (mk_table rowsR UR) x n y = Err.
Proof. exact reported_is_real_lemma. Qed.
Print Assumptions reported_is_real_general.

(* No false positive, binary operators and subscript, on this run's tables. *)
Theorem reported_is_real : forall (UT UR : table) x n y,
  user_class_ok UR UT x -> user_class_ok UR UT y ->
  In n binop_names -> excl_fp_bin x n y = false ->
  binop_py (PY UT) x n y = Err -> binop_c (RT UR) x n y = Err.
Proof.
  intros UT UR x n y.
  exact (reported_is_real_lemma py_rows rt_rows UT UR x n y shape_ok_holds pair_faithful_holds
           ucol_faithful_holds obj_faithful_holds).
Qed.
Print Assumptions reported_is_real.

(* No false positive, attribute access x.n and method call x.n() (builtin heads: public names, minus F2/F3). *)
Theorem attr_reported_is_real : forall (UT UR : table) x n,
  user_class_ok UR UT x -> in_scope_fp rt_rows x n = true ->
  (attr (PY UT) x n = Err -> attr (RT UR) x n = Err) /\
  (mcall (PY UT) x n = Err -> mcall (RT UR) x n = Err).
Proof.
  intros UT UR x n Hx Hs.
  destruct (unary_reported_is_real_inst UT UR x n Hx Hs) as [A [B _]]. split; assumption.
Qed.
Print Assumptions attr_reported_is_real.

(* No false positive, call x() and unary minus -x. *)
Theorem call_reported_is_real : forall (UT UR : table) x,
  user_class_ok UR UT x ->
  (call (PY UT) x = Err -> call (RT UR) x = Err) /\ (neg (PY UT) x = Err -> neg (RT UR) x = Err).
Proof.
  intros UT UR x Hx. split; apply (unary_reported_is_real_inst UT UR x _ Hx); unfold in_scope_fp.
  - rewrite excl_fp_mcall_dunder by (repeat constructor). apply orb_true_r.
  - rewrite excl_fp_mcall_dunder by (repeat constructor). apply orb_true_r.
Qed.
Print Assumptions call_reported_is_real.

(* The advertised mistakes are caught: + - * / and subscript between builtin values (minus F4/F5) *)
Theorem mistake_caught : forall (UT UR : table) x n y,
  x < c14_nb -> y < c14_nb -> In n advertised_names -> excl_mc_bin x n y = false ->
  binop_c (RT UR) x n y = Err -> binop_py (PY UT) x n y = Err.
Proof.
  intros UT UR x n y.
  exact (mistake_caught_lemma py_rows rt_rows UT UR x n y shape_ok_holds pair_caught_holds).
Qed.
Print Assumptions mistake_caught.

(* Unary minus on a builtin value *)
Theorem neg_mistake_caught : forall (UT UR : table) x,
  x < c14_nb -> neg (RT UR) x = Err -> neg (PY UT) x = Err.
Proof. intros UT UR x. exact (neg_caught_lemma py_rows rt_rows UT UR x presence_caught_holds). Qed.
Print Assumptions neg_mistake_caught.

(* A missing attribute or method on a builtin (public names) or user-class (any name) instance *)
Theorem missing_attr_caught : forall (UT UR : table) x n,
  user_class_ok UR UT x -> (c14_nb <=? x) || ((N_NEG <=? n) && negb (is_new n)) = true ->
  attr (RT UR) x n = Err -> attr (PY UT) x n = Err /\ mcall (PY UT) x n = Err.
Proof.
  intros UT UR x n Hx Hs Ha. destruct (presence_caught_inst UT UR x n Hx Hs) as [A [B _]].
  split; [apply A; exact Ha|apply B].
  unfold attr in Ha. destruct (getattr (RT UR) x n); [discriminate|reflexivity].
Qed.
Print Assumptions missing_attr_caught.

(* Calling a non-callable *)
Theorem noncallable_caught : forall (UT UR : table) x,
  user_class_ok UR UT x -> lookup (RT UR) x N_CALL = None -> call (PY UT) x = Err.
Proof. intros UT UR x Hx. apply (presence_caught_inst UT UR x N_CALL Hx). apply orb_true_r. Qed.
Print Assumptions noncallable_caught.

(* Non-vacuity: three user classes
     class A:            def __add__(self, o) ...; def __getitem__(self, k) ...; a200 = 0; def m201(self) ...
                         def __init__(self): self.i202 = 0
     class B(A):         def __radd__(self, o) ...
     class F:            def __add__(self, o): return NotImplemented
   satisfy the hypothesis, and the models give the expected verdicts on them and on builtin values. *)
Definition ex_py : table := user_table c14_nb [
  user_cls 14 [14; 0] [(0, (false, acc_all)); (24, (false, acc_all)); (200, (false, acc_all)); (201, (true, acc_all))]
           (Some [202]);
  user_cls 15 [15; 14; 0] [(1, (false, acc_all))] None;
  user_cls 16 [16; 0] [(0, (false, acc_all))] None].
Definition ex_rt : table := user_table c14_nb [
  user_cls 14 [14; 0] [(0, (false, acc_all)); (24, (false, acc_all)); (200, (false, acc_all)); (201, (true, acc_all))]
           (Some [202]);
  user_cls 15 [15; 14; 0] [(1, (false, acc_all))] None;
  user_cls 16 [16; 0] [(0, (false, acc_only []))] None].

Example ex_hyp : user_class_ok ex_rt ex_py 14 /\ user_class_ok ex_rt ex_py 15 /\ user_class_ok ex_rt ex_py 16.
Proof.
  pose proof (sim_eq ex_rt ex_py 14 eq_refl) as S14. pose proof (sim_eq ex_rt ex_py 15 eq_refl) as S15.
  assert (S16 : own_sim ex_rt ex_py 16 /\ inst_sim ex_rt ex_py 16).
  { split; [|exact I]. apply (own_sim_user_cls ex_rt ex_py 16 _ _ _ _ _ _ _ eq_refl eq_refl).
    repeat constructor; auto. }
  unfold user_class_ok, c14_nb. split; [|split].
  - apply (user_ok_intro _ _ _ _ [14]); [repeat constructor|reflexivity|reflexivity|].
    intros k [<-|[]]; (split; [repeat constructor|assumption]).
  - apply (user_ok_intro _ _ _ _ [15; 14]); [repeat constructor|reflexivity|reflexivity|].
    intros k [<-|[<-|[]]]; (split; [repeat constructor|assumption]).
  - apply (user_ok_intro _ _ _ _ [16]); [repeat constructor|reflexivity|reflexivity|].
    intros k [<-|[]]; (split; [repeat constructor|assumption]).
Qed.

Example ex_verdicts :
  (* 1 + "a" : error on both sides;  1 + 1.5 : fine on both *)
  binop_py (PY ex_py) C_INT N_ADD C_STR = Err /\ binop_c (RT ex_rt) C_INT N_ADD C_STR = Err /\
  is_err (binop_py (PY ex_py) C_INT N_ADD C_FLOAT) = false /\ is_err (binop_c (RT ex_rt) C_INT N_ADD C_FLOAT) = false /\
  (* A() + B() : B.__radd__ first on both sides (B overrides __radd__ below A) *)
  binop_py (PY ex_py) 14 N_ADD 15 = Ok 15 1 /\ binop_c (RT ex_rt) 14 N_ADD 15 = Ok 15 1 /\
  (* 1 + B() : int.__add__ rejects, B.__radd__ answers;  B() + 1 : A.__add__ inherited *)
  binop_py (PY ex_py) C_INT N_ADD 15 = Ok 15 1 /\ binop_c (RT ex_rt) 15 N_ADD C_INT = Ok 14 0 /\
  (* F() + 1 : TypeError at run time, not reported (user classes are not in the advertised part) *)
  binop_c (RT ex_rt) 16 N_ADD C_INT = Err /\ binop_py (PY ex_py) 16 N_ADD C_INT = Ok 16 0 /\
  (* -"a", "a"(), B().i202, B().m201(), B().a200(), B()[1], None | None *)
  neg (PY ex_py) C_STR = Err /\ call (PY ex_py) C_STR = Err /\
  attr (PY ex_py) 15 202 = Ok 14 202 /\ mcall (PY ex_py) 15 201 = Ok 14 201 /\ mcall (RT ex_rt) 15 200 = Err /\
  binop_py (PY ex_py) 15 N_GETITEM C_INT = Ok 14 24 /\
  binop_py (PY ex_py) C_NONE N_OR C_NONE = OkUnion /\ binop_c (RT ex_rt) C_NONE N_OR C_NONE = Err.
Proof. vm_compute. repeat split; reflexivity. Qed.

(* Comparison operators, membership tests, in-place operators, item stores, +x ~x not x.
   None of them is among the mistakes pytype advertises (property text, 2nd sentence), so there is no
   mistake_caught theorem for them; ext_verdicts below records that such mistakes are indeed not all reported. *)

(* The closed obligations over the regenerated rows / native-comparison table / hard in-place table. *)
Theorem ext_tables_faithful :
  cmp_pair_faithful py_rows rt_rows native_tbl = true /\ iop_pair_faithful py_rows rt_rows rt_hard = true /\
  in_pair_faithful py_rows rt_rows = true /\ store_pair_faithful py_rows rt_rows = true /\
  un_faithful py_rows rt_rows = true /\
  ucol2_faithful py_rows rt_rows = true /\ rt_cmp_rejects_users rt_rows = true /\
  native_user_ok native_tbl (length py_rows) = true /\ py_cmp_accepts_users py_rows = true /\
  contains_presence py_rows rt_rows = true.
Proof.
  exact (conj cmp_pair_faithful_holds (conj iop_pair_faithful_holds (conj in_pair_faithful_holds
        (conj store_pair_faithful_holds (conj un_faithful_holds (conj ucol2_faithful_holds (conj rt_cmp_rejects_users_holds
        (conj native_user_ok_holds (conj py_cmp_accepts_users_holds contains_presence_holds))))))))).
Qed.
Print Assumptions ext_tables_faithful.

(* General form of the comparison theorem: any tables that pass the closed checks, any user part. *)
Theorem cmp_reported_is_real_general : forall rowsT rowsR ntbl UT UR x n y,
  shape_ok rowsT rowsR = true -> cmp_pair_faithful rowsT rowsR ntbl = true ->
  ucol2_faithful rowsT rowsR = true -> obj_faithful rowsT rowsR = true ->
  rt_cmp_rejects_users rowsR = true -> native_user_ok ntbl (length rowsT) = true ->
  py_cmp_accepts_users rowsT = true ->
  user_ok (length rowsT) UR UT x -> user_ok (length rowsT) UR UT y ->
  In n cmp_names ->
  (length rowsT <= x -> length rowsT <= y -> succ (mk_table rowsR UR) y x (swapped n) = false) ->
  cmp_py (mk_table rowsT UT) (native_of ntbl (length rowsT)) x n y = Err ->
  cmp_c (mk_table rowsR UR) x n y = Err.
Proof. exact cmp_reported_is_real_lemma. Qed.
Print Assumptions cmp_reported_is_real_general.

(* No false positive on x < y, x <= y, x > y, x >= y, x == y, x != y.  PARTIAL: when BOTH operands are instances
   of user classes, the reflected comparison of the right operand must not answer -- pytype has no reflected
   comparison (slots.REVERSE_NAME_MAPPING has no entry for __lt__ ...), see cmp_reported_is_real_refuted. *)
Theorem cmp_reported_is_real_partial : forall (UT UR : table) x n y,
  user_class_ok UR UT x -> user_class_ok UR UT y -> In n cmp_names ->
  (c14_nb <= x -> c14_nb <= y -> succ (RT UR) y x (swapped n) = false) ->
  cmp_py (PY UT) NATIVE x n y = Err -> cmp_c (RT UR) x n y = Err.
Proof.
  intros UT UR x n y Hx Hy Hn Hr H.
  exact (cmp_reported_is_real_lemma py_rows rt_rows native_tbl UT UR x n y shape_ok_holds cmp_pair_faithful_holds
           ucol2_faithful_holds obj_faithful_holds rt_cmp_rejects_users_holds native_user_ok_holds
           py_cmp_accepts_users_holds Hx Hy Hn Hr H).
Qed.
Print Assumptions cmp_reported_is_real_partial.

(* == and != are never reported, whatever the operands (and cmp_c never fails on them: identity fall-back). *)
Theorem eqne_never_reported : forall (UT UR : table) x n y,
  In n cmp_names -> is_eqne n = true ->
  is_err (cmp_py (PY UT) NATIVE x n y) = false /\ is_err (cmp_c (RT UR) x n y) = false.
Proof.
  intros UT UR x n y Hn He. split; [|exact (cmp_c_eqne (RT UR) x n y He)].
  exact (cmp_eqne_lemma py_rows rt_rows native_tbl UT x n y shape_ok_holds cmp_pair_faithful_holds
           native_user_ok_holds Hn He).
Qed.
Print Assumptions eqne_never_reported.

(* Without the side condition the statement is false:
     class A:  def __lt__(self, o: int): ...   (returns NotImplemented for anything else)
     class B:  def __gt__(self, o): ...
   A() < B() is answered by B.__gt__ at run time; pytype sees A.__lt__ reject a B and reports. *)
Definition rf_py : table := user_table c14_nb [
  user_cls 14 [14; 0] [(30, (false, acc_only [1])); (37, (false, acc_only [1]))] None;
  user_cls 15 [15; 0] [(32, (false, acc_all)); (1, (false, acc_all))] None].
Definition rf_rt : table := rf_py.

Lemma rf_hyp : user_class_ok rf_rt rf_py 14 /\ user_class_ok rf_rt rf_py 15.
Proof.
  unfold user_class_ok, c14_nb.
  split.
  - apply (user_ok_intro _ _ _ _ [14]); [repeat constructor|reflexivity|reflexivity|].
    intros k [<-|[]]. split; [repeat constructor|apply sim_eq; reflexivity].
  - apply (user_ok_intro _ _ _ _ [15]); [repeat constructor|reflexivity|reflexivity|].
    intros k [<-|[]]. split; [repeat constructor|apply sim_eq; reflexivity].
Qed.

Theorem cmp_reported_is_real_refuted : exists (UT UR : table) x n y,
  user_class_ok UR UT x /\ user_class_ok UR UT y /\ In n cmp_names /\
  cmp_py (PY UT) NATIVE x n y = Err /\ cmp_c (RT UR) x n y <> Err.
Proof.
  exists rf_py, rf_rt, 14, N_LT, 15. destruct rf_hyp as [H1 H2].
  split; [exact H1|]. split; [exact H2|]. split; [vm_compute; tauto|].
  split; [vm_compute; reflexivity|vm_compute; discriminate].
Qed.
Print Assumptions cmp_reported_is_real_refuted.

(* No false positive on `item in seq` / `item not in seq`: no exclusion, all class tables. *)
Theorem in_reported_is_real : forall (UT UR : table) i q,
  user_class_ok UR UT i -> user_class_ok UR UT q ->
  in_py (PY UT) i q = Err -> in_c (RT UR) i q = Err.
Proof.
  intros UT UR i q.
  exact (in_reported_is_real_lemma py_rows rt_rows UT UR i q shape_ok_holds in_pair_faithful_holds
           ucol2_faithful_holds obj_faithful_holds obj_complete_holds contains_presence_holds int_is_head).
Qed.
Print Assumptions in_reported_is_real.

(* In-place operators.  On two builtin values: no false positive (minus F7).  PARTIAL when a user class is
   involved: if pytype finds an in-place dunder on the left operand, the plain binary operator must fail too --
   vm_utils.call_inplace_operator reports a failed __iop__ call without trying __op__ / __rop__ (finding F6). *)
Theorem inplace_reported_is_real_partial : forall (UT UR : table) x n y,
  user_class_ok UR UT x -> user_class_ok UR UT y -> In n arith_names -> excl_fp_iop x n y = false ->
  ((x <? c14_nb) && (y <? c14_nb) = false -> lookup (PY UT) x (iname n) <> None -> binop_c (RT UR) x n y = Err) ->
  inplace_py (PY UT) x n y = Err -> inplace_c (RT UR) HARD x n y = Err.
Proof.
  intros UT UR x n y Hx Hy Hn Hex Hf H.
  exact (inplace_reported_is_real_lemma py_rows rt_rows rt_hard UT UR x n y shape_ok_holds pair_faithful_holds
           ucol_faithful_holds obj_faithful_holds iop_pair_faithful_holds ucol2_faithful_holds Hx Hy Hn Hex Hf H).
Qed.
Print Assumptions inplace_reported_is_real_partial.

(* The side condition is needed:  v = [1]; v += B()  with B.__radd__ runs; pytype reports. *)
Theorem inplace_reported_is_real_refuted : exists (UT UR : table) x n y,
  user_class_ok UR UT x /\ user_class_ok UR UT y /\ In n arith_names /\ excl_fp_iop x n y = false /\
  inplace_py (PY UT) x n y = Err /\ inplace_c (RT UR) HARD x n y <> Err.
Proof.
  exists rf_py, rf_rt, C_LIST, N_ADD, 15. destruct rf_hyp as [H1 H2].
  split; [intros C; exfalso; vm_compute in C; repeat (apply le_S_n in C); exact (Nat.nle_succ_0 _ C)|].
  split; [exact H2|]. split; [vm_compute; tauto|]. split; [reflexivity|].
  split; [vm_compute; reflexivity|vm_compute; discriminate].
Qed.
Print Assumptions inplace_reported_is_real_refuted.

(* No false positive on item assignment x[k] = v (v an int literal) and deletion del x[k]: all class tables,
   minus F12 (del d[k] on a dict: KeyError at run time, reported by pytype). *)
Theorem store_reported_is_real : forall (UT UR : table) x n k,
  user_class_ok UR UT x -> user_class_ok UR UT k -> In n store_names -> excl_fp_store x n = false ->
  store_py (PY UT) x n k = Err -> store_c (RT UR) x n k = Err.
Proof.
  intros UT UR x n k.
  exact (store_reported_is_real_lemma py_rows rt_rows UT UR x n k shape_ok_holds store_pair_faithful_holds
           ucol2_faithful_holds obj_faithful_holds).
Qed.
Print Assumptions store_reported_is_real.

(* No false positive on +x and ~x; `not x` is never reported. *)
Theorem un_reported_is_real : forall (UT UR : table) x n,
  user_class_ok UR UT x -> In n un_names -> call0 (PY UT) x n = Err -> call0 (RT UR) x n = Err.
Proof.
  intros UT UR x n Hx Hn H.
  exact (un_reported_is_real_lemma py_rows rt_rows UT UR x n shape_ok_holds un_faithful_holds obj_faithful_holds
           Hx Hn H).
Qed.
Print Assumptions un_reported_is_real.

Theorem not_never_reported : forall (UT : table) x, not_py (PY UT) x <> Err.
Proof. intros UT x. discriminate. Qed.
Print Assumptions not_never_reported.

(* Verdicts on rf_py / rf_rt: 14 A with annotated __lt__ / __iadd__, 15 B with __gt__ and __radd__. *)
Example ext_verdicts :
  (* 1 < "a": compared natively by pytype, reported; TypeError.   1 < [1]: TypeError, not reported (object.__lt__
     of the stub accepts anything).  1 in "a": TypeError, not reported.  These are mistakes the property does not claim
     (so is `~1.5`, unreported because builtins.pytd gives float an __invert__: fixes/C14-float-has-no-invert.patch;
     not asserted here so that the file builds on the fixed tree too). *)
  cmp_py (PY rf_py) NATIVE C_INT N_LT C_STR = Err /\ cmp_c (RT rf_rt) C_INT N_LT C_STR = Err /\
  cmp_c (RT rf_rt) C_INT N_LT C_LIST = Err /\ is_err (cmp_py (PY rf_py) NATIVE C_INT N_LT C_LIST) = false /\
  in_c (RT rf_rt) C_INT C_STR = Err /\ is_err (in_py (PY rf_py) C_INT C_STR) = false /\
  (* 1 in A(): no __contains__/__iter__/__getitem__: reported and real;  +"a", ~"a": reported and real *)
  in_py (PY rf_py) C_INT 14 = Err /\ in_c (RT rf_rt) C_INT 14 = Err /\
  call0 (PY rf_py) C_STR N_POS = Err /\ call0 (RT rf_rt) C_STR N_POS = Err /\
  (* B() > A(): B.__gt__;  A() < 1: A.__lt__;  A() == B(): identity fall-back;  v = A(); v += 1: A.__iadd__ *)
  cmp_c (RT rf_rt) 15 N_GT 14 = Ok 15 32 /\ cmp_py (PY rf_py) NATIVE 14 N_LT C_INT = Ok 14 30 /\
  cmp_c (RT rf_rt) 14 N_EQ 15 = OkPlain /\ inplace_c (RT rf_rt) HARD 14 N_ADD C_INT = Ok 14 37 /\
  (* d = {1: 2}; d |= B(): dict.__ior__ raises, B.__ror__ is never tried (HARD);  s = {1}; s |= 1.5: TypeError both *)
  inplace_c (RT rf_rt) HARD C_DICT N_OR 15 = Err /\ inplace_py (PY rf_py) C_DICT N_OR 15 = Err /\
  inplace_c (RT rf_rt) HARD C_SET N_OR C_FLOAT = Err /\ inplace_py (PY rf_py) C_SET N_OR C_FLOAT = Err /\
  (* (1,)[0] = 1, del "a"[0], B()[1] = 1: reported and real;  [1][0] = 1: fine on both sides *)
  store_py (PY rf_py) C_TUPLE N_SETITEM C_INT = Err /\ store_c (RT rf_rt) C_TUPLE N_SETITEM C_INT = Err /\
  store_py (PY rf_py) C_STR N_DELITEM C_INT = Err /\ store_c (RT rf_rt) C_STR N_DELITEM C_INT = Err /\
  store_py (PY rf_py) 15 N_SETITEM C_INT = Err /\ store_c (RT rf_rt) 15 N_SETITEM C_INT = Err /\
  is_err (store_py (PY rf_py) C_LIST N_SETITEM C_INT) = false /\ is_err (store_c (RT rf_rt) C_LIST N_SETITEM C_INT) = false.
Proof. vm_compute. repeat split; reflexivity. Qed.

(* coq/Ops/Derived.v: operands that are instances of user classes DERIVING FROM A BUILTIN head
   (class M(int), class L(list), class D(dict) ..., any number of user classes between the class and the head, any
   subset of dunders overridden).  PYD / RTD: this run's regenerated rows with the acceptance rule "an instance of
   a class derived from B is accepted wherever a B is" (mk_table_d), any user part.  dbase: the builtin head an
   operand is or derives from. *)
From PV Require Import Ops.Derived Ops.DerivedProofs Ops.DerivedClosed.

(* Closed obligation, re-decided by vm_compute on every run: on two builtin heads, when neither option of pytype's
   dispatch succeeds, neither succeeds at run time -- WITHOUT the same-type shortcut of binary_op1 (the reflected
   dunder of B is tried on a B and an instance of a subclass of B). *)
Theorem derived_tables_faithful : dpair_faithful py_rows rt_rows = true.
Proof. exact dpair_faithful_holds. Qed.
Print Assumptions derived_tables_faithful.

(* General form: any builtin rows passing the closed checks, any user part. *)
Theorem derived_reported_is_real_general : forall (rowsT rowsR : list brow) (UT UR : table) x n y,
  shape_ok rowsT rowsR = true -> dpair_faithful rowsT rowsR = true -> ucol_faithful rowsT rowsR = true ->
  py_total UT ->
  derived_ok (length rowsT) UR UT x -> derived_ok (length rowsT) UR UT y ->
  In n binop_names ->
  excl_fp_bin (dbase (length rowsT) UT x) n (dbase (length rowsT) UT y) = false ->
  binop_py (mk_table_d rowsT UT) x n y = Err -> binop_c (mk_table_d rowsR UR) x n y = Err.
Proof. exact derived_reported_is_real_lemma. Qed.
Print Assumptions derived_reported_is_real_general.

(* No false positive on the 12 binary operators and the subscript when each operand is a builtin value or an instance
   of a class derived from a builtin head (minus F1 on dict and its subclasses).  PARTIAL: py_total -- the dunders
   written in the user classes are unannotated defs (pytype accepts any argument; at run time they may still answer
   NotImplemented).  With an annotated dunder the pointwise disagreements of builtins.pytd (no float.__radd__ ...)
   become visible:  class D(int): def __add__(self, o: str) ...;  D() + 1.5  -- outside the generated grammar. *)
Theorem derived_reported_is_real_partial : forall (UT UR : table) x n y,
  py_total UT -> derived_class_ok UR UT x -> derived_class_ok UR UT y ->
  In n binop_names -> excl_fp_bin (dbase c14_nb UT x) n (dbase c14_nb UT y) = false ->
  binop_py (PYD UT) x n y = Err -> binop_c (RTD UR) x n y = Err.
Proof.
  intros UT UR x n y.
  exact (derived_reported_is_real_lemma py_rows rt_rows UT UR x n y shape_ok_holds dpair_faithful_holds
           ucol_faithful_holds).
Qed.
Print Assumptions derived_reported_is_real_partial.

(* Non-vacuity:  class DI(int): pass      class DIR(int): def __radd__(self, o) ...     class DL(list): pass *)
Definition ex_d : table := user_table c14_nb [
  user_cls_d 14 [14; 1; 0] [14; 1] [];
  user_cls_d 15 [15; 1; 0] [15; 1] [(1, (false, acc_all))];
  user_cls_d 16 [16; 8; 0] [16; 8] []].

Example ex_d_hyp : py_total ex_d /\ derived_class_ok ex_d ex_d 14 /\ derived_class_ok ex_d ex_d 15 /\
                   derived_class_ok ex_d ex_d 16.
Proof.
  split.
  - apply py_total_user_table. repeat (apply Forall_cons; [apply user_cls_d_total; repeat constructor|]). apply Forall_nil.
  - unfold derived_class_ok, derived_ok, c14_nb. split; [|split]; intros _.
    + assert (D : dshape 14 ex_d 14 [14] 1) by (repeat split; repeat constructor).
      exists [14], 1. split; [exact D|split; [exact D|]]. intros k _. apply (sim_eq ex_d ex_d k eq_refl).
    + assert (D : dshape 14 ex_d 15 [15] 1) by (repeat split; repeat constructor).
      exists [15], 1. split; [exact D|split; [exact D|]]. intros k _. apply (sim_eq ex_d ex_d k eq_refl).
    + assert (D : dshape 14 ex_d 16 [16] 8) by (repeat split; repeat constructor).
      exists [16], 8. split; [exact D|split; [exact D|]]. intros k _. apply (sim_eq ex_d ex_d k eq_refl).
Qed.

Example ex_d_verdicts :
  (* DI(1) + "a": error on both sides;  DI(1) + 1.5: fine on both (int.__add__ in the stub, float.__radd__ at run time) *)
  binop_py (PYD ex_d) 14 N_ADD C_STR = Err /\ binop_c (RTD ex_d) 14 N_ADD C_STR = Err /\
  is_err (binop_py (PYD ex_d) 14 N_ADD C_FLOAT) = false /\ is_err (binop_c (RTD ex_d) 14 N_ADD C_FLOAT) = false /\
  (* 1 + DIR(1): DIR.__radd__ first on both sides (subclass priority / _overrides);  1 + DI(1): int.__add__ *)
  binop_py (PYD ex_d) C_INT N_ADD 15 = Ok 15 1 /\ binop_c (RTD ex_d) C_INT N_ADD 15 = Ok 15 1 /\
  binop_py (PYD ex_d) C_INT N_ADD 14 = Ok C_INT N_ADD /\ binop_c (RTD ex_d) C_INT N_ADD 14 = Ok C_INT N_ADD /\
  (* [1] + DL([1]), DL([1])[1]: fine;  DL([1]) + 1, DL([1])["a"], DI(1)[1]: error on both sides *)
  is_err (binop_py (PYD ex_d) C_LIST N_ADD 16) = false /\ is_err (binop_c (RTD ex_d) C_LIST N_ADD 16) = false /\
  is_err (binop_py (PYD ex_d) 16 N_GETITEM C_INT) = false /\
  binop_py (PYD ex_d) 16 N_ADD C_INT = Err /\ binop_c (RTD ex_d) 16 N_ADD C_INT = Err /\
  binop_py (PYD ex_d) 16 N_GETITEM C_STR = Err /\ binop_py (PYD ex_d) 14 N_GETITEM C_INT = Err.
Proof. vm_compute. repeat split; reflexivity. Qed.
