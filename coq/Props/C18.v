(* C18 — flow conditions and block-state merging preserve meaning (rewrite engine).
   The stated theorems, each followed by Print Assumptions, with non-vacuity examples; short proofs
   stand under their statements, the lemmas are in Flow/*Proofs.v.
   Models: Flow/Model.v (conditions.py, variables.py, state.py), Flow/Frame.v and Flow/Loop.v
   (frame_base.py), Flow/Api.v (the rest of the API of variables.py / state.py, the normal form of
   condition terms). *)
From Coq Require Import List Bool Arith PeanoNat.
From PV Require Import Flow.Model Flow.Proofs.
Import ListNotations.

(* condition constructors: equivalent to not/and/or under every truth assignment, for all
   condition terms (any depth, any number of arguments, any atoms) *)

Theorem not_equiv : forall rho c, holds rho (NotC c) = negb (holds rho c).
Proof. exact holds_NotC. Qed.
Print Assumptions not_equiv.

Theorem and_equiv : forall rho args, holds rho (AndC args) = forallb (holds rho) args.
Proof. exact (fun rho => holds_make rho KAnd). Qed.
Print Assumptions and_equiv.

Theorem or_equiv : forall rho args, holds rho (OrC args) = existsb (holds rho) args.
Proof. exact (fun rho => holds_make rho KOr). Qed.
Print Assumptions or_equiv.

(* the dataclass/frozenset equality used by the constructors ([negation in conditions]) and by
   merge_into ([var == other._locals[name]]) only identifies equivalent conditions *)
Theorem cond_eq_sound : forall rho a b, cond_eqb a b = true -> holds rho a = holds rho b.
Proof. exact cond_eqb_sound. Qed.
Print Assumptions cond_eq_sound.

(* adding a condition restricts each binding by exactly that condition *)

Theorem var_with_condition_exact : forall v c,
  Forall2 (fun b b' => bval b' = bval b /\
                       forall rho, holds rho (bcond b') = holds rho (bcond b) && holds rho c)
          (vbindings v) (vbindings (var_with_condition v c))
  /\ vname (var_with_condition v c) = vname v.
Proof.
  intros v c. split; [|apply vwc_name].
  rewrite vwc_map. cbn [vbindings].
  induction (vbindings v); simpl; constructor; [|assumption].
  split; [apply bval_cw | intros rho; apply holds_cw].
Qed.
Print Assumptions var_with_condition_exact.

Theorem state_with_condition_exact : forall rho s c x, Inv s ->
  vals rho (with_condition s c) x = (if holds rho c then vals rho s x else []) /\
  holds rho (scond (with_condition s c)) = holds rho (scond s) && holds rho c.
Proof. exact state_with_condition_exact_lemma. Qed.
Print Assumptions state_with_condition_exact.

(* merging: under every truth assignment every local name has exactly the union *)

Theorem merge_union : forall rho s1 s2 x, Inv s1 -> Inv s2 ->
  (forall val, In val (vals rho (merge_into s1 (Some s2)) x) <->
               In val (vals rho s1 x) \/ In val (vals rho s2 x)) /\
  holds rho (scond (merge_into s1 (Some s2))) = holds rho (scond s1) || holds rho (scond s2).
Proof. exact merge_union_lemma. Qed.
Print Assumptions merge_union.

Theorem merge_none : forall s, merge_into s None = s.
Proof. exact merge_none_lemma. Qed.
Print Assumptions merge_none.

(* "built through the state's own operations": every public operation preserves Inv *)

Theorem Inv_init : forall l c,
  NoDup (map fst l) -> (forall x v, In (x, v) l -> wfvar v) -> Inv (new_state l c None).
Proof. intros l c Hnd Hwf. apply Inv_new_state; [exact Hnd|]. intros x v H. apply dget_in in H. eauto. Qed.
Print Assumptions Inv_init.

Theorem Inv_store : forall s x v, Inv s -> wfvar v -> Inv (store_local s x v).
Proof. exact Inv_store_lemma. Qed.
Print Assumptions Inv_store.

(* what load_local hands out can be stored again *)
Theorem load_local_distinct : forall s x v, Inv s -> load_local s x = Some v -> wfvar v.
Proof. exact load_local_wf. Qed.
Print Assumptions load_local_distinct.

Theorem Inv_with_condition : forall s c, Inv s -> Inv (with_condition s c).
Proof. exact Inv_with_condition_lemma. Qed.
Print Assumptions Inv_with_condition.

Theorem Inv_merge : forall s1 s2, Inv s1 -> Inv s2 -> Inv (merge_into s1 (Some s2)).
Proof. exact Inv_merge_lemma. Qed.
Print Assumptions Inv_merge.

(* every history of public operations (any length, any nesting of merges) ends in an Inv state ... *)
Theorem run_Inv : forall p s, run p = Some s -> Inv s.
Proof. exact run_Inv_lemma. Qed.
Print Assumptions run_Inv.

(* ... so the union property holds for every pair of states built by histories *)
Theorem merge_union_run : forall p q s t rho x,
  run p = Some s -> run q = Some t ->
  forall val, In val (vals rho (merge_into s (Some t)) x) <->
              In val (vals rho s x) \/ In val (vals rho t x).
Proof. intros p q s t rho x Hp Hq. apply merge_union_lemma; eapply run_Inv_lemma; eauto. Qed.
Print Assumptions merge_union_run.

(* the clauses of Inv are needed (hand-built objects, outside the property's quantifier) *)

(* a Variable with two bindings of the same value loses a condition in merge_into (dict overwrite) *)
Theorem merge_union_needs_distinct_values :
  exists s1 s2 rho x val,
    Inv_weak s1 /\ Inv s2 /\
    In val (vals rho s1 x) /\ ~ In val (vals rho (merge_into s1 (Some s2)) x).
Proof.
  exists dup_s1, dup_s2, dup_rho, 0, 1. split; [|split; [|split]].
  - apply Inv_weak_init. simpl. constructor; auto. constructor.
  - apply (Inv_init_from_values [(0, 2)]).
  - vm_compute. auto.
  - vm_compute. intros [H|[]]. discriminate.
Qed.
Print Assumptions merge_union_needs_distinct_values.

(* a state constructed with an explicit (non-default) locals_with_block_condition whose binding
   conditions do not imply the block condition is not restricted exactly by with_condition *)
Theorem with_condition_needs_implication :
  exists s c rho x,
    NoDup (map fst (locals s)) /\ (forall y v, dget y (locals s) = Some v -> wfvar v) /\
    holds rho c = true /\ vals rho (with_condition s c) x <> vals rho s x.
Proof.
  exists imp_s, (Atom 1), imp_rho, 0. split; [|split; [|split]].
  - simpl. constructor; auto. constructor.
  - intros y v H. simpl in H. destruct (Nat.eqb y 0); inversion H. apply from_value_wf.
  - reflexivity.
  - vm_compute. discriminate.
Qed.
Print Assumptions with_condition_needs_implication.

(* non-vacuity: a diamond.  x = 1; if a0: x = 2 (and y = 1); join; then a nested one. *)
Definition p_entry : prog := PStore (PInit [] CT) 0 1 None.
Definition p_then : prog := PStore (PStore (PWith p_entry (Atom 0)) 0 2 None) 1 1 None.
Definition p_else : prog := PWith p_entry (CNot (Atom 0)).
Definition p_join : prog := PMerge p_then p_else.
Definition rho_t (a : nat) : bool := true.
Definition rho_f (a : nat) : bool := false.

Example diamond_runs : exists s, run p_join = Some s /\ Inv s /\
  wbc s = [] /\ length (locals s) = 2 /\
  vals rho_t s 0 = [2] /\ vals rho_f s 0 = [1] /\ vals rho_t s 1 = [1] /\ vals rho_f s 1 = [].
Proof.
  destruct (run p_join) as [s|] eqn:E; [|vm_compute in E; discriminate].
  exists s. split; [reflexivity|]. split; [exact (run_Inv_lemma _ _ E)|].
  vm_compute in E. injection E as <-. vm_compute. repeat split; reflexivity.
Qed.

(* the constructors really simplify: And(a, Or(b, c), not a) = FALSE, Or(a, FALSE, a) = a,
   no flattening of nested composites of the same kind *)
Example constructors_simplify :
  AndC [Atom 0; OrC [Atom 1; Atom 2]; NotC (Atom 0)] = CF /\
  OrC [Atom 0; CF; Atom 0] = Atom 0 /\
  AndC [AndC [Atom 0; Atom 1]; Atom 1] = CAnd [CAnd [Atom 0; Atom 1]; Atom 1] /\
  NotC (NotC (Atom 0)) = Atom 0 /\ NotC CT = CNot CT.
Proof. vm_compute. repeat split; reflexivity. Qed.

(* merging the join with a further conditioned copy of itself: both the "same variable" case
   (explicit on both sides) and the binding-merge case occur, and Inv still holds *)
Example nested_merge : exists s,
  run (PMerge (PWith p_join (Atom 1)) (PStore (PWith p_join (CNot (Atom 1))) 1 2 None)) = Some s /\
  Inv s /\ vals rho_t s 1 = [1] /\ vals rho_f s 1 = [2] /\ vals rho_f s 0 = [1].
Proof.
  match goal with |- exists s, run ?p = _ /\ _ => destruct (run p) as [s|] eqn:E; [|vm_compute in E; discriminate] end.
  exists s. split; [reflexivity|]. split; [exact (run_Inv_lemma _ _ E)|].
  vm_compute in E. injection E as <-. vm_compute. repeat split; reflexivity.
Qed.

(* frame_base.py: which state merges into which (Flow/Frame.v) *)
From PV Require Import Flow.Frame Flow.FrameProofs.

(* For every ACYCLIC block graph processed in the order of code.order (wf_code: distinct block ids, every
   jump target / fall-through lies strictly later; any number of blocks, stores, atoms, repeated atoms),
   every initial locals, every block position p: the state with which FrameBase enters the block satisfies
   Inv, and under every valuation rho
   - a local x can have value v in it  iff  some control path from the entry block that is enabled under
     rho reaches the block with an environment (built by the straight-line stores along the path) in
     which x = v;
   - its block condition holds  iff  some enabled path reaches the block. *)
Theorem frame_join_exact : forall code init, wf_code code = true ->
  forall p b s, nth_error code p = Some b -> entry_state code init p = Some s ->
  Inv s /\
  forall rho,
    (forall x v, In v (vals rho s x) <->
                 exists e, arrives code init rho (bid b) e /\ dget x e = Some v) /\
    (holds rho (scond s) = true <-> exists e, arrives code init rho (bid b) e).
Proof.
  intros code init WF p b s Hb He.
  destruct (frame_loop_join_exact_lemma code init (wf_NoDup code WF) p b s Hb He) as [HI HS].
  split; [exact HI|]. intros rho.
  apply (SpecO_ext rho (Some s) _ _ (HS rho)). intros e. apply arrivesF_acyclic, WF.
Qed.
Print Assumptions frame_join_exact.

(* a block that some enabled path reaches has a recorded state when its turn comes (no KeyError there) *)
Theorem frame_reached_has_state : forall code init p b f rho e,
  wf_code code = true -> nth_error code p = Some b -> run_prefix code init p = Some f ->
  arrives code init rho (bid b) e -> exists s, entry_state code init p = Some s.
Proof.
  intros code init p b f rho e WF Hb Ef Ha.
  apply (frame_loop_reached_has_state_lemma code init (wf_NoDup code WF) p b f rho e Hb Ef).
  apply arrivesF_acyclic; assumption.
Qed.
Print Assumptions frame_reached_has_state.

(* non-vacuity: a diamond, and a nested if followed by a join *)
(*  B0: if not a0 jump B3      B1: x = 1; jump B5      B3: x = 2 (fall)      B5: ret  *)
Definition code_diamond : list block :=
  [mkBlk 0 [] (TCond 0 3 1); mkBlk 1 [(0, 1)] (TJump 5); mkBlk 3 [(0, 2)] (TFall 5); mkBlk 5 [] TRet].

Example diamond_frame : wf_code code_diamond = true /\
  exists s, entry_state code_diamond [] 3 = Some s /\
    vals rho_t s 0 = [1] /\ vals rho_f s 0 = [2] /\ holds rho_f (scond s) = true.
Proof.
  split; [reflexivity|].
  eexists. split; [vm_compute; reflexivity|]. vm_compute. repeat split; reflexivity.
Qed.

Example diamond_path : arrives code_diamond [] rho_f 5 [(0, 2)].
Proof.
  unfold arrives. change [(0, 2)] with (apply_stores [(0, 2)] (apply_stores [] (init_env []))).
  apply (ak_step code_diamond [] rho_f _ 2 (mkBlk 3 [(0, 2)] (TFall 5))); [simpl; auto | reflexivity | | left; reflexivity].
  apply (ak_step code_diamond [] rho_f _ 0 (mkBlk 0 [] (TCond 0 3 1))); [simpl; auto | reflexivity | | left; reflexivity].
  apply (ak_entry code_diamond [] rho_f _ (mkBlk 0 [] (TCond 0 3 1))). reflexivity.
Qed.

(*  x = 9 initially.
    B0: if not a0 jump B6    B1: if not a1 jump B4    B2: x = 1; jump B8    B4: x = 2; jump B8
    B6: x = 3 (fall)         B8: y = 1; ret *)
Definition code_nested : list block :=
  [mkBlk 0 [] (TCond 0 6 1); mkBlk 1 [] (TCond 1 4 2); mkBlk 2 [(0, 1)] (TJump 8);
   mkBlk 4 [(0, 2)] (TJump 8); mkBlk 6 [(0, 3)] (TFall 8); mkBlk 8 [(1, 1)] TRet].
Definition rho_10 (a : nat) : bool := Nat.eqb a 0.

Example nested_frame : wf_code code_nested = true /\
  exists s, entry_state code_nested [(0, 9)] 5 = Some s /\
    vals rho_t s 0 = [1] /\ vals rho_10 s 0 = [2] /\ vals rho_f s 0 = [3] /\
    exists s4, entry_state code_nested [(0, 9)] 3 = Some s4 /\
      vals rho_10 s4 0 = [9] /\ vals rho_t s4 0 = [] /\ holds rho_t (scond s4) = false.
Proof.
  split; [reflexivity|].
  eexists. split; [vm_compute; reflexivity|]. do 3 (split; [vm_compute; reflexivity|]).
  eexists. split; [vm_compute; reflexivity|]. vm_compute. repeat split; reflexivity.
Qed.

(* frame_base.py on block graphs WITH back edges (Flow/Loop.v) *)
From PV Require Import Flow.Loop Flow.LoopProofs.

(* For EVERY block graph with distinct block ids (back edges, self loops, jumps to ids that are no block,
   unreachable blocks; any sizes): each block is executed once, in the order of code.order; a state merged
   into an already executed block is never consumed.  The state with which FrameBase enters the block at
   position p satisfies Inv and denotes exactly the join over the enabled paths made of FORWARD edges
   (arrivesF: every edge goes to a block at a strictly later position). *)
Theorem frame_loop_join_exact : forall code init, NoDup (map bid code) ->
  forall p b s, nth_error code p = Some b -> entry_state code init p = Some s ->
  Inv s /\
  forall rho,
    (forall x v, In v (vals rho s x) <->
                 exists e, arrivesF code init rho (bid b) e /\ dget x e = Some v) /\
    (holds rho (scond s) = true <-> exists e, arrivesF code init rho (bid b) e).
Proof. exact frame_loop_join_exact_lemma. Qed.
Print Assumptions frame_loop_join_exact.

(* on an acyclic graph in topological order every path is forward: frame_join_exact is the special case *)
Theorem forward_paths_are_all_paths_when_acyclic : forall code init rho k j e,
  wf_code code = true -> (arrivesFK code init rho k j e <-> arrivesK code init rho k j e).
Proof. exact arrivesF_acyclic. Qed.
Print Assumptions forward_paths_are_all_paths_when_acyclic.

(* soundness direction with loops: whatever an entry state allows is allowed by some real (all-edges) path *)
Theorem frame_loop_sound : forall code init, NoDup (map bid code) ->
  forall p b s rho x v, nth_error code p = Some b -> entry_state code init p = Some s ->
  In v (vals rho s x) -> exists e, arrives code init rho (bid b) e /\ dget x e = Some v.
Proof.
  intros code init ND p b s rho x v Hb He Hin.
  destruct (frame_loop_join_exact_lemma code init ND p b s Hb He) as [_ H].
  destruct (H rho) as [H1 _]. apply H1 in Hin. destruct Hin as [e [Ha Hd]].
  exists e. split; auto. apply arrivesFK_arrivesK. exact Ha.
Qed.
Print Assumptions frame_loop_sound.

(* the stronger reading "every value a local can have on entry along ANY path, around the loop included, is
   in the entry state" is FALSE: code_while, the header after one turn of the loop has x = 2, the entry state
   only x = 1.  (Outside C18's quantifier, which is about merge_into on states built by the state's own
   operations.) *)
Theorem frame_loop_all_paths_refuted :
  exists code init p b s rho x v e,
    NoDup (map bid code) /\ nth_error code p = Some b /\ entry_state code init p = Some s /\
    arrives code init rho (bid b) e /\ dget x e = Some v /\ ~ In v (vals rho s x).
Proof.
  exists code_while, [], 1, (mkBlk 2 [] (TCond 0 5 3)). eexists. exists rho_all, 0, 2, [(0, 2)].
  split. { simpl. repeat constructor; simpl; intuition discriminate. }
  split; [reflexivity|]. split; [vm_compute; reflexivity|].
  split; [exact while_arrives_around|]. split; [reflexivity|].
  vm_compute. intuition discriminate.
Qed.
Print Assumptions frame_loop_all_paths_refuted.

(* a block reached by an enabled forward path has a state when its turn comes ... *)
Theorem frame_loop_reached_has_state : forall code init, NoDup (map bid code) ->
  forall p b f rho e, nth_error code p = Some b -> run_prefix code init p = Some f ->
  arrivesF code init rho (bid b) e -> exists s, entry_state code init p = Some s.
Proof. exact frame_loop_reached_has_state_lemma. Qed.
Print Assumptions frame_loop_reached_has_state.

(* ... but one that is reachable through a back edge only has none: step() raises KeyError *)
Theorem frame_back_edge_only_block_dies :
  (exists e, arrives code_back_only [] rho_all 1 e) /\
  entry_state code_back_only [] 1 = None /\ run_frame code_back_only [] = None.
Proof.
  split; [|split; reflexivity].
  exists (apply_stores [] (apply_stores [] (init_env []))). unfold arrives.
  apply (ak_step code_back_only [] rho_all _ 2 (mkBlk 2 [] (TJump 1))); [simpl; auto | reflexivity | | left; reflexivity].
  apply (ak_step code_back_only [] rho_all _ 0 (mkBlk 0 [] (TJump 2))); [simpl; auto | reflexivity | | left; reflexivity].
  apply (ak_entry code_back_only [] rho_all _ (mkBlk 0 [] (TJump 2))). reflexivity.
Qed.
Print Assumptions frame_back_edge_only_block_dies.

(* the frame's final state (whose get_locals() is _final_locals) denotes exactly the exit environments of
   the forward paths that end in a NO_NEXT opcode - RETURN-like, and also plain JUMP_FORWARD-like (quirk) *)
Theorem frame_final_exact : forall code init, NoDup (map bid code) ->
  forall f fl, run_frame code init = Some (f, fl) ->
  exists s, ffinal f = Some s /\ fl = get_locals s /\ Inv s /\
    forall rho,
      (forall x v, In v (vals rho s x) <->
                   exists e, finalF code init rho e /\ dget x e = Some v) /\
      (holds rho (scond s) = true <-> exists e, finalF code init rho e).
Proof.
  intros code init ND f fl H. unfold run_frame in H.
  destruct (run_prefix code init (length code)) as [f0|] eqn:Ef; [|discriminate].
  destruct (ffinal f0) as [s|] eqn:Es; [|discriminate]. injection H as <- <-.
  destruct (InvL_prefix code init ND (length code) f0 (le_n _) Ef) as [_ [HIf HF]].
  exists s. rewrite Es in HF. auto.
Qed.
Print Assumptions frame_final_exact.

(* non-vacuity: the while loop runs, its exit block B5 sees x = 1 under "not a0" and nothing under a0 (under
   a fixed valuation the loop is never left), and the frame has a final state *)
Example while_frame : NoDup (map bid code_while) /\
  exists s, entry_state code_while [] 3 = Some s /\
    vals rho_f s 0 = [1] /\ vals rho_t s 0 = [] /\
    exists f fl, run_frame code_while [] = Some (f, fl) /\ length fl = 1.
Proof.
  split. { simpl. repeat constructor; simpl; intuition discriminate. }
  eexists. split; [vm_compute; reflexivity|]. do 2 (split; [vm_compute; reflexivity|]).
  eexists _, _. split; [vm_compute; reflexivity | reflexivity].
Qed.

(* the rest of the public API of variables.py / state.py (Flow/Api.v) *)
From PV Require Import Flow.Api Flow.ApiProofs.

Theorem get_atomic_value_ok : forall v t x,
  get_atomic_value v t = inl x <->
  exists c, vbindings v = [mkB x c] /\ forall isinst, t = Some isinst -> isinst x = true.
Proof. exact get_atomic_value_ok_lemma. Qed.
Print Assumptions get_atomic_value_ok.

(* the three errors, each exactly when the code raises it *)
Theorem get_atomic_value_errors : forall v t,
  (get_atomic_value v t = inr TooFew <-> vbindings v = []) /\
  (get_atomic_value v t = inr TooMany <-> 2 <= length (vbindings v)) /\
  (get_atomic_value v t = inr WrongType <->
     exists b isinst, vbindings v = [b] /\ t = Some isinst /\ isinst (bval b) = false).
Proof.
  intros v t. pose proof (get_atomic_value_inv v t) as G.
  split; [|split]; (split; [intros H; rewrite H in G; exact G|]); unfold get_atomic_value.
  - intros E. rewrite E. reflexivity.
  - destruct (vbindings v) as [|b [|b2 rest]]; [intros H; inversion H | | reflexivity].
    intros H. apply le_S_n in H. inversion H.
  - intros [b [f [E [Et Hf]]]]. rewrite E, Et, Hf. reflexivity.
Qed.
Print Assumptions get_atomic_value_errors.

Theorem get_atomic_value_only_value : forall v t x rho,
  get_atomic_value v t = inl x -> forall y, In y (var_vals rho v) -> y = x.
Proof.
  intros v t x rho H y Hy. apply get_atomic_value_ok_lemma in H. destruct H as [c [E _]].
  unfold var_vals in Hy. rewrite E in Hy. cbn [filter bcond] in Hy.
  destruct (holds rho c); simpl in Hy; [destruct Hy as [Hy|[]]; auto | destruct Hy].
Qed.
Print Assumptions get_atomic_value_only_value.

(* is_atomic(typ) holds exactly when get_atomic_value(typ) does not raise (same isinstance class) *)
Theorem is_atomic_iff_get : forall v t,
  is_atomic v t = true <-> exists x, get_atomic_value v t = inl x.
Proof.
  intros v t. rewrite is_atomic_spec_lemma. split.
  - intros [[bv bc] [E H]]. exists bv. apply get_atomic_value_ok_lemma. exists bc. auto.
  - intros [x Hx]. apply get_atomic_value_ok_lemma in Hx. destruct Hx as [c [E H]].
    exists (mkB x c). auto.
Qed.
Print Assumptions is_atomic_iff_get.

Theorem has_atomic_value_spec : forall v x,
  has_atomic_value v x = true <-> get_atomic_value v None = inl x.
Proof.
  intros v x. unfold has_atomic_value, get_atomic_value. destruct (vbindings v) as [|b [|b2 rest]].
  - split; discriminate.
  - rewrite Nat.eqb_eq. split; intros H; [subst; reflexivity | inversion H; reflexivity].
  - split; discriminate.
Qed.
Print Assumptions has_atomic_value_spec.

Theorem with_value_spec : forall v x v',
  with_value v x = Some v' <-> exists b, vbindings v = [b] /\ v' = mkV [mkB x (bcond b)] (vname v).
Proof. exact with_value_spec_lemma. Qed.
Print Assumptions with_value_spec.

Theorem with_value_none : forall v x, with_value v x = None <-> length (vbindings v) <> 1.
Proof.
  intros v x. unfold with_value. destruct (vbindings v) as [|b [|b2 rest]]; cbn [length]; split; intros H; try discriminate; auto.
  destruct (H eq_refl).
Qed.
Print Assumptions with_value_none.

Theorem with_value_vals : forall v x v' rho,
  with_value v x = Some v' ->
  var_vals rho v' = map (fun _ => x) (var_vals rho v) /\ wfvar v' /\ vname v' = vname v.
Proof.
  intros v x v' rho H. apply with_value_spec_lemma in H. destruct H as [b [E Ev]]. subst v'.
  unfold var_vals, wfvar. rewrite E. cbn [vbindings vname filter bcond bval map].
  split; [destruct (holds rho (bcond b)); reflexivity|]. split; [|reflexivity].
  constructor; [intros []|constructor].
Qed.
Print Assumptions with_value_vals.

Theorem with_name_spec : forall v n rho,
  vbindings (with_name v n) = vbindings v /\ vname (with_name v n) = n /\
  var_vals rho (with_name v n) = var_vals rho v.
Proof. intros. repeat split. Qed.
Print Assumptions with_name_spec.

Theorem load_local_spec : forall s x v,
  load_local s x = Some v <-> exists v0, dget x (get_locals s) = Some v0 /\ v = with_name v0 (Some x).
Proof.
  intros s x v. unfold load_local, get_locals. destruct (dget x (locals s)) as [v0|]; split.
  - intros H. inversion H. exists v0. auto.
  - intros [v1 [E H]]. inversion E. subst. reflexivity.
  - discriminate.
  - intros [v1 [E _]]. discriminate.
Qed.
Print Assumptions load_local_spec.

Theorem load_local_none : forall s x, load_local s x = None <-> dget x (get_locals s) = None.
Proof. intros s x. unfold load_local, get_locals. destruct (dget x (locals s)); split; intros; try discriminate; auto. Qed.
Print Assumptions load_local_none.

(* load_local hands the variable out without the lazily tracked block condition *)
Theorem load_local_vals : forall s x v rho,
  load_local s x = Some v -> vals rho s x = if blk rho s x then var_vals rho v else [].
Proof.
  intros s x v rho H. unfold load_local in H. unfold vals.
  destruct (dget x (locals s)) as [v0|]; [|discriminate]. inversion H. subst v.
  unfold var_vals, with_name. cbn [vbindings].
  rewrite (filter_guard _ (fun b => holds rho (bcond b)) _ (blk rho s x)) by reflexivity.
  destruct (blk rho s x); reflexivity.
Qed.
Print Assumptions load_local_vals.

Theorem store_then_load : forall s x v y,
  load_local (store_local s x v) y = if Nat.eqb y x then Some (with_name v (Some x)) else load_local s y.
Proof.
  intros s x v y. unfold load_local, store_local. cbn [locals]. rewrite dget_dset.
  destruct (Nat.eqb y x) eqn:E; [|reflexivity]. apply Nat.eqb_eq in E. subst. reflexivity.
Qed.
Print Assumptions store_then_load.

Theorem get_locals_store : forall s x v y,
  dget y (get_locals (store_local s x v)) = if Nat.eqb y x then Some v else dget y (get_locals s).
Proof. intros. unfold get_locals, store_local. cbn [locals]. apply dget_dset. Qed.
Print Assumptions get_locals_store.

(* with_condition on a state whose own condition is not TRUE: explicit locals get the COMBINED condition *)
Theorem with_condition_shape : forall s c, NoDup (map fst (locals s)) ->
  scond (with_condition s c) = AndC [scond s; c] /\
  wbc (with_condition s c) = wbc s /\
  forall x, dget x (get_locals (with_condition s c)) =
            match dget x (get_locals s) with
            | None => None
            | Some v => Some (if nmem x (wbc s) then v else var_with_condition v (AndC [scond s; c]))
            end.
Proof.
  intros s c Hnd. split; [reflexivity|]. split; [reflexivity|].
  intros x. unfold get_locals. rewrite wc_locals_get by exact Hnd. reflexivity.
Qed.
Print Assumptions with_condition_shape.

Theorem with_condition_keys : forall s c, NoDup (map fst (locals s)) ->
  map fst (get_locals (with_condition s c)) = map fst (get_locals s).
Proof. intros s c Hnd. apply wc_locals_keys. exact Hnd. Qed.
Print Assumptions with_condition_keys.

(* so with_condition(TRUE) is not the identity on such a state (the terms grow), only an equivalence *)
Theorem with_condition_true_grows :
  Inv grow_s /\
  get_locals (with_condition grow_s CT) = [(0, mkV [mkB 1 (CAnd [CAnd [Atom 0; Atom 1]; Atom 0])] None)] /\
  forall rho x, vals rho (with_condition grow_s CT) x = vals rho grow_s x.
Proof.
  assert (Inv grow_s) as HI.
  { apply Inv_pointwise; [repeat constructor; intros []|].
    intros x v H. unfold grow_s in H. cbn [locals dget] in H. destruct (Nat.eqb x 0); [|discriminate].
    injection H as <-. split; [repeat constructor; intros []|].
    intros _ rho val Ha. cbn in *. destruct (rho 0); [reflexivity|]. rewrite andb_false_r in Ha. discriminate Ha. }
  split; [exact HI|]. split; [reflexivity|].
  intros rho x. destruct (state_with_condition_exact_lemma rho grow_s CT x HI) as [E _]. exact E.
Qed.
Print Assumptions with_condition_true_grows.

Example api_nonvacuous :
  get_atomic_value (from_value 7 None) (Some (fun v => Nat.leb v 9)) = inl 7 /\
  get_atomic_value (from_value 7 None) (Some (fun v => Nat.leb v 3)) = inr WrongType /\
  get_atomic_value (mkV [mkB 1 (Atom 0); mkB 2 (CNot (Atom 0))] None) None = inr TooMany /\
  get_atomic_value (mkV [] (Some 0)) None = inr TooFew /\
  with_value (mkV [mkB 1 (Atom 0)] (Some 3)) 5 = Some (mkV [mkB 5 (Atom 0)] (Some 3)) /\
  has_atomic_value (mkV [mkB 1 (Atom 0)] None) 1 = true.
Proof. repeat split. Qed.

(* the normal form of the terms conditions.py builds (cond_wfb of Flow/Api.v) *)
From PV Require Import Flow.CondWfProofs.

(* invariant: TRUE / FALSE / atoms are well formed, and every constructor maps well-formed arguments to a
   well-formed term: a negation is never doubled; a composite has >= 2 members, each well formed, none
   TRUE/FALSE, no two equal, none the negation of another *)
Theorem cond_wf_not : forall c, cond_wfb c = true -> cond_wfb (NotC c) = true.
Proof.
  intros c H. destruct c; auto; try (cbn [NotC cond_wfb is_not negb andb]; exact H).
  simpl in H. apply andb_prop in H. tauto.
Qed.
Print Assumptions cond_wf_not.

Theorem cond_wf_make : forall k args,
  (forall a, In a args -> cond_wfb a = true) -> cond_wfb (make k args) = true.
Proof.
  intros k args Hargs. destruct (make_result_lemma k args Hargs) as [H|[H|[s [E [Hl [Hok _]]]]]].
  - apply Hargs. exact H.
  - destruct (make k args); auto; discriminate.
  - rewrite E. apply cond_wfb_mk. auto.
Qed.
Print Assumptions cond_wf_make.

(* what IS guaranteed, spelled out *)
Theorem cond_wf_composite : forall c, is_composite c = true -> cond_wfb c = true ->
  2 <= length (members c) /\
  (forall x, In x (members c) -> cond_wfb x = true /\ x <> CT /\ x <> CF) /\
  nodupb (members c) = true /\
  (forall x y, In x (members c) -> In y (members c) -> cond_eqb (NotC x) y = false).
Proof.
  intros c Hc H.
  assert (exists k, c = mk k (members c)) as [k E].
  { destruct c; try discriminate; [exists KAnd | exists KOr]; reflexivity. }
  rewrite E in H. apply cond_wfb_mk in H. destruct H as [Hl [H1 [H2 H3]]].
  split; [exact Hl|]. split; [|split; assumption].
  intros x Hx. destruct (H1 x Hx) as [Hw Hn]. split; [exact Hw|]. split; intros ->; discriminate.
Qed.
Print Assumptions cond_wf_composite.

(* no flattening, no new subterms: the result of And/Or is an argument, a constant, or a composite of the
   called kind whose members are arguments *)
Theorem make_result_shape : forall k args,
  (forall a, In a args -> cond_wfb a = true) ->
  In (make k args) args \/ is_const (make k args) = true \/
  exists s, make k args = mk k s /\ 2 <= length s /\ set_ok s /\ forall x, In x s -> In x args.
Proof. exact make_result_lemma. Qed.
Print Assumptions make_result_shape.

(* no flattening: And(And(a, b), c) keeps the inner _And as a member - and that IS well formed *)
Theorem no_flattening :
  make KAnd [make KAnd [Atom 0; Atom 1]; Atom 2] = CAnd [CAnd [Atom 0; Atom 1]; Atom 2] /\
  cond_wfb (CAnd [CAnd [Atom 0; Atom 1]; Atom 2]) = true /\
  cond_eqb (make KAnd [make KAnd [Atom 0; Atom 1]; Atom 2]) (make KAnd [Atom 0; Atom 1; Atom 2]) = false.
Proof. repeat split. Qed.
Print Assumptions no_flattening.

(* laws for all terms *)
Theorem make_single : forall k a, make k [a] = a.
Proof. exact make_single_lemma. Qed.
Print Assumptions make_single.

(* And(a, a) = a,  Or(a, a) = a *)
Theorem make_idem : forall k a, make k [a; a] = a.
Proof.
  intros k a. unfold make. destruct (arg_cases k a) as [->|[->|H]].
  - rewrite !make_loop_ignore. reflexivity.
  - rewrite make_loop_accept. reflexivity.
  - rewrite (make_loop_plain k a _ _ H). cbn [cmem existsb].
    rewrite cadd_nil, (make_loop_plain k a _ _ H), cmem_notc_self. unfold cadd. rewrite cmem_self. reflexivity.
Qed.
Print Assumptions make_idem.

Theorem make_unit : forall k a, make k [ignore k; a] = a /\ make k [a; ignore k] = a.
Proof.
  intros k a. split; unfold make.
  - rewrite make_loop_ignore. apply make_single_lemma.
  - destruct (arg_cases k a) as [->|[->|H]].
    + rewrite !make_loop_ignore. reflexivity.
    + rewrite make_loop_accept. reflexivity.
    + rewrite (make_loop_plain k a _ _ H). cbn [cmem existsb]. rewrite make_loop_ignore. reflexivity.
Qed.
Print Assumptions make_unit.

(* And(FALSE, a) = And(a, FALSE) = FALSE,  Or(TRUE, a) = Or(a, TRUE) = TRUE *)
Theorem make_zero : forall k a, make k [accept k; a] = accept k /\ make k [a; accept k] = accept k.
Proof.
  intros k a. split; unfold make.
  - rewrite make_loop_accept. reflexivity.
  - destruct (arg_cases k a) as [->|[->|H]].
    + rewrite make_loop_ignore, make_loop_accept. reflexivity.
    + rewrite make_loop_accept. reflexivity.
    + rewrite (make_loop_plain k a _ _ H). cbn [cmem existsb]. rewrite make_loop_accept. reflexivity.
Qed.
Print Assumptions make_zero.

(* laws that need the normal form *)
Theorem not_involutive : forall a, cond_wfb a = true -> NotC (NotC a) = a.
Proof. intros a H. apply notc_involutive_lemma. apply wf_nn. exact H. Qed.
Print Assumptions not_involutive.

Theorem not_involutive_needs_wf : exists a, NotC (NotC a) <> a /\ cond_wfb a = false.
Proof. exists (CNot (CNot (Atom 0))). split; [discriminate|reflexivity]. Qed.
Print Assumptions not_involutive_needs_wf.

Theorem make_complement : forall k a,
  cond_wfb a = true -> is_const a = false -> is_const (NotC a) = false ->
  make k [a; NotC a] = accept k /\ make k [NotC a; a] = accept k.
Proof. intros k a H. apply make_complement_lemma. apply wf_nn. exact H. Qed.
Print Assumptions make_complement.

Theorem make_complement_needs_wf :
  exists a b, cond_wfb a = false /\ cond_wfb b = true /\
              (forall rho, holds rho a = negb (holds rho b)) /\ make KAnd [a; b] = CAnd [a; b].
Proof.
  exists (CNot (CNot (Atom 0))), (CNot (Atom 0)). split; [reflexivity|]. split; [reflexivity|].
  split; [|reflexivity]. intros rho. simpl. reflexivity.
Qed.
Print Assumptions make_complement_needs_wf.

(* equality of terms is symmetric (used by the set reasoning; Python's == on the dataclasses is) *)
Theorem cond_eq_sym : forall a b, cond_eqb a b = cond_eqb b a.
Proof. exact cond_eqb_sym. Qed.
Print Assumptions cond_eq_sym.

Example wf_nonvacuous :
  cond_wfb (OrC [AndC [Atom 0; NotC (Atom 1)]; NotC (AndC [Atom 0; Atom 2]); Atom 1]) = true /\
  is_composite (OrC [AndC [Atom 0; NotC (Atom 1)]; NotC (AndC [Atom 0; Atom 2]); Atom 1]) = true /\
  cond_wfb (CAnd [Atom 0]) = false /\ cond_wfb (CAnd [Atom 0; CT]) = false /\
  cond_wfb (COr [Atom 0; CNot (Atom 0)]) = false /\ cond_wfb (CNot (CNot (Atom 0))) = false.
Proof. repeat split. Qed.
