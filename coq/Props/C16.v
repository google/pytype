(* C16 — every compiled code object becomes a well-formed ordered block graph.
   The stated theorems, each followed by Print Assumptions, with non-vacuity examples; the lemmas are in Blocks/.
   Model: Blocks/Model.v (opcodes.py _make_opcode_list/_add_jump_targets, blocks.py _split_bytecode with the
   3.12 SEND / async-for surgery, compute_order, cfg_utils.py compute_predecessors/order_nodes); the flag table
   Generated/C16_OpcodeFlags.v is regenerated from opcodes.py on every run; only the evaluated examples read it, the
   general proofs never unfold it. *)
From Coq Require Import List NArith Arith Bool Relations.
From PV Require Import Generated.C16_OpcodeFlags Blocks.Model Blocks.Proofs Blocks.Witness.
Import ListNotations.

(* instruction indices and next/prev links are consistent; every jump has a resolved target *)
(* For every sorted offset table (any length, any elision), the list built by _make_opcode_list +
   _add_jump_targets has idx = position, next/prev = the neighbours, every target is an opcode of the list,
   and every opcode with a known jump has a target. *)
Theorem indices_consistent : forall (minor : N) (items : list item) (ops : list instr),
  build_ops minor items = Ok ops ->
  forall i o, nth_error ops i = Some o ->
    idx o = N.of_nat i /\
    next o = (if S i <? length ops then Some (N.of_nat (S i)) else None) /\
    prev o = (match i with O => None | S p => Some (N.of_nat p) end) /\
    (forall t, target o = Some t -> N.to_nat t < length ops) /\
    (has_known_jump o = true -> exists t, target o = Some t).
Proof. exact indices_consistent_lemma. Qed.
Print Assumptions indices_consistent.

(* _split_bytecode (including the SEND windows of await / yield from / async for): whenever it returns, the
   blocks are non-empty, each has id = index of its first instruction, their concatenation is exactly the
   opcode list, and no instruction occurs twice. *)
Theorem split_partition : forall (v312 : bool) (ops : list instr) (bs : list block) (es : list edge),
  wf_opsb ops = true ->
  split_bytecode v312 ops = Ok (bs, es) ->
  concat (map code bs) = ops /\ Forall block_wf bs /\ NoDup (block_instrs bs).
Proof. exact split_partition_full. Qed.
Print Assumptions split_partition.

(* SEND-free code (no SEND, no CLEANUP_THROW, no end_async_for_target): the blocks handed to order_nodes by
   compute_order are that partition, unchanged, and no target was rewritten. *)
Theorem plain_partition : forall (pick : queue -> N) (v312 : bool) (ops : list instr) (r : ordered),
  wf_opsb ops = true -> plainb ops = true ->
  compute_order_gen pick v312 ops = Ok r ->
  concat (map code (r_blocks r)) = ops /\ Forall block_wf (r_blocks r) /\
  NoDup (block_instrs (r_blocks r)) /\ r_retarget r = [].
Proof.
  intros pick v ops r Hwf Hpl H. destruct (compute_order_plain _ _ _ _ Hwf Hpl H) as [Hs Hr].
  destruct (split_partition_full _ _ _ _ Hwf Hs) as [A [B C]]. auto.
Qed.
Print Assumptions plain_partition.

(* With the async-for surgery every block is still non-empty ... *)
Theorem blocks_nonempty : forall (pick : queue -> N) (v312 : bool) (ops : list instr) (r : ordered),
  compute_order_gen pick v312 ops = Ok r -> Forall (fun b => code b <> []) (r_blocks r).
Proof.
  intros pick v ops r H. destruct (compute_order_gen_inv _ _ _ _ H) as [_ [[fm Hfm] _]].
  eapply first_op_map_nonempty; eauto.
Qed.
Print Assumptions blocks_nonempty.

(* ... and contains only instructions of the code object ... *)
Theorem instructions_from_ops : forall (pick : queue -> N) (v312 : bool) (ops : list instr) (r : ordered),
  compute_order_gen pick v312 ops = Ok r ->
  forall b o, In b (r_blocks r) -> In o (code b) -> In o ops.
Proof. exact instructions_from_ops_lemma. Qed.
Print Assumptions instructions_from_ops.

(* ... but "each instruction is in exactly one block" is REFUTED for the unchanged code: the opcode list of
     async def f(it):
       async for i in it:
         if i: continue
         g(i)
   (as produced by CPython 3.12 + build_opcodes + add_pop_block_targets) is well-formed, compute_order returns,
   and END_ASYNC_FOR (index 23) is in two blocks: _remove_jmp_to_get_anext_and_merge appends the END_ASYNC_FOR
   block to every block that ends in a JUMP_BACKWARD to the same GET_ANEXT. *)
Theorem partition_refuted : exists ops r,
  wf_opsb ops = true /\ compute_order true ops = Ok r /\ ~ NoDup (block_instrs (r_blocks r)).
Proof.
  exists async_for_continue. pose proof async_for_continue_dup as H.
  destruct (compute_order true async_for_continue) as [r|]; [|discriminate].
  exists r. split; [vm_compute; reflexivity|]. split; [reflexivity|].
  apply has_dup_not_NoDup. exact H.
Qed.
Print Assumptions partition_refuted.

(* partial: when every END_ASYNC_FOR block is merged into exactly one loop-back block (merge_simpleb: the merge
   list has pairwise distinct sources, pairwise distinct targets, and no block is both), the async surgery keeps
   "no instruction in two blocks".  merge_simpleb is evaluated (and reported) on every real opcode list. *)
Theorem partition_partial : forall (pick : queue -> N) (v312 : bool) (ops : list instr) (r : ordered),
  wf_opsb ops = true -> merge_simpleb ops = true ->
  compute_order_gen pick v312 ops = Ok r -> NoDup (block_instrs (r_blocks r)).
Proof. exact simple_merge_nodup_lemma. Qed.
Print Assumptions partition_partial.

(* every resolved jump target starts a block (SEND-free code) *)
Theorem targets_start_blocks : forall (pick : queue -> N) (v312 : bool) (ops : list instr) (r : ordered),
  wf_opsb ops = true -> anext_okb ops = true -> plainb ops = true ->
  compute_order_gen pick v312 ops = Ok r ->
  forall o t, In o ops -> target o = Some t ->
  exists b ot c, In b (r_blocks r) /\ nth_error ops (N.to_nat t) = Some ot /\
                 code b = ot :: c /\ bid b = t /\ idx ot = t.
Proof. exact plain_targets_lemma. Qed.
Print Assumptions targets_start_blocks.

(* ... and therefore compute_order raises no KeyError/IndexError while splitting, merging and connecting:
   every target, and every block_target, resolves in first_op_to_block ("every jump has a resolved target") *)
Theorem plain_connect_total : forall (v312 : bool) (ops : list instr),
  wf_opsb ops = true -> anext_okb ops = true -> plainb ops = true ->
  exists bs fm es,
    split_bytecode v312 ops = Ok (bs, []) /\
    (if v312 then remove_jmp_to_get_anext_and_merge (remove_jump_back_block ops bs) []
     else Ok (mkSu bs [] [] [])) = Ok (mkSu bs [] [] []) /\
    first_op_map bs [] = Ok fm /\
    connect_loop fm [] [] bs (Ok []) = Ok es.
Proof. exact plain_connect_total_lemma. Qed.
Print Assumptions plain_connect_total.

(* the hypothesis anext_okb is needed: _split_bytecode does not split before a GET_ANEXT that is a jump target *)
Theorem targets_start_blocks_needs_anext_ok : exists ops bs es o t,
  wf_opsb ops = true /\ plainb ops = true /\ split_bytecode true ops = Ok (bs, es) /\
  In o ops /\ target o = Some t /\ ~ In t (map bid bs).
Proof.
  exists [mkI 0 op_NOP None None None (Some 1%N) None;
          mkI 1 op_GET_ANEXT None None None (Some 2%N) (Some 0%N);
          mkI 2 op_JUMP_BACKWARD (Some 1%N) None None None (Some 1%N)].
  eexists. eexists. exists (mkI 2 op_JUMP_BACKWARD (Some 1%N) None None None (Some 1%N)), 1%N.
  split; [vm_compute; reflexivity|]. split; [vm_compute; reflexivity|].
  split; [vm_compute; reflexivity|]. split; [right; right; left; reflexivity|]. split; [reflexivity|].
  simpl. intros [H|[]]. discriminate.
Qed.
Print Assumptions targets_start_blocks_needs_anext_ok.

(* the execution order (with or without the async surgery, for ANY priority function) *)
(* order_nodes pops the queue entry chosen by [pick]; the real one is min over (len(predecessors), id).
   For every pick that returns a queued node: the order has no duplicates, starts with the entry block, lists
   exactly the blocks reachable from the entry along the edges compute_order created, and all are blocks. *)
Theorem order_complete_nodup : forall (pick : queue -> N) (v312 : bool) (ops : list instr) (r : ordered),
  pick_ok pick -> compute_order_gen pick v312 ops = Ok r ->
  match r_blocks r with
  | [] => r_order r = []
  | b0 :: _ =>
    NoDup (r_order r) /\
    (exists tl, r_order r = bid b0 :: tl) /\
    (forall b, In b (r_order r) <-> clos_refl_trans N (fun x y => In (x, y) (r_edges r)) (bid b0) b) /\
    (forall b, In b (r_order r) -> In b (map bid (r_blocks r)))
  end.
Proof.
  intros pick v ops r Hp H. destruct (compute_order_gen_inv _ _ _ _ H) as [Ho _].
  destruct (r_blocks r) as [|b0 rest]; cbn [map] in Ho.
  - injection Ho as <-. reflexivity.
  - destruct (order_nodes_gen_inv _ _ _ _ _ Hp Ho) as [pm [s [Hk [I [He [Hq ->]]]]]].
    destruct (oinv_final _ _ _ _ I He Hq) as [A [B [C [D _]]]]. rewrite Hk in D. auto.
Qed.
Print Assumptions order_complete_nodup.

(* every block that is not first in the order has one of its predecessors before it *)
Theorem order_pred_first : forall (pick : queue -> N) (v312 : bool) (ops : list instr) (r : ordered),
  pick_ok pick -> compute_order_gen pick v312 ops = Ok r ->
  forall l1 b l2, r_order r = l1 ++ b :: l2 -> l1 <> [] ->
  exists p, In p l1 /\ In (p, b) (r_edges r).
Proof.
  intros pick v ops r Hp H. destruct (compute_order_gen_inv _ _ _ _ H) as [Ho _].
  destruct (r_blocks r) as [|b0 rest]; cbn [map] in Ho.
  - injection Ho as <-. intros [|? ?]; discriminate.
  - destruct (order_nodes_gen_inv _ _ _ _ _ Hp Ho) as [pm [s [_ [I [He [Hq ->]]]]]].
    apply (oinv_final _ _ _ _ I He Hq).
Qed.
Print Assumptions order_pred_first.

(* the priority pytype uses is such a pick, so both theorems apply to [compute_order] itself *)
Theorem order_nodes_priority_ok : pick_ok pick_min.
Proof.
  intros [|e q] Hne; [congruence|]. unfold pick_min, keys. apply in_map. apply pick_min_from_In.
Qed.
Print Assumptions order_nodes_priority_ok.

(* def f(xs):
     for x in xs:
       try: g(x)
       except ValueError: continue
     return 1
   as built by pytype for CPython 3.12: loop, synthetic SETUP_EXCEPT_311 / POP_BLOCK with a block_target, dead
   cleanup block.  All hypotheses hold and the model returns the order pytype computes. *)
Example loop_try_except_hyps :
  wf_opsb loop_try_except = true /\ anext_okb loop_try_except = true /\ plainb loop_try_except = true.
Proof. vm_compute. auto. Qed.

Example loop_try_except_order :
  match compute_order true loop_try_except with
  | Ok r => length (r_blocks r) = 9 /\ length (r_order r) = 8 /\ hd 0%N (r_order r) = 0%N
  | Err _ => False
  end.
Proof. vm_compute. auto. Qed.

(* the async example is well-formed and goes through the SEND window, the jump-back removal and the merge *)
Example async_for_continue_runs :
  wf_opsb async_for_continue = true /\ plainb async_for_continue = false /\
  match compute_order true async_for_continue with
  | Ok r => (1 <? length (r_order r)) = true
  | Err _ => False
  end.
Proof. vm_compute. auto. Qed.

(* a plain `async for` satisfies the hypotheses of partition_partial, and the instruction set really shrinks
   (the loop-back JUMP_BACKWARD and the CLEANUP_THROW pair are dropped) *)
Example async_for_simple_hyps :
  wf_opsb async_for_simple = true /\ merge_simpleb async_for_simple = true /\
  merge_simpleb async_for_continue = false /\
  match compute_order true async_for_simple with
  | Ok r => length (block_instrs (r_blocks r)) = 21 /\ has_dup (block_instrs (r_blocks r)) = false
  | Err _ => False
  end.
Proof. vm_compute. auto. Qed.

(* the opcode-list model on a three-op table with a synthetic SETUP_EXCEPT_311 (offset key 2*0-1 is not
   representable, so the table starts at offset 2): indices, links and targets come out as stated *)
Example build_ops_example :
  build_ops 12 [mkItem 3 op_SETUP_EXCEPT_311 None (Some 8%N); mkItem 4 op_NOP None None;
                mkItem 6 op_JUMP_FORWARD (Some 8%N) None; mkItem 8 op_RETURN_CONST None None]
  = Ok [mkI 0 op_SETUP_EXCEPT_311 (Some 3%N) None None (Some 1%N) None;
        mkI 1 op_NOP None None None (Some 2%N) (Some 0%N);
        mkI 2 op_JUMP_FORWARD (Some 3%N) None None (Some 3%N) (Some 1%N);
        mkI 3 op_RETURN_CONST None None None None (Some 2%N)].
Proof. vm_compute. reflexivity. Qed.

(* The synthetic exception opcodes (opcodes.py _add_setup_except / _add_exception_block), tied to the exception
   table.  Hypothesis [wf_excb items entries] (monitored on every real code object, like wf_ops): the offset table
   holds only real instructions, sorted, at even byte offsets (keys 2*off+1, i.e. 1 mod 4); every entry starts and
   is handled at an instruction, start <= (inclusive) end; the entries are sorted and pairwise disjoint, as CPython
   emits them.  [kept_entries] are the entries pytype keeps (handler not END_ASYNC_FOR/CLEANUP_THROW/SWAP, not
   lasti, first kept entry of its source line). *)
From Coq Require Import Sorted.
From PV Require Import Blocks.ExcProofs.

(* no KeyError / ValueError path is taken *)
Theorem exception_ops_total : forall (items : list xitem) (entries : list exc_entry),
  wf_excb items entries = true -> exists out, add_setup_except entries items = Ok out.
Proof.
  intros items entries H. destruct (wf_excb_spec _ _ H) as [Hs [Hr [Hb Hk]]].
  destruct (loop_inv items Hs Hr entries [] [] items 0 [] (inv_init items Hs) Hb Hk) as [A [R [b [E _]]]].
  exists (A ++ R). exact E.
Qed.
Print Assumptions exception_ops_total.

(* the real instructions and their order are unchanged: the output restricted to real (odd) keys is the input *)
Theorem exception_ops_preserve_real : forall (items : list xitem) (entries : list exc_entry) (out : list xitem),
  wf_excb items entries = true -> add_setup_except entries items = Ok out ->
  filter (fun it => N.odd (x_key it)) out = items.
Proof.
  intros items entries out H E. destruct (add_setup_except_spec _ _ _ H E) as [A [R [b [-> [I RR]]]]].
  change (filter kodd (A ++ R) = items). rewrite filter_app, (filter_kodd_real R RR). symmetry. exact (i_real _ _ _ _ _ I).
Qed.
Print Assumptions exception_ops_preserve_real.

(* no two ops share a key; there are exactly two synthetic ops per kept entry; every kept entry has its
   SETUP_EXCEPT_311 immediately before the instruction at its start, with target = the instruction at the entry's
   handler offset, and its POP_BLOCK immediately after the last instruction at or before its (inclusive) end *)
Theorem exception_ops_complete : forall (items : list xitem) (entries : list exc_entry) (out : list xitem),
  wf_excb items entries = true -> add_setup_except entries items = Ok out ->
  StronglySorted N.lt (map x_key out) /\
  length (filter (fun it => N.even (x_key it)) out) = (2 * length (kept_entries entries items))%nat /\
  forall e, In e (kept_entries entries items) ->
    (exists l1 s l2,
       out = l1 ++ mkX (key_of (e_start e) - 1) op_SETUP_EXCEPT_311 (x_line s) (Some (key_of (e_target e))) :: s :: l2 /\
       In s items /\ x_key s = key_of (e_start e)) /\
    (exists l1 lst l2,
       out = l1 ++ lst :: mkX (x_key lst + 1) op_POP_BLOCK (x_line lst) None :: l2 /\
       In lst items /\ (x_key lst <= key_of (e_end e))%N /\
       forall it, In it items -> (x_key it <= key_of (e_end e))%N -> (x_key it <= x_key lst)%N).
Proof.
  intros items entries out H E. destruct (add_setup_except_spec _ _ _ H E) as [A [R [b [-> [I RR]]]]].
  split; [exact (i_sorted _ _ _ _ _ I) | split].
  - rewrite (filter_ext _ keven) by (intros a; symmetry; apply N.negb_odd).
    rewrite filter_app, (filter_keven_real R RR), app_nil_r. exact (i_count _ _ _ _ _ I).
  - intros e He. exact (entry_ok_app items A R e (i_done _ _ _ _ _ I e He)).
Qed.
Print Assumptions exception_ops_complete.

(* along the output, SETUP_EXCEPT_311 (key 0 mod 4) and POP_BLOCK (key 2 mod 4) are properly bracketed: never
   two open at once, none open at the end *)
Theorem exception_ops_nested : forall (items : list xitem) (entries : list exc_entry) (out : list xitem),
  wf_excb items entries = true -> add_setup_except entries items = Ok out ->
  brk (map x_key out) false = true.
Proof. exact exception_ops_nested_lemma. Qed.
Print Assumptions exception_ops_nested.

(* non-vacuity: two ADJACENT ranges (offsets 2..4 -> handler 8 and 6..6 -> handler 10; the last instruction of the
   first range has no inline cache) - the POP_BLOCK of the first (key 10) and the SETUP of the second (key 12) get
   different keys, the hypotheses hold and both entries are kept *)
Example adjacent_ranges :
  let items := [mkX 1 op_RESUME 1 None; mkX 5 op_NOP 2 None; mkX 9 op_POP_TOP 2 None; mkX 13 op_NOP 3 None;
                mkX 17 op_PUSH_EXC_INFO 4 None; mkX 21 op_PUSH_EXC_INFO 5 None; mkX 25 op_RERAISE 5 None] in
  let entries := [mkE 2 4 8 false; mkE 6 6 10 false] in
  wf_excb items entries = true /\ length (kept_entries entries items) = 2 /\
  option_map (map x_key) (match add_setup_except entries items with Ok o => Some o | Err _ => None end)
  = Some [1; 4; 5; 9; 10; 12; 13; 14; 17; 21; 25]%N.
Proof. vm_compute. auto. Qed.

(* The loops of compute_predecessors / order_nodes (Python `while` loops, modelled with fuel derived from the size
   of the graph: pred_fuel = log2 (V*V*(E+1)) + 1, order_fuel = log2 (V*(E+1)+1) + 1 binary digits) and the final
   assertion of order_nodes.  All statements hold for EVERY node list and edge list (duplicates, dangling edges,
   any size), hence for every graph compute_order hands to order_nodes. *)
From PV Require Import Blocks.FuelProofs Blocks.TotalProofs.

(* fuel sufficiency: compute_predecessors never returns the fuel code 11; the only exception it can raise is the
   KeyError of predecessors[node] (10) *)
Theorem compute_predecessors_fuel_sufficient : forall (nodes : list N) (es : list edge) (c : nat),
  compute_predecessors nodes es = Err c -> c = 10.
Proof. exact compute_predecessors_fuel_lemma. Qed.
Print Assumptions compute_predecessors_fuel_sufficient.

(* exactness: the map has one entry per node, in order; every member of an entry is a node that reaches the key;
   the entry of every node n (first entry, if the list repeats n) is a strictly increasing list holding exactly the
   nodes m with m ->* n along the edges; and nothing outside the node list is reachable from it *)
Theorem compute_predecessors_exact : forall (nodes : list N) (es : list edge) (pm : list (N * list N)),
  compute_predecessors nodes es = Ok pm ->
  map fst pm = nodes /\
  (forall n ps m, In (n, ps) pm -> In m ps -> In m nodes /\ clos_refl_trans N (fun x y => In (x, y) es) m n) /\
  (forall n, In n nodes -> exists ps, assocN n pm = Some ps /\ StronglySorted N.lt ps /\
     forall m, In m ps <-> In m nodes /\ clos_refl_trans N (fun x y => In (x, y) es) m n) /\
  (forall x y, In x nodes -> clos_refl_trans N (fun x y => In (x, y) es) x y -> In y nodes).
Proof. exact compute_predecessors_exact_lemma. Qed.
Print Assumptions compute_predecessors_exact.

(* it raises nothing when no edge leaves the node list *)
Theorem compute_predecessors_total : forall (nodes : list N) (es : list edge),
  (forall x y, In (x, y) es -> In x nodes -> In y nodes) -> exists pm, compute_predecessors nodes es = Ok pm.
Proof. exact compute_predecessors_total_lemma. Qed.
Print Assumptions compute_predecessors_total.

(* order_nodes, for any priority function that picks a queued node: the fuel codes 11 / 15, the KeyError 13 of
   predecessor_map[root] and - the point - the final assertion `len(set(order) | dead) == len(set(nodes))` (14)
   are impossible; only the KeyErrors of predecessors[node] / predecessor_map[n] (an edge to a block that is not in
   the list) remain *)
Theorem order_nodes_assertion_never_fires : forall (pick : queue -> N) (nodes : list N) (es : list edge) (c : nat),
  pick_ok pick -> order_nodes_gen pick nodes es = Err c -> c = 10 \/ c = 12.
Proof. exact order_nodes_errors_lemma. Qed.
Print Assumptions order_nodes_assertion_never_fires.

(* ... and those are impossible when no edge leaves the node list *)
Theorem order_nodes_total : forall (pick : queue -> N) (nodes : list N) (es : list edge),
  pick_ok pick -> (forall x y, In (x, y) es -> In x nodes -> In y nodes) ->
  exists order, order_nodes_gen pick nodes es = Ok order.
Proof. exact order_nodes_total_lemma. Qed.
Print Assumptions order_nodes_total.

(* SEND-free well-formed code: every edge compute_order creates ends at a block of the list, so the whole of
   compute_order (split, connect, compute_predecessors, order_nodes incl. its assertion) raises nothing *)
Theorem plain_compute_order_total : forall (pick : queue -> N) (v312 : bool) (ops : list instr),
  pick_ok pick -> wf_opsb ops = true -> anext_okb ops = true -> plainb ops = true ->
  exists r, compute_order_gen pick v312 ops = Ok r.
Proof. exact plain_compute_order_total_lemma. Qed.
Print Assumptions plain_compute_order_total.

(* non-vacuity: a graph with a cycle, a dead node (3) and a duplicate edge; the fuel 2^d really is small (d = 7 for
   4 nodes / 5 edges) and is enough; and a two-node graph whose edge (1, 7) leaves the node list raises the KeyError *)
Example predecessors_example :
  compute_predecessors [0; 1; 2; 3]%N [(0, 1); (1, 2); (2, 1); (1, 2); (3, 2)]%N
  = Ok [(0, [0]); (1, [0; 1; 2; 3]); (2, [0; 1; 2; 3]); (3, [3])]%N /\
  pred_fuel [0; 1; 2; 3]%N [(0, 1); (1, 2); (2, 1); (1, 2); (3, 2)]%N = 7 /\
  order_nodes [0; 1; 2; 3]%N [(0, 1); (1, 2); (2, 1); (1, 2); (3, 2)]%N = Ok [0; 1; 2]%N /\
  order_nodes [0; 1]%N [(0, 1); (1, 7)]%N = Err 10.
Proof. vm_compute. auto. Qed.

(* blocks.add_pop_block_targets (Blocks/Apbt.v): the block-stack walk that sets Opcode.block_target.
   [pxb] is the set of positions whose opcode has push_exc_block set. *)
From PV Require Import Blocks.Apbt Blocks.ApbtProofs.

(* termination: the while loop needs at most 2 * len(bytecode) + 1 iterations (fuel = that many in binary digits + 1);
   the fuel code 40 is never returned, for any list and any marks *)
Theorem apbt_fuel_sufficient : forall (ops : list instr) (pxb : list N),
  add_pop_block_targets ops pxb <> Err 40.
Proof.
  intros ops pxb H. unfold add_pop_block_targets in H. destruct ops as [|o ops]; [discriminate|].
  destruct (apbt_run_inv (o :: ops) pxb) as [I F]. pose proof (af_err _ _ I) as E.
  destruct (a_err (apbt_run (o :: ops) pxb)) eqn:Ee.
  - rewrite F in H. discriminate.
  - inversion H. congruence.
Qed.
Print Assumptions apbt_fuel_sufficient.

(* whenever it returns: only block_target fields change, and every block_target it sets is the jump target of a
   block-pushing opcode of the list (SETUP_FINALLY / SETUP_EXCEPT_311 / any PUSHES_BLOCK opcode: the op that was on
   top of the block stack, the innermost handler, or the enclosing SETUP_LOOP) *)
Theorem apbt_block_targets : forall (ops : list instr) (pxb : list N) (ops' : list instr),
  add_pop_block_targets ops pxb = Ok ops' ->
  length ops' = length ops /\
  forall k o', nth_error ops' k = Some o' ->
    exists o, nth_error ops k = Some o /\ o' = set_bt o (block_target o') /\
      forall t, block_target o' = Some t ->
        exists s, In s ops /\ (is_setup_except s || pushes_block s) = true /\ target s = Some t.
Proof. exact apbt_targets_lemma. Qed.
Print Assumptions apbt_block_targets.

(* hence the list handed to compute_order is well-formed whenever the list handed to add_pop_block_targets is: the
   two block_target clauses of wf_ops (an opcode of the list; a jump target) are proved *)
Theorem apbt_preserves_wf_ops : forall (ops : list instr) (pxb : list N) (ops' : list instr),
  wf_opsb ops = true -> add_pop_block_targets ops pxb = Ok ops' -> wf_opsb ops' = true.
Proof. exact apbt_wf_lemma. Qed.
Print Assumptions apbt_preserves_wf_ops.

(* ... and so every block_target starts a block after splitting (SEND-free code), composing with targets_start_blocks *)
Theorem block_targets_start_blocks : forall (pick : queue -> N) (v312 : bool) (ops : list instr) (pxb : list N)
    (ops' : list instr) (r : ordered),
  wf_opsb ops = true -> add_pop_block_targets ops pxb = Ok ops' ->
  anext_okb ops' = true -> plainb ops' = true -> compute_order_gen pick v312 ops' = Ok r ->
  forall o t, In o ops' -> block_target o = Some t ->
  exists b ot c, In b (r_blocks r) /\ nth_error ops' (N.to_nat t) = Some ot /\
                 code b = ot :: c /\ bid b = t /\ idx ot = t.
Proof.
  intros pick v ops pxb ops' r Hwf Ha Han Hpl Hc o t Hin Hbt.
  pose proof (apbt_wf_lemma _ _ _ Hwf Ha) as Hwf'.
  pose proof (wf_opsb_block_target _ _ _ Hwf' Hin Hbt) as Ht.
  apply in_targets in Ht. destruct Ht as [o2 [Hin2 Ht2]].
  exact (plain_targets_lemma pick v ops' r Hwf' Han Hpl Hc o2 t Hin2 Ht2).
Qed.
Print Assumptions block_targets_start_blocks.

(* properly bracketed input (apbt_okb, evaluated on every real list): reading the list left to right SETUP_EXCEPT_311
   and POP_BLOCK alternate (brk_ops - the list-level form of exception_ops_nested); no BREAK_LOOP; block-pushing ops
   have targets; a handler or an UNMARKED jump target inside a protected range is reached from inside a protected
   range; a jump marked push_exc_block lands inside a protected range; only a NO_NEXT opcode ends the list.
   Then no assertion of add_pop_block_targets fires and no attribute of None is taken - in particular POP_BLOCK never
   finds an empty block stack - and by apbt_block_targets every POP_BLOCK the walk reaches gets the target of the
   block on top of its stack. *)
Theorem apbt_total_on_bracketed_input : forall (ops : list instr) (pxb : list N),
  wf_links ops 0 (length ops) = true ->
  (forall o t, In o ops -> target o = Some t -> N.to_nat t < length ops) ->
  apbt_okb ops pxb = true ->
  exists ops', add_pop_block_targets ops pxb = Ok ops'.
Proof. exact apbt_total_lemma. Qed.
Print Assumptions apbt_total_on_bracketed_input.

(* the bracket hypothesis is needed: a POP_BLOCK that is reached with an empty block stack raises *)
Theorem apbt_needs_bracketing : exists ops,
  wf_opsb ops = true /\ add_pop_block_targets ops [] = Err 41.
Proof.
  exists [mkI 0 op_POP_BLOCK None None None (Some 1%N) None; mkI 1 op_RETURN_CONST None None None None (Some 0%N)].
  vm_compute. auto.
Qed.
Print Assumptions apbt_needs_bracketing.

(* non-vacuity: the loop + try/except example above satisfies the hypotheses, and the model recomputes exactly the
   block_targets pytype computed for it (the witness carries them) *)
Example loop_try_except_apbt :
  apbt_okb loop_try_except [] = true /\
  add_pop_block_targets loop_try_except [] = Ok loop_try_except /\
  existsb (fun o => match block_target o with Some _ => true | None => false end) loop_try_except = true.
Proof. vm_compute. auto. Qed.

(* a marked jump into a protected range pushes the range's SETUP_EXCEPT_311 (found by walking .prev), so the
   POP_BLOCK at position 4 gets the handler 6 although the SETUP at position 2 is never executed on that path *)
Example marked_jump_example :
  let ops := [mkI 0 op_NOP None None None (Some 1%N) None;
              mkI 1 op_JUMP_FORWARD (Some 3%N) None None (Some 2%N) (Some 0%N);
              mkI 2 op_SETUP_EXCEPT_311 (Some 6%N) None None (Some 3%N) (Some 1%N);
              mkI 3 op_NOP None None None (Some 4%N) (Some 2%N);
              mkI 4 op_POP_BLOCK None None None (Some 5%N) (Some 3%N);
              mkI 5 op_RETURN_CONST None None None (Some 6%N) (Some 4%N);
              mkI 6 op_PUSH_EXC_INFO None None None (Some 7%N) (Some 5%N);
              mkI 7 op_RERAISE None None None None (Some 6%N)] in
  apbt_okb ops [1%N] = true /\
  option_map (map block_target) (match add_pop_block_targets ops [1%N] with Ok o => Some o | Err _ => None end)
  = Some [None; None; None; None; Some 6%N; None; None; None] /\
  add_pop_block_targets ops [] = Err 41.
Proof. vm_compute. auto. Qed.

(* composition with the exception-table theorems *)
From PV Require Import Blocks.BracketProofs.

(* every op of the table _add_setup_except returns is an original instruction or a synthetic op whose class matches
   the class of its key (this is what lets exception_ops_nested, a statement about keys, speak about opcodes) *)
Theorem exception_ops_shape : forall (items : list xitem) (entries : list exc_entry) (out : list xitem),
  wf_excb items entries = true -> add_setup_except entries items = Ok out ->
  forall h, In h out ->
    ((x_key h mod 4 = 1)%N /\ In h items) \/
    ((x_key h mod 4 = 0)%N /\ x_opc h = op_SETUP_EXCEPT_311) \/
    ((x_key h mod 4 = 2)%N /\ x_opc h = op_POP_BLOCK).
Proof. exact exception_ops_shape_lemma. Qed.
Print Assumptions exception_ops_shape.

(* exception_ops_nested carried through _make_opcode_list / _add_jump_targets (python_version <> (3, 11): nothing
   elided): the opcode list built from the output table - by ANY conversion [its] that keeps the class sequence - is
   bracketed in the sense add_pop_block_targets needs; no original instruction may be a SETUP_EXCEPT_311 / POP_BLOCK
   (true from 3.11 on, where an exception table exists) *)
Theorem exception_ops_bracket_the_opcode_list : forall (items : list xitem) (entries : list exc_entry) (out : list xitem)
    (minor : N) (its : list item) (ops : list instr),
  wf_excb items entries = true ->
  (forall h, In h items -> x_opc h <> op_SETUP_EXCEPT_311 /\ x_opc h <> op_POP_BLOCK) ->
  add_setup_except entries items = Ok out ->
  minor <> 11%N -> map iopc its = map x_opc out -> build_ops minor its = Ok ops ->
  brk_ops ops false = true.
Proof. exact bracket_composition_lemma. Qed.
Print Assumptions exception_ops_bracket_the_opcode_list.

(* end to end: on such a list add_pop_block_targets raises nothing as soon as the jump / mark clauses hold *)
Theorem apbt_total_from_exception_table : forall (items : list xitem) (entries : list exc_entry) (out : list xitem)
    (minor : N) (its : list item) (ops : list instr) (pxb : list N),
  wf_excb items entries = true ->
  (forall h, In h items -> x_opc h <> op_SETUP_EXCEPT_311 /\ x_opc h <> op_POP_BLOCK) ->
  add_setup_except entries items = Ok out ->
  minor <> 11%N -> map iopc its = map x_opc out -> build_ops minor its = Ok ops ->
  apbt_ok_from ops ops pxb 0 = true ->
  exists ops', add_pop_block_targets ops pxb = Ok ops'.
Proof.
  intros items entries out minor its ops pxb Hwf Hnb Ha Hm Hcls Hb Hfrom.
  destruct (build_ops_wf _ _ _ Hb) as [Hl Ht].
  apply apbt_total_lemma; auto.
  unfold apbt_okb. rewrite (bracket_composition_lemma _ _ _ _ _ _ Hwf Hnb Ha Hm Hcls Hb). exact Hfrom.
Qed.
Print Assumptions apbt_total_from_exception_table.

(* non-vacuity: the adjacent-ranges table above, converted item by item, gives a bracketed 11-op list on which the
   walk returns (no jump is marked) *)
Example bracket_composition_example :
  let items := [mkX 1 op_RESUME 1 None; mkX 5 op_NOP 2 None; mkX 9 op_POP_TOP 2 None; mkX 13 op_NOP 3 None;
                mkX 17 op_PUSH_EXC_INFO 4 None; mkX 21 op_PUSH_EXC_INFO 5 None; mkX 25 op_RERAISE 5 None] in
  let entries := [mkE 2 4 8 false; mkE 6 6 10 false] in
  match add_setup_except entries items with
  | Ok out =>
    let its := map (fun x => mkItem (x_key x) (x_opc x) None (x_preset x)) out in
    match build_ops 12 its with
    | Ok ops => length ops = 11 /\ brk_ops ops false = true /\ apbt_ok_from ops ops [] 0 = true /\
                option_map (map block_target) (match add_pop_block_targets ops [] with Ok o => Some o | Err _ => None end)
                = Some [None; None; None; None; Some 8%N; None; None; Some 9%N; None; None; None]
    | Err _ => False
    end
  | Err _ => False
  end.
Proof. vm_compute. auto. Qed.
