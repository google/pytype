(* C11 — stub optimisation only ever widens types and is idempotent.
   The stated theorems, each followed by Print Assumptions, with non-vacuity examples; the lemmas are in Opt/.
   Model: Opt/Model.v (optimize.py, pytd_utils.JoinTypes, Node.Visit, UnionType.__post_init__);
   statement vocabulary: Opt/Spec.v; pass list and flags: Generated/C11_Passes.v (regenerated from the
   AST of optimize.Optimize on every run). *)
From Coq Require Import List Arith Bool.
From PV Require Import Opt.Syntax Generated.C11_Passes Opt.Model Opt.Spec Opt.Proofs Opt.Idem Opt.Stable.
Import ListNotations.

(* per pass: never stricter.
   For every hierarchy, type and value (unbounded). *)

(* pytd_utils.JoinTypes admits whatever any of its arguments admits *)
Theorem join_types_widens : forall H ts t, In t ts -> wider H t (join ts).
Proof. exact join_widens. Qed.
Print Assumptions join_types_widens.

Theorem simplify_unions_widens : forall H t, wider H t (simplify_unions t).
Proof. exact simplify_unions_widens_lemma. Qed.
Print Assumptions simplify_unions_widens.

(* tuple/callable degeneration, pointwise zip-join, first-occurrence placement, re-visit *)
Theorem combine_containers_widens : forall H k t, wf k t -> wider H t (combine_containers t).
Proof. exact combine_containers_widens_lemma. Qed.
Print Assumptions combine_containers_widens.

(* both variants of SimplifyContainers (with / without the one-member-union collapse) *)
Theorem simplify_containers_widens : forall H b t, wider H t (simplify_containers b t).
Proof. exact simplify_containers_widens_lemma. Qed.
Print Assumptions simplify_containers_widens.

(* Counter over ExpandSubClasses: a dropped member always has a kept superclass in the union *)
Theorem simplify_superclasses_widens : forall H k t,
  ranked H -> wf k t -> wider H t (simplify_superclasses H t).
Proof. exact simplify_superclasses_widens_lemma. Qed.
Print Assumptions simplify_superclasses_widens.

Theorem collapse_long_unions_widens : forall H n t, wider H t (collapse_long_unions n t).
Proof. exact collapse_long_unions_widens_lemma. Qed.
Print Assumptions collapse_long_unions_widens.

Theorem adjust_generic_type_widens : forall H t, wider H t (adjust_generic_type t).
Proof. exact adjust_generic_type_widens_lemma. Qed.
Print Assumptions adjust_generic_type_widens.

Theorem absorb_mutable_widens : forall H p, param_wider H p (absorb_param p).
Proof. exact absorb_param_wider. Qed.
Print Assumptions absorb_mutable_widens.

Theorem normalize_generic_self_widens : forall H cls s, sig_wider H s (normalize_self_sig cls s).
Proof. exact normalize_self_sig_wider. Qed.
Print Assumptions normalize_generic_self_widens.

Theorem lookup_classes_widens : forall H u, unit_wider H u (resolve_unit u).
Proof. exact resolve_unit_wider. Qed.
Print Assumptions lookup_classes_widens.

(* signature level *)

(* RemoveDuplicates: every signature is still there *)
Theorem remove_duplicates_sound : forall H f, func_wider H f (remove_duplicates_f f).
Proof. exact remove_duplicates_wider. Qed.
Print Assumptions remove_duplicates_sound.

(* CombineReturnsAndExceptions: a call admitted by some original signature is admitted by a merged
   one with the same parameters and a return type at least as wide *)
Theorem signature_merge_sound : forall H f, func_wider H f (combine_returns_f f).
Proof. exact combine_returns_wider. Qed.
Print Assumptions signature_merge_sound.

(* the pipeline Optimize runs *)

(* For the regenerated pass list, every option setting of the model (lossy passes make [opt] return
   None), every hierarchy, every well-formed unit: constants, parameters and returns are never
   stricter afterwards and every original signature is covered.  With remove_mutable the unit must have
   no classes (AdjustSelf deliberately rewrites `self: Any` to the class). *)
Theorem optimize_widens : forall k o Hd u u',
  ranked (hier_of u ++ Hd) -> wf_unit k u -> (o_remove_mutable o = true -> u_classes u = []) ->
  opt o Hd u = Some u' -> unit_wider (hier_of u ++ Hd) u u'.
Proof.
  intros k o Hd u u' R W RM. unfold opt. intros E.
  apply (run_passes_sound k _ o Hd _ true u u' passes_ok E R); [|auto].
  intros Er. unfold hier_of. rewrite (RM Er). reflexivity.
Qed.
Print Assumptions optimize_widens.

(* Optimize applied to a bare type (print_pytd, PyTDFunction return joining) *)
Theorem optimize_ty_widens : forall H k o t t', wf k t -> opt_ty o t = Some t' -> wider H t t'.
Proof.
  intros H k o t t'. unfold opt_ty. generalize passes. intros ps; revert t.
  induction ps as [|[fl p] r IH]; intros t W E; simpl in E.
  - inversion E; subst. apply wider_refl.
  - destruct (forallb (enabled o) fl); [|apply IH; assumption].
    destruct (run_pass_ty o p t) as [t1|] eqn:E1; [|discriminate].
    destruct (run_pass_ty_sound H k o p t t1 W E1) as [W1 W2].
    eapply wider_trans; [exact W1 | apply IH; assumption].
Qed.
Print Assumptions optimize_ty_widens.

(* idempotence *)

(* The statement "optimising an optimised stub changes nothing" is REFUTED for the code as it is, on
   well-formed resolved input with pytype's own settings: `def f() -> Union[object, List[int]]`
   optimises to `Union[Any, List[int]]` and then to `Any` (AdjustReturnAndConstantGenericType runs after
   the unions were simplified).  The witness does not involve one-member unions, so it holds for both
   variants of SimplifyContainers ([sc_collapse_single] true or false). *)
Theorem optimize_idempotent_refuted : exists o Hd u u1 u2,
  lossless o /\ ranked (hier_of u ++ Hd) /\ wf_unit KClass u /\
  opt o Hd u = Some u1 /\ opt o Hd u1 = Some u2 /\ u1 <> u2.
Proof.
  exists pytype_opts, w_deps, w1, w1_once, w1_twice.
  split; [apply lossless_pytype_opts|]. split; [apply w_ranked; reflexivity|].
  split; [unfold wf_unit; vm_compute; repeat constructor|].
  split; [vm_compute; reflexivity|]. split; [vm_compute; reflexivity | discriminate].
Qed.
Print Assumptions optimize_idempotent_refuted.

(* a second, independent way: the final SimplifyContainers turns List[Any] into list after
   SimplifyUnionsWithSuperclasses has run: Union[List[object], Sequence] -> Union[list, Sequence] -> Sequence *)
Theorem optimize_idempotent_refuted_subclass :
  ranked (hier_of w2 ++ w_deps) /\ wf_unit KClass w2 /\
  opt pytype_opts w_deps w2 = Some w2_once /\ opt pytype_opts w_deps w2_once = Some w2_twice /\
  w2_once <> w2_twice.
Proof.
  split; [apply w_ranked; reflexivity|].
  split; [unfold wf_unit; vm_compute; repeat constructor|].
  split; [vm_compute; reflexivity|]. split; [vm_compute; reflexivity | discriminate].
Qed.
Print Assumptions optimize_idempotent_refuted_subclass.

(* the one-member union (x: Union[List[object], list] -> UnionType((list,)) -> list): present in the
   pipeline whose SimplifyContainers lacks the collapsing VisitUnionType ... *)
Theorem single_member_union_refuted :
  run_passes false pytype_opts w_deps passes w3 = Some w3_once /\
  run_passes false pytype_opts w_deps passes w3_once = Some w3_twice /\ w3_once <> w3_twice.
Proof. split; [vm_compute; reflexivity|]. split; [vm_compute; reflexivity | discriminate]. Qed.
Print Assumptions single_member_union_refuted.
Theorem simplify_containers_single_member_refuted :
  no_single single_member_witness /\ ~ no_single (simplify_containers false single_member_witness).
Proof.
  split.
  - simpl. repeat split; discriminate.
  - vm_compute. intros [N _]. apply N. reflexivity.
Qed.
Print Assumptions simplify_containers_single_member_refuted.

(* ... and gone with it: no type leaves SimplifyContainers with a one-member union anywhere, and the
   witness is a fixed point *)
Theorem simplify_containers_no_single_member : forall t, no_single (simplify_containers true t).
Proof. exact simplify_containers_no_single_lemma. Qed.
Print Assumptions simplify_containers_no_single_member.
Theorem single_member_union_fixed :
  run_passes true pytype_opts w_deps passes w3 = Some w3_twice /\
  run_passes true pytype_opts w_deps passes w3_twice = Some w3_twice.
Proof. split; vm_compute; reflexivity. Qed.
Print Assumptions single_member_union_fixed.

(* What does hold, for all lossless settings without remove_mutable, all hierarchies and stubs:
   a stub in optimiser normal form (Spec.stable_unit: flat duplicate-free unions of 2..max members
   without Any/nothing, no two containers with one merge key, nothing to degenerate, no member below
   another member, no all-Any container, no ClassType(object) in returns/constants, no two signatures
   with the same parameters, no self annotated with its own parameterised class, one spelling of class
   references) is a fixed point of Optimize; so optimisation is idempotent whenever its first result is
   in normal form. *)
Theorem optimize_idempotent_partial : forall kk o Hd u u1,
  lossless o -> (o_deps o && o_can_do_lookup o = true -> kk = KClass) ->
  opt o Hd u = Some u1 -> stable_unit kk o Hd u1 = true -> opt o Hd u1 = Some u1.
Proof. exact (fun kk o Hd u u1 L K _ S => optimize_stable_fixpoint kk o Hd u1 L K S). Qed.
Print Assumptions optimize_idempotent_partial.

Theorem optimize_normal_form_fixpoint : forall kk o Hd u,
  lossless o -> (o_deps o && o_can_do_lookup o = true -> kk = KClass) ->
  stable_unit kk o Hd u = true -> opt o Hd u = Some u.
Proof. exact optimize_stable_fixpoint. Qed.
Print Assumptions optimize_normal_form_fixpoint.

(* non-vacuity *)
(* hierarchy: object(1) <- A(20) <- B(21), C(22) <- D(23 : B, C); list(10) <- Sequence(9) *)
Definition ex_deps : hier :=
  [(1, []); (2, [1]); (3, [1]); (5, [1]); (8, [1]); (9, [1]); (10, [9]); (20, [1]); (21, [20]); (22, [20]); (23, [21; 22])].
Definition ex_unit : unit_ :=
  mkUnit
    [mkConst 0 (TUnion [TName KClass 23; TName KClass 21; TName KClass 22; TName KClass 8])]
    []
    [mkFunc 1 0
       [mkSig [mkParam 2 (TUnion [TTup KClass 3 [TName KClass 8; TName KClass 21];
                                  TTup KClass 3 [TName KClass 20]]) 0 false None]
              None None (TName KClass 8) [] [];
        mkSig [mkParam 2 (TUnion [TTup KClass 3 [TName KClass 8; TName KClass 21];
                                  TTup KClass 3 [TName KClass 20]]) 0 false None]
              None None (TGen KClass 10 [TName KClass 1]) [] []]].
Definition ex_unit_opt : unit_ :=
  mkUnit
    [mkConst 0 (TUnion [TName KClass 21; TName KClass 22; TName KClass 8])]
    []
    [mkFunc 1 0
       [mkSig [mkParam 2 (TGen KClass 3 [TUnion [TName KClass 8; TName KClass 20]]) 0 false None]
              None None (TUnion [TName KClass 8; TName KClass 10]) [] []]].

(* the hypotheses of optimize_widens are met by a unit on which the pipeline does real work:
   D is absorbed by B and C, the tuples degenerate and merge, B is absorbed by A inside the merged
   parameter, the two signatures merge, List[object] becomes list *)
Example ex_hypotheses : ranked (hier_of ex_unit ++ ex_deps) /\ wf_unit KClass ex_unit.
Proof. split; [apply rankedb_ranked; vm_compute; reflexivity | unfold wf_unit; vm_compute; repeat constructor]. Qed.
Example ex_optimised : opt pytype_opts ex_deps ex_unit = Some ex_unit_opt.
Proof. vm_compute. reflexivity. Qed.
(* and the result is in normal form, so optimize_idempotent_partial applies to it *)
Example ex_stable : stable_unit KClass pytype_opts ex_deps ex_unit_opt = true.
Proof. vm_compute. reflexivity. Qed.
Example ex_idempotent : opt pytype_opts ex_deps ex_unit_opt = Some ex_unit_opt.
Proof.
  exact (optimize_normal_form_fixpoint KClass pytype_opts ex_deps ex_unit_opt lossless_pytype_opts (fun _ => eq_refl) ex_stable).
Qed.
(* a value: the tuple (int(), B()) is admitted by the parameter before and after *)
Example ex_value :
  admits ex_deps (TUnion [TTup KClass 3 [TName KClass 8; TName KClass 21]; TTup KClass 3 [TName KClass 20]])
         (Tup [Obj 8 []; Obj 21 []]) /\
  admits ex_deps (TGen KClass 3 [TUnion [TName KClass 8; TName KClass 20]]) (Tup [Obj 8 []; Obj 21 []]).
Proof.
  split.
  - simpl. left. repeat split; try apply sub_refl.
  - simpl. repeat split; try apply sub_refl.
    + left. apply sub_refl.
    + right. left. eapply sub_step; [simpl; left; reflexivity | apply sub_refl].
Qed.
(* the wf hypothesis of simplify_superclasses_widens is needed: NamedType("A") next to ClassType("A")
   is dropped entirely *)
Example mixed_spellings_narrow :
  simplify_superclasses ex_deps (TUnion [TName KNamed 20; TName KClass 20]) = TNothing.
Proof. vm_compute. reflexivity. Qed.

(* "the only changes are ..."
   The justified-rewrite relation (Opt/Rewrites.v): reflexive-transitive congruence closure of small named
   schemas — (1) JoinTypes housekeeping, (2) container merging, (3) hierarchy-justified union simplification
   and the max_union collapse, (4) identical signatures removed / equal-parameter signatures merged,
   (5) object->Any, C[Any..]->C, mutated parameter absorbed, self: C[..]->C — plus two schemas the property
   text does not name: NamedType->ClassType (LookupClasses) and x -> UnionType((x,)) (CombineContainers'
   one-member re-wrap). *)
From PV Require Import Opt.Rewrites Opt.RewriteProofs.

(* the relation itself cannot narrow: for all hierarchies, max_union, types, values *)
Theorem jr_widens : forall H mx t t', jr_ty H mx t t' -> forall v, admits H t v -> admits H t' v.
Proof. exact jr_widens_lemma. Qed.
Print Assumptions jr_widens.
Theorem jr_unit_widens : forall Hd mx u u', jr_unit Hd mx u u' -> unit_wider (hier_of u ++ Hd) u u'.
Proof. exact jr_unit_widens_lemma. Qed.
Print Assumptions jr_unit_widens.

(* per pass: P t is reachable from t by justified rewrites *)
Theorem join_types_justified : forall H mx ts, jr_ty H mx (TUnion ts) (join ts).
Proof. exact jr_join. Qed.
Print Assumptions join_types_justified.
Theorem simplify_unions_justified : forall H mx t, jr_ty H mx t (simplify_unions t).
Proof. exact simplify_unions_jr. Qed.
Print Assumptions simplify_unions_justified.
Theorem combine_containers_justified : forall H mx k t, wf k t -> jr_ty H mx t (combine_containers t).
Proof. exact combine_containers_jr. Qed.
Print Assumptions combine_containers_justified.
Theorem simplify_containers_justified : forall H mx b t, jr_ty H mx t (simplify_containers b t).
Proof. exact simplify_containers_jr. Qed.
Print Assumptions simplify_containers_justified.
Theorem simplify_superclasses_justified : forall H mx k t,
  ranked H -> wf k t -> jr_ty H mx t (simplify_superclasses H t).
Proof. exact simplify_superclasses_jr. Qed.
Print Assumptions simplify_superclasses_justified.
Theorem collapse_long_unions_justified : forall H mx t, mx <> 0 -> jr_ty H mx t (collapse_long_unions mx t).
Proof. exact collapse_long_unions_jr. Qed.
Print Assumptions collapse_long_unions_justified.
Theorem adjust_generic_type_justified : forall H mx t, jr_ty H mx t (adjust_generic_type t).
Proof. exact adjust_generic_type_jr. Qed.
Print Assumptions adjust_generic_type_justified.
Theorem remove_duplicates_justified : forall H mx cls f, jr_func H mx cls f (remove_duplicates_f f).
Proof. exact remove_duplicates_jr. Qed.
Print Assumptions remove_duplicates_justified.
Theorem signature_merge_justified : forall H mx cls f, jr_func H mx cls f (combine_returns_f f).
Proof. exact combine_returns_jr. Qed.
Print Assumptions signature_merge_justified.
Theorem normalize_generic_self_justified : forall H mx c s, jr_sig H mx (Some c) s (normalize_self_sig c s).
Proof. exact normalize_self_sig_jr. Qed.
Print Assumptions normalize_generic_self_justified.

(* the pipeline Optimize runs, for the regenerated pass list and every lossless setting (any deps /
   max_union / can_do_lookup; no remove_mutable): the optimised unit is reachable from the input by
   justified rewrites only.  Hypotheses as for optimize_widens: on the faithful model
   SimplifyUnionsWithSuperclasses is NOT a justified rewrite on units mixing NamedType("A") with
   ClassType("A") (it drops both), nor on cyclic hierarchies. *)
Theorem lossless_changes_only : forall k o Hd u u',
  lossless o -> ranked (hier_of u ++ Hd) -> wf_unit k u ->
  opt o Hd u = Some u' -> jr_unit Hd (o_max_union o) u u'.
Proof. exact lossless_changes_only_lemma. Qed.
Print Assumptions lossless_changes_only.

Theorem lossless_changes_only_ty : forall H k o t t',
  o_lossy o = false -> wf k t -> opt_ty o t = Some t' -> jr_ty H (o_max_union o) t t'.
Proof. exact lossless_changes_only_ty_lemma. Qed.
Print Assumptions lossless_changes_only_ty.

(* optimize_widens for the lossless settings follows from lossless_changes_only and jr_unit_widens *)
Corollary optimize_widens_by_rewrites : forall k o Hd u u',
  lossless o -> ranked (hier_of u ++ Hd) -> wf_unit k u ->
  opt o Hd u = Some u' -> unit_wider (hier_of u ++ Hd) u u'.
Proof.
  exact (fun k o Hd u u' L R W E => jr_unit_widens_lemma _ _ _ _ (lossless_changes_only_lemma k o Hd u u' L R W E)).
Qed.
Print Assumptions optimize_widens_by_rewrites.

(* non-vacuity: the example unit above (subclass absorption, tuple degeneration and merge, signature merge,
   List[object] -> list) is related to its optimised form; and a derivation spelled out with the named rules:
   Union[B, A, B] -> Union[B, A] (same members) -> Union[A] (B absorbed by its listed superclass A) -> A *)
Example ex_rewrites : jr_unit ex_deps 7 ex_unit ex_unit_opt.
Proof.
  destruct ex_hypotheses as [R W].
  exact (lossless_changes_only KClass pytype_opts ex_deps ex_unit ex_unit_opt lossless_pytype_opts R W ex_optimised).
Qed.
Example ex_rules : jr_ty ex_deps 7 (TUnion [TName KClass 21; TName KClass 20; TName KClass 21]) (TName KClass 20).
Proof.
  eapply jr_trans; [apply (jr_same_members _ _ _ [TName KClass 21; TName KClass 20])|].
  - intros x. split; intros [t [Hin M]]; exists t; split; try exact M; simpl in *; tauto.
  - eapply jr_trans; [apply (jr_subclass_absorbed ex_deps 7 [] KClass 21 [TName KClass 20] KClass 20)|].
    + left; reflexivity.
    + eapply sub_step; [simpl; left; reflexivity | apply sub_refl].
    + apply jr_one_member.
Qed.

(* MergeTypeParameters with templates
   (Opt/Model.v mtp_sig: TypeParameterScope's stack, the type_param_union of VisitUnionType, _AllContaining,
   _ReplaceByOuterIfNecessary, ReplaceTypeParameters, SimplifyUnions).  A type parameter is read as its upper
   value (TypeParameter.upper_value): union of the constraints, else the bound, else Any. *)

(* as stated, REFUTED: class A(Generic[T]) with T bound to int, def f(self, x: Union[T, T2]) -> T2 becomes
   def f(self, x: T) -> T; before, x and the result admit any object, afterwards only ints *)
Definition mtp_T_bounded := TVar 1 1 true [TName KClass 8].
Definition mtp_T := TVar 1 1 false [].
Definition mtp_T2 := TVar 2 2 false [].
Definition mtp_sig_ex (t : ty) : sig :=
  mkSig [mkParam 0 (TName KClass 20) 0 false None; mkParam 2 (TUnion [t; mtp_T2]) 0 false None] None None mtp_T2 []
        [mtp_T2].
Definition mtp_sig_ex_out (t : ty) : sig :=
  mkSig [mkParam 0 (TName KClass 20) 0 false None; mkParam 2 t 0 false None] None None t [] [].
Theorem merge_type_parameters_widens_refuted : exists H ct s s' v,
  mtp_sig ct s = Some s' /\ admits H (s_ret s) v /\ ~ admits H (s_ret s') v.
Proof.
  exists [], [mtp_T_bounded], (mtp_sig_ex mtp_T_bounded), (mtp_sig_ex_out mtp_T_bounded), (Obj 21 []).
  split; [vm_compute; reflexivity|]. split; [exact I|].
  simpl. intros S. inversion S; subst. simpl in H. contradiction.
Qed.
Print Assumptions merge_type_parameters_widens_refuted.

(* what holds: if the class's own type parameters have no bound and no constraints, every signature is covered
   (all hierarchies, signatures, templates; the function type parameters may be bounded) *)
Theorem merge_type_parameters_widens_partial : forall H ct s s',
  Forall unbounded_var ct -> mtp_sig ct s = Some s' -> sig_wider H s s'.
Proof. exact mtp_sig_wider. Qed.
Print Assumptions merge_type_parameters_widens_partial.
Theorem merge_type_parameters_unit_widens : forall H u u',
  unb_classes u -> merge_type_parameters u = Some u' -> unit_wider H u u'.
Proof. intros H u u' U E. exact (proj1 (merge_type_parameters_wider H u u' U E)). Qed.
Print Assumptions merge_type_parameters_unit_widens.
Example mtp_nonvacuous :
  Forall unbounded_var [mtp_T] /\ mtp_sig [mtp_T] (mtp_sig_ex mtp_T) = Some (mtp_sig_ex_out mtp_T).
Proof. split; [repeat constructor; exists 1, 1, false; reflexivity | vm_compute; reflexivity]. Qed.

(* idempotence, characterised
   (Opt/SecondRun.v).  second_run_changes classifies an input by running the modelled steps one at a time: the
   first step of run 2 that changes run 1's result against the last changing step of run 1. *)
From PV Require Import Opt.SecondRun Opt.SecondRunProofs.

(* exact: the second run returns its input iff the classification says CStable (every option setting of the
   model, every unit, no well-formedness needed) *)
Theorem optimize_idempotent_iff : forall o Hd u u1 u2,
  opt o Hd u = Some u1 -> opt o Hd u1 = Some u2 -> (u2 = u1 <-> second_run_changes o Hd u = CStable).
Proof. exact (fun o Hd u => second_run_iff_in sc_collapse_single o Hd passes u). Qed.
Print Assumptions optimize_idempotent_iff.
(* every other clause names a step that is enabled and, applied to run 1's result, changes it *)
Theorem second_run_clause_sound : forall o Hd u u1 p,
  opt o Hd u = Some u1 ->
  (second_run_changes o Hd u = CSingleSweep p \/ second_run_changes o Hd u = CPassNotIdempotent p
   \/ second_run_changes o Hd u = CLatePass p) ->
  exists j fl, nth_error passes j = Some (fl, p) /\ forallb (enabled o) fl = true /\
               run_pass sc_collapse_single o Hd p u1 <> Some u1.
Proof. exact (fun o Hd u => second_run_clause_in sc_collapse_single o Hd passes u). Qed.
Print Assumptions second_run_clause_sound.
(* the refuted families are clauses of the predicate *)
Example clause_object_any : second_run_changes pytype_opts w_deps w1 = CSingleSweep PSimplifyUnions.
Proof. vm_compute. reflexivity. Qed.
Example clause_late_subclass : second_run_changes pytype_opts w_deps w2 = CSingleSweep PSimplifyUnionsWithSuperclasses.
Proof. vm_compute. reflexivity. Qed.
Example clause_single_member_unfixed :
  second_run_changes_in false pytype_opts w_deps passes w3 = CSingleSweep PSimplifyUnions /\
  second_run_changes pytype_opts w_deps w3 = CStable.
Proof. split; vm_compute; reflexivity. Qed.

(* a weaker sufficient condition than stable_unit, for EVERY option setting (remove_mutable included) and both
   spellings: if every enabled step on its own leaves the unit alone, Optimize leaves it alone *)
Theorem second_run_stable_fixpoint : forall o Hd u, second_run_stable o Hd u = true -> opt o Hd u = Some u.
Proof. exact (fun o Hd => second_run_stable_in_fixpoint sc_collapse_single o Hd passes). Qed.
Print Assumptions second_run_stable_fixpoint.
Theorem stable_unit_second_run_stable : forall kk o Hd u,
  lossless o -> (o_deps o && o_can_do_lookup o = true -> kk = KClass) ->
  stable_unit kk o Hd u = true -> second_run_stable o Hd u = true.
Proof.
  exact (fun kk o Hd u L K => stable_unit_second_run_stable_in kk sc_collapse_single o Hd passes u L K idem_passes_ok).
Qed.
Print Assumptions stable_unit_second_run_stable.
(* strictly weaker: x: Union[NamedType K0, ClassType K1] without deps is no normal form in either spelling *)
Definition ex_mixed : unit_ := mkUnit [mkConst 0 (TUnion [TName KNamed 20; TName KClass 21])] [] [].
Definition ex_nodeps : opts := mkOpts false false false 7 false true.
Example second_run_stable_strictly_weaker :
  second_run_stable ex_nodeps [] ex_mixed = true /\
  stable_unit KNamed ex_nodeps [] ex_mixed = false /\ stable_unit KClass ex_nodeps [] ex_mixed = false.
Proof. vm_compute. auto. Qed.

(* Node.Visit's identity short-cut
   visit_sc hands the ORIGINAL union to the callback when no child changed (the code tests `is`; a child that is
   rebuilt equal takes the rebuilding branch, which then re-normalises to the same list).  On types whose unions
   were all built by the UnionType constructor it is the always-rebuilding visitor of the model. *)
Theorem visit_identity_shortcut : forall fU fG fN fB t,
  ctor_built t = true -> visit_sc fU fG fN fB t = visit fU fG fN fB t.
Proof. exact visit_sc_eq. Qed.
Print Assumptions visit_identity_shortcut.
(* without the hypothesis the two differ: a union nested in a union that no constructor would have left *)
Theorem visit_shortcut_needs_constructor_built :
  let t := TUnion [TUnion [TName KClass 8; TName KClass 2]] in
  ctor_built t = false /\ visit_sc TUnion TGen TName id_kind t <> visit TUnion TGen TName id_kind t.
Proof. split; [reflexivity | vm_compute; discriminate]. Qed.
Print Assumptions visit_shortcut_needs_constructor_built.

(* msgspec `==`/hash on Literal values is Python's: Literal(True) == Literal(1).  De-duplicating by it loses a
   nominally different literal (RemoveDuplicates drops `def f() -> Literal[1]` next to `-> Literal[True]`);
   without bool literals it IS the structural equality the model uses. *)
Theorem literal_eq_conflation_refuted : exists l v, In v l /\ ~ In v (dedup_by lv_py_eqb l).
Proof.
  exists [LBool true; LInt 1], (LInt 1). split; [right; left; reflexivity|].
  vm_compute. intros [X|[]]. discriminate.
Qed.
Print Assumptions literal_eq_conflation_refuted.
Theorem literal_eq_structural_partial : forall l,
  forallb is_lint l = true -> dedup_by lv_py_eqb l = dedup_by lv_eqb l.
Proof.
  intros l F. unfold dedup_by.
  apply (dedup_from_ext_in lv_py_eqb lv_eqb (fun a => is_lint a = true)); [| |constructor].
  - intros [n|x] [m|y] Ha Hb; try discriminate. reflexivity.
  - apply Forall_forall. rewrite forallb_forall in F. exact F.
Qed.
Print Assumptions literal_eq_structural_partial.

(* CombineContainers: the fuel is sufficient
   (Opt/Fuel.v).  The re-visit of merged parameters is not structural; the model runs it with fuel 2*size+2.
   Measure: merged parameters have no union directly inside a union and a smaller container depth, so fuel
   2 * depth always suffices.  For EVERY type (no well-formedness): the model's CombineContainers never runs
   out of fuel, the totalised [combine_containers] is the fuelled function, and the pass never leaves the model. *)
From PV Require Import Opt.Fuel.
Theorem cc_fuel_sufficient : forall t, cc_top t <> None.
Proof. exact cc_top_total. Qed.
Print Assumptions cc_fuel_sufficient.
Theorem combine_containers_is_fuelled : forall t, cc_top t = Some (combine_containers t).
Proof.
  intros t. unfold combine_containers. destruct (cc_top t) eqn:E; [reflexivity|].
  exfalso. exact (cc_top_total t E).
Qed.
Print Assumptions combine_containers_is_fuelled.
Theorem combine_containers_pass_total : forall cs o Hd u,
  run_pass cs o Hd PCombineContainers u = Some (map_ty_unit combine_containers u).
Proof. intros cs o Hd u. simpl. rewrite cc_pass_total. reflexivity. Qed.
Print Assumptions combine_containers_pass_total.
(* non-vacuity: the merge re-visit really nests (a merge inside a merged parameter) *)
Example cc_nested_revisit :
  combine_containers (TUnion [TGen KClass 10 [TGen KClass 10 [TName KClass 8]];
                              TGen KClass 10 [TGen KClass 10 [TName KClass 2]]])
  = TGen KClass 10 [TGen KClass 10 [TUnion [TName KClass 8; TName KClass 2]]].
Proof. vm_compute. reflexivity. Qed.
