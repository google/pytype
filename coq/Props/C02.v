(* C02 -- annotations are enforced exactly: error iff the value is outside the annotated type.   (PARTIAL)
   The stated theorems of the property, each followed by Print Assumptions, with non-vacuity examples; the lemmas
   they rest on are in Match/.  Model: Match/Model.v (ground, type-variable-free fragment of
   matcher.py + the three enforcement sites); builtin class table: Generated/C02_Builtins.v, regenerated from
   pytype's loaded stubs on every run.

   Reading guide.  [matches tb (abs v) t] is what _check_return / check_annotation_type_mismatch compute for the
   value expression v and the annotation t (every view must match); [matches_any] is what an argument site
   computes (match_all_views=False).  [inhabits tb v t] is PEP 484 membership of the run-time value, as the
   property names it.  [inhabitsF pytype_devs] is membership with six named local deviations switched on
   (Model.v, record [devs]); [slices v] are the monomorphic slices of v (one element kept per container), the
   concrete counterpart of pytype's views. *)
From Coq Require Import List Arith Bool ZArith.
From PV Require Import Match.Model Match.Proofs Match.SliceExact Match.Witnesses Generated.C02_Builtins.
From PV Require Match.ArgSite Match.ArgSiteProofs Match.Store Match.StoreProofs Match.Proto Match.ProtoProofs.
From PV Require Import Match.Lit Match.LitProofs Match.LitWitnesses.
Import ListNotations.

(* the full statement is refuted on the faithful model *)

(* the table of this run: regenerated builtins + the harness' default 6-class / 3-protocol hierarchy
   K0; K1(K0); K2(K1) defines m0; K3 defines m0, m1; K4(K3, K0); K5(K0) defines m1; P0 = {m0}; P1 = {m1};
   P2 = {m0, m1} *)
(* the regenerated table satisfies everything the proofs assume about it (fails closed when the stubs drift) *)
Theorem generated_table_ok : table_ok tb0 = true.
Proof. exact generated_table_ok_w. Qed.
Print Assumptions generated_table_ok.

(* "a" is a Sequence[str] under PEP 484, pytype reports an error at all three sites *)
Theorem enforcement_exact_refuted :
  exists v t, table_ok tb0 = true /\ wf_ty tb0 t = true /\ wf_val tb0 v = true /\
              matches tb0 (abs v) t <> inhabits tb0 v t /\
              err_arg tb0 v t = true /\ err_ret tb0 v t = true /\ err_assign tb0 v t = true /\
              inhabits tb0 v t = true.
Proof.
  exists Str, (Cb B_t_Sequence [Cb B_str []]). split; [exact generated_table_ok_w|].
  vm_compute. repeat split. discriminate.
Qed.
Print Assumptions enforcement_exact_refuted.

(* what the matcher computes, exactly *)

(* return and annotated-assignment sites: every monomorphic slice of the value must be a member, membership
   being PEP 484 membership with the six named deviations; any class table accepted by table_ok, unbounded
   nesting depth of annotation and value *)
Theorem matcher_characterisation : forall tb v t,
  table_ok tb = true -> wf_ty tb t = true -> wf_val tb v = true ->
  matches tb (abs v) t = forallb (inhabitsF pytype_devs tb t) (slices v).
Proof.
  intros tb v t Hok Hwt Hwv. unfold matches, matches_all. rewrite views_abs, forallb_map.
  apply forallb_ext_Forall, slice_verdicts; assumption.
Qed.
Print Assumptions matcher_characterisation.

(* argument site: one member slice suffices *)
Theorem arg_site_characterisation : forall tb v t,
  table_ok tb = true -> wf_ty tb t = true -> wf_val tb v = true ->
  matches_any tb (abs v) t = existsb (inhabitsF pytype_devs tb t) (slices v).
Proof.
  intros tb v t Hok Hwt Hwv. unfold matches_any. rewrite views_abs, existsb_map.
  apply existsb_ext_Forall, slice_verdicts; assumption.
Qed.
Print Assumptions arg_site_characterisation.

(* the views pytype enumerates for the literal are exactly the abstractions of the slices *)
Theorem views_are_slices : forall v, views (abs v) = map abs1 (slices v).
Proof. exact views_abs. Qed.
Print Assumptions views_are_slices.

(* exactness away from the deviations *)

(* If no named deviation changes the verdict on a slice, and membership of v in t is decided slice-wise
   (sufficient: see union_simple / tupleof_free in Model.v), then the return / assignment verdict is exactly
   PEP 484 membership.  A deviation case is one where the first hypothesis fails; the witness above
   ("a", Sequence[str]) is one. *)
Theorem enforcement_exact_partial : forall tb v t,
  table_ok tb = true -> wf_ty tb t = true -> wf_val tb v = true ->
  (forall s, In s (slices v) -> inhabitsF pytype_devs tb t s = inhabits tb s t) ->
  forallb (fun s => inhabits tb s t) (slices v) = inhabits tb v t ->
  matches tb (abs v) t = inhabits tb v t.
Proof.
  intros tb v t Hok Hwt Hwv Hdev Hsl. rewrite matcher_characterisation by assumption.
  rewrite <- Hsl. apply forallb_ext_Forall, Forall_forall, Hdev.
Qed.
Print Assumptions enforcement_exact_partial.

(* A syntactic sufficient condition for the second hypothesis: unions with at most one option that looks
   inside the value (Optional[List[int]], Union[int, str, None], ... but not Union[List[int], List[str]]) and
   values without tuple(...) calls. *)
Theorem slice_exact_sufficient : forall tb v t,
  union_simple t = true -> tupleof_free v = true ->
  forallb (fun s => inhabits tb s t) (slices v) = inhabits tb v t.
Proof. intros tb v t Hu Hf. exact (SX_all tb t Hu v Hf). Qed.
Print Assumptions slice_exact_sufficient.

(* ... hence: on that syntactic class the only way to get a wrong verdict at a return / assignment site is
   one of the six local deviations changing the verdict of a slice *)
Theorem enforcement_exact_syntactic : forall tb v t,
  table_ok tb = true -> wf_ty tb t = true -> wf_val tb v = true ->
  union_simple t = true -> tupleof_free v = true ->
  (forall s, In s (slices v) -> inhabitsF pytype_devs tb t s = inhabits tb s t) ->
  matches tb (abs v) t = inhabits tb v t.
Proof.
  intros tb v t Hok Hwt Hwv Hu Hf Hdev. apply enforcement_exact_partial; try assumption.
  apply slice_exact_sufficient; assumption.
Qed.
Print Assumptions enforcement_exact_syntactic.

(* the three sites, under the same two hypotheses: an error is logged iff the value is no member -- at an annotated
   assignment for a value other than None, at an argument site for a value that is its own only slice *)
Theorem sites_exact_partial : forall tb v t,
  table_ok tb = true -> wf_ty tb t = true -> wf_val tb v = true ->
  (forall s, In s (slices v) -> inhabitsF pytype_devs tb t s = inhabits tb s t) ->
  forallb (fun s => inhabits tb s t) (slices v) = inhabits tb v t ->
  err_ret tb v t = negb (inhabits tb v t) /\
  (is_none v = false -> err_assign tb v t = negb (inhabits tb v t)) /\
  (slices v = [v] -> err_arg tb v t = negb (inhabits tb v t)).
Proof.
  intros tb v t Hok Hwt Hwv Hdev Hsl.
  pose proof (enforcement_exact_partial tb v t Hok Hwt Hwv Hdev Hsl) as E. unfold matches in E.
  repeat split.
  - unfold err_ret. rewrite E. reflexivity.
  - intro Hn. unfold err_assign. rewrite Hn, E. reflexivity.
  - intro Hs. unfold err_arg. rewrite arg_site_characterisation by assumption. rewrite Hs. cbn [existsb].
    rewrite orb_false_r, Hdev by (rewrite Hs; left; reflexivity). reflexivity.
Qed.
Print Assumptions sites_exact_partial.

(* the deviations are real on the faithful model (each one is reproduced on pytype by the check).  Statement:
   Match/Witnesses.v, deviations_stmt: the model's and the oracle's verdict on a concrete (value, annotation) for
   five of the six [devs] switches (the sixth, d_noniter_str, is enforcement_exact_refuted above) and for three
   departures that are not switches: views split over a union, any view at an argument site, None at an annotated
   assignment *)
Theorem deviations_real : deviations_stmt.
Proof. vm_compute. repeat split. Qed.
Print Assumptions deviations_real.

(* non-vacuity: the hypotheses of enforcement_exact_partial hold on non-trivial instances, with both verdicts occurring *)
Definition ex_t1 : ty := Cb B_dict [Cb B_str []; TUnion [Cb B_list [TTuple [Cb B_float []; K 0]]; NoneT]].
Definition ex_v1 : value :=                       (* {"a": [(1, K1()), (2.5, K4())], "b": None} *)
  VDict [Str; Str] [VColl KList [VTuple [Int; VInst 1]; VTuple [VScalar SFloat; VInst 4]]; NoneV].
Definition ex_v2 : value :=                       (* {"a": [(1, K3())]}: K3 is not a K0 *)
  VDict [Str] [VColl KList [VTuple [Int; VInst 3]]].
Definition hyps (v : value) (t : ty) : bool :=
  table_ok tb0 && wf_ty tb0 t && wf_val tb0 v && union_simple t && tupleof_free v &&
  forallb (fun s => Bool.eqb (inhabitsF pytype_devs tb0 t s) (inhabits tb0 s t)) (slices v) &&
  Bool.eqb (forallb (fun s => inhabits tb0 s t) (slices v)) (inhabits tb0 v t).
Example hyps_hold_member : hyps ex_v1 ex_t1 = true /\ inhabits tb0 ex_v1 ex_t1 = true /\
                           matches tb0 (abs ex_v1) ex_t1 = true /\ length (slices ex_v1) = 6.
Proof. unfold hyps. rewrite generated_table_ok. vm_compute. repeat split. Qed.
Example hyps_hold_nonmember : hyps ex_v2 ex_t1 = true /\ inhabits tb0 ex_v2 ex_t1 = false /\
                              err_ret tb0 ex_v2 ex_t1 = true /\ err_arg tb0 ex_v2 ex_t1 = true.
Proof. unfold hyps. rewrite generated_table_ok. vm_compute. repeat split. Qed.
(* promotion, nominal subclassing through the table, structural protocol, Type[C], callable arity *)
Example members :
  inhabits tb0 (VColl KList [Int; VScalar SBool]) (Cb B_t_Sequence [Cb B_complex []]) = true /\
  inhabits tb0 (VInst 2) (K 0) = true /\ inhabits tb0 (VInst 0) (K 2) = false /\
  inhabits tb0 (VInst 4) (K 8) = true /\ inhabits tb0 (VInst 2) (K 8) = false /\
  inhabits tb0 (VClass (CU 2)) (Cb B_type [K 1]) = true /\ inhabits tb0 (VClass (CB B_int)) (Cb B_type [Cb B_float []]) = true /\
  inhabits tb0 (VFunc 1 1 false) (TCallable [TAny; TAny] TAny) = true /\
  inhabits tb0 (VFunc 1 1 false) (TCallable [TAny; TAny; TAny] TAny) = false.
Proof. vm_compute. repeat split. Qed.

(* ARGUMENT SITE: which annotation each passed argument is matched against (Match/ArgSite.v).
   [ArgSite.iter_args] is Signature.iter_args + the widening rule of _match_args_sequentially; [ArgSite.bind] is
   CPython's binding, written independently (validated against inspect.Signature.bind on every generated call).
   Names, annotations (A) and argument values (V) are arbitrary. *)

(* The model has TWO VARIANTS of Signature.iter_args / _match_args_sequentially, selected by a boolean: [true] is the
   code with fixes/C02-iter-args-keyword-binding.patch, [false] the code before it.  The check probes which variant
   the tree under test implements and runs the correspondence against that variant. *)

(* FIXED code: on EVERY call CPython accepts, every passed argument is matched against exactly the annotation the
   binding associates with it (same arguments, same order, same formal; keyword-only / *args / **kwargs parameters,
   keywords spelled like a positional-only or a star parameter included).  No deviation hypothesis. *)
Theorem argsite_binding : forall (A V : Type) (s : ArgSite.sig A) (c : ArgSite.call V) l,
  ArgSite.bind s c = Some l -> ArgSite.iter_args true s c = l.
Proof.
  intros A V s c l Hb. apply (ArgSiteProofs.iter_args_of_bind A V true s c l Hb).
  intros nv _ x. apply ArgSiteProofs.named1_agree_fixed.
Qed.
Print Assumptions argsite_binding.

(* ... hence: a wrong-arg-types error iff some passed argument fails the annotation CPython's binding gives it
   (matchf is the matcher on one argument, e.g. err_arg above) *)
Theorem argsite_error_exact : forall (A V : Type) (matchf : V -> ArgSite.formal A -> bool)
    (s : ArgSite.sig A) (c : ArgSite.call V) l,
  ArgSite.bind s c = Some l ->
  ArgSite.err_call true matchf s c =
  existsb (fun vf => match snd vf with Some f => negb (matchf (fst vf) f) | None => false end) l.
Proof.
  intros A V matchf s c l Hb. unfold ArgSite.err_call. rewrite (argsite_binding A V s c l Hb). reflexivity.
Qed.
Print Assumptions argsite_error_exact.

(* code BEFORE the fix: the same, away from two named deviations *)
Theorem argsite_binding_before_fix_partial : forall (A V : Type) (s : ArgSite.sig A) (c : ArgSite.call V) l,
  ArgSite.wf_sig s = true -> ArgSiteProofs.ann_keys_ok A s = true -> ArgSite.bind s c = Some l ->
  ArgSite.kw_named_like_star s c = false -> ArgSite.kw_unannotated_with_kwargs s c = false ->
  ArgSite.iter_args false s c = l.
Proof.
  intros A V s c l Hwf Hk Hb Hd1 Hd2. apply (ArgSiteProofs.iter_args_of_bind A V false s c l Hb).
  intros nv Hin x. apply ArgSiteProofs.named1_agree; try assumption.
  - exact (ArgSiteProofs.existsb_false_forall _ _ Hd1 nv Hin).
  - intros Hkwann Hkwable Hnone. unfold ArgSite.kw_unannotated_with_kwargs in Hd2.
    destruct (ArgSite.opt_ann s (ArgSite.s_kwargs s)) as [b|]; [|apply Hkwann; reflexivity].
    pose proof (ArgSiteProofs.existsb_false_forall _ _ Hd2 nv Hin) as Hf. cbv beta in Hf.
    rewrite Hkwable, Hnone in Hf. discriminate.
Qed.
Print Assumptions argsite_binding_before_fix_partial.

Theorem argsite_error_exact_before_fix_partial : forall (A V : Type) (matchf : V -> ArgSite.formal A -> bool)
    (s : ArgSite.sig A) (c : ArgSite.call V) l,
  ArgSite.wf_sig s = true -> ArgSiteProofs.ann_keys_ok A s = true -> ArgSite.bind s c = Some l ->
  ArgSite.kw_named_like_star s c = false -> ArgSite.kw_unannotated_with_kwargs s c = false ->
  ArgSite.err_call false matchf s c =
  existsb (fun vf => match snd vf with Some f => negb (matchf (fst vf) f) | None => false end) l.
Proof.
  intros A V matchf s c l Hwf Hk Hb Hd1 Hd2. unfold ArgSite.err_call.
  rewrite (argsite_binding_before_fix_partial A V s c l Hwf Hk Hb Hd1 Hd2). reflexivity.
Qed.
Print Assumptions argsite_error_exact_before_fix_partial.

(* before the fix both hypotheses are necessary: D1  def f(a: int, **kw: int); f(1, kw=5)  is matched against
   Mapping[str, int]; D2  def f(a, *, k, **kw: int); f(1, k=5)  matches the un-annotated k against **kw's int *)
Theorem argsite_binding_before_fix_refuted :
  (ArgSite.wf_sig ArgSiteProofs.d1_sig = true /\ ArgSiteProofs.ann_keys_ok nat ArgSiteProofs.d1_sig = true /\
   ArgSite.bind ArgSiteProofs.d1_sig ArgSiteProofs.d1_call =
     Some [(1, Some (ArgSite.FElem 7)); (5, Some (ArgSite.FElem 7))] /\
   ArgSite.iter_args false ArgSiteProofs.d1_sig ArgSiteProofs.d1_call =
     [(1, Some (ArgSite.FElem 7)); (5, Some (ArgSite.FKw 7))] /\
   ArgSite.kw_unannotated_with_kwargs ArgSiteProofs.d1_sig ArgSiteProofs.d1_call = false) /\
  (ArgSite.wf_sig ArgSiteProofs.d2_sig = true /\ ArgSiteProofs.ann_keys_ok nat ArgSiteProofs.d2_sig = true /\
   ArgSite.bind ArgSiteProofs.d2_sig ArgSiteProofs.d2_call = Some [(1, None); (5, None)] /\
   ArgSite.iter_args false ArgSiteProofs.d2_sig ArgSiteProofs.d2_call = [(1, None); (5, Some (ArgSite.FElem 7))] /\
   ArgSite.kw_named_like_star ArgSiteProofs.d2_sig ArgSiteProofs.d2_call = false).
Proof. vm_compute. repeat split. Qed.
Print Assumptions argsite_binding_before_fix_refuted.

(* D1, crashing variant, before the fix:  def f(a: int, *rest, **kw: int); f(1, rest=5)  -- widen_type on a plain
   class: pytype raised AssertionError; the fixed code matches it against **kw's int like the binding *)
Theorem argsite_crash_before_fix_real :
  ArgSite.wf_sig ArgSiteProofs.d3_sig = true /\ ArgSiteProofs.ann_keys_ok nat ArgSiteProofs.d3_sig = true /\
  ArgSite.bind ArgSiteProofs.d3_sig ArgSiteProofs.d3_call =
    Some [(1, Some (ArgSite.FElem 7)); (5, Some (ArgSite.FElem 7))] /\
  ArgSite.iter_args false ArgSiteProofs.d3_sig ArgSiteProofs.d3_call =
    [(1, Some (ArgSite.FElem 7)); (5, Some (ArgSite.FCrash 7))] /\
  ArgSite.iter_args true ArgSiteProofs.d3_sig ArgSiteProofs.d3_call =
    [(1, Some (ArgSite.FElem 7)); (5, Some (ArgSite.FElem 7))].
Proof. exact ArgSiteProofs.crash_w. Qed.
Print Assumptions argsite_crash_before_fix_real.

(* non-vacuity: def f(p, /, a: T3, *rest: T5, k: T7, **kw: T9);  f(10, 11, 12, k=13, z=14, p=15): the hypotheses
   hold; the keyword-only k gets T7, the extra positional T5, the unknown keyword z and the positional-only NAME p
   get **kw's T9 *)
Definition ex_sig : ArgSite.sig nat :=
  {| ArgSite.s_posonly := 1; ArgSite.s_params := [0; 1]; ArgSite.s_varargs := Some 2; ArgSite.s_kwonly := [3];
     ArgSite.s_kwargs := Some 4; ArgSite.s_defaults := []; ArgSite.s_ann := [(1, 3); (2, 5); (3, 7); (4, 9)] |}.
Definition ex_call : ArgSite.call nat :=
  {| ArgSite.c_pos := [10; 11; 12]; ArgSite.c_named := [(3, 13); (8, 14); (0, 15)]; ArgSite.c_star := None;
     ArgSite.c_starstar := None |}.
Example argsite_hyps_hold :
  ArgSite.wf_sig ex_sig = true /\ ArgSiteProofs.ann_keys_ok nat ex_sig = true /\
  ArgSite.kw_named_like_star ex_sig ex_call = false /\ ArgSite.kw_unannotated_with_kwargs ex_sig ex_call = false /\
  ArgSite.bind ex_sig ex_call =
    Some [(10, None); (11, Some (ArgSite.FElem 3)); (12, Some (ArgSite.FElem 5)); (13, Some (ArgSite.FElem 7));
          (14, Some (ArgSite.FElem 9)); (15, Some (ArgSite.FElem 9))] /\
  (* the fixed variant computes the binding on the two witnesses that refute the variant before the fix *)
  Some (ArgSite.iter_args true ArgSiteProofs.d1_sig ArgSiteProofs.d1_call) =
    ArgSite.bind ArgSiteProofs.d1_sig ArgSiteProofs.d1_call /\
  Some (ArgSite.iter_args true ArgSiteProofs.d2_sig ArgSiteProofs.d2_call) =
    ArgSite.bind ArgSiteProofs.d2_sig ArgSiteProofs.d2_call.
Proof. vm_compute. repeat split. Qed.

(* ASSIGNMENT SITE: which stores are checked against which recorded annotation (Match/Store.v).
   [Store.checks kn evs] is what _apply_annotation consults per event of one frame; [Store.spec] is PEP 526
   (the most recent annotation of the name in the owning scope); kn is CPython's symbol-table decision per name. *)

(* every store of the frame itself to a name that is not an explicit global -- a fast local, a module / class
   name, or a CELL captured by a nested def / lambda (STORE_DEREF) -- is checked against exactly the declared
   annotation, also after re-annotation, del, and stores in between *)
Theorem assign_own_stores_checked : forall (T : Type) kn (evs : list (Store.ev T)) i e,
  nth_error evs i = Some e -> Store.own_nonglobal kn e = true ->
  nth_error (Store.checks kn evs) i = nth_error (Store.spec evs) i.
Proof.
  intros T kn evs i e Hn Ho. unfold Store.checks, Store.spec.
  apply StoreProofs.checks_spec_from with (e := e); auto. intros x _. reflexivity.
Qed.
Print Assumptions assign_own_stores_checked.

Theorem assign_frame_exact_partial : forall (T : Type) kn (evs : list (Store.ev T)),
  forallb (Store.own_nonglobal kn) evs = true -> Store.checks kn evs = Store.spec evs.
Proof. intros T kn evs H. apply StoreProofs.frame_exact_from; [intros x _; reflexivity | exact H]. Qed.
Print Assumptions assign_frame_exact_partial.

(* the hypothesis is necessary: a store through `nonlocal x` from a nested function, and a STORE_GLOBAL (the name is
   declared `global` somewhere), are checked against nothing although an annotation is declared *)
Theorem assign_frame_exact_refuted :
  (Store.checks (fun _ => Store.KCell) [Store.EAnn 0 7 true; Store.ENonlocal 0] = [Some 7; None] /\
   Store.spec [Store.EAnn 0 7 true; Store.ENonlocal 0] = [Some 7; Some 7]) /\
  (Store.checks (fun _ => Store.KGlobal) [Store.EAnn 0 7 true; Store.EStore 0] = [Some 7; None] /\
   Store.spec [Store.EAnn 0 7 true; Store.EStore 0] = [Some 7; Some 7]).
Proof. vm_compute. repeat split. Qed.
Print Assumptions assign_frame_exact_refuted.

(* non-vacuity: x: T7 = v; (captured) x = w; x: T9 = u; del x; x = z   on a cell name *)
Example assign_hyps_hold :
  let evs := [Store.EAnn 0 7 true; Store.EStore 0; Store.EAnn 0 9 true; Store.EDel 0; Store.EStore 0] in
  forallb (Store.own_nonglobal (fun _ => Store.KCell)) evs = true /\
  Store.checks (fun _ => Store.KCell) evs = [Some 7; Some 7; Some 9; None; Some 9].
Proof. vm_compute. repeat split. Qed.

(* STRUCTURAL PROTOCOL MATCHING of unparameterised protocols (Match/Proto.v): user Protocol classes (with
   protocol inheritance: Proto.pattrs models Class._init_protocol_attributes) and the bare builtin ones (Sized,
   Hashable, Iterable, Container, Collection, Reversible, SupportsInt/Float/Index/Abs: member sets regenerated from
   the loaded stubs).  [Proto.proto_match] is _match_against_protocol (name-set difference over the MRO, then
   _match_protocol_attribute per member); [Proto.pep544] is the specification: every protocol member is found by
   attribute lookup through the value class's MRO (inherited members, first definer wins) with a compatible kind. *)

Theorem protocol_match_exact_partial : forall w nc c p,
  Proto.pattrs_defined w p = true -> Proto.seq_map_hit w c p = false -> Proto.implicit_iter_hit w c p = false ->
  Proto.proto_match w nc c p = Proto.pep544 w nc c p.
Proof. exact ProtoProofs.proto_match_is_pep544. Qed.
Print Assumptions protocol_match_exact_partial.

(* the iff the property names: matches <-> the value's class (with inherited members) has every protocol member *)
Theorem protocol_match_iff_members : forall w nc c p,
  Proto.pattrs_defined w p = true -> Proto.seq_map_hit w c p = false -> Proto.implicit_iter_hit w c p = false ->
  (Proto.proto_match w nc c p = true <->
   forall a, In a (Proto.pattrs w p) ->
     exists kl kp, Proto.lookup w c a = Some kl /\ Proto.lookup w p a = Some kp /\ Proto.kind_ok w nc kl kp = true).
Proof.
  intros w nc c p H1 H2 H3. rewrite (protocol_match_exact_partial w nc c p H1 H2 H3). unfold Proto.pep544.
  rewrite forallb_forall. split.
  - intros H a Ha. specialize (H a Ha). unfold Proto.member_ok in H.
    destruct (Proto.lookup w c a) as [kl|]; [|discriminate]. destruct (Proto.lookup w p a) as [kp|]; [|discriminate].
    exists kl, kp. auto.
  - intros H a Ha. destruct (H a Ha) as [kl [kp [E1 [E2 E3]]]]. unfold Proto.member_ok. rewrite E1, E2. exact E3.
Qed.
Print Assumptions protocol_match_iff_members.

(* the whole instance-vs-class step: nominal through the MRO (+ compat builtins) first, structural second *)
Theorem protocol_instance_exact_partial : forall w nc c p,
  Proto.pattrs_defined w p = true -> Proto.seq_map_hit w c p = false -> Proto.implicit_iter_hit w c p = false ->
  Proto.inst_match w nc c p =
  Proto.nominal w c p || (if Proto.is_protocol w p then Proto.pep544 w nc c p else Proto.pc_pbase (Proto.cls_of w p)).
Proof.
  intros w nc c p H1 H2 H3. unfold Proto.inst_match. destruct (Proto.nominal w c p); [reflexivity|]. simpl.
  destruct (Proto.is_protocol w p); [|reflexivity]. apply protocol_match_exact_partial; assumption.
Qed.
Print Assumptions protocol_instance_exact_partial.

(* inherited members with override: the first class of the MRO defining the name decides (a `m = None` in a
   subclass hides the base's method, a method in a subclass hides the base's None) *)
Theorem protocol_lookup_first_definer : forall w pre k0 post a kd,
  (forall j, In j pre -> Proto.own_kind (Proto.cls_of w j) a = None) ->
  Proto.own_kind (Proto.cls_of w k0) a = Some kd ->
  Proto.lookup_in w (pre ++ k0 :: post) a = Some kd.
Proof.
  intros w pre k0 post a kd. induction pre as [|j pre IH]; intros Hpre Hk; simpl.
  - rewrite Hk. reflexivity.
  - rewrite (Hpre j (or_introl eq_refl)). apply IH; auto. intros j' Hj. apply Hpre. right. exact Hj.
Qed.
Print Assumptions protocol_lookup_first_definer.

(* both hypotheses are necessary: a class with __getitem__ only is accepted for Iterable (implicit __iter__), a
   Mapping subclass with every member of Sequence is rejected for Sequence *)
Theorem protocol_match_exact_refuted :
  (Proto.pattrs_defined ProtoProofs.w0 1 = true /\ Proto.seq_map_hit ProtoProofs.w0 4 1 = false /\
   Proto.proto_match ProtoProofs.w0 0 4 1 = true /\ Proto.pep544 ProtoProofs.w0 0 4 1 = false /\
   Proto.implicit_iter_hit ProtoProofs.w0 4 1 = true) /\
  (Proto.pattrs_defined ProtoProofs.w0 2 = true /\ Proto.implicit_iter_hit ProtoProofs.w0 5 2 = false /\
   Proto.proto_match ProtoProofs.w0 0 5 2 = false /\ Proto.pep544 ProtoProofs.w0 0 5 2 = true /\
   Proto.seq_map_hit ProtoProofs.w0 5 2 = true).
Proof. vm_compute. repeat split. Qed.
Print Assumptions protocol_match_exact_refuted.

(* non-vacuity + _init_protocol_attributes on an inheriting protocol: P0 {m3}; P1(P0) {m4}; PE(P1) {} requires
   {m3, m4}; Q(P0) is not a protocol; K: m3 = None, m4 -- rejected; L(K): def m3 -- accepted *)
Example protocol_hyps_hold :
  Proto.pattrs_tbl ProtoProofs.w1 = [[]; [3]; [3; 4]; [3; 4]; []; []; []] /\
  Proto.pattrs_defined ProtoProofs.w1 3 = true /\ Proto.seq_map_hit ProtoProofs.w1 5 3 = false /\
  Proto.implicit_iter_hit ProtoProofs.w1 5 3 = false /\
  Proto.proto_match ProtoProofs.w1 0 5 3 = false /\ Proto.proto_match ProtoProofs.w1 0 6 3 = true /\
  Proto.proto_match ProtoProofs.w1 0 6 1 = true /\
  Proto.inst_match ProtoProofs.w1 0 4 1 = true /\ Proto.inst_match ProtoProofs.w1 0 5 4 = false.
Proof. vm_compute. repeat split. Qed.

(* LITERAL TYPES, nested Optional/Union around them, a constant against its base class in both directions, and
   the RETURN SITE with several return statements and multi-binding return variables (Match/Lit.v).
   [matchL] is the matcher on the fragment (LiteralClass branch of _match_instance_against_type, the
   match_as_literal branch of _match_instance_parameters, _match_heterogeneous_tuple_instance);
   [inhabitsL] is PEP 484 + PEP 586 membership; [inhabL pytype_ldevs pytype_devs] is membership with the named
   deviations on (two of them act on Literal only: Python equality True == 1 for Literal; ONE matching element of a list display
   suffices for h[...Literal...]). *)

(* what the matcher computes, exactly: any table accepted by table_ok, unbounded nesting *)
Theorem literal_matcher_characterisation : forall tb v t,
  table_ok tb = true -> wf_lty tb t = true -> wf_lval v = true ->
  errL_arg tb v t = negb (inhabL pytype_ldevs pytype_devs tb t v) /\
  errL_ret tb v t = negb (inhabL pytype_ldevs pytype_devs tb t v) /\
  errL_assign tb v t = (negb (l_is_none v) && negb (inhabL pytype_ldevs pytype_devs tb t v))%bool.
Proof.
  intros tb v t Hok Hwt Hwv. unfold errL_arg, errL_ret, errL_assign.
  rewrite (matchL_char tb (table_ok_tok tb Hok) t Hwt v Hwv). auto.
Qed.
Print Assumptions literal_matcher_characterisation.

(* exactness at the three sites under syntactic conditions that rule the deviations out: no bool literal in
   the annotation and no bool constant in the value, list displays of at most one element, no bare bool / bytes
   formal (the None-for-bool and bytearray-for-bytes compat pairs) *)
Theorem literal_exact_partial : forall tb v t,
  table_ok tb = true -> wf_lty tb t = true -> wf_lval v = true ->
  bool_free_ty t = true -> bool_free_val v = true -> short_lists v = true -> base_dev_free t = true ->
  matchL tb t v = inhabitsL tb v t /\
  errL_arg tb v t = negb (inhabitsL tb v t) /\
  errL_ret tb v t = negb (inhabitsL tb v t) /\
  (l_is_none v = false -> errL_assign tb v t = negb (inhabitsL tb v t)).
Proof.
  intros tb v t Hok Hwt Hwv Hb Hbv Hs Hd.
  assert (E : matchL tb t v = inhabitsL tb v t).
  { rewrite (matchL_char tb (table_ok_tok tb Hok) t Hwt v Hwv). unfold inhabitsL.
    apply inhabL_dev_free; assumption. }
  unfold errL_arg, errL_ret, errL_assign. rewrite E. repeat split; auto.
  intro Hn. rewrite Hn. reflexivity.
Qed.
Print Assumptions literal_exact_partial.

(* without "no bool": x: Literal[1] = True is accepted at all three sites *)
Theorem literal_exact_refuted_bool :
  exists v t, table_ok tb0 = true /\ wf_lty tb0 t = true /\ wf_lval v = true /\
              short_lists v = true /\ base_dev_free t = true /\
              errL_arg tb0 v t = false /\ errL_ret tb0 v t = false /\ errL_assign tb0 v t = false /\
              inhabitsL tb0 v t = false.
Proof.
  exists (LC (LBool true)), (Li 1). split; [exact generated_table_ok_w|]. vm_compute. repeat split.
Qed.
Print Assumptions literal_exact_refuted_bool.

(* without "short lists": x: List[Literal[1]] = [1, 3] is accepted at all three sites *)
Theorem literal_exact_refuted_list :
  exists v t, table_ok tb0 = true /\ wf_lty tb0 t = true /\ wf_lval v = true /\
              bool_free_ty t = true /\ bool_free_val v = true /\ base_dev_free t = true /\
              errL_arg tb0 v t = false /\ errL_ret tb0 v t = false /\ errL_assign tb0 v t = false /\
              inhabitsL tb0 v t = false.
Proof.
  exists (LL [Ci 1; Ci 3]), (LSeq B_list (Li 1)). split; [exact generated_table_ok_w|].
  vm_compute. repeat split.
Qed.
Print Assumptions literal_exact_refuted_list.

Example literal_hyps_hold :
  hypsL (LC (LStr 0)) ex_lt1 = true /\ inhabitsL tb0 (LC (LStr 0)) ex_lt1 = true /\ matchL tb0 ex_lt1 (LC (LStr 0)) = true /\
  hypsL (LC (LStr 1)) ex_lt1 = true /\ inhabitsL tb0 (LC (LStr 1)) ex_lt1 = false /\ errL_ret tb0 (LC (LStr 1)) ex_lt1 = true /\
  hypsL LNoneV ex_lt1 = true /\ inhabitsL tb0 LNoneV ex_lt1 = true /\
  hypsL (LT [Ci 1%Z; LC (LStr 5)]) ex_lt2 = true /\ inhabitsL tb0 (LT [Ci 1%Z; LC (LStr 5)]) ex_lt2 = true /\
  hypsL (LT [Ci 2%Z; LC (LStr 5)]) ex_lt2 = true /\ errL_arg tb0 (LT [Ci 2%Z; LC (LStr 5)]) ex_lt2 = true /\
  hypsL (LL [LC (LStr 1)]) ex_lt3 = true /\ inhabitsL tb0 (LL [LC (LStr 1)]) ex_lt3 = true /\
  hypsL (LT [LC (LStr 1); LC (LStr 2)]) ex_lt3 = true /\ errL_assign tb0 (LT [LC (LStr 1); LC (LStr 2)]) ex_lt3 = true /\
  hypsL (Ci 1%Z) (LBase (Cb B_float [])) = true /\ inhabitsL tb0 (Ci 1%Z) (LBase (Cb B_float [])) = true /\
  hypsL (LO B_int) (Li 1%Z) = true /\ errL_ret tb0 (LO B_int) (Li 1%Z) = true /\
  hypsL (LC (LStr 0)) ex_lt3 = true /\ errL_arg tb0 (LC (LStr 0)) ex_lt3 = true.
Proof. unfold hypsL. rewrite generated_table_ok_w. vm_compute. repeat split. Qed.

(* return site *)
(* a returned variable with several bindings is in error iff ONE binding is (the views of the variable are the
   views of its bindings; match_all_views) *)
Theorem return_multi_binding : forall tb bs t,
  err_ret_var tb bs t = existsb (fun v => err_ret tb v t) bs.
Proof.
  intros tb bs t. unfold err_ret_var, ret_views, err_ret, matches_all. rewrite forallb_flat_map. apply negb_forallb.
Qed.
Print Assumptions return_multi_binding.

(* every return statement is judged on its own: the error lines of a body are those of its parts *)
Theorem return_per_statement : forall tb ann b1 b2,
  ret_errors tb ann (b1 ++ b2) = ret_errors tb ann b1 ++ ret_errors tb ann b2.
Proof.
  intros tb [t|] b1 b2; cbn [ret_errors]; [|reflexivity]. rewrite filter_app, map_app. reflexivity.
Qed.
Print Assumptions return_per_statement.

(* return-site exactness, ground fragment: bad-return-type is logged at line l iff a return statement at l can
   return a value outside the annotation (same two hypotheses per binding as sites_exact_partial) *)
Theorem return_site_exact_partial : forall tb t body,
  table_ok tb = true -> wf_ty tb t = true ->
  (forall s v, In s body -> In v (rs_vals s) ->
     wf_val tb v = true /\
     (forall sl, In sl (slices v) -> inhabitsF pytype_devs tb t sl = inhabits tb sl t) /\
     forallb (fun sl => inhabits tb sl t) (slices v) = inhabits tb v t) ->
  forall l, In l (ret_errors tb (Some t) body) <->
            exists s, In s body /\ rs_line s = l /\ exists v, In v (rs_vals s) /\ inhabits tb v t = false.
Proof.
  intros tb t body Hok Hwt Hb.
  apply (error_lines rs_line rs_vals _ (fun v => err_ret tb v t) (fun v => inhabits tb v t)).
  - intro s. apply return_multi_binding.
  - intros s v Hs Hv. destruct (Hb s v Hs Hv) as [Hw [Hd Hsl]].
    exact (proj1 (sites_exact_partial tb v t Hok Hwt Hw Hd Hsl)).
Qed.
Print Assumptions return_site_exact_partial.

(* return-site exactness, Literal fragment *)
Theorem return_site_literal_exact_partial : forall tb t body,
  table_ok tb = true -> wf_lty tb t = true -> bool_free_ty t = true -> base_dev_free t = true ->
  (forall s v, In s body -> In v (lrs_vals s) ->
     wf_lval v = true /\ bool_free_val v = true /\ short_lists v = true) ->
  forall l, In l (lret_errors tb (Some t) body) <->
            exists s, In s body /\ lrs_line s = l /\ exists v, In v (lrs_vals s) /\ inhabitsL tb v t = false.
Proof.
  intros tb t body Hok Hwt Hbt Hdt Hb.
  apply (error_lines lrs_line lrs_vals _ (fun v => negb (matchL tb t v)) (fun v => inhabitsL tb v t)).
  - intro s. apply negb_forallb.
  - intros s v Hs Hv. destruct (Hb s v Hs Hv) as [W [B S]]. f_equal.
    apply (literal_exact_partial tb v t Hok Hwt W Hbt B S Hdt).
Qed.
Print Assumptions return_site_literal_exact_partial.

(* ... and with the deviations named, no side condition is left *)
Theorem return_site_literal_characterisation : forall tb t body,
  table_ok tb = true -> wf_lty tb t = true ->
  (forall s v, In s body -> In v (lrs_vals s) -> wf_lval v = true) ->
  forall l, In l (lret_errors tb (Some t) body) <->
            exists s, In s body /\ lrs_line s = l /\
                      exists v, In v (lrs_vals s) /\ inhabL pytype_ldevs pytype_devs tb t v = false.
Proof.
  intros tb t body Hok Hwt Hb.
  apply (error_lines lrs_line lrs_vals _ (fun v => negb (matchL tb t v))
           (fun v => inhabL pytype_ldevs pytype_devs tb t v)).
  - intro s. apply negb_forallb.
  - intros s v Hs Hv. f_equal. apply (matchL_char tb (table_ok_tok tb Hok) t Hwt v (Hb s v Hs Hv)).
Qed.
Print Assumptions return_site_literal_characterisation.

Example return_examples :
  (lret_errors tb0 (Some (LUnion [Li 1%Z; Li 2%Z])) ex_body = [5; 7] /\ lret_errors tb0 None ex_body = []) /\
  (ret_errors tb0 (Some (Cb B_list [Cb B_int []])) ex_rbody = [5] /\
   length (ret_views [VColl KList [Int]; VColl KList [Int; Str]]) = 3).
Proof. vm_compute. repeat split. Qed.
