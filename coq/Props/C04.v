(* C04 - analysis output is a pure function of the source and options.
   The stated theorems, each followed by Print Assumptions, with non-vacuity examples; the lemmas are in
   Canon/ and Loader/.

   PARTIAL by nature: no Gallina model can exhibit hash-seed dependent iteration inside the VM.
   What is proved here is that the last two stages of the pipeline erase order:
     - the emitted declaration unit is a function of the SET of declarations
       (canonical_perm_invariant, canon_idempotent), provided sort keys separate siblings -
       a hypothesis about implementation outputs that the harness monitors on every emitted AST;
     - the error report is sorted, duplicate-free, bounded and a function of the SEQUENCE of logged
       errors' eight modelled fields (the errors_ theorems); it is NOT a function of the set (errors_order_sensitive).
   Everything upstream (set/dict iteration in the VM, id()-based ordering, loader caches) is covered
   by the differential search in harness/props/c04.py, not by these theorems. *)
From Coq Require Import List String Ascii Bool Arith ZArith Permutation Sorted.
From PV Require Import Canon.Model Canon.SortLemmas Canon.Proofs Canon.ErrorProofs.
From PV Require Loader.Model Loader.Proofs.
Import ListNotations.
Local Open Scope string_scope.

(* CanonicalOrderingVisitor *)

(* Two units that differ only by the order of the items of tuples the visitor sorts - at any depth
   the visitor reaches: module constants/type params/functions/classes/aliases, class
   methods/decorators/nested classes/slots/constants (unless dataclass-like or namedtuple),
   signature templates/exceptions, union members - canonicalise to the same unit, provided that
   wherever the visitor sorts, siblings with equal sort keys are equal. *)
Theorem canonical_perm_invariant : forall u u' : value,
  deep_perm u u' -> keys_separate u -> canon u = canon u'.
Proof. intros u u' H K. exact (canonical_perm_invariant_lemma u u' K H). Qed.
Print Assumptions canonical_perm_invariant.

(* the hypothesis cannot be dropped: key-equal but different siblings keep their input order
   (two constants `x` whose ClassType points to two different classes that are both called A) *)
Definition w_S (s : string) : value := VAtom "str" s ("'" ++ s ++ "'").
Definition w_C (body : string) : value :=
  VNode "Constant" [("name", w_S "x"); ("type", VClassType "A" (Some ("A", body)));
                    ("value", VAtom "NoneType" "None" "None")].
Definition w_U (cs : list value) : value :=
  VNode "TypeDeclUnit" [("name", w_S "m"); ("constants", VTup cs); ("type_params", VTup []);
                        ("classes", VTup []); ("functions", VTup []); ("aliases", VTup []);
                        ("_name2item", empty_dict)].
Definition w_u : value := w_U [w_C "Class(name='A', v=1)"; w_C "Class(name='A', v=2)"].
Definition w_u' : value := w_U [w_C "Class(name='A', v=2)"; w_C "Class(name='A', v=1)"].

Theorem canonical_perm_needs_keys_separate :
  exists u u' : value, deep_perm u u' /\ sets_normal u /\ canon u <> canon u'.
Proof.
  exists w_u, w_u'.
  split; [|split].
  - eapply (dp_node_sorted "TypeDeclUnit" [("name", w_S "m")] "constants");
      [reflexivity|reflexivity|apply Forall2_deep_perm_refl|apply perm_swap].
  - apply okb_sound. vm_compute. reflexivity.
  - vm_compute. discriminate.
Qed.
Print Assumptions canonical_perm_needs_keys_separate.

(* canonicalising twice changes nothing.  Hypothesis: member lists of set-types are flat and
   ==-duplicate-free - what _SetOfTypes.__post_init__ establishes for every object the pytd
   constructors can build, and the condition under which the model's unconditional re-construction
   of visited nodes agrees with the real `changed` optimisation (monitored on every input tree) *)
Theorem canon_idempotent : forall u : value, sets_normal u -> canon (canon u) = canon u.
Proof. exact canon_idempotent_lemma. Qed.
Print Assumptions canon_idempotent.

(* keys_separate is the stronger hypothesis; the executable checker used by the harness is sound *)
Theorem keys_separate_sets_normal : forall u, keys_separate u -> sets_normal u.
Proof. exact (ok_weaken true). Qed.
Print Assumptions keys_separate_sets_normal.

Theorem hypothesis_checker_sound : forall k u, okb k u = true -> ok k u.
Proof. exact okb_sound. Qed.
Print Assumptions hypothesis_checker_sound.

(* the sort itself: Python's sorted() with Node.__lt__ yields a sorted permutation *)
Theorem sorted_is_sorted_permutation : forall l : list value,
  Permutation (sort_vals l) l /\
  StronglySorted (fun a b => node_lt b a = false) (sort_vals l).
Proof.
  intros l. split; [apply sort_vals_perm|].
  exact (sort_sorted kcmp key good_kcmp l).
Qed.
Print Assumptions sorted_is_sorted_permutation.

(* ErrorLog.unique_sorted_errors *)

(* the report is sorted by (filename or "", line): no reported error is strictly smaller than one
   reported before it *)
Theorem errors_sorted : forall es : list error,
  StronglySorted (fun a b => err_lt b a = false) (unique_sorted_errors es).
Proof.
  intros es. apply ss_fop, members_sorted.
  - apply inv_group_all.
  - apply group_all_sorted; [apply sorted_errors_sorted|constructor|intros x e []].
Qed.
Print Assumptions errors_sorted.

(* what the code guarantees about uniqueness, precisely: two reported errors with the same unique
   representation (position, message, details, name) have tracebacks that
   _compare_traceback_strings cannot compare (neither equal nor one a suffix of the other) - the
   "several bad call sites" case *)
Theorem errors_unique : forall es : list error,
  ForallOrdPairs (fun a b => urepr a = urepr b -> compare_tb (e_tb a) (e_tb b) = None)
                 (unique_sorted_errors es).
Proof. intros es. apply members_unique, inv_group_all. Qed.
Print Assumptions errors_unique.

(* in particular nothing is reported twice *)
Theorem errors_nodup : forall es : list error, NoDup (unique_sorted_errors es).
Proof.
  intros es. pose proof (errors_unique es) as H.
  induction H as [|a l Ha Hl IH]; constructor; auto.
  intros Hin. rewrite Forall_forall in Ha. specialize (Ha a Hin eq_refl).
  unfold incomparable in Ha. rewrite compare_tb_refl in Ha. discriminate.
Qed.
Print Assumptions errors_nodup.

(* at most MAX_TRACEBACKS reported errors share a unique representation *)
Theorem errors_bounded : forall (es : list error) u,
  (List.length (filter (fun e => urepr_eqb (urepr e) u) (unique_sorted_errors es)) <= MAX_TRACEBACKS)%nat.
Proof. intros es u. apply members_bounded, inv_group_all. Qed.
Print Assumptions errors_bounded.

Theorem errors_from_log : forall (es : list error) e, In e (unique_sorted_errors es) -> In e es.
Proof.
  intros es e H. apply group_all_members in H as [H|[]].
  apply (sort_in err_lt), H.
Qed.
Print Assumptions errors_from_log.

(* The report is a function of the sequence of the logged errors' eight modelled fields: whatever
   else the logged objects carry (identity, hash, severity, source text, ...) cannot influence which
   are reported or in what order. *)
Theorem errors_function_of_sequence : forall (A : Type) (pe : A -> error) (xs : list A),
  map pe (unique_sorted_on pe xs) = unique_sorted_errors (map pe xs).
Proof.
  intros A pe xs. unfold unique_sorted_on, unique_sorted_errors, group_all_on, group_all.
  rewrite concat_gmap, fold_on_map. unfold sorted_on. rewrite (sort_map pe err_lt). reflexivity.
Qed.
Print Assumptions errors_function_of_sequence.

(* It is a function of the SET of logged errors when errors on the same (file, line) are identical ... *)
Theorem errors_perm_invariant_partial : forall es es' : list error,
  Permutation es es' ->
  (forall a b, In a es -> In b es -> sort_key a = sort_key b -> a = b) ->
  unique_sorted_errors es = unique_sorted_errors es'.
Proof.
  intros es es' Hp Hsep. unfold unique_sorted_errors.
  replace (sorted_errors es') with (sorted_errors es); [reflexivity|].
  apply (sort_perm_invariant sk_cmp sort_key good_sk); auto.
  intros x y Hx Hy Hk. apply Hsep; auto. apply (proj1 good_sk), Hk.
Qed.
Print Assumptions errors_perm_invariant_partial.

(* ... and not in general: two different errors on one line are reported in logging order.  This is
   why the order in which the VM logs errors is watched by the differential search. *)
Definition mk (line : Z) (msg : string) (tb : option string) : error :=
  mkError (Some "f.py") line 0 (Some "g") msg None "attribute-error" tb.

Theorem errors_order_sensitive :
  exists es es' : list error, Permutation es es' /\ unique_sorted_errors es <> unique_sorted_errors es'.
Proof.
  exists [mk 3 "No attribute 'a'" None; mk 3 "No attribute 'b'" None],
         [mk 3 "No attribute 'b'" None; mk 3 "No attribute 'a'" None].
  split; [apply perm_swap|]. vm_compute. discriminate.
Qed.
Print Assumptions errors_order_sensitive.

(* history: load_pytd.Loader's caches (coq/Loader/Model.v) *)
Module LoaderHistory.
Import Loader.Model Loader.Proofs.

(* The memo of import_name adds no history dependence of its own: if an uncached import from every reachable
   module map answers like one from the empty map (and keeps the map reachable), then every answer of every
   history of import_name calls is the answer of a fresh loader. *)
Theorem memo_layer_history_independent_partial :
  forall (fuel : nat) (U : universe) (Good : mods -> Prop),
  Good [] ->
  (forall n s, Good s -> Good (fst (import_slow fuel U n s)) /\
                         snd (import_slow fuel U n s) = snd (import_slow fuel U n [])) ->
  forall ops : list name, run fuel U fresh ops = fresh_answers fuel U ops.
Proof.
  intros fuel U Good Hnil Hslow ops. apply (run_coherent fuel U Good Hslow); [exact Hnil|].
  intros n r H. discriminate.
Qed.
Print Assumptions memo_layer_history_independent_partial.

(* ... and the full statement is refuted by the faithful model of the module map, three ways (each reproduced on
   the real Loader by the harness and listed as a finding): *)
(* a module loaded earlier shadows a class of the same name: fresh OK, reused BadDependencyError *)
Theorem loader_history_independent_refuted_shadowing :
  exists (U : universe) (ops : list name),
    Forall (fun r => r <> OOut) (run 10 U fresh ops) /\ run 10 U fresh ops <> fresh_answers 10 U ops.
Proof. exists U_shadow, [[0; 10]; [1]]. exact shadow_refuted. Qed.
Print Assumptions loader_history_independent_refuted_shadowing.

(* the dependency dropped by collect_dependencies: fresh BadDependencyError, reused OK *)
Theorem loader_history_independent_refuted_own_class :
  exists (U : universe) (ops : list name),
    Forall (fun r => r <> OOut) (run 10 U fresh ops) /\ run 10 U fresh ops <> fresh_answers 10 U ops.
Proof. exists U_own, [[0; 12]; [0]]. exact own_class_refuted. Qed.
Print Assumptions loader_history_independent_refuted_own_class.

(* a member of an import cycle linked inside a FAILED import stays cached: fresh BadDependencyError, reused OK *)
Theorem loader_history_independent_refuted_failed_cycle :
  Forall (fun r => r <> OOut) (run 10 U_cycle fresh [[0]; [1]]) /\
  run 10 U_cycle fresh [[0]; [1]] = [OErr; OOk (mkEntry false [] [(0, TCls [0] 12)])] /\
  fresh_answers 10 U_cycle [[0]; [1]] = [OErr; OErr].
Proof. exact cycle_refuted. Qed.
Print Assumptions loader_history_independent_refuted_failed_cycle.

(* what IS unconditional: a memoised answer (an AST or "no such module") is repeated verbatim whatever happens to
   the module map in between *)
Theorem cached_answer_is_repeated : forall fuel U st n st' r,
  import_name fuel U st n = (st', r) -> (r = ONone \/ exists e, r = OOk e) ->
  forall mods', import_name fuel U (mkState mods' (st_cache st')) n = (mkState mods' (st_cache st'), r).
Proof. exact cached_answer_is_repeated_lemma. Qed.
Print Assumptions cached_answer_is_repeated.

(* where history enters: an entry of _modules short-circuits the whole load *)
Theorem existing_entry_short_circuits_load : forall fuel U n s e,
  lookup n s = Some e -> load (Datatypes.S fuel) U n s = (s, ROk e).
Proof. intros fuel U n s e H. cbn [load]. rewrite H. reflexivity. Qed.
Print Assumptions existing_entry_short_circuits_load.

(* the conclusion of memo_layer_history_independent_partial, by evaluation, on a cyclic three-module universe and a
   history of five requests (its hypothesis is not instantiated here) *)
Example ex_history_independent_instance :
  let U := [([0], mkRaw true [10] [(0, ([1], 11))]); ([0; 12], mkRaw false [11] [(0, ([0], 10))]);
            ([1], mkRaw false [11] [(0, ([0; 12], 11)); (1, ([0], 10))])] in
  run 10 U fresh [[1]; [0; 12]; [9]; [0]; [1]] = fresh_answers 10 U [[1]; [0; 12]; [9]; [0]; [1]] /\
  nth 0 (run 10 U fresh [[1]]) ONone = OOk (mkEntry false [11] [(0, TCls [0; 12] 11); (1, TCls [0] 10)]).
Proof. split; vm_compute; reflexivity. Qed.
End LoaderHistory.

(* non-vacuity for CanonicalOrderingVisitor and unique_sorted_errors *)

Definition S (s : string) : value := VAtom "str" s ("'" ++ s ++ "'").
Definition NoneV : value := VAtom "NoneType" "None" "None".
Definition Named (n : string) : value := VNode "NamedType" [("name", S n)].
Definition Union (l : list value) : value := VNode "UnionType" [("type_list", VTup l)].
Definition Const (n : string) (t : value) : value :=
  VNode "Constant" [("name", S n); ("type", t); ("value", NoneV)].
Definition Unit (cs : list value) : value :=
  VNode "TypeDeclUnit" [("name", S "m"); ("constants", VTup cs); ("type_params", VTup []);
                        ("classes", VTup []); ("functions", VTup []); ("aliases", VTup []);
                        ("_name2item", VAtom "dict" "{'y': ...}" "{'y': ...}")].

(* y: Union[b, a]; x: int   versus   x: int; y: Union[a, b] *)
Definition ex_u : value := Unit [Const "y" (Union [Named "b"; Named "a"]); Const "x" (Named "int")].
Definition ex_u' : value := Unit [Const "x" (Named "int"); Const "y" (Union [Named "a"; Named "b"])].

Example ex_deep_perm : deep_perm ex_u ex_u'.
Proof.
  apply (dp_node_sorted "TypeDeclUnit" [("name", S "m")] "constants" _
           [Const "y" (Union [Named "a"; Named "b"]); Const "x" (Named "int")]);
    [reflexivity|reflexivity| |apply perm_swap].
  constructor; [|apply Forall2_deep_perm_refl].
  apply (dp_node_field "Constant" [("name", S "y")]); [reflexivity|split; [reflexivity|left]].
  eapply (dp_node_sorted "UnionType" [] "type_list");
    [reflexivity|reflexivity|apply Forall2_deep_perm_refl|apply perm_swap].
Qed.

Example ex_keys_separate : keys_separate ex_u.
Proof. apply okb_sound. vm_compute. reflexivity. Qed.

Example ex_nontrivial : ex_u <> ex_u' /\ canon ex_u = canon ex_u' /\
  canon ex_u = VNode "TypeDeclUnit"
    [("name", S "m");
     ("constants", VTup [Const "x" (Named "int"); Const "y" (Union [Named "a"; Named "b"])]);
     ("type_params", VTup []); ("classes", VTup []); ("functions", VTup []); ("aliases", VTup []);
     ("_name2item", empty_dict)].
Proof.
  split; [discriminate|]. split.
  - apply canonical_perm_invariant; [apply ex_deep_perm|apply ex_keys_separate].
  - vm_compute. reflexivity.
Qed.

(* errors: same unique representation with nested tracebacks (the shorter one wins), with
   incomparable tracebacks (both kept), an exact duplicate (dropped), sorted by line *)
Definition tb (s : string) : option string := Some (TRACEBACK_MARKER ++ s).
Example ex_errors :
  unique_sorted_errors
    [mk 9 "late" None;
     mk 5 "m" (tb "\n  line 1, in current file\n  line 2, in f");
     mk 5 "m" (tb "\n  line 2, in f");
     mk 5 "m" (tb "\n  line 7, in h");
     mk 5 "m" (tb "\n  line 2, in f");
     mk 2 "early" None; mk 2 "early" None]
  = [mk 2 "early" None;
     mk 5 "m" (tb "\n  line 2, in f");
     mk 5 "m" (tb "\n  line 7, in h");
     mk 9 "late" None].
Proof. vm_compute. reflexivity. Qed.
