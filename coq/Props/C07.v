(* C07 — the typegraph solver decides binding visibility correctly.
   The stated theorems, each followed by Print Assumptions, and non-vacuity examples; the lemmas are
   in Typegraph/.
   Model: Typegraph/Graph.v + Solver.v (line-by-line transcription of solver.cc, validated against
   cfg.so on every run by harness/props/c07.py).  Spec: Typegraph/Spec.v. *)
From Coq Require Import List Arith Bool Relations.
From PV Require Import Typegraph.Graph Typegraph.Solver Typegraph.Spec Typegraph.SetLemmas
  Typegraph.RfgProofs Typegraph.PathProofs Typegraph.SearchProofs Typegraph.SolverProofs
  Typegraph.ResolveMono Typegraph.ExactProofs Typegraph.WalkProofs Typegraph.FuelProofs
  Typegraph.SolverReach.
From PV Require Typegraph.Reach.
Import ListNotations.

(* remove_finished_goals (the explicit action stack with its undo actions, the seen set, the
   origin-without-source-set dead end) returns exactly the outcomes of the recursive resolution
   relation: sound and complete for the resolution step, any goal set, any graph. *)
Theorem remove_finished_goals_exact : forall g pos fuel goals results,
  ssorted goals = true ->
  remove_finished_goals fuel g pos goals = Some results ->
  forall r, In r results <-> resolves_at g pos goals r.
Proof. exact rfg_correct. Qed.
Print Assumptions remove_finished_goals_exact.

(* every goal is either removed (then it originates at the position) or still a goal (then it does not) *)
Theorem resolution_partitions_goals : forall g pos goals R N,
  resolves_at g pos goals (R, N) ->
  (forall b, In b goals -> In b R \/ In b N) /\
  (forall b, In b R -> find_origin g b pos <> None) /\
  (forall b, In b N -> find_origin g b pos = None).
Proof. exact resolves_at_facts. Qed.
Print Assumptions resolution_partitions_goals.

(* FindShortestPathToNode returns a non-empty path iff a backward path exists whose nodes before
   the last one avoid `blocked` (finish is tested before blocked: the last node may be blocked). *)
Theorem shortest_path_exact : forall g start finish blocked sp,
  find_shortest_path g start finish blocked = Some sp ->
  (sp <> [] <-> creach g blocked start finish).
Proof. exact find_shortest_path_spec. Qed.
Print Assumptions shortest_path_exact.

(* FindNodeBackwards: path_exists iff such a path exists; every node it reports is a conditional
   node backward reachable from the start. *)
Theorem find_node_backwards_sound : forall g start finish blocked ex path,
  find_node_backwards_compute g start finish blocked = Some (ex, path) ->
  (ex = true <-> creach g blocked start finish) /\
  (forall x, In x path -> breach g start x /\ cond g x <> None).
Proof. exact fnb_compute_spec. Qed.
Print Assumptions find_node_backwards_sound.

(* remove_finished_goals terminates on every position and goal set of every graph *)
Theorem remove_finished_goals_terminates : forall g pos goals, ssorted goals = true ->
  exists n results, forall fuel, remove_finished_goals (n + fuel) g pos goals = Some results.
Proof. exact rfg_terminates. Qed.
Print Assumptions remove_finished_goals_terminates.

(* FindNodeBackwards always returns on every graph: the worklist loops stay within the fuel the
   model gives them (number of edges), the shortest path is a simple path, and the `while (true)`
   loop over articulation points always finds a next node (no nullptr dereference) *)
Theorem find_node_backwards_total : forall g start finish blocked,
  find_node_backwards_compute g start finish blocked <> None.
Proof. exact fnb_compute_total. Qed.
Print Assumptions find_node_backwards_total.

(* fuel sufficiency: on an acyclic graph every sequence of queries is answered (never None) for
   every sufficiently large fuel - the `= Some` hypotheses of the theorems below are satisfiable *)
Theorem solve_fuel_sufficient_acyclic : forall g qs, acyclic g ->
  exists F, forall fuel, F <= fuel -> run_queries fuel g sstate_empty qs <> None.
Proof. exact run_queries_total_lemma. Qed.
Print Assumptions solve_fuel_sufficient_acyclic.

(* clause (i): exactness on acyclic condition-free graphs *)

(* DESIGN thm 1, full strength: on every acyclic graph without node conditions, for ANY sequence of
   queries answered by one solver (memo and path cache shared), every HasCombination answer is true
   exactly when the goal set has an explaining path.  (The memoised search is exact because the
   position strictly decreases in a topological rank, so provisional entries are never consulted; the
   CanHaveSolution short-circuit never changes an answer because Expl is monotone in the goal set.) *)
Theorem solver_exact_acyclic : forall g fuel qs st' answers,
  acyclic g -> no_conditions g = true ->
  run_queries fuel g sstate_empty qs = Some (st', answers) ->
  Forall2 (fun q a => a = true <-> Expl g (snd q) (sof_list (fst q))) qs answers.
Proof. exact solver_exact_acyclic_lemma. Qed.
Print Assumptions solver_exact_acyclic.

(* the search proper (RecallOrFindSolution from a fresh solver) on an arbitrary state *)
Theorem search_exact_acyclic : forall g fuel s st' r,
  acyclic g -> no_conditions g = true -> ssorted (snd s) = true ->
  recall_or_find fuel fuel g sstate_empty s [] = Some (st', r) ->
  (r = true <-> Expl g (fst s) (snd s)).
Proof. intros g fuel s st' r [rank Hrank] Hnc Hss H. exact (search_exact g rank Hrank Hnc fuel s st' r Hss H). Qed.
Print Assumptions search_exact_acyclic.

(* the explanation relation is monotone: a subset of an explained goal set is explained *)
Theorem explained_subset_closed : forall g n S,
  Expl g n S -> forall S', ssorted S' = true -> (forall b, In b S' -> In b S) -> Expl g n S'.
Proof. exact Expl_mono. Qed.
Print Assumptions explained_subset_closed.

(* clause (iii): accepted => every goal individually reachable *)

(* FULL STATEMENT (DESIGN thm 3): on EVERY graph, solve ... = Some true -> Reach1 g n S.
   The faithful model refutes it (next theorem), and the witness reproduces on cfg.so (corpus/C07,
   known finding iii:unreachable-goal-accepted:cyclic+cond).  Proved: it holds, for any sequence of
   queries sharing one solver, on every acyclic graph (conditions allowed) and on every graph
   without node conditions (cycles allowed); i.e. it can only fail on a graph that has BOTH a CFG
   cycle and a node condition. *)
Theorem accepted_individually_reachable_partial : forall g fuel qs st' answers,
  acyclic g \/ no_conditions g = true ->
  run_queries fuel g sstate_empty qs = Some (st', answers) ->
  Forall2 (fun q a => a = true -> Reach1 g (snd q) (fst q)) qs answers.
Proof.
  intros g fuel qs st' answers [H|H] Hr.
  - eapply accepted_reachable_acyclic_lemma; eauto.
  - eapply accepted_reachable_nocond_lemma; eauto.
Qed.
Print Assumptions accepted_individually_reachable_partial.

Theorem accepted_individually_reachable_refuted :
  exists g fuel n S, wf_graph g = true /\ solve_fresh fuel g S n = Some true /\ ~ Reach1 g n S.
Proof.
  exists refute_iii, 100, 2, [0]. split; [vm_compute; reflexivity|]. split; [vm_compute; reflexivity|].
  intros H. destruct (H 0 (or_introl eq_refl)) as [o [Ho _]]. exact Ho.
Qed.
Print Assumptions accepted_individually_reachable_refuted.

(* clause (iv): every subset of an accepted combination is accepted *)

(* FULL STATEMENT (DESIGN thm 4, accepted_subset_closed_full): on EVERY graph,
     solve g n S = Some true -> incl S' S -> solve g n S' = Some true.
   The faithful model REFUTES it on a cyclic graph without conditions (accepted_subset_closed_refuted;
   the witness reproduces on cfg.so: corpus/C07, known finding iv:subset-rejected:cyclic).
   Proved: it holds on acyclic condition-free graphs, for queries asked in any order within one
   solver session.  On acyclic graphs WITH conditions it is refuted too
   (accepted_subset_closed_acyclic_cond_refuted below). *)
Theorem accepted_subset_closed_refuted :
  exists g fuel n S S', wf_graph g = true /\ no_conditions g = true /\ incl S' S /\
    solve_fresh fuel g S n = Some true /\ solve_fresh fuel g S' n = Some false /\
    option_map snd (run_queries fuel g sstate_empty [(S, n); (S', n)]) = Some [true; true].
Proof.
  exists refute_iv, 100, 4, [0; 1; 2], [1; 2].
  split; [reflexivity|]. split; [reflexivity|].
  split; [intros x [H|[H|[]]]; subst; simpl; auto|].
  split; [vm_compute; reflexivity|]. split; vm_compute; reflexivity.
Qed.
Print Assumptions accepted_subset_closed_refuted.

Theorem accepted_subset_closed_partial : forall g fuel qs st' answers,
  acyclic g -> no_conditions g = true ->
  run_queries fuel g sstate_empty qs = Some (st', answers) ->
  forall q1 q2 a2,
    In (q1, true) (combine qs answers) -> In (q2, a2) (combine qs answers) ->
    snd q1 = snd q2 -> incl (fst q2) (fst q1) -> a2 = true.
Proof.
  intros g fuel qs st' answers Ha Hnc H q1 q2 a2 H1 H2 Hn Hincl.
  pose proof (solver_exact_acyclic_lemma g fuel qs st' answers Ha Hnc H) as HF.
  pose proof (Forall2_combine_In _ _ _ _ _ HF H1) as E1.
  pose proof (Forall2_combine_In _ _ _ _ _ HF H2) as E2. cbv beta in E1, E2.
  destruct q1 as [s1 n1], q2 as [s2 n2]. cbn [fst snd] in *. subst n2.
  apply E2. eapply Expl_mono; [apply E1; reflexivity | apply SS_sof_list|].
  intros b Hb. rewrite In_sof_list in Hb. rewrite In_sof_list. apply Hincl. exact Hb.
Qed.
Print Assumptions accepted_subset_closed_partial.

(* clause (ii): with conditions, never reject a combination that has an explaining path *)

(* FULL STATEMENT (DESIGN thm 2, solver_complete_with_conditions):
     acyclic g -> ExplC g n S -> solve g n S = Some true
   where ExplC is the strict reading (every condition on the walk is required).  The faithful
   model REFUTES it, and the witness reproduces on cfg.so (corpus/C07, known finding
   ii:rejected-but-explained:acyclic+cond): FindNodeBackwards takes node 1 of [refute_ii] for a
   conditional articulation point between nodes 5 and 0 although the condition-free walk 5,3,2,0
   avoids it.  Proved: the clause holds when the graph has no conditions, where the walk reading
   ExplC (the reading the Python oracle implements) and the jump reading Expl coincide. *)
Theorem solver_complete_with_conditions_refuted :
  exists g fuel n S, wf_graph g = true /\ acyclic g /\ ExplC g n S /\ solve_fresh fuel g S n = Some false.
Proof. exact complete_with_conditions_refuted_lemma. Qed.
Print Assumptions solver_complete_with_conditions_refuted.

(* clause (ii) where it holds: without conditions the strict walk reading is the jump reading *)
Theorem solver_complete_with_conditions_partial : forall g fuel qs st' answers,
  acyclic g -> no_conditions g = true ->
  run_queries fuel g sstate_empty qs = Some (st', answers) ->
  Forall2 (fun q a => ExplC g (snd q) (sof_list (fst q)) -> a = true) qs answers.
Proof.
  intros g fuel qs st' answers Ha Hnc H.
  pose proof (solver_exact_acyclic_lemma g fuel qs st' answers Ha Hnc H) as HF.
  clear H. induction HF as [|q a qs0 as0 Hq _ IH]; [constructor|]. constructor; [|exact IH].
  intros He. apply Hq. apply (Expl_iff_ExplC g Hnc). exact He.
Qed.
Print Assumptions solver_complete_with_conditions_partial.

Theorem walk_and_jump_readings_agree : forall g, no_conditions g = true ->
  forall n S, Expl g n S <-> ExplC g n S.
Proof. exact Expl_iff_ExplC. Qed.
Print Assumptions walk_and_jump_readings_agree.

(* non-vacuity examples *)
Ltac rank_id := apply topo_ids_acyclic; reflexivity.

(* diamond 0 -> {1,2} -> 3; variable 0 is bound at node 0 (binding 0) and RE-BOUND on the arm
   through node 1 (binding 1); binding 2 (variable 1) is computed at node 3 from binding 0. *)
Definition diamond : graph :=
  mkGraph [mkNode [] None; mkNode [0] None; mkNode [0] None; mkNode [1; 2] None]
          [mkBinding 0 [mkOrigin 0 [[]]]; mkBinding 0 [mkOrigin 1 [[]]]; mkBinding 1 [mkOrigin 3 [[0]]]].
Example diamond_hyps : wf_graph diamond = true /\ no_conditions diamond = true /\ acyclic diamond.
Proof. split; [reflexivity|]. split; [reflexivity|]. rank_id. Qed.
Example diamond_answers :
  option_map snd (run_queries 100 diamond sstate_empty
    [([0], 3); ([1], 3); ([0; 1], 3); ([0], 1); ([2], 3); ([1; 2], 3)])
  = Some [true; true; false; false; true; false].
Proof. vm_compute. reflexivity. Qed.

(* two-level source-set chain along 0 -> 1 -> 2: binding 2 (node 2) from binding 1 (node 1) from
   binding 0 (node 0); in [chain_rebound] node 1 also re-binds the variable of binding 0, which
   hides binding 0 from node 1 and with it the whole chain. *)
Definition chain : graph :=
  mkGraph [mkNode [] None; mkNode [0] None; mkNode [1] None]
          [mkBinding 0 [mkOrigin 0 [[]]]; mkBinding 1 [mkOrigin 1 [[0]]]; mkBinding 2 [mkOrigin 2 [[1]]]].
Definition chain_rebound : graph :=
  mkGraph [mkNode [] None; mkNode [0] None; mkNode [1] None]
          [mkBinding 0 [mkOrigin 0 [[]]]; mkBinding 1 [mkOrigin 1 [[0]]]; mkBinding 2 [mkOrigin 2 [[1]]];
           mkBinding 0 [mkOrigin 1 [[]]]].
Example chain_hyps : wf_graph chain = true /\ no_conditions chain = true /\ acyclic chain /\
                     wf_graph chain_rebound = true /\ acyclic chain_rebound.
Proof. split; [reflexivity|]. split; [reflexivity|]. split; [rank_id|]. split; [reflexivity|rank_id]. Qed.
Example chain_answers :
  solve_fresh 100 chain [2] 2 = Some true /\ solve_fresh 100 chain_rebound [2] 2 = Some false /\
  solve_fresh 100 chain_rebound [0] 0 = Some true.
Proof. vm_compute. repeat split; reflexivity. Qed.

(* a conflict: binding 2 needs bindings 0 and 1 of ONE variable together *)
Definition conflict : graph :=
  mkGraph [mkNode [] None; mkNode [0] None]
          [mkBinding 0 [mkOrigin 0 [[]]]; mkBinding 0 [mkOrigin 0 [[]]]; mkBinding 1 [mkOrigin 1 [[0; 1]]]].
Example conflict_hyps : wf_graph conflict = true /\ no_conditions conflict = true /\ acyclic conflict.
Proof. split; [reflexivity|]. split; [reflexivity|]. rank_id. Qed.
Example conflict_answers :
  solve_fresh 100 conflict [0] 1 = Some true /\ solve_fresh 100 conflict [1] 1 = Some true /\
  solve_fresh 100 conflict [2] 1 = Some false /\ solve_fresh 100 conflict [0; 1] 1 = Some false.
Proof. vm_compute. repeat split; reflexivity. Qed.

(* the exactness theorem applied: the `true` above is explained, the `false` is not *)
Example diamond_explained : Expl diamond 3 [0] /\ ~ Expl diamond 1 [0].
Proof.
  pose proof (search_exact_acyclic diamond 100 (3, [0])) as H3.
  pose proof (search_exact_acyclic diamond 100 (1, [0])) as H1.
  destruct diamond_hyps as [_ [Hn Ha]]. split.
  - eapply H3; [exact Ha | exact Hn | reflexivity | vm_compute; reflexivity | reflexivity].
  - intros He. eapply H1 in He; [| exact Ha | exact Hn | reflexivity | vm_compute; reflexivity]. discriminate.
Qed.

(* subset closure applied to a session on the diamond: [0;2] is accepted at node 3, so are [0] and [2] *)
Example diamond_subsets :
  option_map snd (run_queries 100 diamond sstate_empty [([0; 2], 3); ([0], 3); ([2], 3)])
  = Some [true; true; true].
Proof. vm_compute. reflexivity. Qed.

(* an origin without any source set (not constructible from Python, reachable from C++) is a dead
   end of remove_finished_goals: the goal is neither explained nor kept *)
Example origin_without_source_set :
  remove_finished_goals 100 (mkGraph [mkNode [] None] [mkBinding 0 [mkOrigin 0 []]]) 0 [0] = Some [].
Proof. vm_compute. reflexivity. Qed.

(* a graph with the loop 0 <-> 1 and without conditions meets the hypotheses of
   accepted_individually_reachable_partial *)
Definition loop_nocond : graph :=
  mkGraph [mkNode [1] None; mkNode [0] None] [mkBinding 0 [mkOrigin 0 [[]]]; mkBinding 1 []].
Example loop_nocond_hyps :
  wf_graph loop_nocond = true /\ no_conditions loop_nocond = true /\ acyclicb loop_nocond = false /\
  option_map snd (run_queries 100 loop_nocond sstate_empty [([0], 1); ([1], 1); ([0; 1], 0)])
  = Some [true; false; false].
Proof. vm_compute. repeat split; reflexivity. Qed.

(* the boolean acyclicity test rejects the clause (iv) witness (the loop 1 <-> 2 is in its definition) *)
Example refute_iv_class : acyclicb refute_iv = false.
Proof. vm_compute. reflexivity. Qed.

(* the clause (ii) witness is acyclic and has a condition *)
Example refute_ii_class : acyclicb refute_ii = true /\ no_conditions refute_ii = false.
Proof. vm_compute. split; reflexivity. Qed.

(* the clause (iii) witness fails the boolean acyclicity test and has a condition: it lies outside both
   cases of the partial theorem *)
Example refute_iii_class : acyclicb refute_iii = false /\ no_conditions refute_iii = false.
Proof. vm_compute. split; reflexivity. Qed.

(* CFGNode::CanHaveCombination asks reachable.cc's bit matrix (backward_reachability_->is_reachable(
   this->id(), origin->where->id()), which is Reach.is_reachable (Reach.run h) where this).  The C07
   model computes backward reachability over the incoming lists instead (Solver.back_reach, used by
   Solver.can_have_combination).  For every solver graph whose incoming lists were built by a history h
   of NewCFGNode/ConnectTo operations (any conditions, any bindings), the two agree - by C09's theorem
   that the bit matrix is the reflexive-transitive closure of the inserted edges: that the model
   uses graph reachability for this test is proved, not assumed. *)
Theorem can_have_combination_uses_bit_matrix : forall g h,
  Reach.wf_hist h = true -> built_by g h ->
  forall attrs this, this < n_nodes g ->
  (forall b o, In b attrs -> In o (origins g b) -> o_where o < n_nodes g) ->
  can_have_combination g attrs this =
  forallb (fun b => existsb (fun o => Reach.is_reachable (Reach.run h) (o_where o) this) (origins g b)) attrs.
Proof. exact can_have_combination_bit_matrix_lemma. Qed.
Print Assumptions can_have_combination_uses_bit_matrix.

Theorem back_reach_is_the_bit_matrix : forall g h,
  Reach.wf_hist h = true -> built_by g h ->
  forall this where_, this < n_nodes g -> where_ < n_nodes g ->
  smem where_ (back_reach g this) = Reach.is_reachable (Reach.run h) where_ this.
Proof. exact back_reach_is_bit_matrix. Qed.
Print Assumptions back_reach_is_the_bit_matrix.

(* non-vacuity: the diamond is built by a history (with a self edge and a duplicate edge thrown in) *)
Definition diamond_hist : list Reach.op :=
  [Reach.NewNode; Reach.NewNode; Reach.NewNode; Reach.NewNode; Reach.Connect 0 1; Reach.Connect 0 2;
   Reach.Connect 1 3; Reach.Connect 2 2; Reach.Connect 2 3; Reach.Connect 0 1].
Example diamond_built : Reach.wf_hist diamond_hist = true /\ built_by diamond diamond_hist /\
  can_have_combination diamond [0; 1] 3 = true /\ can_have_combination diamond [1] 2 = false.
Proof. vm_compute. repeat split; reflexivity. Qed.

(* Clause (iv) on acyclic graphs WITH conditions (accepted_subset_closed_partial covers acyclic
   condition-free graphs, accepted_subset_closed_refuted cyclic ones): on an acyclic graph with one
   node condition a fresh solver - and equally a solver that answered the superset first - accepts
   {0,2,4} and rejects {0,2}.  The witness rests on the false-articulation-point defect (clause ii): the
   pending goal set decides the blocked set, the blocked set decides the shortest path, and the shortest
   path decides which conditional node FindNodeBackwards (wrongly) takes for an articulation point.
   Reproduces on cfg.so (corpus/C07/iv_subset_rejected_acyclic_cond.json, finding
   iv:subset-rejected:acyclic+cond).  So clause (iv) is proved on acyclic condition-free graphs and
   refuted as soon as the graph has a cycle or a condition. *)
Theorem accepted_subset_closed_acyclic_cond_refuted :
  exists g fuel n S S', wf_graph g = true /\ acyclic g /\ incl S' S /\
    solve_fresh fuel g S n = Some true /\ solve_fresh fuel g S' n = Some false /\
    option_map snd (run_queries fuel g sstate_empty [(S, n); (S', n)]) = Some [true; false].
Proof.
  exists refute_iv_acyc, 100, 10, [0; 2; 4], [0; 2].
  split; [reflexivity|]. split; [apply topo_ids_acyclic; reflexivity|].
  split; [intros x [H|[H|[]]]; subst; simpl; auto|].
  split; [vm_compute; reflexivity|]. split; vm_compute; reflexivity.
Qed.
Print Assumptions accepted_subset_closed_acyclic_cond_refuted.

Example refute_iv_acyc_class :
  acyclicb refute_iv_acyc = true /\ no_conditions refute_iv_acyc = false /\
  option_map snd (run_queries 100 refute_iv_acyc sstate_empty [([0], 10); ([2], 10); ([4], 10)])
  = Some [true; true; true].
Proof. vm_compute. repeat split; reflexivity. Qed.

(* EVERY graph, cycles and node conditions included: what the memoised search does guarantee *)
From PV Require Import Typegraph.CyclicMemo.

(* Whatever is accepted - by a fresh solver or by one that has answered any number of queries before - is
   CIRCULARLY explained: the state (n, S) lies in a set of search states each of which is a leaf of
   FindSolution or has a FindSolution successor in the set (the greatest-fixpoint reading of the explanation
   relation; the provisional `true` entry of RecallOrFindSolution is sound for exactly this reading, and the
   clause (iii)/(iv) findings on cyclic graphs are the gap between it and the least fixpoint). *)
Theorem accepted_circularly_explained : forall g fuel qs st' answers,
  run_queries fuel g sstate_empty qs = Some (st', answers) ->
  Forall2 (fun q a => a = true -> GExpl g (snd q, sof_list (fst q))) qs answers.
Proof.
  intros g fuel qs st' answers H.
  exact (proj2 (run_queries_gexpl g fuel qs _ _ _ H (st_okG_empty g))).
Qed.
Print Assumptions accepted_circularly_explained.

(* Within one solver, the same query asked again - whatever was asked in between - gets the answer it got the
   first time: solved_states_ only grows and a finished entry never changes (every graph, every fuel). *)
Theorem answers_sticky_within_one_solver : forall g fuel pre attrs n mid post st st' answers,
  run_queries fuel g st (pre ++ (attrs, n) :: mid ++ (attrs, n) :: post) = Some (st', answers) ->
  exists a, nth_error answers (length pre) = Some a /\
            nth_error answers (length pre + S (length mid)) = Some a.
Proof. exact run_queries_sticky. Qed.
Print Assumptions answers_sticky_within_one_solver.

(* GExpl is not vacuous: a goal without any origin is not circularly explained ... *)
Definition g_no_origin : graph := mkGraph [mkNode [] None] [mkBinding 0 []].
Example gexpl_can_fail : ~ GExpl g_no_origin (0, [0]).
Proof.
  assert (Hor : forall b, origins g_no_origin b = []) by (intros [|[|b]]; reflexivity).
  intros [T [HT Hcl]].
  destruct (Hcl _ HT) as [[removed [Hr Hc]]|[t' [[removed [new [Hr [Hc [Hne [Hp Hs]]]]]] _]]].
  - destruct (resolves_at_facts _ _ _ _ _ Hr) as [A [B _]].
    destruct (A 0 (or_introl eq_refl)) as [H0|[]]. apply (B 0 H0). reflexivity.
  - destruct Hp as [fin [path [Hf _]]]. apply In_finish_nodes in Hf.
    destruct Hf as [b [o [_ [Ho _]]]]. rewrite Hor in Ho. destruct Ho.
Qed.
(* ... and the theorem applies to runs on cyclic graphs: loop_nocond_hyps above is one (answers true/false/false) *)
