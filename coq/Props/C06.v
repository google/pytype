(* C06 — a module seen through its emitted stub has the types that were inferred for it.
   PARTIAL.  The stated theorems, each followed by Print Assumptions, with non-vacuity examples; the lemmas are in
   Conv/.  Covered: type expressions of the emitted dialect (module-level constants `x: T` and aliases `x = T`),
   the hand-off through both transports, bounded and constrained TypeVars in the class table (Conv/Bound.v), and on
   the declaration level (Conv/Decl.v): results of calls of functions with one signature (any parameter kinds) and
   of overloaded functions (selection rule), class re-exports, ground attributes / properties, a type parameter
   read at the top of an attribute or below containers and tuples, method calls and properties whose return type
   mentions type parameters.  The matcher is a parameter (measured and monitored by the harness); module
   resolution and everything else are covered by the correspondence and the end-to-end differential only. *)
From Coq Require Import List NArith Arith Bool.
From PV Require Import Conv.Model Conv.Proofs Conv.Decl Conv.DeclProofs Conv.Bound Conv.BoundProofs.
Import ListNotations.
Open Scope N_scope.

(* For every class table (template length per class, with builtins.type and builtins.tuple unary) and every
   type expression t of the emitted dialect, of any depth: converting t with convert.py
   (pytd_cls_to_instance_var: a Union becomes several bindings, a generic becomes an instance whose parameters
   hold one binding per union member, tuples, callables, type[...]), storing it under the importing name
   (vm._process_annotations) and writing the resulting variable back
   with output.py (pytd_for_types / value_to_pytd_type / JoinTypes) gives t again, up to "the same type"
   ([nf]: all-Any containers are the bare class, type[Union[..]] distributes, `x = T` reads as `x: type[T]`),
   with the members of every union in the original order. *)
Theorem conv_out_id : forall (arity : cid -> nat) (t : ty),
  arity type_id = 1%nat -> arity tuple_id = 1%nat ->
  wf_top arity t = true ->
  nf (def_ty (downstream arity t)) = nf t.
Proof. intros arity t H1 H2. exact (conv_out_id_lemma arity H1 H2 t). Qed.
Print Assumptions conv_out_id.

(* the same, up to pytd's structural equality with set-equality on unions (after canonical ordering) *)
Theorem conv_out_canon : forall (arity : cid -> nat) (t : ty),
  arity type_id = 1%nat -> arity tuple_id = 1%nat ->
  wf_top arity t = true ->
  canon (def_ty (downstream arity t)) = canon t.
Proof. intros arity t H1 H2. exact (conv_out_canon_lemma arity t H1 H2). Qed.
Print Assumptions conv_out_canon.

(* an upstream alias `x = T` is seen downstream as the class-valued attribute type[T] *)
Theorem alias_out_id : forall (arity : cid -> nat) (t : ty),
  arity type_id = 1%nat -> arity tuple_id = 1%nat ->
  wf arity t = true -> is_any t = false -> nfree t = true ->
  nf (def_ty (out_top arity (store_name (conv_alias t)))) = nf (TGeneric type_id [t]).
Proof. intros arity t H1 H2. exact (alias_out_id_lemma arity H1 H2 t). Qed.
Print Assumptions alias_out_id.

(* The statement over everything pytype really emits ([wf_full]: bare `type` and `type[Any]` included) is
   REFUTED by the faithful model: `x: type` upstream is read as Any downstream
   (convert._pytd_generic_type_to_instance_value: the instance of type[Any] is constant_to_value(Any) =
   Unsolvable).  Replayed on the real code by harness/props/c06.py (known finding). *)
Theorem conv_out_id_full_refuted : exists t,
  wf_full_top builtin_arity t = true /\
  canon (def_ty (downstream builtin_arity t)) <> canon t.
Proof. exists (TClass type_id). split; [reflexivity|]. vm_compute. discriminate. Qed.
Print Assumptions conv_out_id_full_refuted.

(* Both transports hand B a type from which B's analysis re-derives the type A's analysis emitted.
   Premises: C05 (print then parse stays in the dialect, up to member order), C12 (decode . encode = id),
   C04 (canonical ordering permutes union members), and that name resolution leaves a type expression whose
   classes are already identified unchanged (checked end to end by the three-transport oracle). *)
Theorem stub_handoff_text :
  forall (arity : cid -> nat) (text : Type) (print : ty -> text) (parse : text -> option ty) (resolve : ty -> ty),
  arity type_id = 1%nat -> arity tuple_id = 1%nat ->
  (* C05 *) (forall t, wf_top arity t = true ->
             exists a, parse (print t) = Some a /\ wf_top arity a = true /\ canon a = canon t) ->
  (* resolution *) preserves arity resolve ->
  forall t, wf_top arity t = true ->
  exists a, text_transport text print parse resolve t = Some a /\
            canon (def_ty (downstream arity a)) = canon t.
Proof.
  intros arity text print parse resolve H1 H2 HC05 Hres t Hwf.
  destruct (HC05 t Hwf) as (a & Hp & Hwa & Hca).
  exists (resolve a). unfold text_transport. rewrite Hp. split; [reflexivity|].
  apply (derived_canon arity resolve a t H1 H2 Hres Hwa Hca).
Qed.
Print Assumptions stub_handoff_text.

Theorem stub_handoff_pickle :
  forall (arity : cid -> nat) (text bytes : Type) (print : ty -> text) (parse : text -> option ty)
         (encode : ty -> bytes) (decode : bytes -> option ty) (prep reorder post : ty -> ty),
  arity type_id = 1%nat -> arity tuple_id = 1%nat ->
  (* C05 *) (forall t, wf_top arity t = true ->
             exists a, parse (print t) = Some a /\ wf_top arity a = true /\ canon a = canon t) ->
  (* C12 *) (forall a, decode (encode a) = Some a) ->
  (* C04 *) preserves arity reorder ->
  (* resolution *) preserves arity prep -> preserves arity post ->
  forall t, wf_top arity t = true ->
  exists b, pickle_transport text bytes print parse encode decode prep reorder post t = Some b /\
            canon (def_ty (downstream arity b)) = canon t.
Proof.
  intros arity text bytes print parse encode decode prep reorder post H1 H2 HC05 HC12 HC04 Hprep Hpost t Hwf.
  destruct (HC05 t Hwf) as (a & Hp & Hwa & Hca).
  exists (post (reorder (prep a))). unfold pickle_transport. rewrite Hp, HC12. split; [reflexivity|].
  apply (derived_canon arity (fun x => post (reorder (prep x))) a t H1 H2); auto using preserves_compose.
Qed.
Print Assumptions stub_handoff_pickle.

(* "identically whether B is given A's stub as .pyi text or as a pickled AST" *)
Theorem transports_agree :
  forall (arity : cid -> nat) (text bytes : Type) (print : ty -> text) (parse : text -> option ty)
         (encode : ty -> bytes) (decode : bytes -> option ty) (resolve prep reorder post : ty -> ty),
  arity type_id = 1%nat -> arity tuple_id = 1%nat ->
  (* C05 *) (forall t, wf_top arity t = true ->
             exists a, parse (print t) = Some a /\ wf_top arity a = true /\ canon a = canon t) ->
  (* C12 *) (forall a, decode (encode a) = Some a) ->
  (* C04 *) preserves arity reorder ->
  (* resolution *) preserves arity resolve -> preserves arity prep -> preserves arity post ->
  forall t, wf_top arity t = true ->
  exists a b, text_transport text print parse resolve t = Some a /\
              pickle_transport text bytes print parse encode decode prep reorder post t = Some b /\
              canon a = canon b /\
              canon (def_ty (downstream arity a)) = canon (def_ty (downstream arity b)).
Proof.
  intros arity text bytes print parse encode decode resolve prep reorder post H1 H2 HC05 HC12 HC04 Hres Hprep Hpost t Hwf.
  destruct (HC05 t Hwf) as (a & Hp & Hwa & Hca).
  destruct (derived_canon arity resolve a t H1 H2 Hres Hwa Hca) as [Ha Hda].
  destruct (derived_canon arity (fun x => post (reorder (prep x))) a t H1 H2) as [Hb Hdb]; auto using preserves_compose.
  exists (resolve a), (post (reorder (prep a))).
  unfold text_transport, pickle_transport. rewrite Hp, HC12. repeat split; congruence.
Qed.
Print Assumptions transports_agree.

(* non-vacuity *)

(* the builtin class table meets the hypotheses on the class table *)
Example builtin_table_ok : builtin_arity type_id = 1%nat /\ builtin_arity tuple_id = 1%nat.
Proof. split; reflexivity. Qed.

(* dict[str, list[Union[int, C, None]]]  |  tuple[type[Union[C, D]], Callable[[list[nothing]], Optional[set]]]
   | Callable[..., tuple[int, ...]]:  in the dialect, converted to 3 bindings, and printed back *)
Definition ex_big : ty :=
  TUnion [ TGeneric 7 [TClass 11; TGeneric 6 [TUnion [TClass 10; TClass 32; TClass 2]]];
           TTuple [TGeneric 1 [TUnion [TClass 32; TClass 33]];
                   TCallable [TGeneric 6 [TNothing]] (TUnion [TClass 8; TClass 2])];
           TGeneric 4 [TAny; TGeneric 3 [TClass 10]] ].
Example ex_big_wf : wf_top builtin_arity ex_big = true /\ length (conv_var builtin_arity ex_big) = 3%nat.
Proof. vm_compute. split; reflexivity. Qed.
Example ex_big_roundtrip :
  def_ty (downstream builtin_arity ex_big) =
  TUnion [ TGeneric 7 [TClass 11; TGeneric 6 [TUnion [TClass 10; TClass 32; TClass 2]]];
           TTuple [TUnion [TGeneric 1 [TClass 32]; TGeneric 1 [TClass 33]];
                   TCallable [TGeneric 6 [TNothing]] (TUnion [TGeneric 8 [TAny]; TClass 2])];
           TGeneric 4 [TAny; TGeneric 3 [TClass 10]] ].
Proof. vm_compute. reflexivity. Qed.

(* the quirks the model mirrors *)
Example ex_bare_type_is_any : downstream builtin_arity (TClass type_id) = DConst TAny.
Proof. reflexivity. Qed.
Example ex_type_in_callable_kept :   (* Callable[[type], int] keeps `type`: printed from the class's formal parameter *)
  downstream builtin_arity (TCallable [TClass type_id] (TClass 10)) =
  DConst (TCallable [TGeneric type_id [TAny]] (TClass 10)).
Proof. reflexivity. Qed.
Example ex_optional_any :            (* a module-level variable with an Unsolvable binding is Any *)
  downstream builtin_arity (TUnion [TAny; TClass none_id]) = DConst TAny.
Proof. reflexivity. Qed.
Example ex_alias :                   (* x: type[list[int]] comes back as the alias x = list[int] *)
  downstream builtin_arity (TGeneric type_id [TGeneric 6 [TClass 10]]) =
  DAlias (TGeneric 6 [TClass 10]).
Proof. reflexivity. Qed.
Example ex_two_annotations_not_constant :   (* two class-valued bindings: [invalid-annotation], the name becomes Any *)
  downstream builtin_arity (TUnion [TGeneric type_id [TGeneric 6 [TClass 10]]; TGeneric type_id [TGeneric 8 [TClass 11]]]) =
  DConst TAny.
Proof. reflexivity. Qed.
Example ex_union_any_type_in_callable :     (* Callable[[], Union[Any, type]]: both instances are the Unsolvable singleton *)
  downstream builtin_arity (TCallable [] (TUnion [TAny; TClass type_id])) =
  DConst (TCallable [] (TUnion [TAny; TGeneric type_id [TAny]])).
Proof. reflexivity. Qed.
Example ex_join_optional_any : join [TAny; TClass none_id; TClass 10] = TUnion [TAny; TClass none_id].
Proof. reflexivity. Qed.

(* the premises of the hand-off theorems are satisfiable: identity printer/parser/codec/resolution *)
Example handoff_premises_sat :
  (forall t, wf_top builtin_arity t = true ->
     exists a, (fun x : ty => Some x) ((fun x : ty => x) t) = Some a /\ wf_top builtin_arity a = true /\ canon a = canon t) /\
  preserves builtin_arity (fun x => x) /\
  pickle_transport ty ty (fun x => x) Some (fun x => x) Some (fun x => x) (fun x => x) (fun x => x) ex_big = Some ex_big.
Proof.
  split; [|split].
  - intros t H. exists t. auto.
  - intros a H. auto.
  - reflexivity.
Qed.



(* BOUNDED AND CONSTRAINED TYPEVARS (model: Conv/Bound.v) *)

(* The theorems above take the class table to be a template LENGTH per class: a bare reference to a generic class is
   instantiated with Any per type parameter, which is what convert.py does exactly when no TypeVar of the template
   has a bound or constraints.  Here the table gives, per class, the UPPER VALUE of every TypeVar of its template
   (pytd.TypeParameter.upper_value: Union[constraints] | bound | Any), and the conversion of a bare class reference
   is convert.py's  GenericType(cls, tuple(t.type_param.upper_value for t in cls.template)).

   For every class table (type and tuple unary and unbounded; upper values `clean`), every fuel and every `clean`
   type expression t (bare references to classes with bounded / constrained TypeVars occur where convert.py creates
   instances: at the top, as type arguments, tuple elements, union members — not below type[..] / Callable[..]),
   B's stub gives the imported name the type t with every such bare reference replaced by the class parameterised
   by each parameter's upper value, recursively ([expand_top]), provided that type is in the emitted dialect. *)
Theorem bounded_conv_out_id : forall (upper : cid -> list ty) (fuel : nat) (t : ty),
  upper type_id = [TAny] -> upper tuple_id = [TAny] ->
  (forall c, forallb (clean_top upper) (upper c) = true) ->
  clean_top upper t = true ->
  wf_top (arity_of upper) (expand_top upper fuel t) = true ->
  nf (def_ty (downstream_b upper fuel t)) = nf (expand_top upper fuel t).
Proof. intros upper fuel t H1 H2 H3. exact (bounded_conv_out_id_lemma upper H1 H2 H3 fuel t). Qed.
Print Assumptions bounded_conv_out_id.

(* the same up to the order of union members ([canon]) for a finite table, whose hypotheses are decidable
   ([table_ok]; the harness evaluates it per table) *)
Theorem bounded_conv_out_id_table : forall (base : cid -> nat) (l : list (cid * list ty)) (fuel : nat) (t : ty),
  table_ok base l = true ->
  clean_top (table_of base l) t = true ->
  wf_top (arity_of (table_of base l)) (expand_top (table_of base l) fuel t) = true ->
  canon (def_ty (downstream_b (table_of base l) fuel t)) = canon (expand_top (table_of base l) fuel t).
Proof.
  intros base l fuel t Hok H2 H3. destruct (table_ok_sound base l Hok) as (T1 & T2 & T3).
  unfold canon. rewrite (bounded_conv_out_id_lemma _ T1 T2 T3 fuel t H2 H3). reflexivity.
Qed.
Print Assumptions bounded_conv_out_id_table.

(* "a bare reference to a generic class reads back as the class parameterised by each parameter's upper value":
   `x: Box` upstream, T bound to Base (or constrained to int, str), is `y: Box[Base]` (`Box[Union[int, str]]`)
   downstream — for upper values that mention no further class with bounded TypeVars *)
Theorem bare_generic_reads_back : forall (upper : cid -> list ty) (fuel : nat) (c : cid),
  upper type_id = [TAny] -> upper tuple_id = [TAny] ->
  (forall c, forallb (clean_top upper) (upper c) = true) ->
  unbounded upper c = false ->
  forallb (unb upper) (upper c) = true ->
  wf_top (arity_of upper) (TGeneric c (upper c)) = true ->
  nf (def_ty (downstream_b upper (S fuel) (TClass c))) = nf (TGeneric c (upper c)).
Proof.
  intros upper fuel c H1 H2 H3 Hb Hu Hwf.
  assert (expand_top upper (S fuel) (TClass c) = TGeneric c (upper c)) as E.
  { unfold expand_top, expand. cbn [expand_var expand_g ebare_b]. rewrite Hb. f_equal.
    apply map_fixed. apply forallb_Forall in Hu. eapply Forall_impl; [|exact Hu]. intros p Hp. apply (expand_unb upper fuel p Hp). }
  rewrite <- E. apply (bounded_conv_out_id_lemma upper H1 H2 H3); [reflexivity|]. rewrite E. exact Hwf.
Qed.
Print Assumptions bare_generic_reads_back.

(* conservativity: on a table without bounds or constraints the bounded model IS Conv/Model.v's conversion, so
   conv_out_id .. transports_agree above are the special case *)
Theorem unbounded_table_is_model : forall (upper : cid -> list ty) (fuel : nat) (t : ty),
  upper type_id = [TAny] ->
  (forall c, unbounded upper c = true) ->
  downstream_b upper fuel t = downstream (arity_of upper) t.
Proof.
  intros upper fuel t Ht Hall. pose proof (all_unb upper Hall) as Hunb.
  rewrite (downstream_b_expand upper Ht).
  - rewrite (proj2 (expand_unb upper fuel t (Hunb t))). reflexivity.
  - intros c. apply forallb_Forall, Forall_forall. intros u _. apply unb_clean, Hunb.
  - apply unb_clean, Hunb.
Qed.
Print Assumptions unbounded_table_is_model.

(* the short cut taken by Bound.bare_b for a template without bounds: converting GenericType(c, (Any, ..)) gives
   Model.bare_inst, whatever the conversion of bare references below it *)
Theorem generic_any_is_bare_inst : forall (arity : cid -> nat) (bare : cid -> aval) (c : cid),
  arity type_id = 1%nat -> arity c <> 0%nat ->
  inst_g arity bare (TGeneric c (repeat TAny (arity c))) = bare_inst arity c.
Proof. intros arity bare c. exact (generic_any_is_bare_inst_lemma arity bare c). Qed.
Print Assumptions generic_any_is_bare_inst.

(* pytd.TypeParameter: the upper value; constraints and bound survive the pyi text `T = TypeVar("T", c1, c2)` /
   `TypeVar("T", bound=b)` (the type expressions inside are C05's) *)
Theorem typevar_upper_value : forall d : tvdecl,
  (tv_constraints d <> [] /\ upper_value d = TUnion (tv_constraints d)) \/
  (tv_constraints d = [] /\ exists b, tv_bound d = Some b /\ upper_value d = b) \/
  (tv_constraints d = [] /\ tv_bound d = None /\ upper_value d = TAny).
Proof.
  intros [cs b]. unfold upper_value. simpl. destruct cs.
  - destruct b; [right; left; eauto | right; right; auto].
  - left. split; [discriminate | reflexivity].
Qed.
Print Assumptions typevar_upper_value.

Theorem typevar_print_parse : forall d : tvdecl,
  parse_tv (print_tv d) = d /\ upper_value (parse_tv (print_tv d)) = upper_value d.
Proof. intros [cs b]. split; reflexivity. Qed.
Print Assumptions typevar_print_parse.

(* non-vacuity: class C0; T = TypeVar(bound=C0); S = TypeVar(int, str); R = TypeVar(bound=C4);
        Q = TypeVar(bound=list[C0]);  C4(Generic[T])  C5(Generic[S, U])  C6(Generic[R])  C7(Generic[Q, T]) *)
Definition ex_bounded_tbl : list (cid * list ty) :=
  [ (36, [TClass 32]); (37, [TUnion [TClass 10; TClass 11]; TAny]); (38, [TClass 36]);
    (39, [TGeneric 6 [TClass 32]; TClass 32]) ].
Definition ex_upper := table_of builtin_arity ex_bounded_tbl.
Example ex_bounded_tbl_ok : table_ok builtin_arity ex_bounded_tbl = true.
Proof. reflexivity. Qed.
(* dict[str, Union[C4, None]] | tuple[C6, C5] | C7 *)
Definition ex_bounded_ty : ty :=
  TUnion [TGeneric 7 [TClass 11; TUnion [TClass 36; TClass 2]]; TTuple [TClass 38; TClass 37]; TClass 39].
Example ex_bounded_hyps :
  clean_top ex_upper ex_bounded_ty = true /\
  wf_top (arity_of ex_upper) (expand_top ex_upper 2 ex_bounded_ty) = true /\
  expand_top ex_upper 2 ex_bounded_ty =
    TUnion [TGeneric 7 [TClass 11; TUnion [TGeneric 36 [TClass 32]; TClass 2]];
            TTuple [TGeneric 38 [TGeneric 36 [TClass 32]]; TGeneric 37 [TUnion [TClass 10; TClass 11]; TAny]];
            TGeneric 39 [TGeneric 6 [TClass 32]; TClass 32]] /\
  def_ty (downstream_b ex_upper 2 ex_bounded_ty) = expand_top ex_upper 2 ex_bounded_ty.
Proof. vm_compute. repeat split; reflexivity. Qed.
Example ex_bare_box :                  (* x: C4  ->  y: C4[C0];   x: C5 -> y: C5[Union[int, str], Any] *)
  downstream_b ex_upper 1 (TClass 36) = DConst (TGeneric 36 [TClass 32]) /\
  downstream_b ex_upper 1 (TClass 37) = DConst (TGeneric 37 [TUnion [TClass 10; TClass 11]; TAny]) /\
  unbounded ex_upper 36 = false /\ forallb (unb ex_upper) (ex_upper 36) = true /\
  wf_top (arity_of ex_upper) (TGeneric 36 (ex_upper 36)) = true.
Proof. vm_compute. repeat split; reflexivity. Qed.
Example ex_bounded_class_level :       (* class-level positions (outside `clean`; correspondence only) *)
  downstream_b ex_upper 1 (TCallable [TClass 36] (TClass 10)) = DConst (TCallable [TGeneric 36 [TClass 32]] (TClass 10)) /\
  downstream_b ex_upper 1 (TGeneric type_id [TClass 36]) = DConst (TGeneric type_id [TGeneric 36 [TAny]]).
Proof. vm_compute. split; reflexivity. Qed.
Example ex_fuel_exhausted_excluded :   (* C6 -> C4 -> C0 needs two hops: with fuel 1 the expansion is not in the dialect *)
  wf_top (arity_of ex_upper) (expand_top ex_upper 1 (TClass 38)) = false /\
  wf_top (arity_of ex_upper) (expand_top ex_upper 2 (TClass 38)) = true.
Proof. vm_compute. split; reflexivity. Qed.

(* With bounds in the table the SYNTACTIC identity of conv_out_id is refuted by the faithful model (B's stub spells
   the upper values out: `x: C4` upstream is `y: C4[C0]` downstream; A's own analysis gives the same type to the
   value, so this is not a defect) — and the seeded defect "an omitted type parameter implies Any"
   ([downstream_anyfill], Conv/Model.v's conversion on the same table) is told apart by the theorem's conclusion. *)
Theorem conv_out_id_bounded_refuted : exists (l : list (cid * list ty)) (t : ty),
  table_ok builtin_arity l = true /\ clean_top (table_of builtin_arity l) t = true /\
  wf_top (arity_of (table_of builtin_arity l)) t = true /\
  canon (def_ty (downstream_b (table_of builtin_arity l) 1 t)) <> canon t /\
  canon (def_ty (downstream_anyfill (table_of builtin_arity l) t)) <>
    canon (def_ty (downstream_b (table_of builtin_arity l) 1 t)).
Proof.
  exists [(36, [TClass 32])], (TClass 36). vm_compute. repeat split; try reflexivity; discriminate.
Qed.
Print Assumptions conv_out_id_bounded_refuted.

(* DECLARATIONS (model: Conv/Decl.v) *)

(* Functions' results.  [acc a f]: the matcher accepts the variable conv_var a for the formal type f (C02's; the
   harness measures it on the real code for every pair it uses and monitors acc t t = true).
   One signature, ANY parameter kinds (positional-only, defaults, *args, **kwargs, keyword-only) and ANY arguments
   (unions and Any included): when _map_args / _fill_in_missing_params / the matcher accept the call, B's stub gives
   y = A.f(...) the declared return type and no error is reported. *)
Theorem call_single_sig : forall (arity : cid -> nat) (acc : ty -> ty -> bool) (s : sig) (c : call),
  arity type_id = 1%nat -> arity tuple_id = 1%nat ->
  sig_accepts acc s c = true -> wf_top arity (s_ret s) = true ->
  snd (call_emitted arity acc [s] c) = true /\
  nf (def_ty (fst (call_emitted arity acc [s] c))) = nf (s_ret s).
Proof.
  intros arity acc s c H1 H2 Hacc. apply (call_first_accepted arity acc H1 H2 [s] c s []); [simpl; rewrite Hacc|]; reflexivity.
Qed.
Print Assumptions call_single_sig.

(* ... and when they do not, an error is reported and y is Any *)
Theorem call_rejected : forall (arity : cid -> nat) (acc : ty -> ty -> bool) (s : sig) (c : call),
  sig_accepts acc s c = false -> call_emitted arity acc [s] c = (DConst TAny, false).
Proof. intros arity acc s c H. apply call_none_accepted. simpl. rewrite H. reflexivity. Qed.
Print Assumptions call_rejected.

(* Overload selection (PyTDFunction._match_args_sequentially / _MatchedSignatures.add, one view): when no argument
   variable holds Any / an empty value, the FIRST signature in stub order that accepts the call supplies the
   result type; if none accepts, an error is reported and y is Any. *)
Theorem overload_first_match : forall (arity : cid -> nat) (acc : ty -> ty -> bool) (f : list sig) (c : call),
  arity type_id = 1%nat -> arity tuple_id = 1%nat ->
  ambiguous_call arity c = false ->
  match first_accepting acc c f with
  | Some s => wf_top arity (s_ret s) = true ->
              snd (call_emitted arity acc f c) = true /\
              nf (def_ty (fst (call_emitted arity acc f c))) = nf (s_ret s)
  | None => call_emitted arity acc f c = (DConst TAny, false)
  end.
Proof.
  intros arity acc f c H1 H2 Hamb. pose proof (filter_first acc c f) as H.
  destruct (first_accepting acc c f) as [s|]; [|exact (call_none_accepted arity acc f c H)].
  destruct H as [rest H]. apply (call_first_accepted arity acc H1 H2 f c s rest H). rewrite Hamb. apply andb_false_r.
Qed.
Print Assumptions overload_first_match.

(* hence: signature k called with its own parameter types, accepted by itself and by no earlier signature, gives
   its own declared return type *)
Theorem overload_own_signature : forall (arity : cid -> nat) (acc : ty -> ty -> bool) (pre post : list sig) (s : sig),
  arity type_id = 1%nat -> arity tuple_id = 1%nat ->
  ambiguous_call arity (own_call s) = false ->
  forallb (fun s0 => negb (sig_accepts acc s0 (own_call s))) pre = true ->
  sig_accepts acc s (own_call s) = true -> wf_top arity (s_ret s) = true ->
  snd (call_emitted arity acc (pre ++ s :: post) (own_call s)) = true /\
  nf (def_ty (fst (call_emitted arity acc (pre ++ s :: post) (own_call s)))) = nf (s_ret s).
Proof.
  intros arity acc pre post s H1 H2 Hamb Hpre Hs Hwf.
  pose proof (overload_first_match arity acc (pre ++ s :: post) (own_call s) H1 H2 Hamb) as H.
  rewrite (first_accepting_own acc (own_call s) pre s post Hpre Hs) in H. exact (H Hwf).
Qed.
Print Assumptions overload_own_signature.

(* The statement without "not ambiguous" is REFUTED by the faithful model:  f(a: int) -> int / f(a: Any) -> bytes,
   the second signature called with its own parameter type Any: every signature matches an Unsolvable argument
   (_can_match_multiple), the return types are joined and the union is replaced by Any.  Reproduced on the real
   code (known finding overload-called-with-Any-argument-is-Any). *)
Definition ex_sig_int : sig := mkSig [mkParam 10 PosOrKw false (TClass 10)] None None (TClass 10).
Definition ex_sig_any : sig := mkSig [mkParam 10 PosOrKw false TAny] None None (TClass 14).
Theorem overload_own_signature_full_refuted : exists (acc : ty -> ty -> bool) (pre : list sig) (s : sig),
  sig_accepts acc s (own_call s) = true /\ wf_top builtin_arity (s_ret s) = true /\
  snd (call_emitted builtin_arity acc (pre ++ [s]) (own_call s)) = true /\
  canon (def_ty (fst (call_emitted builtin_arity acc (pre ++ [s]) (own_call s)))) <> canon (s_ret s).
Proof.
  (* the matcher's real answers for the two pairs involved: an Unsolvable argument is accepted for `int` and for Any *)
  exists (fun a f => is_any a), [ex_sig_int], ex_sig_any.
  split; [reflexivity|split; [reflexivity|split; [reflexivity|]]]. vm_compute. discriminate.
Qed.
Print Assumptions overload_own_signature_full_refuted.

(* Class re-export (`from A import C`, `C2 = A.C`, `from A import C as D`): B's stub shows the class-valued
   attribute type[C]. *)
Theorem class_reexport : forall (arity : cid -> nat) (c : cid),
  arity type_id = 1%nat -> arity tuple_id = 1%nat -> c <> 0 -> c <> type_id ->
  nf (def_ty (reexport_class arity c)) = TGeneric type_id [TClass c].
Proof.
  intros arity c H1 H2 H0 Ht. unfold reexport_class.
  assert (wf arity (TClass c) = true) as Hwf.
  { simpl. apply andb_true_iff. split; apply negb_true_iff; apply N.eqb_neq; assumption. }
  rewrite (alias_out_id_lemma arity H1 H2 (TClass c) Hwf eq_refl eq_refl). reflexivity.
Qed.
Print Assumptions class_reexport.

(* Attributes of A's classes, read on an instance  x: C[ps]  (any chain of base classes, any parameters ps):
   a GROUND attribute or property that the lookup finds (no parametric constant of that name further up the chain,
   see the known finding generic-base-attribute-overridden-in-subclass) is emitted with its declared type. *)
Theorem attr_ground_read : forall (arity : cid -> nat) (fixed : bool) (fuel : nat) (tbl : ctable) (c : cid) (ps : list ty) (name : N)
                                  (k : cdecl) (kenv : list (list aval)) (t : ty),
  arity type_id = 1%nat -> arity tuple_id = 1%nat ->
  find_preload name (chain arity fuel tbl c (inst_env arity ps)) = None ->
  (find_first name (chain arity fuel tbl c (inst_env arity ps)) = Some (k, kenv, MConst (DGround t)) \/
   exists s, find_first name (chain arity fuel tbl c (inst_env arity ps)) = Some (k, kenv, MMethod KProperty [(s, DGround t)])) ->
  wf_top arity t = true ->
  snd (read_emitted arity fixed fuel tbl c ps name) = true /\
  nf (def_ty (fst (read_emitted arity fixed fuel tbl c ps name))) = nf t.
Proof.
  intros arity fixed fuel tbl c ps name k kenv t H1 H2 Hpre Hfirst Hwf.
  unfold read_emitted, attr_read. rewrite Hpre.
  destruct Hfirst as [-> | [s ->]]; exact (emitted_conv_var arity H1 H2 t Hwf).
Qed.
Print Assumptions attr_ground_read.

(* A type parameter read at the top of an attribute ( x: T  declared in a class of the chain, T the i-th entry of that
   class's template), on a tree WITH fixes/C06-filter-var-full-name (attribute._filter_var resolves the type parameter
   by its full name; model variant fixed = true): for every class table whose base-class arguments are type
   parameters of the subclass or plain classes, every chain, every instance parameters ps: the emitted type is the
   declared type under the substitution along the chain.  No hypothesis on TypeVar names is left. *)
Theorem attr_typevar_read : forall (arity : cid -> nat) (fuel : nat) (tbl : ctable) (c : cid) (ps : list ty) (name : N)
                                   (kps : list ty) (i : nat),
  arity type_id = 1%nat -> arity tuple_id = 1%nat ->
  simple_tbl tbl = true ->
  tfind_preload name (tchain fuel tbl c ps) = Some (kps, DParam i) ->
  wf_top arity (subst_ty kps (DParam i)) = true ->
  snd (read_emitted arity true fuel tbl c ps name) = true /\
  nf (def_ty (fst (read_emitted arity true fuel tbl c ps name))) = nf (subst_ty kps (DParam i)).
Proof.
  intros arity fuel tbl c ps name kps i H1 H2 Hs Hpre Hwf. cbn [subst_ty] in *.
  destruct (attr_read_preload arity true _ _ _ _ _ _ _ Hs Hpre) as (top & E & Htop).
  unfold read_emitted. rewrite E, (Htop eq_refl), (read_own_param arity kps i _ Hwf).
  exact (emitted_conv_var arity H1 H2 _ Hwf).
Qed.
Print Assumptions attr_typevar_read.

(* The same read on a tree WITHOUT the fix (variant fixed = false: the SHORT name of T is looked up in the template of
   the instance's own class first): holds only when the short name resolves to the right parameter. *)
Theorem attr_typevar_read_before_fix : forall (arity : cid -> nat) (fuel : nat) (tbl : ctable) (c : cid) (ps : list ty) (name : N)
                                   (k : cdecl) (kenv : list (list aval)) (i : nat) (p : ty),
  arity type_id = 1%nat -> arity tuple_id = 1%nat ->
  find_preload name (chain arity fuel tbl c (inst_env arity ps)) = Some (k, kenv, DParam i) ->
  nth i (short_env (match find_class tbl c with Some k0 => k_template k0 | None => [] end) (inst_env arity ps) k kenv) []
    = conv_var arity p ->
  (i < length (short_env (match find_class tbl c with Some k0 => k_template k0 | None => [] end) (inst_env arity ps) k kenv))%nat ->
  conv_var arity p <> [] -> existsb is_tpi (conv_var arity p) = false ->
  wf_top arity p = true ->
  snd (read_emitted arity false fuel tbl c ps name) = true /\
  nf (def_ty (fst (read_emitted arity false fuel tbl c ps name))) = nf p.
Proof.
  intros arity fuel tbl c ps name k kenv i p H1 H2 Hpre Hnth Hlt Hne Htpi Hwf.
  unfold read_emitted, attr_read. rewrite Hpre. cbn [top_env]. rewrite (read_param arity _ _ i _ Hnth Hlt Hne).
  exact (emitted_conv_var arity H1 H2 p Hwf).
Qed.
Print Assumptions attr_typevar_read_before_fix.

(* Before the fix the statement without the short-name hypothesis is REFUTED by the faithful model:
     class C4(Generic[T, S]): m0: T        class C5(C4[int, T], Generic[T]): ...        g: C5[bytes]
   g.m0 is declared int (C4's T := int) and read as bytes: attribute._filter_var resolves the type parameter by its
   short name in the template of the INSTANCE's class, where T is C5's own parameter.  Reproduced on the real code
   of an unfixed tree (known finding typevar-name-collision-base-attribute); the harness probes which variant the
   tree implements. *)
Definition ex_arity (c : cid) : nat := match c with 36%N => 2%nat | 37%N => 1%nat | _ => builtin_arity c end.
Definition ex_tbl : ctable :=
  [ mkC 36 [1; 2] None [(100, MConst (DParam 0))];
    mkC 37 [1] (Some (36, [DGround (TClass 10); DParam 0])) [] ].
Theorem attr_typevar_read_before_fix_refuted :
  simple_tbl ex_tbl = true /\
  tfind_preload 100 (tchain 8 ex_tbl 37 [TClass 14]) = Some ([TClass 10; TClass 14], DParam 0) /\
  declared_attr 8 ex_tbl 37 [TClass 14] 100 = Some (TClass 10) /\
  snd (read_emitted ex_arity false 8 ex_tbl 37 [TClass 14] 100) = true /\
  canon (def_ty (fst (read_emitted ex_arity false 8 ex_tbl 37 [TClass 14] 100))) = TClass 14.
Proof. vm_compute. auto 6. Qed.
Print Assumptions attr_typevar_read_before_fix_refuted.

(* ... and after the fix the same witness yields the declared int *)
Example ex_collision_fixed :
  read_emitted ex_arity true 8 ex_tbl 37 [TClass 14] 100 = (DConst (TClass 10), true).
Proof. reflexivity. Qed.

(* Method calls.  A method (any kind but a property) declared in a class of the chain -- the instance's own class or
   a generic base, the base's arguments substituted along the chain -- with ONE signature that accepts the call, called
   on an instance whose values for the declaring class's parameters are single bindings (one view; with several
   bindings the return type is converted once per view and only Optimize re-merges the results): B's stub gives
   y = x.m(args) the declared return type under the instance's substitution.  The return type may mention the type
   parameters anywhere, also directly below a Union ([dwf]: what the pyi parser produces).  Both variants. *)
Theorem method_call_result : forall (arity : cid -> nat) (acc : ty -> ty -> bool) (fuel : nat) (tbl : ctable) (c : cid)
                                    (ps : list ty) (name : N) (kps : list ty) (mk : mkind) (s : sig) (dret : dty) (cl : call),
  arity type_id = 1%nat -> arity tuple_id = 1%nat ->
  simple_tbl tbl = true ->
  tfind_preload name (tchain fuel tbl c ps) = None ->
  tfind_first name (tchain fuel tbl c ps) = Some (kps, MMethod mk [(s, dret)]) ->
  mk <> KProperty ->
  forallb single_ty kps = true -> dwf arity dret = true ->
  sig_accepts acc s cl = true ->
  wf_top arity (subst_ty kps dret) = true ->
  snd (mcall_emitted arity acc fuel tbl c ps name cl) = true /\
  nf (def_ty (fst (mcall_emitted arity acc fuel tbl c ps name cl))) = nf (subst_ty kps dret).
Proof.
  intros arity acc fuel tbl c ps name kps mk s dret cl H1 H2 Hs Hpre Hfirst Hmk Hsingle Hdwf Hacc Hwf.
  unfold mcall_emitted. rewrite (attr_read_first arity false _ _ _ _ _ _ _ Hs Hpre Hfirst).
  destruct mk; try congruence; rewrite (method_call_single arity acc kps s dret cl Hacc Hsingle Hdwf);
    exact (emitted_conv_var arity H1 H2 _ Hwf).
Qed.
Print Assumptions method_call_result.

(* the same for a property whose return type mentions the type parameters *)
Theorem property_typevar_read : forall (arity : cid -> nat) (fixed : bool) (fuel : nat) (tbl : ctable) (c : cid)
                                       (ps : list ty) (name : N) (kps : list ty) (s : sig) (dret : dty),
  arity type_id = 1%nat -> arity tuple_id = 1%nat ->
  simple_tbl tbl = true ->
  tfind_preload name (tchain fuel tbl c ps) = None ->
  tfind_first name (tchain fuel tbl c ps) = Some (kps, MMethod KProperty [(s, dret)]) ->
  forallb single_ty kps = true -> dwf arity dret = true ->
  wf_top arity (subst_ty kps dret) = true ->
  snd (read_emitted arity fixed fuel tbl c ps name) = true /\
  nf (def_ty (fst (read_emitted arity fixed fuel tbl c ps name))) = nf (subst_ty kps dret).
Proof.
  intros arity fixed fuel tbl c ps name kps s dret H1 H2 Hs Hpre Hfirst Hsingle Hdwf Hwf.
  unfold read_emitted. rewrite (attr_read_first arity fixed _ _ _ _ _ _ _ Hs Hpre Hfirst).
  rewrite (dvar_views_subst arity kps dret Hsingle Hdwf). exact (emitted_conv_var arity H1 H2 _ Hwf).
Qed.
Print Assumptions property_typevar_read.

(* Attribute types with type parameters BELOW a container or tuple (list[T], dict[str, list[T]], tuple[T, S],
   list[Union[set[T], None]], ...; no parameter directly below a Union on this path), any parameter values (unions
   included, only not empty), declared anywhere in the chain: the TypeVar instances the conversion leaves below the
   container are resolved by output.py (full name; JoinTypes is idempotent), so under BOTH variants of _filter_var the
   emitted type is the declared type under the instance's substitution. *)
Theorem attr_nested_typevar_read : forall (arity : cid -> nat) (fixed : bool) (fuel : nat) (tbl : ctable) (c : cid)
                                          (ps : list ty) (name : N) (kps : list ty) (d : dty),
  arity type_id = 1%nat -> arity tuple_id = 1%nat ->
  simple_tbl tbl = true ->
  tfind_preload name (tchain fuel tbl c ps) = Some (kps, d) ->
  container_like d = true -> dwf arity d = true -> no_param_union d = true ->
  forallb (nonempty_ty arity) kps = true ->
  wf_top arity (subst_ty kps d) = true ->
  snd (read_emitted arity fixed fuel tbl c ps name) = true /\
  nf (def_ty (fst (read_emitted arity fixed fuel tbl c ps name))) = nf (subst_ty kps d).
Proof.
  intros arity fixed fuel tbl c ps name kps d H1 H2 Hs Hpre Hc Hdwf Hnp Hne Hwf.
  unfold read_emitted. destruct (attr_read_preload arity fixed _ _ _ _ _ _ _ Hs Hpre) as (top & -> & _).
  rewrite (read_container arity _ _ d Hc), (out_dinst_tpi arity _ d (nonempty_env arity _ Hne) Hc Hdwf Hnp).
  pose proof (emitted_conv_var arity H1 H2 _ Hwf) as Hg.
  rewrite (conv_var_container_subst arity kps d Hc Hdwf), (emitted_container arity _ d Hc) in Hg. exact Hg.
Qed.
Print Assumptions attr_nested_typevar_read.

(* the conversion with a substitution IS the conversion of the substituted type (the simulation the theorems on
   methods, properties and nested attributes above rest on), for every declared type the pyi parser produces *)
Theorem dvar_is_conv_of_subst : forall (arity : cid -> nat) (ps : list ty) (d : dty),
  dwf arity d = true ->
  dvar arity (inst_env arity ps) d = conv_var arity (subst_ty ps d).
Proof. intros arity ps d. exact (dvar_subst arity ps d). Qed.
Print Assumptions dvar_is_conv_of_subst.

(* non-vacuity of the declaration theorems *)

(* def f(a0: int, /, a1: str = ..., *args: int, a2: float, a3: bytes = ..., **kw: str) -> list[int]
   called as f(p_int, a2=p_float) and as f(p_int, p_str, p_int, p_int, a2=.., a3=.., k1=p_str, k0=p_str) *)
Definition ex_sig : sig :=
  mkSig [mkParam 10 PosOnly false (TClass 10); mkParam 11 PosOrKw true (TClass 11);
         mkParam 12 KwOnly false (TClass 12); mkParam 13 KwOnly true (TClass 14)]
        (Some (TClass 10)) (Some (TClass 11)) (TGeneric 6 [TClass 10]).
Definition ex_acc (a f : ty) : bool := match ty_cmp a f with Eq => true | _ => false end.
Example ex_call_defaults :
  map_args ex_sig (mkCall [TClass 10] [(12, TClass 12)]) =
  inr [(TClass 10, AGiven (TClass 10)); (TClass 11, AFilled); (TClass 12, AGiven (TClass 12)); (TClass 14, AFilled)] /\
  call_emitted builtin_arity ex_acc [ex_sig] (mkCall [TClass 10] [(12, TClass 12)]) = (DConst (TGeneric 6 [TClass 10]), true).
Proof. split; reflexivity. Qed.
Example ex_call_star_kwargs :
  map_args ex_sig (mkCall [TClass 10; TClass 11; TClass 10; TClass 10] [(12, TClass 12); (13, TClass 14); (51, TClass 11); (50, TClass 11)]) =
  inr [(TClass 10, AGiven (TClass 10)); (TClass 11, AGiven (TClass 11)); (TClass 12, AGiven (TClass 12)); (TClass 14, AGiven (TClass 14));
       (TClass 10, AGiven (TClass 10)); (TClass 10, AGiven (TClass 10)); (TClass 11, AGiven (TClass 11)); (TClass 11, AGiven (TClass 11))].
Proof. reflexivity. Qed.
Example ex_call_errors :
  map_args ex_sig (mkCall [] [(12, TClass 12)]) = inl MissingParam /\
  map_args (mkSig [mkParam 10 PosOrKw false TAny] None None TAny) (mkCall [TAny; TAny] []) = inl WrongArgCount /\
  map_args (mkSig [mkParam 10 PosOrKw false TAny] None None TAny) (mkCall [TAny] [(10, TAny)]) = inl DuplicateKeyword /\
  map_args (mkSig [mkParam 10 PosOrKw false TAny] None None TAny) (mkCall [TAny] [(50, TAny)]) = inl WrongKeywordArgs /\
  map_args (mkSig [mkParam 10 PosOnly false TAny] None None TAny) (mkCall [TAny] [(10, TAny)]) = inl WrongKeywordArgs.
Proof. repeat split; reflexivity. Qed.
Example ex_own_call_accepted : sig_accepts ex_acc ex_sig (own_call ex_sig) = true.
Proof. reflexivity. Qed.
(* overloads: f(a: int) -> int / f(a: str) -> str / f(a: bytes) -> bytes called with str picks the second *)
Example ex_overload :
  call_emitted builtin_arity ex_acc
    [mkSig [mkParam 10 PosOrKw false (TClass 10)] None None (TClass 10);
     mkSig [mkParam 10 PosOrKw false (TClass 11)] None None (TClass 11);
     mkSig [mkParam 10 PosOrKw false (TClass 14)] None None (TClass 14)] (mkCall [TClass 11] []) = (DConst (TClass 11), true).
Proof. reflexivity. Qed.
(* a ground attribute declared in a generic base class, read on an instance of the subclass *)
Example ex_attr_ground :
  read_emitted ex_arity false 8 [mkC 36 [1] None [(100, MConst (DGround (TGeneric 6 [TClass 11])))]; mkC 37 [] (Some (36, [DGround (TClass 10)])) []]
               37 [] 100 = (DConst (TGeneric 6 [TClass 11]), true).
Proof. reflexivity. Qed.
(* x: T on C4[int, str] itself; list[T] nested (resolved by full name at output time); the view split of a method *)
Example ex_attr_typevar :
  read_emitted ex_arity false 8 ex_tbl 36 [TClass 10; TClass 11] 100 = (DConst (TClass 10), true).
Proof. reflexivity. Qed.
Example ex_attr_nested_typevar :
  read_emitted ex_arity false 8 [mkC 36 [1; 2] None [(100, MConst (DGeneric 6 [DParam 1]))]] 36 [TClass 10; TUnion [TClass 11; TClass 2]] 100
  = (DConst (TGeneric 6 [TUnion [TClass 11; TClass 2]]), true).
Proof. reflexivity. Qed.
Example ex_method_views :   (* def m(self) -> list[T] on C4[Optional[bytes], int]: one result per view, before Optimize *)
  mcall_emitted ex_arity ex_acc 8 [mkC 36 [1; 2] None [(100, MMethod KMethod [(mkSig [] None None TAny, DGeneric 6 [DParam 0])])]]
                36 [TUnion [TClass 14; TClass 2]; TClass 10] 100 (mkCall [] [])
  = (DConst (TUnion [TGeneric 6 [TClass 14]; TGeneric 6 [TClass 2]]), true).
Proof. reflexivity. Qed.
Example ex_reexport : reexport_class builtin_arity 33 = DConst (TGeneric type_id [TClass 33]).
Proof. reflexivity. Qed.

(* the hypotheses of method_call_result / attr_nested_typevar_read on a generic base:
     class C4(Generic[T, S]):  m0: dict[str, list[T]];  def m1(self, a0: int) -> Union[tuple[S, T], None]
     class C5(C4[int, T], Generic[T])          x: C5[list[bytes]]  *)
Definition ex_tbl2 : ctable :=
  [ mkC 36 [1; 2] None
      [(100, MConst (DGeneric 7 [DGround (TClass 11); DGeneric 6 [DParam 0]]));
       (101, MMethod KMethod [(mkSig [mkParam 10 PosOrKw false (TClass 10)] None None TAny,
                               DUnion [DTuple [DParam 1; DParam 0]; DGround (TClass none_id)])])];
    mkC 37 [1] (Some (36, [DGround (TClass 10); DParam 0])) [] ].
Example ex_method_hyps :
  simple_tbl ex_tbl2 = true /\
  tfind_preload 101 (tchain 8 ex_tbl2 37 [TGeneric 6 [TClass 14]]) = None /\
  tfind_first 101 (tchain 8 ex_tbl2 37 [TGeneric 6 [TClass 14]]) =
    Some ([TClass 10; TGeneric 6 [TClass 14]],
          MMethod KMethod [(mkSig [mkParam 10 PosOrKw false (TClass 10)] None None TAny,
                            DUnion [DTuple [DParam 1; DParam 0]; DGround (TClass none_id)])]) /\
  forallb single_ty [TClass 10; TGeneric 6 [TClass 14]] = true /\
  dwf ex_arity (DUnion [DTuple [DParam 1; DParam 0]; DGround (TClass none_id)]) = true /\
  wf_top ex_arity (subst_ty [TClass 10; TGeneric 6 [TClass 14]] (DUnion [DTuple [DParam 1; DParam 0]; DGround (TClass none_id)])) = true /\
  mcall_emitted ex_arity ex_acc 8 ex_tbl2 37 [TGeneric 6 [TClass 14]] 101 (mkCall [TClass 10] []) =
    (DConst (TUnion [TTuple [TGeneric 6 [TClass 14]; TClass 10]; TClass none_id]), true).
Proof. vm_compute. repeat split; reflexivity. Qed.
Example ex_nested_attr_hyps :
  tfind_preload 100 (tchain 8 ex_tbl2 37 [TUnion [TClass 14; TClass 11]]) =
    Some ([TClass 10; TUnion [TClass 14; TClass 11]], DGeneric 7 [DGround (TClass 11); DGeneric 6 [DParam 0]]) /\
  no_param_union (DGeneric 7 [DGround (TClass 11); DGeneric 6 [DParam 0]]) = true /\
  forallb (nonempty_ty ex_arity) [TClass 10; TUnion [TClass 14; TClass 11]] = true /\
  read_emitted ex_arity false 8 ex_tbl2 37 [TUnion [TClass 14; TClass 11]] 100 =
    (DConst (TGeneric 7 [TClass 11; TGeneric 6 [TClass 10]]), true) /\
  read_emitted ex_arity true 8 ex_tbl2 37 [TUnion [TClass 14; TClass 11]] 100 =
    (DConst (TGeneric 7 [TClass 11; TGeneric 6 [TClass 10]]), true).
Proof. vm_compute. repeat split; reflexivity. Qed.
