(* C01 — inferred types admit every value the program actually computes (loop-free fragment L0).
   The stated theorems, each followed by Print Assumptions, and non-vacuity examples; the lemmas are in Vm/.

   PARTIAL: the theorems cover the language L0 of Vm/Model.v (literals, names, list/tuple/dict/set displays,
   not / is None / is not None / isinstance, and / or / conditional expressions, calls of module-level
   functions, subscripts e[i] of list/tuple values by int/bool values incl. negative indices, an index out of
   range being a run that does not complete; assignment, if/elif/else, def, pass, return) and its extension L1 of Vm/ClassModel.v (module-level
   classes with single/multiple inheritance, class attributes, __init__ and methods in A-normal form, instance
   creation, attribute reads and stores on self and on module-level instances, method calls, cooperative
   super()), programs of any size and nesting.  Objects stored in containers/attributes or passed as arguments,
   closures, comprehensions, exceptions and builtin signatures are outside the model and are covered only by the
   end-to-end differential against CPython in harness/props/c01.py (search, not proof). *)
From Coq Require Import List ZArith Arith Bool.
From PV Require Import Vm.Model Vm.Lemmas Vm.TypesProofs Vm.Proofs Vm.ClassModel Vm.ClassProofs.
Import ListNotations.
Open Scope nat_scope.

(* Main theorem.  For every L0 program p, every call-depth fuel, if the concrete (CPython reference) run of p
   completes with final globals sigma, then for every module-level name x holding v at the end, the type the
   abstract interpreter infers for x admits v.  [infer] is the strict (path-sensitive) run, the lower bound of
   what pytype prints. *)
Theorem infer_sound : forall (fuel : nat) (p : prog) (sigma : store) (x : name) (v : value),
  ceval fuel p = Some sigma -> slook sigma x = Some v -> admits (infer p x) v.
Proof. exact (infer_mode_sound_lemma false). Qed.
Print Assumptions infer_sound.

(* The same for the reaching-definitions run (how pytype's VM actually enters branches), the upper bound of
   what pytype prints. *)
Theorem infer_upper_sound : forall (fuel : nat) (p : prog) (sigma : store) (x : name) (v : value),
  ceval fuel p = Some sigma -> slook sigma x = Some v -> admits (infer_upper p x) v.
Proof. exact (infer_mode_sound_lemma true). Qed.
Print Assumptions infer_upper_sound.

(* Function-call results: whenever a concrete call f(vs) returns v (with any fuel n), and the abstract call is
   analysed (in either mode, with any remaining depth budget m, m = 0 being pytype's "maximum depth reached")
   on a set R of argument rows that contains a row (w, avs) describing the actual arguments in a world w whose
   module frame describes the actual globals, then one of the abstract return bindings for w describes v. *)
Theorem call_sound : forall (lz : bool) (n m : nat) (ft : ftable) (g : store) (f : fname)
  (vs : list value) (v : value),
  ccall_n n ft g f vs = Some v ->
  forall (R : list (world * list aval)) (w : world) (avs : list aval),
    In (w, avs) R -> Forall2 gamma avs vs -> w <> [] -> fmatch g (last w []) ->
    exists a, In (w, a) (acall_n lz m ft f R) /\ gamma a v.
Proof. exact call_sim_n. Qed.
Print Assumptions call_sound.

(* compat_sound: the if-splitting tests never exclude the branch that is actually taken.
   (compare.compatible_with, state._match_condition for None tests, IS_OP against None, isinstance) *)
Theorem compat_sound : forall (a : aval) (v : value), gamma a v -> compat a (truthy v) = true.
Proof. exact compat_sound_lemma. Qed.
Print Assumptions compat_sound.

Theorem compat_none_sound : forall (a : aval) (v : value), gamma a v ->
  if is_vnone v then compat_none a = true else compat_notnone a = true.
Proof. exact compat_none_sound_lemma. Qed.
Print Assumptions compat_none_sound.

Theorem isnone_sound : forall (a : aval) (v : value), gamma a v ->
  gamma (ABool (a_isnone a)) (VBool (is_vnone v)).
Proof. exact a_isnone_sound_lemma. Qed.
Print Assumptions isnone_sound.

Theorem isinstance_sound : forall (a : aval) (v : value) (c : cls), gamma a v ->
  gamma (ABool (a_isinst a c)) (VBool (isinst v c)).
Proof. exact a_isinst_sound_lemma. Qed.
Print Assumptions isinstance_sound.

Theorem ty_of_sound : forall (a : aval) (v : value), gamma a v -> admits (ty_of a) v.
Proof. exact ty_of_sound_lemma. Qed.
Print Assumptions ty_of_sound.

Theorem optimize_widens : forall (n : nat) (t : ty) (v : value), admits t v -> admits (optimize n t) v.
Proof. exact optimize_widens_lemma. Qed.
Print Assumptions optimize_widens.

(* Subscripts (ESub, part of L0: infer_sound / infer_upper_sound / call_sound above quantify over programs that
   contain them).  The abstract subscript of abstract.List.getitem_slot / TupleClass.getitem_slot, in both modes
   and whatever the bindings [idxs] of the index variable are, returns a binding that describes the element
   CPython selects, whenever the concrete subscript completes. *)
Theorem subscript_sound : forall (lz : bool) (idxs : list aval) (a ai : aval) (v vi r : value),
  gamma a v -> gamma ai vi -> csub v vi = Some r -> exists b, In b (asub lz idxs a ai) /\ gamma b r.
Proof. exact asub_sound. Qed.
Print Assumptions subscript_sound.

(* the concrete side is Python's rule and never answers from a default: a completed subscript selected an existing
   element, at position z for 0 <= z < len and z + len for -len <= z < 0 *)
Theorem subscript_in_range : forall (v i r : value), csub v i = Some r ->
  exists xs z k, seq_items v = Some xs /\ idx_val i = Some z /\ norm_idx z (length xs) = Some k /\
                 k < length xs /\ nth_error xs k = Some r.
Proof.
  intros v i r H. unfold csub in H.
  destruct (seq_items v) as [xs|] eqn:E1; [|discriminate].
  destruct (idx_val i) as [z|] eqn:E2; [|discriminate].
  destruct (norm_idx z (length xs)) as [k|] eqn:E3; [|discriminate].
  exists xs, z, k. repeat split; auto. apply nth_error_Some. congruence.
Qed.
Print Assumptions subscript_in_range.

Theorem index_normalisation : forall (z : Z) (n k : nat),
  norm_idx z n = Some k <->
  ((0 <= z < Z.of_nat n)%Z /\ Z.of_nat k = z) \/ ((- Z.of_nat n <= z < 0)%Z /\ Z.of_nat k = (z + Z.of_nat n)%Z).
Proof. exact norm_idx_spec. Qed.
Print Assumptions index_normalisation.

(* Non-vacuity for subscripts.
     n0 = 100
     n10 = 0 if n0 else 1
     n8 = (1, 's1', None)
     n9 = [2.5, [n0]]
     n1 = n8[-1]          # None
     n2 = n9[n10]         # list, index variable with two constant bindings: both elements
     n3 = n8[n10]         # tuple, index variable with two bindings: pytype gives up (lazy: Any)
     n4 = n9[True][0]     # bool index, nested
     def f0(): return n9[n10]      # the global index loses its constant inside the function: all elements
     n5 = f0() *)
Definition demo_sub : prog :=
  [ TStmt (SAssign 0 (EInt 100));
    TStmt (SAssign 10 (EIf (EName 0) (EInt 0) (EInt 1)));
    TStmt (SAssign 8 (ETuple [EInt 1; EStr 1; ENone]));
    TStmt (SAssign 9 (EList [EFloat 5; EList [EName 0]]));
    TStmt (SAssign 1 (ESub (EName 8) (EInt (-1))));
    TStmt (SAssign 2 (ESub (EName 9) (EName 10)));
    TStmt (SAssign 3 (ESub (EName 8) (EName 10)));
    TStmt (SAssign 4 (ESub (ESub (EName 9) (EBool true)) (EInt 0)));
    TDef 0 [] [SReturn (ESub (EName 9) (EName 10))];
    TStmt (SAssign 5 (ECall 0 [])) ].

Example demo_sub_runs :
  option_map (fun g => map (slook g) [1; 2; 3; 4; 5]) (ceval 3 demo_sub)
  = Some [Some VNone; Some (VFloat 5); Some (VInt 1); Some (VInt 100); Some (VFloat 5)].
Proof. vm_compute. reflexivity. Qed.

Example demo_sub_infer :
  map (infer demo_sub) [1; 2; 3; 4; 5]
    = [TNone; TUnion [TFloat; TList TInt]; TUnion [TInt; TStr]; TInt; TUnion [TFloat; TList TInt]] /\
  map (infer_upper demo_sub) [1; 2; 3; 4; 5]
    = [TNone; TUnion [TFloat; TList TInt]; TAny; TInt; TUnion [TFloat; TList TInt]].
Proof.
  (* named, the exit worlds are evaluated once and not once for every queried name *)
  unfold infer, infer_upper, infer_mode.
  set (E0 := exit_worlds false demo_sub). set (E1 := exit_worlds true demo_sub).
  vm_compute. split; reflexivity.
Qed.

(* an index out of range is a run that does not complete: excluded by the premise of the theorems *)
Example demo_sub_index_error : ceval 3 [TStmt (SAssign 0 (ESub (ETuple [EInt 1]) (EInt 1)))] = None.
Proof. vm_compute. reflexivity. Qed.

(* Non-vacuity.
     n0 = 100
     n1 = None if n0 else 5
     def f0(n20):
       if n20 is None: return 1.5
       return n20
     n2 = f0(n1)
     if n1 is None: n3 = n1; n4 = 's1'
     else:          n3 = 0;  n4 = 's2'
     if isinstance(n2, int): n5 = n2
     else:                   n5 = [n2, n3]
   Both arms of the None test survive for n3 (None | int), one type survives for n4 (str); the call result is
   float | int in the strict run (narrowed by the None test inside f0) and also None in the reaching-definitions
   run; the concrete run completes (demo_runs), and demo_admits instantiates the theorem for n5. *)
Definition demo : prog :=
  [ TStmt (SAssign 0 (EInt 100));
    TStmt (SAssign 1 (EIf (EName 0) ENone (EInt 5)));
    TDef 0 [20] [SIf (EIsNone (EName 20)) [SReturn (EFloat 3)] []; SReturn (EName 20)];
    TStmt (SAssign 2 (ECall 0 [EName 1]));
    TStmt (SIf (EIsNone (EName 1)) [SAssign 3 (EName 1); SAssign 4 (EStr 1)] [SAssign 3 (EInt 0); SAssign 4 (EStr 2)]);
    TStmt (SIf (EIsInst (EName 2) Cint) [SAssign 5 (EName 2)] [SAssign 5 (EList [EName 2; EName 3])]) ].

Example demo_runs :
  ceval 3 demo = Some [(5, VList [VFloat 3; VNone]); (4, VStr 1); (3, VNone); (2, VFloat 3); (1, VNone); (0, VInt 100)].
Proof. vm_compute. reflexivity. Qed.

Example demo_infer :
  map (infer demo) [0; 1; 2; 3; 4; 5] =
  [TInt; TUnion [TInt; TNone]; TUnion [TInt; TFloat]; TUnion [TInt; TNone]; TStr;
   TUnion [TInt; TList (TUnion [TFloat; TNone])]].
Proof.
  unfold infer, infer_mode. set (E := exit_worlds false demo). vm_compute. reflexivity.
Qed.

Example demo_infer_upper :
  map (infer_upper demo) [0; 1; 2; 3; 4; 5] =
  [TInt; TUnion [TNone; TInt]; TUnion [TFloat; TNone; TInt]; TUnion [TNone; TInt]; TStr;
   TUnion [TFloat; TNone; TInt; TList (TUnion [TFloat; TNone; TInt])]].
Proof.
  unfold infer_upper, infer_mode. set (E := exit_worlds true demo). vm_compute. reflexivity.
Qed.

(* the strict run is genuinely path-sensitive here: 2 final worlds against 16 in the lazy run *)
Example demo_worlds : (length (arun false [] W0 demo), length (arun true [] W0 demo)) = (2, 16).
Proof. vm_compute. reflexivity. Qed.

(* an instance of the main theorem's conclusion on the demo *)
Example demo_admits : admits (infer demo 5) (VList [VFloat 3; VNone]).
Proof. apply (infer_sound 3 demo _ 5 _ demo_runs). reflexivity. Qed.

(* the depth cut-off: five nested calls, the innermost returns Any *)
Definition deep : prog :=
  [ TDef 1 [20] [SReturn (EName 20)];
    TDef 2 [20] [SReturn (ECall 1 [EName 20])];
    TDef 3 [20] [SReturn (ECall 2 [EName 20])];
    TDef 4 [20] [SReturn (ECall 3 [EName 20])];
    TDef 5 [20] [SReturn (ECall 4 [EName 20])];
    TStmt (SAssign 0 (ECall 5 [EInt 2]));
    TStmt (SAssign 1 (ECall 4 [EInt 3])) ].
Example deep_infer : ceval 6 deep = Some [(1, VInt 3); (0, VInt 2)] /\ map (infer deep) [0; 1] = [TAny; TInt].
Proof. vm_compute. split; reflexivity. Qed.

(* Fragment L1: classes (Vm/ClassModel.v). *)

(* Module-level value names of an L1 program, both visibility modes (lz = false: strict run, the lower bound of
   what pytype prints; lz = true: reaching-definitions run, the upper bound). *)
Theorem l1_infer_sound : forall (lz : bool) (fuel : nat) (p : lprog) (st : lstate) (x : name) (v : value),
  leval fuel p = Some st -> slook (cg (lv st)) x = Some v -> admits (linfer_mode lz p x) v.
Proof.
  intros lz fuel p st x v HE HS.
  destruct (leval_sim lz fuel p st HE) as [W' [Hin [[fr [Haw HM]] _]]].
  destruct (HM x v HS) as [a [Ha Hg]].
  apply (printed_sound _ a v); [|exact Hg]. apply values_of_in with (w := aw W'); [exact (in_map aw _ _ Hin)|].
  rewrite Haw. exact Ha.
Qed.
Print Assumptions l1_infer_sound.

(* Instance attributes.  When the module has run to completion, for EVERY object on the heap (in particular every
   module-level instance), of class c with instance dict s, and every attribute a holding v, the type the stub
   declares for `class c: a: ...` (join over the instances of exactly c of the bindings visible at the exit, plus
   the canonical instance's) admits v.  Both modes. *)
Theorem attr_sound : forall (lz : bool) (fuel : nat) (p : lprog) (st : lstate) (i : nat) (c : cname) (s : store)
  (a : attr) (v : value),
  leval fuel p = Some st -> nth_error (lh st) i = Some (c, s) -> slook s a = Some v ->
  admits (infer_attr lz p c a) v.
Proof.
  intros lz fuel p st i c s a v HE Hn Hs.
  destruct (leval_sim lz fuel p st HE) as [W' [Hin [_ HH]]].
  destruct (attr_vals_sound _ _ _ _ _ _ _ _ _ Hin HH Hn Hs) as [av [Hav Hg]].
  apply (printed_sound _ av v); [|exact Hg]. apply in_or_app. left. exact Hav.
Qed.
Print Assumptions attr_sound.

(* Method calls.  Whenever a concrete invocation of method m on the object i (looked up through the candidate
   classes cands: the MRO of type(self), or its tail for super()) returns v and leaves the state st', and the
   abstract invocation is analysed (either mode, any remaining depth budget m0; m0 = 0 is "maximum depth
   reached") on rows that contain a row (W, avs) describing the actual arguments in a world W whose module frame
   describes the globals and whose heap describes the heap object by object, then one of the abstract results
   (W', a) has a describing v, and W' describes the heap after the call (or is marked havocked). *)
Theorem method_call_sound : forall (lz : bool) (ce : cenv) (fuel0 n m0 : nat) (ft : ftable) (st : lstate) (i : nat)
  (cands : list cname) (m : mname) (vs : list value) (st' : lstate) (v : value),
  mcall_n ce fuel0 n ft st i cands m vs = Some (st', v) ->
  forall (rows : list (lworld * list aval)) (W : lworld) (avs : list aval),
    In (W, avs) rows -> Forall2 gamma avs vs ->
    aw W <> [] -> fmatch (cg (lv st)) (last (aw W) []) -> hv W = false ->
    lo st = ao W -> Forall2 hent_rel (lh st) (ah W) ->
    exists W' a, In (W', a) (amcall_n lz ce m0 ft rows i cands m) /\ gamma a v /\ aw W' = aw W
                 /\ hrel (hv W') (lo st') (lh st') (ao W') (ah W').
Proof. exact msim_n. Qed.
Print Assumptions method_call_sound.

(* ... and the result of a module-level method call, once bound to a module-level name, is covered by
   l1_infer_sound.  The DECLARED return type of the method is a different matter: output.py takes it from the
   canonical analysis of the class alone (self = the canonical instance, whose attributes are what __init__ stores
   when called with Any), so an attribute stored from outside the class is not reflected in it.
       class C0:
         def __init__(self): self.y = 1
         def m(self): t = self.y; return t
       o1 = C0(); o1.y = None; n1 = o1.m()
   declares `def m(self) -> int` while the call returns None (reproduced on real pytype; known finding
   method-return:attribute-redefined-outside-defining-class). *)
Definition refute_prog : lprog := mkprog
  [ mkclass [] [] [(0, ([], [LSet OSelf 0 (EInt 1)])); (1, ([], [LGet 9 OSelf 0; LReturn (EName 9)]))] ]
  [ LStmt (LNew 1 0 []); LStmt (LSet (OName 1) 0 ENone); LStmt (LCall 1 (OName 1) 1 []) ].

Theorem declared_return_refuted :
  exists (p : lprog) (fuel : nat) (st : lstate) (o : oname) (c : cname) (m : mname) (x : name) (v : value),
    leval fuel p = Some st /\ In (LStmt (LCall x (OName o) m [])) (pbody p) /\
    slook (cg (lv st)) x = Some v /\
    ~ admits (declared_ret false p c m) v /\ ~ admits (declared_ret true p c m) v.
Proof.
  exists refute_prog, 3. eexists. exists 1, 0, 1, 1, VNone.
  split; [vm_compute; reflexivity|].
  split; [simpl; auto|].
  split; [reflexivity|].
  split; vm_compute; intros H; exact H.
Qed.
Print Assumptions declared_return_refuted.

(* the declared return type is sound when the receiver is described by the canonical worlds: method_call_sound
   applied to the canonical call ([canon_rets] is what [declared_ret] joins) *)
Theorem declared_return_sound_partial : forall (lz : bool) (p : lprog) (c : cname) (m : mname) (params : list name)
  (body : list lstmt) (fuel0 n : nat) (st st' : lstate) (i : nat) (vs : list value) (v : value) (W : lworld),
  alook (cmeths (nth c (pclasses p) dflt_class)) m = Some (params, body) ->
  mcall_n (acenv p) fuel0 n (ftable_of [] (pbody p)) st i [c] m vs = Some (st', v) ->
  length vs = length params ->
  In W (canon_worlds lz p c) -> i = pred (length (ah W)) ->
  aw W <> [] -> fmatch (cg (lv st)) (last (aw W) []) -> hv W = false ->
  lo st = ao W -> Forall2 hent_rel (lh st) (ah W) ->
  admits (declared_ret lz p c m) v.
Proof.
  intros lz p c m params body fuel0 n st st' i vs v W Hal HC Hlen HI -> Hne HG Ehv Ho Hh.
  destruct (call_rows_sim _ _ _ (msim_n lz (acenv p) fuel0 n MAX_DEPTH) _ _ _ _ _ _ _ _ W _
              (fun W0 : lworld => Some (pred (length (ah W0)), [c])) HC
              (in_map (fun W0 : lworld => (W0, anys (length params))) _ _ HI)
              (anys_gamma _ _ Hlen) Hne HG (or_intror (conj Ho Hh)) (fun _ => eq_refl)) as [W' [a [Hin [Hg _]]]].
  apply (printed_sound _ a v); [|exact Hg].
  unfold canon_rets, canon_rets_of. rewrite Hal. apply dedupa_in. exact (in_map snd _ _ Hin).
Qed.
Print Assumptions declared_return_sound_partial.

(* Non-vacuity: a cooperative diamond.
     class A:            __init__: self.x = 1                      m: return 1
     class B(A):         __init__: super().__init__(); self.y = 1  m: t = super().m(); return t
     class C(A):         __init__: super().__init__(); self.x = 's1'   m: return 's1'
     class D(B, C):      k = 1.5
     o1 = D(); n1 = o1.m(); n2 = o1.x; n3 = o1.k; n0 = 100
     if n0: o1.y = None
     n4 = o1.y *)
Definition diamond : lprog := mkprog
 [ mkclass [] [] [(0, ([], [LSet OSelf 0 (EInt 1)])); (1, ([], [LReturn (EInt 1)]))];
   mkclass [0] [] [(0, ([], [LSuper 9 0 []; LSet OSelf 1 (EInt 1)])); (1, ([], [LSuper 9 1 []; LReturn (EName 9)]))];
   mkclass [0] [] [(0, ([], [LSuper 9 0 []; LSet OSelf 0 (EStr 1)])); (1, ([], [LReturn (EStr 1)]))];
   mkclass [1;2] [(5, EFloat 3)] [] ]
 [ LStmt (LNew 1 3 []); LStmt (LCall 1 (OName 1) 1 []); LStmt (LGet 2 (OName 1) 0); LStmt (LGet 3 (OName 1) 5);
   LStmt (LAssign 0 (EInt 100));
   LStmt (LIf (EName 0) [LSet (OName 1) 1 ENone] []);
   LStmt (LGet 4 (OName 1) 1) ].

Example diamond_runs :
  leval 5 diamond = Some (mkl (mkc [(4, VNone); (0, VInt 100); (3, VFloat 3); (2, VStr 1); (1, VStr 1)] [])
                              [(1, 0)] [(3, [(1, VNone); (1, VInt 1); (0, VStr 1); (0, VInt 1)])]).
Proof. vm_compute. reflexivity. Qed.

(* super() in B.m reaches the sibling C.m (MRO D, B, C, A): n1 is str; D.x is str (C.__init__ runs after A's),
   D.y is int | None; B alone keeps x: int; the declared return types come from the canonical analysis *)
Example diamond_infer :
  map (linfer_mode false diamond) [1; 2; 3; 4] = [TStr; TStr; TFloat; TUnion [TNone; TInt]] /\
  map (fun ca => infer_attr false diamond (fst ca) (snd ca)) [(3, 0); (3, 1); (1, 0); (2, 0); (0, 0)]
    = [TStr; TUnion [TNone; TInt]; TInt; TStr; TInt] /\
  map (fun cm => declared_ret false diamond (fst cm) (snd cm)) [(0, 1); (1, 1); (2, 1)] = [TInt; TInt; TStr].
Proof.
  unfold linfer_mode, infer_attr, declared_ret, canon_rets, canon_worlds.
  set (E := exit_lworlds false diamond). vm_compute. repeat split; reflexivity.
Qed.

Example diamond_attr_admits : admits (infer_attr true diamond 3 1) VNone.
Proof. eapply (attr_sound true 5 diamond _ 0 3 _ 1 VNone diamond_runs); reflexivity. Qed.

(* the shared computation the harness evaluates ([lreport]) gives the same answers as the per-query definitions the
   theorems above are about *)
Example lreport_agrees_with_spec :
  let r := lreport diamond [1; 2; 3; 4] [1] [(3, 0); (3, 1); (1, 0); (0, 0)] [(0, 1); (1, 1); (2, 1)] 5 in
  (map (fun q => (snd (fst (fst q)), snd q)) (fst (fst (fst (fst (fst r))))),
   snd (fst (fst (fst (fst r)))), snd (fst (fst (fst r))))
  = lreport_spec diamond [1; 2; 3; 4] [(3, 0); (3, 1); (1, 0); (0, 0)] [(0, 1); (1, 1); (2, 1)].
Proof.
  unfold lreport_spec, linfer_mode, infer_attr, declared_ret, canon_rets, canon_worlds.
  set (E0 := exit_lworlds false diamond). set (E1 := exit_lworlds true diamond).
  vm_compute. reflexivity.
Qed.
