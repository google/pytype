(* C20 — merging a stub into source changes annotations only.
   The stated theorems, each followed by Print Assumptions, with non-vacuity examples (demo_*, *_hypotheses_hold);
   the lemmas they rest on are in Merge/.
   Model: Merge/Model.v (pytype's RemoveAnyNeverTransformer / RemoveTrivialTypesTransformer as written,
   libcst's TypeCollector + ApplyTypeAnnotationsVisitor + AddImportsVisitor under pytype's flags).
   [merge v p s] is merge_sources(py=p, pyi=s); v = AsWritten is the tree as it stands, v = Fixed the
   tree with fixes/C20-annassign-any.patch; the harness decides by correspondence which one applies.
   A position is an index into [mslots], the document-order list of annotation slots (returns,
   parameters, assigned / declared variables), each tagged with the true qualified name of its
   definition; the merge keeps that list aligned (slots_aligned), so index i denotes the same
   definition before and after. *)
From Coq Require Import List NArith Bool.
From PV Require Import Merge.Model Merge.Proofs.
Import ListNotations.
Open Scope N_scope.

(* positions are stable: the merge neither creates, removes nor moves an annotation slot *)
Theorem slots_aligned : forall (v : variant) (p s : list item) (i : nat),
  match ann_at p i, ann_at (m_out (merge v p s)) i with
  | Some sl, Some sl' => s_qn sl' = s_qn sl /\ s_shape sl' = s_shape sl /\ s_which sl' = s_which sl
  | None, None => True
  | _, _ => False
  end.
Proof.
  intros v p s i. pose proof (merge_slots_nth False v p s i (False_ind _)) as H.
  destruct (ann_at p i), (ann_at (m_out (merge v p s)) i); try exact H.
  destruct H as (Hq & Hs & Hw & _). auto.
Qed.
Print Assumptions slots_aligned.

(* existing annotations are kept (all programs, all stubs, both variants) *)
Theorem existing_kept : forall (v : variant) (p s : list item) (i : nat) (sl : slot) (a : expr),
  ann_at p i = Some sl -> s_ann sl = Some a ->
  exists sl', ann_at (m_out (merge v p s)) i = Some sl' /\
              s_qn sl' = s_qn sl /\ s_shape sl' = s_shape sl /\ s_which sl' = s_which sl /\
              s_ann sl' = Some a.
Proof.
  intros v p s i sl a Hi Ha. pose proof (merge_slots_nth False v p s i (False_ind _)) as H.
  rewrite Hi in H. destruct (ann_at (m_out (merge v p s)) i) as [sl'|]; [|contradiction].
  destruct H as (Hq & Hs & Hw & Hann). rewrite Ha in Hann. exists sl'. auto.
Qed.
Print Assumptions existing_kept.

(* erase (merge p s) = erase p.
   REFUTED at full strength on the faithful model: a stub annotation written as a dotted name
   (pytype prints a nested class as Outer.Inner) makes libcst add `from Outer import Inner`, which is
   not a typing import, so it survives [erase]. *)

Theorem merge_erases_to_original_refuted :
  exists p s, forall v, erase (m_out (merge v p s)) <> erase p.
Proof. exists nested_p, nested_s. intros v H. destruct v; vm_compute in H; discriminate. Qed.
Print Assumptions merge_erases_to_original_refuted.

(* PARTIAL: holds whenever every import the stub asks for is a typing import, no class of the stub is
   injected into the source (the stub is "for its definitions") and no Generic[...] base is appended. *)
Theorem merge_erases_to_original_partial : forall (v : variant) (p s : list item),
  m_generic (merge v p s) = false -> m_fresh (merge v p s) = [] ->
  needs_typing_only (merge v p s) = true ->
  erase (m_out (merge v p s)) = erase p.
Proof. exact merge_erases_lemma. Qed.
Print Assumptions merge_erases_to_original_partial.

(* every inserted annotation is the one the stub gives for that definition.
   REFUTED at full strength: (1) libcst's _annotate_single_target forgets qualifier.pop() when a name
   is assigned a second time, so later definitions are looked up under a wrong qualified name: the
   module-level function m of the witness (leak_p, Merge/Proofs.v) receives the annotation of the method C.m. *)

Theorem inserted_from_stub_refuted :
  exists p s i sl sl' a, forall v,
    dotted_free (filter_stub v s) = true /\ m_clsdecl (merge v p s) = false /\ m_err (merge v p s) = false /\
    ann_at p i = Some sl /\ s_ann sl = None /\
    ann_at (m_out (merge v p s)) i = Some sl' /\ s_ann sl' = Some a /\
    ~ exists a0, stub_gives (stub_all (filter_stub v s)) sl a0 /\ same_ann a a0.
Proof. exact inserted_from_stub_refuted_lemma. Qed.
Print Assumptions inserted_from_stub_refuted.

(* (2) a chained assignment `a = b = v` inside a class makes libcst insert MODULE-level declarations
   `a: T`, `b: T` carrying the annotations of the class attributes C.a, C.b. *)
Theorem inserted_declaration_refuted :
  exists p s nm a, forall v,
    dotted_free (filter_stub v s) = true /\ m_leak (merge v p s) = false /\ m_err (merge v p s) = false /\
    In (nm, a) (added_decls (m_out (merge v p s))) /\ ~ In (nm, a) (added_decls p) /\
    ~ exists a0, In (SVar nm a0) (stub_all (filter_stub v s)) /\ same_ann a a0.
Proof. exact inserted_declaration_refuted_lemma. Qed.
Print Assumptions inserted_declaration_refuted.

(* PARTIAL: holds when neither monitor fires (no qualifier leak, no declaration hoisted out of a
   class), the merge does not raise, and the filtered stub has no dotted name in an annotation (libcst
   rewrites a.b to b).  [same_ann]: equal up to the forward-reference quoting of a bare name.
   The second conjunct covers the module-level declarations `x: T` the merge inserts. *)
Theorem inserted_from_stub_partial : forall (v : variant) (p s : list item),
  dotted_free (filter_stub v s) = true ->
  m_leak (merge v p s) = false -> m_clsdecl (merge v p s) = false -> m_err (merge v p s) = false ->
  (forall i sl sl' a,
     ann_at p i = Some sl -> s_ann sl = None ->
     ann_at (m_out (merge v p s)) i = Some sl' -> s_ann sl' = Some a ->
     exists a0, stub_gives (stub_all (filter_stub v s)) sl a0 /\ same_ann a a0) /\
  (forall nm a,
     In (nm, a) (added_decls (m_out (merge v p s))) ->
     In (nm, a) (added_decls p) \/
     exists a0, In (SVar nm a0) (stub_all (filter_stub v s)) /\ same_ann a a0).
Proof.
  intros v p s Hd Hl Hc He. split; [intros i sl sl' a; exact (filled_from_stub v p s i sl sl' a Hd Hl)|].
  intros nm a Hin. apply added_decls_out in Hin.
  destruct Hin as [Hin|(nm0 & a0' & Hdin & -> & ->)]; [left; exact Hin|right].
  destruct (merge_fields v p s) as (_ & Ec & _ & _ & Hsingle). rewrite Ec in Hc.
  pose proof (Hsingle He) as Hs. rewrite forallb_forall in Hs. specialize (Hs _ Hdin). cbn [fst] in Hs.
  destruct nm0 as [|n [|? ?]]; try discriminate. cbn [hd].
  apply (pl_decls _ _ _ (apply_items_pass _ p a0)) in Hdin; [|intros ? ? []].
  destruct Hdin as (q & Hq & Hnil). rewrite (Hnil Hc) in Hq.
  exists a0'. split; [exact (proj2 (env_sound_merge v p s Hd) _ _ Hq)|apply quote_same].
Qed.
Print Assumptions inserted_from_stub_partial.

(* a bare Any / Never is never inserted as a return or variable annotation.
   REFUTED for variables on the tree as written: leave_AnnAssign hands the Annotation wrapper to
   _is_any_or_never, so `x: Any` is never filtered and `x: Any = f()` is inserted. *)

Theorem no_bare_any_never_refuted :
  exists p s i sl sl' a,
    dotted_any_free s = true /\
    ann_at p i = Some sl /\ s_ann sl = None /\
    ann_at (m_out (merge AsWritten p s)) i = Some sl' /\ s_ann sl' = Some a /\
    s_which sl = WVar /\ bare_any_never a = true.
Proof.
  exists any_p, any_s, 0%nat, (mkSlot (Some [40]) None WVar None),
         (mkSlot (Some [40]) None WVar (Some (EName id_Any))), (EName id_Any).
  vm_compute. repeat split; reflexivity.
Qed.
Print Assumptions no_bare_any_never_refuted.

(* PARTIAL (both variants): returns.  Hypothesis: the stub does not spell Any/Never as a dotted name
   (`typing.Any`), which _is_any_or_never does not recognise and libcst turns into a bare name. *)
Theorem no_bare_any_never_partial : forall (v : variant) (p s : list item) (i : nat) (sl sl' : slot) (a : expr),
  forallb (rets_ok not_dotted_any) s = true ->
  ann_at p i = Some sl -> s_ann sl = None ->
  ann_at (m_out (merge v p s)) i = Some sl' -> s_ann sl' = Some a ->
  s_which sl = WRet -> bare_any_never a = false.
Proof.
  intros v p s i sl sl' a Hs Hi Hn Hi' Ha Hw.
  destruct (filled_origin False v p s i sl sl' a (False_ind _) Hi Hn Hi' Ha) as (a0 & (q & Hf & _) & Hsame).
  rewrite Hw in Hf. destruct Hf as (sh0 & fa & _ & Hg & Hr).
  apply dict_get_In in Hg. destruct Hg as (k' & Hin & _).
  exact (same_ann_bare _ _ Hsame (funs_clean v p s _ _ _ Hs Hin Hr)).
Qed.
Print Assumptions no_bare_any_never_partial.

(* With the fix: variables too, including the module-level declarations the merge inserts. *)
Theorem no_bare_any_never_fixed_vars : forall (p s : list item) (i : nat) (sl sl' : slot) (a : expr),
  forallb (vars_ok not_dotted_any) s = true ->
  ann_at p i = Some sl -> s_ann sl = None ->
  ann_at (m_out (merge Fixed p s)) i = Some sl' -> s_ann sl' = Some a ->
  s_which sl = WVar -> bare_any_never a = false.
Proof.
  intros p s i sl sl' a Hs Hi Hn Hi' Ha Hw.
  destruct (filled_origin False Fixed p s i sl sl' a (False_ind _) Hi Hn Hi' Ha) as (a0 & (q & Hf & _) & Hsame).
  rewrite Hw in Hf. apply dict_get_In in Hf. destruct Hf as (k' & Hin & _).
  exact (same_ann_bare _ _ Hsame (attrs_clean p s _ _ Hs Hin)).
Qed.
Print Assumptions no_bare_any_never_fixed_vars.

Theorem no_bare_any_never_fixed_decls : forall (p s : list item) (nm : path) (a : expr),
  forallb (vars_ok not_dotted_any) s = true ->
  In (nm, a) (added_decls (m_out (merge Fixed p s))) ->
  In (nm, a) (added_decls p) \/ bare_any_never a = false.
Proof.
  intros p s nm a Hs Hin. apply added_decls_out in Hin. destruct Hin as [Hin|(nm0 & a0' & Hd & _ & ->)]; auto.
  right. apply (pl_decls _ _ _ (apply_items_pass _ p a0)) in Hd; [|intros ? ? []].
  destruct Hd as (q & Hq & _). apply dict_get_In in Hq. destruct Hq as (k' & Hq & _).
  exact (same_ann_bare _ _ (quote_same _ _ _) (attrs_clean p s _ _ Hs Hq)).
Qed.
Print Assumptions no_bare_any_never_fixed_decls.

(* non-vacuity: a program with a class (method, class variable, chained assignment at module
   level), a partially annotated function with keyword-only parameters and a module variable; a stub
   for the same definitions.  All hypotheses of the partial theorems hold and annotations ARE
   inserted (return, positional and keyword-only parameters, class and module variables, a
   module-level declaration), the typing import is added, the existing annotation is kept. *)
Definition demo_p : list item :=
  [Doc 100;
   Import true [id_typing] [60] [] 0;
   Cls 20 101 [] [Assign [TName 40] (mkVal 102 false);
                  Fun 30 103 (mkParams [] [mkParam 50 None None; mkParam 51 (Some (EName id_int)) None]
                                       BareStar [mkParam 52 None (Some 104)] None) None [Other 105]];
   Assign [TName 41; TName 42] (mkVal 106 false);
   Assign [TName 43] (mkVal 107 false);
   Fun 31 108 (mkParams [] [mkParam 53 None None] NoStar [] None) None
       [Fun 32 109 (mkParams [] [] NoStar [] None) None [Other 110]]].
Definition demo_s : list item :=
  [Import true [id_typing] [id_Any; 60; 61] [] 0;
   Cls 20 101 [] [AnnAssign (TName 40) (ESub (EName 60) [EName id_int]) None;
                  Fun 30 103 (mkParams [] [mkParam 50 None None; mkParam 51 (Some (EName id_int)) None]
                                       BareStar [mkParam 52 (Some (EName id_str)) (Some 111)] None)
                      (Some (ESub (EName 61) [EName id_str; EName id_int])) [Other 112]];
   AnnAssign (TName 41) (EName id_int) None;
   AnnAssign (TName 42) (ESub (EName 60) [EName id_str]) None;
   AnnAssign (TName 43) (EName 20) None;
   Fun 31 108 (mkParams [] [mkParam 53 (Some (EName 20)) None] NoStar [] None) (Some (EName id_Any)) [Other 112]].

Example demo_hypotheses :
  dotted_free (filter_stub AsWritten demo_s) = true /\ dotted_any_free demo_s = true /\
  m_leak (merge AsWritten demo_p demo_s) = false /\ m_clsdecl (merge AsWritten demo_p demo_s) = false /\
  m_err (merge AsWritten demo_p demo_s) = false /\ m_generic (merge AsWritten demo_p demo_s) = false /\
  m_fresh (merge AsWritten demo_p demo_s) = [] /\ needs_typing_only (merge AsWritten demo_p demo_s) = true.
Proof. vm_compute. repeat split; reflexivity. Qed.

Example demo_output :
  m_out (merge AsWritten demo_p demo_s) =
  [Doc 100;
   Import true [id_typing] [60] [61] 0;
   Added (AnnAssign (TName 42) (ESub (EName 60) [EName id_str]) None);
   Cls 20 101 [] [AnnAssign (TName 40) (ESub (EName 60) [EName id_int]) (Some (mkVal 102 false));
                  Fun 30 103 (mkParams [] [mkParam 50 None None; mkParam 51 (Some (EName id_int)) None]
                                       BareStar [mkParam 52 (Some (EName id_str)) (Some 104)] None)
                      (Some (ESub (EName 61) [EName id_str; EName id_int])) [Other 105]];
   Assign [TName 41; TName 42] (mkVal 106 false);
   AnnAssign (TName 43) (EName 20) (Some (mkVal 107 false));
   Fun 31 108 (mkParams [] [mkParam 53 (Some (EName 20)) None] NoStar [] None) None
       [Fun 32 109 (mkParams [] [] NoStar [] None) None [Other 110]]].
Proof. vm_compute. reflexivity. Qed.

(* the same stub on the fixed tree; the leak witness sets the leak monitor, the nested-class witness asks for an import that
   is not from typing *)
Example demo_fixed_same : m_out (merge Fixed demo_p demo_s) = m_out (merge AsWritten demo_p demo_s).
Proof. vm_compute. reflexivity. Qed.
Example monitors_fire :
  m_leak (merge AsWritten leak_p leak_s) = true /\
  needs_typing_only (merge AsWritten nested_p nested_s) = false.
Proof. vm_compute. split; reflexivity. Qed.

(* FILE LEVEL: merge_files / merge_files_src / merge_tree (Merge/Files.v).  Path strings are (leading slashes, components);
   posixpath.join / normpath / abspath / relpath and os.walk are modelled as merge_tree uses them; [fixed] selects the loop
   after (true) / before (false) commit b7143da; the file system is a directory tree plus the files written so far; the
   per-file merge (merge_sources) and the text codec are parameters - every theorem below holds for ALL of them. *)
From PV Require Import Merge.Files Merge.FilesProofs Merge.FilesLift.
Close Scope N_scope.

(* AFTER b7143da: for every working directory, file system, py_path/pyi_path spelling (relative or absolute,
   '.', '..', doubled and trailing separators) and every source tree (any depth, any entry names): the loop pairs the .py
   file at relative path ds/f with exactly the stub location <stub root>/ds/f+'i', in os.walk order *)
Theorem merge_tree_uses_own_stub :
  forall (B : Type) (cwd : list name) (tree : node B) (top P : pth) (es : list (name * node B)),
       nsl cwd ->
       p_empty top = false ->
       lookup B tree (lexloc cwd top) = Some (Dir es) ->
       names_ok (walk_dirs B (Dir es) nil) ->
       map (fun j : pth * pth => (lexloc cwd (fst j), lexloc cwd (snd j))) (jobs B true cwd tree top P) =
       flat_map
         (fun e : list name * list name =>
          map
            (fun f : name =>
             (lexloc cwd top ++ fst e ++ f :: nil, lexloc cwd P ++ fst e ++ stub_name f :: nil))
            (filter ends_py (snd e))) (walk_dirs B (Dir es) nil).
Proof.
  intros B cwd tree top P es Hc Ht Hl Hn. unfold jobs. rewrite Ht, Hl.
  revert Hn. generalize (walk_dirs B (Dir es) nil) as w. intros w Hn.
  induction w as [|e w IH]; cbn [flat_map map]; [reflexivity|].
  inversion Hn as [|? ? [Hd Hf] Hn']; subst.
  rewrite map_app. rewrite dir_jobs_fixed by assumption. f_equal. apply IH. assumption.
Qed.
Print Assumptions merge_tree_uses_own_stub.

(* the files written, the changed list and the error list are the PER-FILE results, each computed from the ORIGINAL
   file system (jo [] j = merge_files on the untouched tree); hypotheses: no iteration reads what an earlier one wrote
   (indep: refuted without it below) and no non-MergeError exception (no_raise: refuted without it below) *)
Theorem merge_tree_is_map :
  forall (B T : Type) (read : B -> option T) (write : T -> B) (teqb : T -> T -> bool)
         (msrc : T -> T -> option T) (cwd : loc) (tree : node B) (backup : option name) 
         (fixed : bool) (top P : pth),
       let js := jobs B fixed cwd tree top P in
       indep B T read write teqb msrc cwd tree backup nil js ->
       no_raise B T read teqb msrc cwd tree backup nil js ->
       let r := merge_tree B T read write teqb msrc fixed cwd tree top P backup in
       t_ov B r = flat_map (jwrites B T read write teqb msrc cwd tree backup nil) (rev js) /\
       t_changed B r =
       map fst
         (filter (fun j : pth * pth => is_changed B T (jo B T read teqb msrc cwd tree backup nil j)) js) /\
       t_errors B r =
       map fst (filter (fun j : pth * pth => is_err B T (jo B T read teqb msrc cwd tree backup nil j)) js) /\
       t_raised B r = false.
Proof. exact merge_tree_spec. Qed.
Print Assumptions merge_tree_is_map.

(* files without stub, non-.py files, the stub tree, everything that is not a rewritten source or its backup: unchanged *)
Theorem merge_tree_unchanged_elsewhere :
  forall (B T : Type) (read : B -> option T) (write : T -> B) (teqb : T -> T -> bool)
         (msrc : T -> T -> option T) (cwd : loc) (tree : node B) (backup : option name) 
         (fixed : bool) (top P : pth) (l : loc),
       let js := jobs B fixed cwd tree top P in
       indep B T read write teqb msrc cwd tree backup nil js ->
       no_raise B T read teqb msrc cwd tree backup nil js ->
       (forall j : pth * pth,
        In j js -> ~ In l (map fst (jwrites B T read write teqb msrc cwd tree backup nil j))) ->
       st_read B tree (t_ov B (merge_tree B T read write teqb msrc fixed cwd tree top P backup)) l =
       st_read B tree nil l.
Proof.
  intros B T read write teqb msrc cwd tree backup fixed top P l js Hi Hn Hl.
  destruct (merge_tree_is_map B T read write teqb msrc cwd tree backup fixed top P Hi Hn) as (E1 & _). rewrite E1.
  rewrite <- (app_nil_r (flat_map _ _)). apply st_read_app_notin.
  intros k Hk <-. apply in_map_iff in Hk. destruct Hk as ([k' b] & Ek & Hin). cbn [fst] in Ek. subst k'.
  apply in_flat_map in Hin. destruct Hin as (j & Hj & Hin). apply (Hl j).
  - apply in_rev. exact Hj.
  - apply in_map_iff. exists (k, b). split; [reflexivity|exact Hin].
Qed.
Print Assumptions merge_tree_unchanged_elsewhere.

(* each rewritten source holds write(merge_sources(own text, own stub text)), each backup the original bytes *)
Theorem merge_tree_result_files :
  forall (B T : Type) (read : B -> option T) (write : T -> B) (teqb : T -> T -> bool)
         (msrc : T -> T -> option T) (cwd : loc) (tree : node B) (backup : option name) 
         (fixed : bool) (top P : pth) (l : loc) (c : B),
       let js := jobs B fixed cwd tree top P in
       indep B T read write teqb msrc cwd tree backup nil js ->
       no_raise B T read teqb msrc cwd tree backup nil js ->
       NoDup (map fst (flat_map (jwrites B T read write teqb msrc cwd tree backup nil) (rev js))) ->
       (exists j : pth * pth, In j js /\ In (l, c) (jwrites B T read write teqb msrc cwd tree backup nil j)) ->
       st_read B tree (t_ov B (merge_tree B T read write teqb msrc fixed cwd tree top P backup)) l = RFile c.
Proof.
  intros B T read write teqb msrc cwd tree backup fixed top P l c js Hi Hn Hd (j & Hj & Hin).
  destruct (merge_tree_is_map B T read write teqb msrc cwd tree backup fixed top P Hi Hn) as (E1 & _). rewrite E1.
  subst js. unfold st_read. rewrite (ov_get_in_nodup B l c _ Hd); [reflexivity|].
  apply in_flat_map. exists j. split; [|exact Hin]. apply in_rev in Hj. exact Hj.
Qed.
Print Assumptions merge_tree_result_files.

(* conversely: whatever a location holds afterwards is its original content or one of the per-file writes *)
Theorem merge_tree_file_provenance :
  forall (B T : Type) (read : B -> option T) (write : T -> B) (teqb : T -> T -> bool)
         (msrc : T -> T -> option T) (cwd : loc) (tree : node B) (backup : option name) 
         (fixed : bool) (top P : pth) (l : loc) (c : B),
       let js := jobs B fixed cwd tree top P in
       indep B T read write teqb msrc cwd tree backup nil js ->
       no_raise B T read teqb msrc cwd tree backup nil js ->
       st_read B tree (t_ov B (merge_tree B T read write teqb msrc fixed cwd tree top P backup)) l = RFile c ->
       st_read B tree nil l = RFile c \/
       (exists j : pth * pth, In j js /\ In (l, c) (jwrites B T read write teqb msrc cwd tree backup nil j)).
Proof. exact merge_tree_final_read. Qed.
Print Assumptions merge_tree_file_provenance.

(* a file whose stub location does not exist is skipped (no write at all) *)
Theorem merge_tree_no_stub_skipped :
  forall (B T : Type) (read : B -> option T) (teqb : T -> T -> bool) (msrc : T -> T -> option T)
         (cwd : loc) (tree : node B) (backup : option name) (ov0 : overlay B) (j : pth * pth),
       jo B T read teqb msrc cwd tree backup ov0 j = JSkip B T <->
       st_read B tree ov0 (lexloc cwd (snd j)) = RNone.
Proof.
  intros B T read teqb msrc cwd tree backup ov0 j. unfold jo, out_of.
  destruct (st_read B tree ov0 (lexloc cwd (snd j))) as [sb| |]; split; try discriminate; auto.
  destruct (read sb) as [s|]; try discriminate.
  destruct (st_read B tree ov0 (lexloc cwd (fst j))) as [pb| |]; try discriminate.
  destruct (read pb) as [p|]; try discriminate. destruct (msrc p s) as [a|]; try discriminate.
  destruct (teqb a p); try discriminate. destruct (truthy backup) as [bk|]; try discriminate.
  destruct (lookup B tree (lexloc cwd (backup_path (fst j) bk))) as [[?|?]|]; discriminate.
Qed.
Print Assumptions merge_tree_no_stub_skipped.

(* what 'changed' means for one file: both files readable, merge_sources succeeded, its text differs from the source text *)
Theorem merge_tree_changed_means :
  forall (B T : Type) (read : B -> option T) (teqb : T -> T -> bool) (msrc : T -> T -> option T)
         (cwd : loc) (tree : node B) (backup : option name) (ov0 : overlay B) (j : pth * pth) 
         (pb : B) (a : T),
       jo B T read teqb msrc cwd tree backup ov0 j = JChanged B T pb a ->
       exists (sb : B) (s p : T),
         st_read B tree ov0 (lexloc cwd (snd j)) = RFile sb /\
         read sb = Some s /\
         st_read B tree ov0 (lexloc cwd (fst j)) = RFile pb /\
         read pb = Some p /\ msrc p s = Some a /\ teqb a p = false.
Proof. intros B T read teqb msrc cwd tree backup ov0 j. apply out_of_changed_inv. Qed.
Print Assumptions merge_tree_changed_means.

(* PRINT and DIFF never write *)
Theorem merge_files_print_diff_never_write :
  forall (B T : Type) (read : B -> option T) (write : T -> B) (teqb : T -> T -> bool)
         (msrc : T -> T -> option T) (cwd : loc) (tree : node B) (backup : option name) 
         (ov : overlay B) (py pyi : pth) (m : mode),
       m <> OVERWRITE -> f_ov B T (merge_files B T read write teqb msrc cwd tree ov py pyi m backup) = ov.
Proof.
  intros B T read write teqb msrc cwd tree backup ov py pyi m Hm. unfold merge_files, merge_files_src.
  destruct (st_read B tree ov (lexloc cwd pyi)) as [sb| |]; try reflexivity.
  destruct (read sb) as [s|]; try reflexivity.
  destruct (st_read B tree ov (lexloc cwd py)) as [pb| |]; try reflexivity.
  destruct (read pb) as [p|]; try reflexivity.
  destruct (msrc p s); try reflexivity.
  destruct m; try reflexivity. contradiction.
Qed.
Print Assumptions merge_files_print_diff_never_write.

(* any mode: unless the result is `changed`, nothing is written (also on MergeError / other exceptions) *)
Theorem merge_files_writes_only_if_changed :
  forall (B T : Type) (read : B -> option T) (write : T -> B) (teqb : T -> T -> bool)
         (msrc : T -> T -> option T) (cwd : loc) (tree : node B) (backup : option name) 
         (ov : overlay B) (py pyi : pth) (m : mode),
       f_res B T (merge_files B T read write teqb msrc cwd tree ov py pyi m backup) <> FOk true ->
       f_ov B T (merge_files B T read write teqb msrc cwd tree ov py pyi m backup) = ov.
Proof.
  intros B T read write teqb msrc cwd tree backup ov py pyi m.
  destruct m; try (intros _; apply merge_files_print_diff_never_write; discriminate).
  destruct (st_read B tree ov (lexloc cwd pyi)) eqn:E; [| |unfold merge_files; rewrite E; reflexivity];
    (rewrite mfiles_overwrite_spec by (rewrite E; discriminate)); cbn [f_res f_ov];
    destruct (out_of _ _ _ _ _ _ _ _ _ _ _); try reflexivity; intros H; contradiction H; reflexivity.
Qed.
Print Assumptions merge_files_writes_only_if_changed.

(* OVERWRITE and changed: the source holds write(merged text); the backup (iff a non-empty extension is given) holds the
   ORIGINAL BYTES (binary copy, not the decoded text); nothing else is written *)
Theorem merge_files_overwrite_writes_and_backs_up :
  forall (B T : Type) (read : B -> option T) (write : T -> B) (teqb : T -> T -> bool)
         (msrc : T -> T -> option T) (cwd : loc) (tree : node B) (backup : option name) 
         (ov : overlay B) (py pyi : pth),
       f_res B T (merge_files B T read write teqb msrc cwd tree ov py pyi OVERWRITE backup) = FOk true ->
       exists (sb : B) (s : T) (pb : B) (p a : T),
         st_read B tree ov (lexloc cwd pyi) = RFile sb /\
         read sb = Some s /\
         st_read B tree ov (lexloc cwd py) = RFile pb /\
         read pb = Some p /\
         msrc p s = Some a /\
         teqb a p = false /\
         f_ov B T (merge_files B T read write teqb msrc cwd tree ov py pyi OVERWRITE backup) =
         (lexloc cwd py, write a)
         :: match truthy backup with
            | Some bk => (lexloc cwd (backup_path py bk), pb) :: nil
            | None => nil
            end ++ ov.
Proof.
  intros B T read write teqb msrc cwd tree backup ov py pyi H. rewrite mfiles_overwrite_spec in *
    by (intros E; unfold merge_files in H; rewrite E in H; discriminate).
  cbn [f_res f_ov] in *. destruct (out_of _ _ _ _ _ _ _ _ _ _ _) as [| |pb a| |] eqn:Eo; try discriminate.
  apply out_of_changed_inv in Eo. destruct Eo as (sb & s & p & R1 & R2 & R3 & R4 & R5 & R6).
  exists sb, s, pb, p, a. repeat split; assumption.
Qed.
Print Assumptions merge_files_overwrite_writes_and_backs_up.

(* the returned flag is exactly 'merged text <> source text as read in text mode' (every mode) *)
Theorem merge_files_changed_flag_exact :
  forall (B T : Type) (read : B -> option T) (write : T -> B) (teqb : T -> T -> bool)
         (msrc : T -> T -> option T) (cwd : loc) (tree : node B) (backup : option name) 
         (ov : overlay B) (py pyi : pth) (m : mode) (ch : bool) (sb : B) (s : T) 
         (pb : B) (p a : T),
       (forall x y : T, teqb x y = true <-> x = y) ->
       st_read B tree ov (lexloc cwd pyi) = RFile sb ->
       read sb = Some s ->
       st_read B tree ov (lexloc cwd py) = RFile pb ->
       read pb = Some p ->
       msrc p s = Some a ->
       f_res B T (merge_files B T read write teqb msrc cwd tree ov py pyi m backup) = FOk ch ->
       ch = true <-> a <> p.
Proof. exact mfiles_changed_flag. Qed.
Print Assumptions merge_files_changed_flag_exact.

(* lifting to whole trees (contents = the mini syntax trees of Merge/Model.v, merge_sources = the model [merge v]; any equality test):
   every file afterwards is its original, or merge of its original with the stub the loop paired it with, or a backup copy *)
Theorem tree_files_are_own_merges :
  forall (v : variant) (teqb : list item -> list item -> bool) (cwd : loc) (tree : node (list item))
         (backup : option name) (fixed : bool) (top P : pth) (l : loc) (c' : list item),
       indep (list item) (list item) Some (fun t : list item => t) teqb (msrc_model v) cwd tree backup nil
         (jobs (list item) fixed cwd tree top P) ->
       no_raise (list item) (list item) Some teqb (msrc_model v) cwd tree backup nil
         (jobs (list item) fixed cwd tree top P) ->
       st_read (list item) tree
         (t_ov (list item)
            (merge_tree (list item) (list item) Some (fun t : list item => t) teqb 
               (msrc_model v) fixed cwd tree top P backup)) l = RFile c' ->
       st_read (list item) tree nil l = RFile c' \/
       (exists (j : pth * pth) (c s : list item),
          In j (jobs (list item) fixed cwd tree top P) /\
          l = lexloc cwd (fst j) /\
          st_read (list item) tree nil l = RFile c /\
          st_read (list item) tree nil (lexloc cwd (snd j)) = RFile s /\
          m_err (merge v c s) = false /\ c' = m_out (merge v c s)) \/
       (exists (j : pth * pth) (bk : name),
          In j (jobs (list item) fixed cwd tree top P) /\
          truthy backup = Some bk /\
          l = lexloc cwd (backup_path (fst j) bk) /\
          st_read (list item) tree nil (lexloc cwd (fst j)) = RFile c').
Proof. exact tree_file_cases. Qed.
Print Assumptions tree_files_are_own_merges.

(* existing_kept for whole trees *)
Theorem tree_existing_kept :
  forall (v : variant) (teqb : list item -> list item -> bool) (cwd : loc) (tree : node (list item))
         (backup : option name) (fixed : bool) (top P : pth) (l : loc) (c c' : list item),
       indep (list item) (list item) Some (fun t : list item => t) teqb (msrc_model v) cwd tree backup nil
         (jobs (list item) fixed cwd tree top P) ->
       no_raise (list item) (list item) Some teqb (msrc_model v) cwd tree backup nil
         (jobs (list item) fixed cwd tree top P) ->
       st_read (list item) tree nil l = RFile c ->
       st_read (list item) tree
         (t_ov (list item)
            (merge_tree (list item) (list item) Some (fun t : list item => t) teqb 
               (msrc_model v) fixed cwd tree top P backup)) l = RFile c' ->
       (forall (j : pth * pth) (bk : name),
        In j (jobs (list item) fixed cwd tree top P) ->
        truthy backup = Some bk -> l <> lexloc cwd (backup_path (fst j) bk)) ->
       forall (i : nat) (sl : slot) (a : expr),
       ann_at c i = Some sl ->
       s_ann sl = Some a ->
       exists sl' : slot,
         ann_at c' i = Some sl' /\
         s_qn sl' = s_qn sl /\ s_shape sl' = s_shape sl /\ s_which sl' = s_which sl /\ s_ann sl' = Some a.
Proof.
  intros v teqb cwd tree backup fixed top P l c c' Hi Hn H0 H1 Hbk i sl a Ha Hs. pattern c'.
  apply (tree_lift v teqb cwd tree backup fixed top P _ l c c' Hi Hn H0 H1 Hbk).
  - exists sl. repeat split; assumption.
  - intros. apply existing_kept; assumption.
Qed.
Print Assumptions tree_existing_kept.

(* no_bare_any_never_partial (returns) for whole trees *)
Theorem tree_no_bare_any_never_partial :
  forall (v : variant) (teqb : list item -> list item -> bool) (cwd : loc) (tree : node (list item))
         (backup : option name) (fixed : bool) (top P : pth) (l : loc) (c c' : list item),
       indep (list item) (list item) Some (fun t : list item => t) teqb (msrc_model v) cwd tree backup nil
         (jobs (list item) fixed cwd tree top P) ->
       no_raise (list item) (list item) Some teqb (msrc_model v) cwd tree backup nil
         (jobs (list item) fixed cwd tree top P) ->
       st_read (list item) tree nil l = RFile c ->
       st_read (list item) tree
         (t_ov (list item)
            (merge_tree (list item) (list item) Some (fun t : list item => t) teqb 
               (msrc_model v) fixed cwd tree top P backup)) l = RFile c' ->
       (forall (j : pth * pth) (bk : name),
        In j (jobs (list item) fixed cwd tree top P) ->
        truthy backup = Some bk -> l <> lexloc cwd (backup_path (fst j) bk)) ->
       (forall (j : pth * pth) (s : list item),
        In j (jobs (list item) fixed cwd tree top P) ->
        st_read (list item) tree nil (lexloc cwd (snd j)) = RFile s ->
        forallb (rets_ok not_dotted_any) s = true) ->
       forall (i : nat) (sl sl' : slot) (a : expr),
       ann_at c i = Some sl ->
       s_ann sl = None ->
       ann_at c' i = Some sl' -> s_ann sl' = Some a -> s_which sl = WRet -> bare_any_never a = false.
Proof.
  intros v teqb cwd tree backup fixed top P l c c' Hi Hn H0 H1 Hbk Hst i sl sl' a Ha Hs. revert sl'. pattern c'.
  apply (tree_lift v teqb cwd tree backup fixed top P _ l c c' Hi Hn H0 H1 Hbk).
  - intros sl' Ha'. congruence.
  - intros j s Hj _ Es _ sl'. apply no_bare_any_never_partial; auto. exact (Hst j s Hj Es).
Qed.
Print Assumptions tree_no_bare_any_never_partial.

(* inserted_from_stub_partial for whole trees: the inserted annotation is the one the file's OWN stub gives *)
Theorem tree_inserted_from_stub_partial :
  forall (v : variant) (teqb : list item -> list item -> bool) (cwd : loc) (tree : node (list item))
         (backup : option name) (fixed : bool) (top P : pth) (l : loc) (c c' : list item),
       indep (list item) (list item) Some (fun t : list item => t) teqb (msrc_model v) cwd tree backup nil
         (jobs (list item) fixed cwd tree top P) ->
       no_raise (list item) (list item) Some teqb (msrc_model v) cwd tree backup nil
         (jobs (list item) fixed cwd tree top P) ->
       st_read (list item) tree nil l = RFile c ->
       st_read (list item) tree
         (t_ov (list item)
            (merge_tree (list item) (list item) Some (fun t : list item => t) teqb 
               (msrc_model v) fixed cwd tree top P backup)) l = RFile c' ->
       (forall (j : pth * pth) (bk : name),
        In j (jobs (list item) fixed cwd tree top P) ->
        truthy backup = Some bk -> l <> lexloc cwd (backup_path (fst j) bk)) ->
       (forall (j : pth * pth) (s : list item),
        In j (jobs (list item) fixed cwd tree top P) ->
        l = lexloc cwd (fst j) ->
        st_read (list item) tree nil (lexloc cwd (snd j)) = RFile s ->
        dotted_free (filter_stub v s) = true /\
        m_leak (merge v c s) = false /\ m_clsdecl (merge v c s) = false) ->
       forall (i : nat) (sl sl' : slot) (a : expr),
       ann_at c i = Some sl ->
       s_ann sl = None ->
       ann_at c' i = Some sl' ->
       s_ann sl' = Some a ->
       exists (j : pth * pth) (s : list item) (a0 : expr),
         In j (jobs (list item) fixed cwd tree top P) /\
         l = lexloc cwd (fst j) /\
         st_read (list item) tree nil (lexloc cwd (snd j)) = RFile s /\
         stub_gives (stub_all (filter_stub v s)) sl a0 /\ same_ann a a0.
Proof.
  intros v teqb cwd tree backup fixed top P l c c' Hi Hn H0 H1 Hbk Hmon i sl sl' a Ha Hs. revert sl'. pattern c'.
  apply (tree_lift v teqb cwd tree backup fixed top P _ l c c' Hi Hn H0 H1 Hbk).
  - intros sl' Ha'. congruence.
  - intros j s Hj El Es Em sl' Ha' Hs'. destruct (Hmon j s Hj El Es) as (D1 & D2 & D3).
    destruct (filled_from_stub v c s i sl sl' a D1 D2 Ha Hs Ha' Hs') as (a0 & G1 & G2).
    exists j, s, a0. repeat split; assumption.
Qed.
Print Assumptions tree_inserted_from_stub_partial.

(* posixpath.relpath(root, top) for a root that lies ds below top *)
Theorem relpath_of_descendant :
  forall (cwd : list name) (root top : pth) (ds : list name),
       nsl cwd ->
       p_empty root = false ->
       lexloc cwd root = lexloc cwd top ++ ds ->
       relpath cwd root top =
       Some
         (if is_nil ds then {| p_abs := 0; p_comps := n_dot :: nil |} else {| p_abs := 0; p_comps := ds |}).
Proof. exact relpath_below. Qed.
Print Assumptions relpath_of_descendant.

(* posixpath.normpath never changes where a path leads (lexical resolution) *)
Theorem normpath_same_place :
  forall (cwd : loc) (p : pth), lexloc cwd (normpath p) = lexloc cwd p.
Proof. exact lexloc_normpath. Qed.
Print Assumptions normpath_same_place.

(* posixpath.join with a relative second argument continues the walk *)
Theorem join_continues_walk :
  forall (cwd : loc) (a b : pth),
       isabs b = false -> lexloc cwd (join a b) = lexwalk (lexloc cwd a) (p_comps b).
Proof. exact lexloc_join. Qed.
Print Assumptions join_continues_walk.

(* the component list relpath computes from abspath is the lexical location *)
Theorem abspath_components :
  forall (cwd : list name) (p : pth), nsl cwd -> abs_list cwd p = lexloc cwd p.
Proof. exact abs_list_loc. Qed.
Print Assumptions abspath_components.

(* refutations (witnesses by computation; toy merge_sources = stub text in front of the source text) *)
(* BEFORE b7143da (fixed = false): under the hypotheses of merge_tree_uses_own_stub, src/sub/a.py is NOT paired with
   s/sub/a.pyi but with a.pyi one directory ABOVE the stub root s; the tree merge then inserts the decoy's text (3) where the
   fixed loop inserts the own stub's (2). *)
Theorem merge_tree_before_fix_refuted :
  nsl nil /\ p_empty w_top = false /\
  (exists es, lookup _ w_tree (lexloc nil w_top) = Some (Dir es) /\ names_ok (walk_dirs _ (Dir es) nil)) /\
  In (lexloc nil w_top ++ nm_sub :: nm_a_py :: nil, removelast (lexloc nil w_P) ++ stub_name nm_a_py :: nil)
     (map (locs nil) (jobs _ false nil w_tree w_top w_P)) /\
  ~ In (lexloc nil w_top ++ nm_sub :: nm_a_py :: nil, lexloc nil w_P ++ nm_sub :: stub_name nm_a_py :: nil)
       (map (locs nil) (jobs _ false nil w_tree w_top w_P)) /\
  st_read _ w_tree (t_ov _ (merge_tree _ _ read_text write_text text_eqb toy_msrc false nil w_tree w_top w_P None))
          (nm_src :: nm_sub :: nm_a_py :: nil) = RFile (51 :: 121 :: 10 :: nil)%N /\
  st_read _ w_tree (t_ov _ (merge_tree _ _ read_text write_text text_eqb toy_msrc true nil w_tree w_top w_P None))
          (nm_src :: nm_sub :: nm_a_py :: nil) = RFile (50 :: 121 :: 10 :: nil)%N.
Proof.
  split; [constructor|]. split; [reflexivity|]. split.
  { eexists. split; [vm_compute; reflexivity|]. unfold names_ok, nsl. vm_compute. repeat constructor. }
  split; [vm_compute; auto|]. split; [vm_compute; intuition discriminate|].
  split; vm_compute; reflexivity.
Qed.
Print Assumptions merge_tree_before_fix_refuted.

(* merge_tree_unchanged_elsewhere WITHOUT indep (both variants): stubs next to the sources, backup extension "pyi": the backup
   of a.py is a.py.pyi, which the loop then takes for the stub of a.py.py - a file that has no stub is rewritten. *)
Theorem merge_tree_backup_collision_refuted :
  let js := jobs _ false nil c_tree c_top c_top in
  let jsf := jobs _ true nil c_tree c_top c_top in
  js = jsf /\
  no_raise _ _ read_text text_eqb toy_msrc nil c_tree c_bk nil jsf /\
  (forall j, In j jsf ->
     ~ In (nm_d :: nm_a_py_py :: nil)
          (map fst (jwrites _ _ read_text write_text text_eqb toy_msrc nil c_tree c_bk nil j))) /\
  st_read _ c_tree nil (nm_d :: nm_a_py_py :: nil) = RFile (121 :: 10 :: nil)%N /\
  st_read _ c_tree (t_ov _ (merge_tree _ _ read_text write_text text_eqb toy_msrc true nil c_tree c_top c_top c_bk))
          (nm_d :: nm_a_py_py :: nil) = RFile (120 :: 10 :: 121 :: 10 :: nil)%N.
Proof.
  cbv zeta. split; [vm_compute; reflexivity|]. split.
  { intros j Hj. vm_compute in Hj. destruct Hj as [<-|[<-|[]]]; vm_compute; reflexivity. }
  split.
  { intros j Hj. vm_compute in Hj. destruct Hj as [<-|[<-|[]]]; vm_compute; intuition discriminate. }
  split; vm_compute; reflexivity.
Qed.
Print Assumptions merge_tree_backup_collision_refuted.

(* "errors are collected per file" WITHOUT no_raise: a source that is not valid utf-8 raises UnicodeDecodeError, which is
   not a MergeError: merge_tree stops, nothing is recorded in the error list, and b.py (which has a stub that changes
   it) is never merged. *)
Theorem merge_tree_errors_per_file_refuted :
  let r := merge_tree _ _ read_text write_text text_eqb toy_msrc true nil u_tree c_top c_top None in
  t_raised _ r = true /\ t_ov _ r = nil /\ t_errors _ r = nil /\
  exists j, In j (jobs _ true nil u_tree c_top c_top) /\
            is_changed _ _ (jo _ _ read_text text_eqb toy_msrc nil u_tree None nil j) = true.
Proof.
  cbv zeta. split; [vm_compute; reflexivity|]. split; [vm_compute; reflexivity|]. split; [vm_compute; reflexivity|].
  exists (join1 c_top nm_b_py, join1 c_top (stub_name nm_b_py)). split; vm_compute; auto.
Qed.
Print Assumptions merge_tree_errors_per_file_refuted.

(* text mode: what open(p).read() returns never contains a carriage return (universal newlines), so a rewritten file
   (write_text leaves \n alone on Linux) has LF line ends whatever the original had; the backup keeps the original bytes. *)
Theorem text_mode_read_has_no_cr : forall (b t : list N), read_text b = Some t -> ~ In 13%N t.
Proof.
  intros b t. unfold read_text. destruct (utf8_decode (length b) b); [|discriminate]. cbn [option_map].
  intros E. inversion E. apply universal_newlines_no_cr.
Qed.
Print Assumptions text_mode_read_has_no_cr.

(* non-vacuity: on the witness tree with the FIXED loop and backup extension "bak" all hypotheses of the tree theorems
   hold, both sources are rewritten from their own stubs, both backups hold the originals, the changed list is complete *)
Definition demo_bk : option name := Some (98 :: 97 :: 107 :: nil)%N.
Example tree_hypotheses_hold :
  let js := jobs _ true nil w_tree w_top w_P in
  let r := merge_tree _ _ read_text write_text text_eqb toy_msrc true nil w_tree w_top w_P demo_bk in
  indep _ _ read_text write_text text_eqb toy_msrc nil w_tree demo_bk nil js /\
  no_raise _ _ read_text text_eqb toy_msrc nil w_tree demo_bk nil js /\
  NoDup (map fst (flat_map (jwrites _ _ read_text write_text text_eqb toy_msrc nil w_tree demo_bk nil) (rev js))) /\
  length (t_ov _ r) = 4 /\ t_changed _ r = map fst js /\ t_errors _ r = nil /\
  st_read _ w_tree (t_ov _ r) (nm_src :: nm_a_py :: nil) = RFile (49 :: 120 :: 10 :: nil)%N /\
  st_read _ w_tree (t_ov _ r) (nm_src :: nm_sub :: nm_a_py :: nil) = RFile (50 :: 121 :: 10 :: nil)%N.
Proof.
  cbv zeta. split.
  { vm_compute. split; [|split; [|exact I]]; intros j l Hj Hl; [|destruct Hj].
    destruct Hj as [<-|[]]. destruct Hl as [<-|[<-|[]]]; split; discriminate. }
  split.
  { intros j Hj. vm_compute in Hj. destruct Hj as [<-|[<-|[]]]; vm_compute; reflexivity. }
  split.
  { vm_compute. repeat constructor; cbn; intuition discriminate. }
  repeat split; vm_compute; reflexivity.
Qed.
Example crlf_is_rewritten_as_lf :
  read_text (120 :: 13 :: 10 :: 121 :: 13 :: 122 :: 10 :: nil)%N = Some (120 :: 10 :: 121 :: 10 :: 122 :: 10 :: nil)%N /\
  write_text (120 :: 10 :: 233 :: nil)%N = (120 :: 10 :: 195 :: 169 :: nil)%N /\
  read_text (255 :: nil)%N = None.
Proof. vm_compute. repeat split; reflexivity. Qed.


(* PROCESS LEVEL (Merge/Ctx.v): the state that could outlive one merge inside one Python process - the libcst CodemodContext
   (its pending-imports queue scratch["AddImportsVisitor"], modelled concretely on the mini syntax trees by [merge_in]) and
   a memo of stub texts per path string - threaded through merge_files / merge_tree / main and through HISTORIES of calls
   interleaved with outside writes.  [share] / [memo] = false is the code as written (a `CodemodContext()` per merge_sources
   call, the stub file opened on every merge_files call); true are the two ways of keeping state across files that the check
   probes for on every run (correspondence "context variant" / "history"). *)
From PV Require Import Merge.Ctx Merge.CtxProofs.

(* a sequence of merges with a context of its own each = the single-file merges: no cross-file state (mini-tree model) *)
Theorem merge_seq_is_pointwise :
  forall (v : variant) (l : list (list item * list item)) (cx : ctx),
       merge_seq v false cx l = map (fun ps : list item * list item => merge v (fst ps) (snd ps)) l.
Proof.
  intros v. induction l as [|[p s] r IH]; intros cx; [reflexivity|].
  cbn [merge_seq map fst snd]. rewrite merge_in_fresh. rewrite IH. reflexivity.
Qed.
Print Assumptions merge_seq_is_pointwise.

(* what a context carries from one merge to the next: everything it held, then the import requests of this stub; the other
   outputs of a merge (error, monitors, fresh classes) do not depend on the context *)
Theorem context_accumulates_import_requests :
  forall (v : variant) (cx : ctx) (p s : list item),
       snd (merge_in v cx p s) = cx ++ m_needs (merge v p s) /\
       m_err (fst (merge_in v cx p s)) = m_err (merge v p s) /\
       m_leak (fst (merge_in v cx p s)) = m_leak (merge v p s) /\
       m_clsdecl (fst (merge_in v cx p s)) = m_clsdecl (merge v p s) /\
       m_fresh (fst (merge_in v cx p s)) = m_fresh (merge v p s) /\
       m_generic (fst (merge_in v cx p s)) = m_generic (merge v p s) /\
       m_needs (fst (merge_in v cx p s)) = cx ++ m_needs (merge v p s).
Proof.
  intros v cx p s. destruct (merge_in_eq v cx p s) as (out & ->). repeat split.
Qed.
Print Assumptions context_accumulates_import_requests.

(* merge_tree_is_pointwise, part 1: for ANY context type and ANY context-passing merge_sources, merge_tree as written (no
   context handed down) is Merge/Files.v's merge_tree over the pure function "merge_sources in a fresh context" *)
Theorem merge_tree_has_no_cross_file_state :
  forall (B T C : Type) (read : B -> option T) (write : T -> B) (teqb : T -> T -> bool)
         (fresh : C) (msrcC : C -> T -> T -> option T * C) (cwd : loc) (tree : node B) (fixed : bool)
         (mm : list (pth * T)) (top P : pth) (bk : option name),
       tc_st B T C (merge_tree_c B T C read write teqb fresh msrcC false false fixed cwd tree nil mm top P bk) =
       merge_tree B T read write teqb (msrc_fresh T C fresh msrcC) fixed cwd tree top P bk.
Proof.
  intros. rewrite merge_tree_c_plain. reflexivity.
Qed.
Print Assumptions merge_tree_has_no_cross_file_state.

(* merge_tree_is_pointwise, part 2: the files written, the changed list and the error list are those of merge_files run alone
   on the ORIGINAL file system with a context of its own (jo nil j); files without stub are untouched (jo = JSkip writes
   nothing: merge_tree_no_stub_skipped); hypotheses as for merge_tree_is_map, both necessary *)
Theorem merge_tree_is_pointwise :
  forall (B T C : Type) (read : B -> option T) (write : T -> B) (teqb : T -> T -> bool)
         (fresh : C) (msrcC : C -> T -> T -> option T * C) (cwd : loc) (tree : node B) (fixed : bool)
         (mm : list (pth * T)) (top P : pth) (bk : option name),
       let js := jobs B fixed cwd tree top P in
       let r :=
         tc_st B T C (merge_tree_c B T C read write teqb fresh msrcC false false fixed cwd tree nil mm top P bk) in
       indep B T read write teqb (msrc_fresh T C fresh msrcC) cwd tree bk nil js ->
       no_raise B T read teqb (msrc_fresh T C fresh msrcC) cwd tree bk nil js ->
       t_ov B r = flat_map (jwrites B T read write teqb (msrc_fresh T C fresh msrcC) cwd tree bk nil) (rev js) /\
       t_changed B r =
       map fst
         (filter
            (fun j : pth * pth => is_changed B T (jo B T read teqb (msrc_fresh T C fresh msrcC) cwd tree bk nil j))
            js) /\
       t_errors B r =
       map fst
         (filter (fun j : pth * pth => is_err B T (jo B T read teqb (msrc_fresh T C fresh msrcC) cwd tree bk nil j))
            js) /\
       t_raised B r = false /\
       tc_memo B T C (merge_tree_c B T C read write teqb fresh msrcC false false fixed cwd tree nil mm top P bk) = mm.
Proof.
  intros B T C read write teqb fresh msrcC cwd tree fixed mm top P bk. cbv zeta. intros Hi Hn.
  rewrite merge_tree_has_no_cross_file_state.
  destruct (merge_tree_is_map _ _ _ _ _ _ _ _ _ _ _ _ Hi Hn) as (H1 & H2 & H3 & H4).
  repeat split; auto. rewrite merge_tree_c_plain. reflexivity.
Qed.
Print Assumptions merge_tree_is_pointwise.

(* the lifting: with the mini-tree model of the context plugged in, merge_tree as written is merge_tree over [msrc_model v] - the
   premise of tree_files_are_own_merges / tree_existing_kept / tree_inserted_from_stub_partial / tree_no_bare_any_never_partial,
   which therefore hold for it pointwise, file by file *)
Theorem merge_tree_with_context_model_lifts :
  forall (v : variant) (teqb : list item -> list item -> bool) (cwd : loc) (tree : node (list item)) (fixed : bool)
         (mm : list (pth * list item)) (top P : pth) (bk : option name),
       tc_st (list item) (list item) ctx
         (merge_tree_c (list item) (list item) ctx Some (fun t : list item => t) teqb ctx0 (msrcC_model v)
            false false fixed cwd tree nil mm top P bk) =
       merge_tree (list item) (list item) Some (fun t : list item => t) teqb (msrc_model v) fixed cwd tree top P bk.
Proof.
  intros. rewrite merge_tree_has_no_cross_file_state. apply merge_tree_ext. apply msrc_fresh_model.
Qed.
Print Assumptions merge_tree_with_context_model_lifts.

(* REFUTED with one context for the whole tree (share = true; the seeded change C20-shared-codemod-context-leaks-imports):
   a.py's stub imports Fraction, b.py's stub imports nothing; b.py still receives `from fractions import Fraction`, which its
   own stub never requested, and no longer erases to the original *)
Theorem merge_seq_shared_context_refuted :
  map m_out (merge_seq Fixed false ctx0 w_seq) = m_out (merge Fixed wa_p wa_s) :: wb_out_fresh :: nil /\
  map m_out (merge_seq Fixed true ctx0 w_seq) = m_out (merge Fixed wa_p wa_s) :: wb_out_shared :: nil /\
  m_needs (merge Fixed wb_p wb_s) = nil /\
  imports_own (m_needs (merge Fixed wb_p wb_s)) wb_out_fresh = true /\
  imports_own (m_needs (merge Fixed wb_p wb_s)) wb_out_shared = false /\
  erase wb_out_fresh = erase wb_p /\ erase wb_out_shared <> erase wb_p.
Proof.
  vm_compute. repeat split; try reflexivity. discriminate.
Qed.
Print Assumptions merge_seq_shared_context_refuted.

Theorem merge_tree_shared_context_refuted :
  st_read (list item) s_tree (t_ov (list item) (tc_st (list item) (list item) ctx (s_run false)))
    (nm_src :: nm_b_py :: nil) = RFile wb_out_fresh /\
  st_read (list item) s_tree (t_ov (list item) (tc_st (list item) (list item) ctx (s_run true)))
    (nm_src :: nm_b_py :: nil) = RFile wb_out_shared /\
  msrc_model Fixed wb_p wb_s = Some wb_out_fresh /\
  st_read (list item) s_tree (t_ov (list item) (tc_st (list item) (list item) ctx (s_run true)))
    (nm_src :: nm_a_py :: nil) =
  st_read (list item) s_tree (t_ov (list item) (tc_st (list item) (list item) ctx (s_run false)))
    (nm_src :: nm_a_py :: nil).
Proof.
  vm_compute. repeat split; reflexivity.
Qed.
Print Assumptions merge_tree_shared_context_refuted.

(* histories: merge_files / merge_tree / main calls and outside writes in ONE process give, step by step, the outcomes and the
   file system that a NEW process per operation gives (fresh_history): nothing is remembered between calls *)
Theorem history_is_stateless :
  forall (B T C : Type) (read : B -> option T) (write : T -> B) (teqb : T -> T -> bool)
         (fresh : C) (msrcC : C -> T -> T -> option T * C) (cwd : loc) (tree : node B) (fixed : bool)
         (ops : list (op B)) (h : hstate B T),
       let '(h', xs) := run_history B T C read write teqb fresh msrcC false false fixed cwd tree h ops in
       (h_ov B T h', xs) = fresh_history B T C read write teqb fresh msrcC fixed cwd tree (h_ov B T h) ops.
Proof.
  intros B T C read write teqb fresh msrcC cwd tree fixed.
  induction ops as [|o r IH]; intros h; [reflexivity|].
  cbn [run_history fresh_history].
  pose proof (h_step_plain B T C read write teqb fresh msrcC cwd tree fixed h o) as Hs.
  destruct (h_step B T C read write teqb fresh msrcC false false fixed cwd tree h o) as [h1 x].
  destruct Hs as [Hs _]. rewrite <- Hs.
  specialize (IH h1).
  destruct (run_history B T C read write teqb fresh msrcC false false fixed cwd tree h1 r) as [h2 xs].
  rewrite <- IH. reflexivity.
Qed.
Print Assumptions history_is_stateless.

(* REFUTED with the stub text remembered per path string (memo = true; the seeded change C20-stub-read-memoised-per-path):
   merge, put the source back, rewrite the stub (49 -> 50), merge again: the OLD stub's text is inserted *)
Theorem history_memoised_stub_refuted :
  (st_read (list N) m_tree (h_ov (list N) (list N) (fst (m_run false))) (nm_d :: nm_a_py :: nil) =
   RFile (50 :: 120 :: 10 :: nil) /\
   st_read (list N) m_tree (h_ov (list N) (list N) (fst (m_run true))) (nm_d :: nm_a_py :: nil) =
   RFile (49 :: 120 :: 10 :: nil) /\
   st_read (list N) m_tree (h_ov (list N) (list N) (fst (m_run true))) (nm_d :: stub_name nm_a_py :: nil) =
   RFile (50 :: nil) /\
   fst (fresh_history (list N) (list N) unit read_text write_text text_eqb tt toy_msrcC true nil m_tree nil m_ops) =
   h_ov (list N) (list N) (fst (m_run false)))%N.
Proof.
  vm_compute. repeat split; reflexivity.
Qed.
Print Assumptions history_memoised_stub_refuted.

(* main(): without -i/--in-place no file is ever written (PRINT and DIFF), whatever state the process carries *)
Theorem main_without_in_place_never_writes :
  forall (B T C : Type) (read : B -> option T) (write : T -> B) (teqb : T -> T -> bool)
         (fresh : C) (msrcC : C -> T -> T -> option T * C) (cwd : loc) (tree : node B) (share memo fixed : bool)
         (h : hstate B T) (df : bool) (bk : option name) (py pyi : pth),
       h_ov B T
         (fst (h_step B T C read write teqb fresh msrcC share memo fixed cwd tree h (OpMain false df bk py pyi))) =
       h_ov B T h.
Proof. exact main_no_inplace_never_writes. Qed.
Print Assumptions main_without_in_place_never_writes.

(* main(): a non-empty -b without -i is a usage error: nothing is read, nothing is written, nothing is remembered *)
Theorem main_backup_requires_in_place :
  forall (B T C : Type) (read : B -> option T) (write : T -> B) (teqb : T -> T -> bool)
         (fresh : C) (msrcC : C -> T -> T -> option T * C) (cwd : loc) (tree : node B) (share memo fixed : bool)
         (h : hstate B T) (df : bool) (bk : option name) (n : name) (py pyi : pth),
       truthy bk = Some n ->
       h_step B T C read write teqb fresh msrcC share memo fixed cwd tree h (OpMain false df bk py pyi) = (h, OUsage).
Proof.
  intros until pyi. intros E. cbn [h_step]. rewrite E. reflexivity.
Qed.
Print Assumptions main_backup_requires_in_place.

(* non-vacuity: on the two-file witness tree the hypotheses of merge_tree_is_pointwise hold and both files change *)
Example pointwise_hypotheses_hold :
  let js := jobs (list item) true nil s_tree w_top w_P in
  indep _ _ Some (fun t : list item => t) it_eqb (msrc_fresh _ _ ctx0 (msrcC_model Fixed)) nil s_tree None nil js /\
  no_raise _ _ Some it_eqb (msrc_fresh _ _ ctx0 (msrcC_model Fixed)) nil s_tree None nil js /\
  length js = 2%nat /\
  length (t_changed _ (tc_st _ _ _ (s_run false))) = 2%nat.
Proof.
  cbv zeta. split.
  { vm_compute. split; [|split; [|exact I]]; intros j l Hj Hl; [|destruct Hj].
    destruct Hj as [<-|[]]. destruct Hl as [<-|[]]; split; discriminate. }
  split.
  { intros j Hj. vm_compute in Hj. destruct Hj as [<-|[<-|[]]]; vm_compute; reflexivity. }
  split; vm_compute; reflexivity.
Qed.
