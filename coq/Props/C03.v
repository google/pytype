(* C03 — a disable comment on the reported line silences exactly that error.
   Property theorems (each followed by Print Assumptions) and non-vacuity examples.
   Model: Directors/Model.v (executable, tied to pytype/directors/directors.py by the correspondence check);
   vocabulary: Directors/Spec.v; lemmas: Directors/ (Proofs.v for the Director, Parser*.v for the parser,
   ErrorLog*.v for the error log).

   Reading guide.  D, D' are the flattened outputs of the real parser (one event per (line range, comment)
   pair, in processing order) for the program before and after the edit; g is the `disable` option, fr the
   parser's function ranges, rl its return lines.  [inserted P D D' A] says D' is D plus the events A.
   An error is (same file, line l0, class, "raised by a RETURN opcode"); filter_error returns
   (logged?, line the error carries afterwards).  [reported_line] is that final line: l0 except for an
   implicit `return None`, which filter_error moves to the end of the enclosing function. *)
From Coq Require Import ZArith List Bool Arith NArith Sorting.Sorted.
From PV Require Import Generated.C03_ErrorClasses Directors.Model Directors.Spec Directors.Proofs.
From Coq Require Import Sorting.Permutation Lia.
From PV Require Import Directors.Parser Directors.ParserSpec Directors.ParserProofs Directors.ParserOrder Directors.ParserNest Directors.ParserIns Directors.ParserE2E.
From PV Require Import Directors.ErrorLog Directors.ErrorLogProofs Directors.ErrorLogE2E.
Import ListNotations.
Open Scope Z_scope.

(* _LineSet *)

(* membership = the per-line entry if there is one, else the parity of the number of transitions <= l
   (what bisect returns on the sorted transition list) *)
Theorem lineset_contains_spec : forall ls l, StronglySorted Z.lt (ls_trans ls) ->
  contains ls l = match dict_get l (ls_lines ls) with
                  | Some b => b
                  | None => Nat.odd (length (filter (fun t => t <=? l) (ls_trans ls)))
                  end.
Proof. exact contains_sem. Qed.
Print Assumptions lineset_contains_spec.

(* membership in terms of the history of calls: the last set_line(l, b) wins; otherwise the last
   start_range(p, m) with p <= l decides; otherwise not a member.  For every history whose start_range
   lines are non-decreasing and >= 0 (the order in which the director sees stand-alone comments). *)
Theorem lineset_spec : forall ops ls l, mono_from 0 ops -> run_ops ls_empty ops = Ok ls ->
  contains ls l =
  match last_set ops l with
  | Some b => b
  | None => match range_last ops l with Some m => m | None => false end
  end.
Proof. exact contains_from_empty. Qed.
Print Assumptions lineset_spec.

(* ... and such a history never raises (no ValueError / IndexError from start_range) *)
Theorem lineset_never_raises : forall ops, mono_from 0 ops -> exists ls, run_ops ls_empty ops = Ok ls.
Proof.
  intros ops Hm.
  destruct (run_ops_sem ops ls_empty 0 (Z.le_refl 0) (inv_b_empty 0) Hm) as (ls' & H1 & _). eauto.
Qed.
Print Assumptions lineset_never_raises.

(* trailing "# pytype: disable=E" *)

(* The guarantee quoted in directors.py.  The comment (trailing, on line L, naming E) sits in a range
   [cev] that keeps class E (a statement range keeps every class; a call range only function-call classes).
   Every error of class E whose reported line is L — or the range's start line when E is adjustable — is
   filtered, whatever else the file contains (other directives, global disables, any function ranges),
   PROVIDED no trailing enable=E is processed after it. *)
Theorem trailing_disable_silences : forall g fr rl D1 D2 cev st e l0 lr L E,
  ev_comment cev = trailing_disable L E ->
  accepted_name E = true -> keep (ev_call cev) E = true ->
  Forall (fun ev => trailing_enable_of E (ev_comment ev) = false) D2 ->
  build_events g fr (D1 ++ cev :: D2) = Ok st ->
  e_same_file e = true -> e_line e = Some l0 -> e_name e = E ->
  reported_line st rl e l0 = Ok lr ->
  (eff_line lr = L \/ eff_line lr = adjust_line L E (ev_start cev)) ->
  filter_error st rl e = Ok (false, Some lr).
Proof. exact silences_lemma. Qed.
Print Assumptions trailing_disable_silences.

(* the side condition is necessary: a trailing enable=E on a later line of the same statement undoes it *)
Theorem trailing_disable_silences_refuted :
  exists E D1 cev D2,
    is_adjustable E = true /\ accepted_name E = true /\
    ev_comment cev = trailing_disable 2 E /\ ev_call cev = false /\ ev_start cev <= 2 <= ev_end cev /\
    verdict_events [] [] [] (D1 ++ cev :: D2) (same_file_err 2 E false) = Ok (true, Some 2).
Proof.
  exists witness_class, [], (mkE false 2 3 (trailing_disable 2 witness_class)),
         [mkE false 2 3 (mkC 3 (Pytype [CEnable [witness_class]]) false)].
  vm_compute. repeat split; try reflexivity; discriminate.
Qed.
Print Assumptions trailing_disable_silences_refuted.

(* filter_error rewrites the line only for implicit returns *)
Theorem reported_line_plain : forall st rl e l0, plain_error rl e l0 -> reported_line st rl e l0 = Ok l0.
Proof. exact plain_reported. Qed.
Print Assumptions reported_line_plain.

(* Frame: adding the copies [Ad] of a trailing disable=E on line L (one per range it sits in) never makes
   the construction raise, and the verdict of every error is unchanged except for class E (or every class
   when E is the wildcard) on the lines in [touched_disable E L Ad] = L and the start line of each keeping
   range — provided the error's reported line itself is unchanged (see the _line_refuted theorem). *)
Theorem trailing_disable_frame : forall g fr rl D D' Ad L E st,
  inserted (fun ev => ev_comment ev = trailing_disable L E) D D' Ad ->
  build_events g fr D = Ok st ->
  exists st', build_events g fr D' = Ok st' /\
    forall e l0 lr, e_same_file e = true -> e_line e = Some l0 ->
      reported_line st rl e l0 = Ok lr -> reported_line st' rl e l0 = Ok lr ->
      (e_name e <> E /\ E <> all_errors) \/ ~ In (eff_line lr) (touched_disable E L Ad) ->
      filter_error st' rl e = filter_error st rl e.
Proof. exact disable_frame_full. Qed.
Print Assumptions trailing_disable_frame.

(* the reported-line hypothesis is necessary: the comment's statement range makes _parse_src_tree move the
   end of the enclosing function, so an implicit-return error of ANOTHER class is reported elsewhere *)
Theorem trailing_disable_frame_line_refuted :
  exists E L fr D D' Ad e l1 l2,
    E <> all_errors /\ e_name e <> E /\
    inserted (fun ev => ev_comment ev = trailing_disable L E /\ ev_start ev <= L <= ev_end ev) D D' Ad /\
    verdict_events [] fr [] D e = Ok (true, Some l1) /\
    verdict_events [] fr [] D' e = Ok (true, Some l2) /\ l1 <> l2.
Proof.
  exists witness_class, 4, [(2, 4)], [], [mkE false 3 4 (trailing_disable 4 witness_class)],
         [mkE false 3 4 (trailing_disable 4 witness_class)],
         (mkErr true (Some 3) implicit_return_error true), 4, 3.
  split; [vm_compute; discriminate|]. split; [vm_compute; discriminate|].
  split; [constructor; [split; [reflexivity | simpl; lia] | constructor]|].
  split; [vm_compute; reflexivity|]. split; [vm_compute; reflexivity | discriminate].
Qed.
Print Assumptions trailing_disable_frame_line_refuted.

(* the full statement "silences exactly that error" *)

(* REFUTED on the faithful model, for every adjustable class: the directive on the last line of a
   two-line statement also silences class E on the statement's first line. *)
Theorem exactly_that_error_refuted : forall E, is_adjustable E = true -> accepted_name E = true ->
  let D := @nil event in
  let D' := [mkE false 3 4 (trailing_disable 4 E)] in
  let e2 := same_file_err 3 E false in
  inserted (fun ev => ev_comment ev = trailing_disable 4 E /\ ev_start ev <= 4 <= ev_end ev) D D' D' /\
  verdict_events [] [] [] D e2 = Ok (true, Some 3) /\
  verdict_events [] [] [] D' e2 = Ok (false, Some 3).
Proof. exact exactly_refuted_lemma. Qed.
Print Assumptions exactly_that_error_refuted.

(* PARTIAL: when every range the comment sits in starts on L itself or E is not adjustable, no trailing
   enable=E exists, and reported lines are stable: the errors of class E reported on L are silenced and
   every other (line, class) keeps its verdict. *)
Theorem exactly_that_error_partial : forall g fr rl D D' Ad L E st,
  inserted (fun ev => ev_comment ev = trailing_disable L E /\
                      (is_adjustable E = false \/ ev_start ev = L)) D D' Ad ->
  (exists cev, In cev Ad /\ ev_call cev = false) ->
  Forall (fun ev => trailing_enable_of E (ev_comment ev) = false) D' ->
  accepted_name E = true -> E <> all_errors ->
  build_events g fr D = Ok st ->
  exists st', build_events g fr D' = Ok st' /\
    forall e l0 lr, e_same_file e = true -> e_line e = Some l0 ->
      reported_line st rl e l0 = Ok lr -> reported_line st' rl e l0 = Ok lr ->
      (e_name e = E /\ eff_line lr = L -> filter_error st' rl e = Ok (false, Some lr)) /\
      (~ (e_name e = E /\ eff_line lr = L) -> filter_error st' rl e = filter_error st rl e).
Proof. exact exactly_partial_lemma. Qed.
Print Assumptions exactly_that_error_partial.

(* trailing "# type: ignore" *)

(* unconditional: nothing can take a line out of the ignore set *)
Theorem type_ignore_silences : forall g fr rl D1 D2 cev st e l0 lr L,
  ev_comment cev = trailing_ignore L ->
  build_events g fr (D1 ++ cev :: D2) = Ok st ->
  e_same_file e = true -> e_line e = Some l0 ->
  reported_line st rl e l0 = Ok lr ->
  (eff_line lr = L \/ eff_line lr = ev_start cev) ->
  filter_error st rl e = Ok (false, Some lr).
Proof.
  intros g fr rl D1 D2 cev st e l0 lr L Hc Hb Hsf Hl Hr Hlr.
  apply (filter_error_silenced _ _ _ _ _ Hsf Hl Hr). exists TIgn. split; [auto|].
  destruct (build_ops _ _ _ _ Hb) as [Hops _].
  apply (contains_written _ _ _ _ _ _ _ (Hops TIgn)); [|apply events_ops_ign_true].
  unfold event_ops. rewrite Hc. simpl.
  destruct Hlr as [->| ->]; rewrite Z.eqb_refl; [destruct (L =? _)|]; reflexivity.
Qed.
Print Assumptions type_ignore_silences.

Theorem type_ignore_frame : forall g fr rl D D' Ad L st,
  inserted (fun ev => ev_comment ev = trailing_ignore L) D D' Ad ->
  build_events g fr D = Ok st ->
  exists st', build_events g fr D' = Ok st' /\
    forall e l0 lr, e_same_file e = true -> e_line e = Some l0 ->
      reported_line st rl e l0 = Ok lr -> reported_line st' rl e l0 = Ok lr ->
      ~ In (eff_line lr) (touched_ignore L Ad) ->
      filter_error st' rl e = filter_error st rl e.
Proof.
  intros g fr rl D D' Ad L st Hins Hb.
  pose proof (inserted_in _ _ _ _ Hins Ad (incl_refl _)) as Hins2.
  destruct (insert_frame _ (fun T l => T = TIgn /\ In l (touched_ignore L Ad)) g fr D D' Ad st
              (fun ev T H => trailing_ignore_writes ev L Ad T (proj1 H) (proj2 H)) Hins2 Hb)
    as (st' & Hb' & Hrel).
  exists st'. split; [exact Hb'|]. intros e l0 lr Hsf Hl Hr Hr' Hcase.
  apply (filter_error_same _ _ _ _ _ _ Hsf Hl Hr Hr'). intros T _. symmetry.
  apply (contains_rel _ _ _ _ (Hrel T)). intros [_ Hin]. contradiction.
Qed.
Print Assumptions type_ignore_frame.

(* stand-alone directives *)

(* disable=E on its own line L ... enable=E on its own line M > L, no stand-alone directive naming E in
   between, E not already range-disabled at L (`previous` is False in start_range), stand-alone comments
   seen in line order: the verdict changes exactly for class E (every class for the wildcard) on
   L <= line < M, where it becomes "filtered" unless a per-line enable entry exists; nowhere else. *)
Theorem standalone_disable_range : forall g fr rl D1 Dmid D2 L M E sL eL sM eM st1 st st',
  accepted_name E = true -> L < M ->
  let evL := mkE false sL eL (standalone_disable L E) in
  let evM := mkE false sM eM (standalone_enable M E) in
  open_mono 0 (D1 ++ evL :: Dmid ++ evM :: D2) ->
  Forall (fun ev => open_directive_of E (ev_comment ev) = false) Dmid ->
  build_events g fr D1 = Ok st1 ->
  Nat.odd (length (ls_trans (dis_get (d_dis st1) E))) = false ->
  build_events g fr (D1 ++ Dmid ++ D2) = Ok st ->
  build_events g fr (D1 ++ evL :: Dmid ++ evM :: D2) = Ok st' ->
  forall e l0 lr, e_same_file e = true -> e_line e = Some l0 ->
    reported_line st rl e l0 = Ok lr -> reported_line st' rl e l0 = Ok lr ->
    ((e_name e <> E /\ E <> all_errors) \/ ~ (L <= eff_line lr < M) ->
       filter_error st' rl e = filter_error st rl e) /\
    ((e_name e = E \/ E = all_errors) -> L <= eff_line lr < M ->
       dict_get (eff_line lr) (ls_lines (dis_get (d_dis st) E)) <> Some false ->
       filter_error st' rl e = Ok (false, Some lr)).
Proof.
  intros g fr rl D1 Dmid D2 L M E sL eL sM eM st1 st st' Hacc HLM evL evM Hmono Hmid Hb1 Hoff Hb Hb'
         e l0 lr Hsf Hl Hr Hr'.
  destruct (standalone_filter _ E rl st st'
              (standalone_pair_state g fr D1 Dmid D2 L M E sL eL sM eM st1 st st' Hacc HLM Hmono Hmid Hb1 Hoff Hb Hb')
              e l0 lr Hsf Hl Hr Hr') as [Hsame Hsil].
  split.
  - intros [Hc|Hc]; apply Hsame; [left; exact Hc | right].
    apply andb_false_iff. destruct (Z.leb_spec L (eff_line lr)); [right; apply Z.ltb_ge; lia | left; reflexivity].
  - intros Hname Hin. apply Hsil; [exact Hname|].
    apply andb_true_iff. split; [apply Z.leb_le | apply Z.ltb_lt]; apply Hin.
Qed.
Print Assumptions standalone_disable_range.

(* without a matching enable: to the end of the file (line 0 = "below the file" included) *)
Theorem standalone_disable_to_eof : forall g fr rl D1 D2 L E sL eL st st',
  accepted_name E = true ->
  let evL := mkE false sL eL (standalone_disable L E) in
  open_mono 0 (D1 ++ evL :: D2) ->
  Forall (fun ev => open_directive_of E (ev_comment ev) = false) D2 ->
  build_events g fr (D1 ++ D2) = Ok st ->
  build_events g fr (D1 ++ evL :: D2) = Ok st' ->
  forall e l0 lr, e_same_file e = true -> e_line e = Some l0 ->
    reported_line st rl e l0 = Ok lr -> reported_line st' rl e l0 = Ok lr ->
    ((e_name e <> E /\ E <> all_errors) \/ eff_line lr < L ->
       filter_error st' rl e = filter_error st rl e) /\
    ((e_name e = E \/ E = all_errors) -> L <= eff_line lr ->
       dict_get (eff_line lr) (ls_lines (dis_get (d_dis st) E)) <> Some false ->
       filter_error st' rl e = Ok (false, Some lr)).
Proof.
  intros g fr rl D1 D2 L E sL eL st st' Hacc evL Hmono HD2 Hb Hb' e l0 lr Hsf Hl Hr Hr'.
  destruct (standalone_filter _ E rl st st' (standalone_eof_state g fr D1 D2 L E sL eL st st' Hacc Hmono HD2 Hb Hb')
              e l0 lr Hsf Hl Hr Hr') as [Hsame Hsil].
  split.
  - intros [Hc|Hc]; apply Hsame; [left; exact Hc | right; apply Z.leb_gt; exact Hc].
  - intros Hname Hin. apply Hsil; [exact Hname | apply Z.leb_le; exact Hin].
Qed.
Print Assumptions standalone_disable_to_eof.

(* "# type: ignore" on its own line L: every error from L on is filtered, nothing before L changes *)
Theorem type_ignore_standalone : forall g fr rl D1 D2 L sL eL st st',
  let evL := mkE false sL eL (standalone_ignore L) in
  open_mono 0 (D1 ++ evL :: D2) ->
  build_events g fr (D1 ++ D2) = Ok st ->
  build_events g fr (D1 ++ evL :: D2) = Ok st' ->
  forall e l0 lr, e_same_file e = true -> e_line e = Some l0 ->
    reported_line st rl e l0 = Ok lr -> reported_line st' rl e l0 = Ok lr ->
    (eff_line lr < L -> filter_error st' rl e = filter_error st rl e) /\
    (L <= eff_line lr -> filter_error st' rl e = Ok (false, Some lr)).
Proof.
  intros g fr rl D1 D2 L sL eL st st' evL Hmono Hb Hb' e l0 lr Hsf Hl Hr Hr'.
  destruct (standalone_ignore_state g fr D1 D2 L sL eL st st' Hmono Hb Hb') as [Hdis Hign].
  split; intros H.
  - apply (filter_error_same _ _ _ _ _ _ Hsf Hl Hr Hr'). intros [|n] _; simpl; [|rewrite Hdis; reflexivity].
    rewrite Hign. destruct (Z.leb_spec L (eff_line lr)); [lia | reflexivity].
  - apply (filter_error_silenced _ _ _ _ _ Hsf Hl Hr'). exists TIgn. split; [auto|]. simpl.
    rewrite Hign. apply Z.leb_le in H. rewrite H. reflexivity.
Qed.
Print Assumptions type_ignore_standalone.

(* non-vacuity *)

(* the error-class tables are what the theorems' side conditions need *)
Example classes_available :
  is_adjustable witness_class = true /\ accepted_name witness_class = true /\
  is_fce witness_class = true /\ witness_class <> all_errors /\
  is_adjustable implicit_return_error = true /\ accepted_name all_errors = true /\
  existsb (fun n => accepted_name n && negb (is_adjustable n)) known_error_names = true.
Proof. vm_compute. repeat split; try reflexivity; discriminate. Qed.

(* a history mixing everything: [2,5) then a per-line override, a cancelled pair, an open end *)
Definition hist : list lsop :=
  [ORange 0 false; ORange 2 true; OSet 3 false; ORange 5 false; OSet 7 true; ORange 9 true; ORange 9 false;
   ORange 12 true].
Example hist_ok : mono_from 0 hist /\
  exists ls, run_ops ls_empty hist = Ok ls /\ ls_trans ls = [2; 5; 12] /\
             map (contains ls) [1; 2; 3; 4; 5; 7; 9; 11; 12; 100] =
             [false; true; false; true; false; true; false; false; true; true].
Proof. split; [simpl; repeat split; discriminate | eexists; split; [reflexivity | split; reflexivity]]. Qed.

(* x = [f("a"),          line 3       base range (3,6), call range (4,5) for g(...)
        g(1,             line 4
          2),  # pytype: disable=E    line 5  <- the appended comment; E a function-call class
        f("b")]          line 6
   with an unrelated stand-alone disable of another class before it and a global disable. *)
Definition E0 := witness_class.
Definition other := implicit_return_error.
Definition D_before : list event :=
  [mkE false 1 1 (standalone_disable 1 other)].
Definition c0 := trailing_disable 5 E0.
Definition added0 := [mkE false 3 6 c0; mkE true 4 5 c0].
Definition D_after : list event := D_before ++ added0.
Example silences_hyps :
  inserted (fun ev => ev_comment ev = c0) D_before D_after added0 /\
  Forall (fun ev => trailing_enable_of E0 (ev_comment ev) = false) [mkE true 4 5 c0] /\
  keep false E0 = true /\ keep true E0 = true /\
  touched_disable E0 5 added0 = [5; 3; 5; 4] /\
  (exists st, build_events [other] [(1, 1)] D_after = Ok st) /\
  map (fun l => verdict_events [other] [(1, 1)] [] D_after (same_file_err l E0 false)) [3; 4; 5; 6] =
  [Ok (false, Some 3); Ok (false, Some 4); Ok (false, Some 5); Ok (true, Some 6)] /\
  map (fun l => verdict_events [other] [(1, 1)] [] D_before (same_file_err l E0 false)) [3; 4; 5; 6] =
  [Ok (true, Some 3); Ok (true, Some 4); Ok (true, Some 5); Ok (true, Some 6)].
Proof.
  split. { unfold D_after, D_before, added0. simpl. constructor. repeat constructor. }
  split. { repeat constructor. }
  vm_compute. repeat split; try reflexivity. eexists. reflexivity.
Qed.

(* def f() -> int:       line 2 (function range 2..4)
     x = g(1,            line 3
           2)            line 4   implicit return reported on line 4; directive appended there *)
Example implicit_return_case :
  let c := trailing_disable 4 implicit_return_error in
  let D' := [mkE false 3 4 c; mkE true 3 4 c] in
  let e := mkErr true (Some 3) implicit_return_error true in
  verdict_events [] [(1, 1); (2, 4)] [1] [] e = Ok (true, Some 4) /\
  verdict_events [] [(1, 1); (2, 4)] [1] D' e = Ok (false, Some 3).
Proof. vm_compute. split; reflexivity. Qed.

(* stand-alone disable at 4 ... enable at 8 around a per-line enable on 6 and an earlier closed range *)
Definition S1 : list event :=
  [mkE false 1 1 (standalone_disable 1 E0); mkE false 2 2 (standalone_enable 2 E0)].
Definition Smid : list event := [mkE false 6 6 (mkC 6 (Pytype [CEnable [E0]]) false);
                                 mkE false 7 7 (standalone_disable 7 other)].
Definition S2 : list event := [mkE false 10 10 (standalone_disable 10 E0)].
Example standalone_hyps :
  let evL := mkE false 4 4 (standalone_disable 4 E0) in
  let evM := mkE false 8 8 (standalone_enable 8 E0) in
  open_mono 0 (S1 ++ evL :: Smid ++ evM :: S2) /\
  Forall (fun ev => open_directive_of E0 (ev_comment ev) = false) Smid /\
  (exists st1, build_events [] [] S1 = Ok st1 /\
               Nat.odd (length (ls_trans (dis_get (d_dis st1) E0))) = false) /\
  map (fun l => verdict_events [] [] [] (S1 ++ evL :: Smid ++ evM :: S2) (same_file_err l E0 false))
      [1; 2; 3; 4; 5; 6; 7; 8; 9; 10; 0] =
  [Ok (false, Some 1); Ok (true, Some 2); Ok (true, Some 3); Ok (false, Some 4); Ok (false, Some 5);
   Ok (true, Some 6); Ok (false, Some 7); Ok (true, Some 8); Ok (true, Some 9); Ok (false, Some 10);
   Ok (false, Some 0)] /\
  map (fun l => verdict_events [] [] [] (S1 ++ Smid ++ S2) (same_file_err l E0 false))
      [1; 2; 3; 4; 5; 6; 7; 8; 9; 10; 0] =
  [Ok (false, Some 1); Ok (true, Some 2); Ok (true, Some 3); Ok (true, Some 4); Ok (true, Some 5);
   Ok (true, Some 6); Ok (true, Some 7); Ok (true, Some 8); Ok (true, Some 9); Ok (false, Some 10);
   Ok (false, Some 0)].
Proof.
  vm_compute. split; [repeat split; discriminate|]. split; [repeat constructor|].
  split; [eexists; split; reflexivity|]. split; reflexivity.
Qed.

(* the parser (pytype/directors/parser.py, ast-level logic).
   Model: Directors/Parser.v — BaseVisitor's post-order traversal over a mini tree (the node kinds
   _ParseVisitor distinguishes, spans as (lineno, end_lineno)), _process_structured_comments /
   _add_structured_comment_group on an insertion-ordered dict, _visit_function_def's signature range incl.
   the defaultdict it grows, decorators, with/try/match, returns and function ranges.  [raw] is the
   tokenizer's output (line -> comments, strictly increasing lines: [raw_ok]); [body] any list of trees, of
   any size and nesting, with ANY spans (no well-formedness is needed for the theorems below). *)

(* Every group of the visitor's output is right: a call range (Call/Compare/Subscript) holds EXACTLY the
   trailing "pytype:" / "type: ignore" comments of its lines, in line order, each once — whatever happened
   to the dict before or after (no directive of an earlier line is dropped, none added twice); a statement
   range only holds comments of the source that sit on its own lines. *)
Theorem parser_groups_exact : forall raw body, raw_ok raw ->
  Forall (group_ok raw) (v_groups (parse raw body)).
Proof. exact parse_groups_ok. Qed.
Print Assumptions parser_groups_exact.

(* A call range of the tree with a comment line inside it has a group in the output. *)
Theorem parser_call_group_exists : forall raw body s e l cs, raw_ok raw ->
  In (s, e) (flat_map calls_of body) -> In (l, cs) raw -> in_range s e l = true ->
  od_has (mkK true s e) (v_groups (parse raw body)) = true.
Proof.
  intros raw body s e l cs R C I Rg. apply od_has_In.
  apply (visit_all_creates (pre raw) (fun v => hinv (mkK true s e) (v_groups v)) _ own_call calls_of (s, e)
           (pre_stable raw R)); [| exact calls_of_eq | | | exact C].
  - apply stable_groups. intros. apply psc_loop_hinv; [reflexivity | assumption].
  - intros v n [(t & Rv & _) [T _]] O. destruct n; try contradiction. destruct O as [O|[]]. injection O as -> ->.
    simpl. rewrite Rv. apply loop_creates; [exact T | eapply reach_sorted; eassumption].
  - apply init_inv. assumption.
Qed.
Print Assumptions parser_call_group_exists.

(* What the Director model consumes: in every (line range, comment) event the comment's line lies inside
   the range — the side condition [ev_start ev <= L <= ev_end ev] of the Director theorems above, PROVED of
   the parser's output — and a call-range event always carries a trailing directive (never a stand-alone
   comment, never a plain type comment), so [touched_disable] only ever adds start lines of ranges that
   contain the directive's line. *)
Theorem parser_events_in_range : forall raw body ev, raw_ok raw ->
  In ev (events_of (director_groups (parse raw body))) ->
  ev_start ev <= c_line (ev_comment ev) <= ev_end ev /\
  (ev_call ev = true -> c_open (ev_comment ev) = false /\ c_body (ev_comment ev) <> TypeOther).
Proof.
  intros raw body ev R H. unfold events_of, director_groups in H.
  apply in_flat_map in H as (g & Hg & He). apply in_map_iff in Hg as ([k v] & <- & Hkv).
  unfold to_group in He. simpl in He. apply in_map_iff in He as (c0 & <- & Hc). simpl.
  apply in_map_iff in Hc as (pc & <- & Hpc).
  destruct (parse_event_lines raw body k v pc R Hkv Hpc) as (A & _ & D). split; [exact A|].
  intro KC. specialize (D KC). unfold directive_like, pc_open in D. apply andb_true_iff in D as [D1 D2].
  split; [destruct (c_open (pc_c pc)); [discriminate|reflexivity]|].
  destruct (c_body (pc_c pc)); [discriminate|discriminate|discriminate].
Qed.
Print Assumptions parser_events_in_range.

(* The dict of groups stays well-formed whatever the tree: keys distinct, ascending by start line (the
   invariant the reverse search/scan of _add_structured_comment_group relies on), every range non-empty. *)
Theorem parser_groups_sorted : forall raw body, raw_ok raw -> tinv (v_groups (parse raw body)).
Proof.
  intros raw body R. apply (stable_visit_all _ (tinv_stable)), init_tinv, R.
Qed.
Print Assumptions parser_groups_sorted.

(* No comment is ever lost or duplicated: the statement-range groups together hold exactly the comments of
   the file (as a multiset) ... *)
Theorem parser_statement_groups_partition : forall raw body, raw_ok raw ->
  Permutation (bc (v_groups (parse raw body))) (all_comments raw).
Proof. exact parse_partition. Qed.
Print Assumptions parser_statement_groups_partition.

(* ... so every comment of the file — directive or not, trailing or stand-alone — sits in a statement-range
   group whose range contains its line: the "base-group containment" hypothesis of
   [trailing_disable_silences] (existence of [cev] with [keep false E = true]) PROVED of the parser. *)
Theorem parser_base_group_containment : forall raw body c, raw_ok raw -> In c (all_comments raw) ->
  exists ev, In ev (events_of (director_groups (parse raw body))) /\ ev_call ev = false /\
             ev_comment ev = pc_c c /\ ev_start ev <= c_line (pc_c c) <= ev_end ev.
Proof. exact parse_base_event. Qed.
Print Assumptions parser_base_group_containment.

(* Every statement range the visitor asks for (simple statement, header of if/for/while/with, handler type,
   decorator, annotated assignment with a value, return, and the function signature range
   (def line, [sig_line raw f]) with its approximated end incl. the function-type-comment rule) that holds a comment line is covered by a
   statement-range group of the output — the range itself or a larger range that absorbed it. *)
Theorem parser_statement_range_covered : forall raw body s e l cs, raw_ok raw ->
  In (s, e) (flat_map (reqs_of raw) body) -> In (l, cs) raw -> in_range s e l = true ->
  covers s e (v_groups (parse raw body)).
Proof. exact parse_statement_covered. Qed.
Print Assumptions parser_statement_range_covered.

(* "The comment lands in the group of the statement range containing its line": PARTIAL — it needs the
   statement-range groups of the output not to share lines ([parser_comment_in_own_statement_refuted] below
   shows the hypothesis is necessary: two statements on one physical line).  Then the one group that holds the
   comment covers the whole statement range, so a trailing directive is adjusted to a line at or before the
   start of its own statement and never to a later one. *)
Theorem parser_comment_in_own_statement_partial : forall raw body s e l cs c, raw_ok raw ->
  In (s, e) (flat_map (reqs_of raw) body) -> In (l, cs) raw -> In c cs -> in_range s e l = true ->
  base_disjoint (v_groups (parse raw body)) ->
  exists k v, In (k, v) (v_groups (parse raw body)) /\ k_call k = false /\ In c v /\ k_s k <= s /\ e <= k_e k.
Proof. exact parse_comment_with_statement. Qed.
Print Assumptions parser_comment_in_own_statement_partial.

(* [inserted] — the hypothesis of the frame theorems — for a trailing comment: [raw'] is the tokenizer's map of
   the source with the comment [c] (not stand-alone), [erraw c raw'] the map of the same source with that
   comment's text blanked (a plain "#": the token stays, so its line keeps its entry).  Erasing commutes with
   the WHOLE visitor ([parse_erase]: groups, order, function ranges, returns, everything), hence the events of
   the commented source are those of the blanked source plus events carrying [c], each in a range around c's
   line.  PARTIAL with respect to the property's edit ("append the comment to a line"): that a plain comment
   token on a line that had none is event-neutral is not proved; the check monitors it on the real parser for
   every edit, together with "the tokenizer's map of the blanked source is the erased map".  The third hypothesis
   holds because the harness numbers (tool, data) texts injectively, so equal texts have equal bodies. *)
Theorem parser_trailing_comment_inserted_partial : forall raw' body c, raw_ok raw' -> pc_open c = false ->
  (forall x, In x (all_comments raw') -> pc_eqb x c = true -> pc_c x = pc_c c) ->
  exists Ad,
    inserted (fun ev => ev_comment ev = pc_c c /\ ev_start ev <= c_line (pc_c c) <= ev_end ev)
             (events_of (director_groups (parse (erraw c raw') body)))
             (events_of (director_groups (parse raw' body))) Ad.
Proof. exact parse_trailing_inserted. Qed.
Print Assumptions parser_trailing_comment_inserted_partial.

(* Return lines (used to tell implicit from explicit returns) are exactly the linenos of the Return nodes,
   in visiting order; function ranges are exactly the dict built from (first decorator line or def line,
   end_lineno) of every (Async)FunctionDef in visiting order (a later def with the same start overwrites). *)
Theorem parser_return_lines_exact : forall raw body,
  v_returns (parse raw body) = flat_map returns_of body.
Proof.
  intros. apply (visit_all_field _ _ v_returns (fun l r => r ++ l) own_return returns_of).
  - intros. apply app_nil_r.
  - intros. apply app_assoc.
  - exact returns_of_eq.
  - intros v []; reflexivity.
  - intros v []; reflexivity.
  - exact call_visitor_returns.
Qed.
Print Assumptions parser_return_lines_exact.

Theorem parser_function_ranges_exact : forall raw body,
  v_fr (parse raw body) = dict_of (flat_map funcs_of body).
Proof.
  intros. apply (visit_all_field _ _ v_fr set_items own_func funcs_of).
  - reflexivity.
  - intros. apply fold_left_app.
  - exact funcs_of_eq.
  - intros v []; reflexivity.
  - intros v []; reflexivity.
  - exact call_visitor_fr.
Qed.
Print Assumptions parser_function_ranges_exact.

(* "A comment lands in the group of the statement whose lines contain it" is REFUTED as stated: two
   statements sharing a physical line —  x = (1,        line 1
                                          2); y = (3,   line 2   # pytype: disable=E
                                          4)            line 3
   the comment follows tokens of the second statement (lines 2-3) but is grouped under the first (1-2),
   because the first request that contains the comment's line absorbs its single-line group. *)
Definition pcm (l : Z) (b : cbody) (o : bool) (d : N) : pcomment := mkPC (mkC l b o) d.
Definition semi_raw : rawmap := [(2, [pcm 2 (Pytype [CDisable [witness_class]]) false 0])].
Definition semi_body : list node := [NStmt 1 2 []; NStmt 2 3 []].
Theorem parser_comment_in_own_statement_refuted :
  raw_ok semi_raw /\
  map (fun kv => (k_s (fst kv), k_e (fst kv), length (snd kv))) (v_groups (parse semi_raw semi_body)) =
  [(1, 2, 1%nat); (2, 3, 0%nat)].
Proof. split; [simpl; repeat split; try constructor; auto; reflexivity | vm_compute; reflexivity]. Qed.
Print Assumptions parser_comment_in_own_statement_refuted.

(* non-vacuity: a decorated function with a multi-line signature, a multi-line call inside a multi-line
   statement with directives on two of its lines, a with block with a return, a stand-alone directive
     1  # pytype: disable=E0          (stand-alone)
     2  @deco(1,   # type: ignore
     3        2)
     4  def f(a,   # pytype: disable=E0
     5        b):
     6    with cm() as w:
     7      return g(1,   # pytype: disable=E0
     8               h(2),  # pytype: enable=E0
     9               3)                                                                          *)
Definition ex_raw : rawmap :=
  [(1, [pcm 1 (Pytype [CDisable [witness_class]]) true 0]);
   (2, [pcm 2 TypeIgnore false 1]);
   (4, [pcm 4 (Pytype [CDisable [witness_class]]) false 0]);
   (7, [pcm 7 (Pytype [CDisable [witness_class]]) false 0]);
   (8, [pcm 8 (Pytype [CEnable [witness_class]]) false 2])].
Definition ex_body : list node :=
  [NFunc (mkF 4 9 None (Some 5) 6 [(2, 3)])
     [NCall 2 3 [];
      NWith 6 9 (Some 6) 6 [NCall 6 6 []; NReturn 7 9 [NCall 7 9 [NCall 8 8 []]]]]].
Example parser_inserted_example :
  let c := pcm 8 (Pytype [CEnable [witness_class]]) false 2 in
  pc_open c = false /\
  (forall x, In x (all_comments ex_raw) -> pc_eqb x c = true -> pc_c x = pc_c c) /\
  length (events_of (director_groups (parse ex_raw ex_body))) = 9%nat /\
  length (events_of (director_groups (parse (erraw c ex_raw) ex_body))) = 6%nat.
Proof.
  split; [reflexivity|]. split; [|vm_compute; split; reflexivity].
  intros x I E. vm_compute in I.
  repeat (destruct I as [<-|I]; [try discriminate E; try reflexivity|]); contradiction.
Qed.

Example parser_example :
  raw_ok ex_raw /\
  map (fun kv => (k_call (fst kv), k_s (fst kv), k_e (fst kv), map pc_line (snd kv)))
      (v_groups (parse ex_raw ex_body)) =
  [(false, 1, 1, [1]); (false, 2, 3, [2]); (true, 2, 3, [2]); (false, 4, 5, [4]);
   (false, 7, 9, [7; 8]); (true, 7, 9, [7; 8]); (true, 8, 8, [8])] /\
  v_fr (parse ex_raw ex_body) = [(2, 9)] /\ v_returns (parse ex_raw ex_body) = [7] /\
  block_returns (parse ex_raw ex_body) = [(6, [7])] /\
  In (7, 9) (flat_map calls_of ex_body) /\ In (7, 9) (flat_map (reqs_of ex_raw) ex_body) /\
  In (2, 3) (flat_map (reqs_of ex_raw) ex_body) /\ In (4, 5) (flat_map (reqs_of ex_raw) ex_body) /\ base_disjoint (v_groups (parse ex_raw ex_body)).
Proof.
  split; [simpl; repeat split; try constructor; auto; reflexivity|].
  split; [vm_compute; reflexivity|]. split; [vm_compute; reflexivity|]. split; [vm_compute; reflexivity|].
  split; [vm_compute; reflexivity|]. split; [vm_compute; auto 10|]. split; [vm_compute; auto 10|].
  split; [vm_compute; auto 10|]. split; [vm_compute; auto 10|]. apply base_disjointb_sound. vm_compute. reflexivity.
Qed.

(* source level: parser model followed by the Director model.
   The guarantee quoted in directors.py with NO hypothesis about the parser's output left: for any tree and any
   comment map, a trailing "# pytype: disable=E" anywhere in the file filters every error of class E reported
   on its line, provided the file has no trailing enable=E (the side condition shown necessary above). *)
Theorem source_trailing_disable_silences : forall g raw body c L E st rl e l0 lr,
  raw_ok raw -> In c (all_comments raw) -> pc_c c = trailing_disable L E ->
  accepted_name E = true ->
  Forall (fun ev => trailing_enable_of E (ev_comment ev) = false)
         (events_of (director_groups (parse raw body))) ->
  build g (v_fr (parse raw body)) (director_groups (parse raw body)) = Ok st ->
  e_same_file e = true -> e_line e = Some l0 -> e_name e = E ->
  reported_line st rl e l0 = Ok lr -> eff_line lr = L ->
  filter_error st rl e = Ok (false, Some lr).
Proof. exact PV.Directors.ParserE2E.source_trailing_disable_silences. Qed.
Print Assumptions source_trailing_disable_silences.

Definition src_raw : rawmap := [(5, [pcm 5 (Pytype [CDisable [witness_class]]) false 0])].
Example source_example :
  raw_ok src_raw /\
  Forall (fun ev => trailing_enable_of witness_class (ev_comment ev) = false)
         (events_of (director_groups (parse src_raw ex_body))) /\
  map (fun l => verdict_src [] src_raw ex_body (same_file_err l witness_class false)) [3; 4; 5; 6] =
  [Ok (true, Some 3); Ok (false, Some 4); Ok (false, Some 5); Ok (true, Some 6)].
Proof.
  split; [simpl; repeat split; try constructor; auto; reflexivity|].
  split; [vm_compute; repeat constructor | vm_compute; reflexivity].
Qed.

(* the error log (pytype/errors/errors.py ErrorLog + the wiring in vm.run_program).
   Model: Directors/ErrorLog.v.  A history is any list of log operations: _add (every logging method),
   error(line=...), checkpoint / revert (nested), copy_from (of the latest record or of any list),
   set_error_filter.  [accepted f e]: e was let through by f and carries the line f gave it. *)

(* Invariant over every history: once a filter is installed (and not replaced), every error in the log was
   either there before or was accepted by the filter — whatever checkpoints, reverts and copies happen. *)
Theorem log_filter_invariant : forall f errs cps rec ops st,
  no_setfilter ops -> run (mkL errs (Some f) cps rec) ops = Ok st ->
  Forall (fun e => In e errs \/ accepted f e) (l_errors st).
Proof. exact log_invariant_lemma. Qed.
Print Assumptions log_filter_invariant.

(* vm.run_program: Director.__init__ logs [pre] (no filter yet), set_error_filter(director.filter_error),
   then the analysis [post].  Every error of the final report that the Director did not log itself satisfies
   the Director's filter for (its final line, its class): other file / no line / in none of the line sets. *)
Theorem final_report_satisfies_filter : forall st rl pre post lst,
  no_setfilter post -> run l_empty (program_history pre (filter_error st rl) post) = Ok lst ->
  Forall (fun e => In e pre \/ clear_of st e) (l_errors lst).
Proof.
  intros st rl pre post lst NS H. eapply Forall_impl; [|eapply program_invariant_lemma; eauto].
  intros e [I|A]; [left; exact I|right; eapply accepted_clear; eauto].
Qed.
Print Assumptions final_report_satisfies_filter.

(* REFUTED without the "In e pre" escape: an error logged while the Director is constructed (invalid-directive,
   late-directive, ignored-type-comment of _process_type) stays in the report although the filter rejects it. *)
Theorem final_report_satisfies_filter_refuted :
  exists D st e lst,
    build_events [] [] D = Ok st /\
    run l_empty (program_history [e] (filter_error st []) []) = Ok lst /\
    In e (l_errors lst) /\ e_same_file e = true /\
    filter_error st [] e = Ok (false, e_line e).
Proof.
  exists [mkE false 1 1 (trailing_disable 1 witness_class)].
  eexists. exists (same_file_err 1 witness_class false). eexists.
  split; [vm_compute; reflexivity|]. split; [vm_compute; reflexivity|].
  split; [left; reflexivity|]. split; [reflexivity|vm_compute; reflexivity].
Qed.
Print Assumptions final_report_satisfies_filter_refuted.

(* [source_trailing_disable_silences] lifted from "the Director says filtered" to "absent from the final
   report": for any tree, comment map and analysis history, no error of class E on line L that the analysis
   logs reaches the report when the file has a trailing disable=E on L (and no trailing enable=E). *)
Theorem source_trailing_disable_absent_from_report : forall g raw body c L E st rl pre post lst,
  raw_ok raw -> In c (all_comments raw) -> pc_c c = trailing_disable L E ->
  accepted_name E = true ->
  Forall (fun ev => trailing_enable_of E (ev_comment ev) = false)
         (events_of (director_groups (parse raw body))) ->
  build g (v_fr (parse raw body)) (director_groups (parse raw body)) = Ok st ->
  no_setfilter post ->
  run l_empty (program_history pre (filter_error st rl) post) = Ok lst ->
  Forall (fun e => In e pre \/ ~ is_target L E e) (l_errors lst).
Proof.
  intros g raw body c L E st rl pre post lst R I C A NoEn B NS H.
  eapply Forall_impl; [|eapply program_invariant_lemma; eauto].
  intros e [Ipre|(e0 & Hf & EQ)]; [left; exact Ipre|right].
  intros (SF & EN & lr & EL & EF). rewrite EL in Hf.
  assert (SF0 : e_same_file e0 = true) by (rewrite EQ in SF; exact SF).
  destruct (director_filter_inv _ _ _ _ _ Hf SF0) as (l0 & EL0 & RL).
  assert (EN0 : e_name e0 = E) by (rewrite EQ in EN; exact EN).
  pose proof (source_trailing_disable_silences g raw body c L E st rl e0 l0 lr R I C A NoEn B SF0 EL0 EN0 RL EF) as X.
  rewrite X in Hf. discriminate Hf.
Qed.
Print Assumptions source_trailing_disable_absent_from_report.

(* "... and every other reported error unchanged": the same history under a filter f' that only additionally
   rejects errors in tgt gives the same log minus tgt elements — positions of checkpoints shift, records
   shrink, copies are re-filtered — PROVIDED every record that is copied holds only errors of other files
   (eval_expr compiles the annotation without a filename; monitored on every real run). *)
Theorem report_frame_partial : forall tgt f f' a a' rec ops st st',
  (forall e, tgt e = true -> e_same_file e = true) -> narrows tgt f f' ->
  dropped tgt a' a -> no_setfilter ops -> copies_foreign (mkS a [] (Some f) rec) ops ->
  run (mkL a (Some f) [] rec) ops = Ok st -> run (mkL a' (Some f') [] rec) ops = Ok st' ->
  dropped tgt (l_errors st') (l_errors st) /\
  filter (fun e => negb (tgt e)) (l_errors st') = filter (fun e => negb (tgt e)) (l_errors st).
Proof.
  intros. assert (dropped tgt (l_errors st') (l_errors st)) by (eapply report_frame_lemma; eauto).
  split; [assumption|apply dropped_filter; assumption].
Qed.
Print Assumptions report_frame_partial.

(* the hypothesis is necessary: an error of this file recorded under a checkpoint and copied elsewhere
   disappears together with its original although the copy is not in tgt *)
Theorem report_frame_refuted :
  (forall e, wt e = true -> e_same_file e = true) /\ narrows wt wf wf' /\ no_setfilter wops /\
  exists st st', run (mkL [] (Some wf) [] []) wops = Ok st /\ run (mkL [] (Some wf') [] []) wops = Ok st' /\
    l_errors st = [mkErr true (Some 9) 1%N false] /\ l_errors st' = [] /\
    wt (mkErr true (Some 9) 1%N false) = false /\ ~ dropped wt (l_errors st') (l_errors st).
Proof.
  split. { intros e H. unfold wt in H. destruct (e_same_file e); [reflexivity|discriminate H]. }
  split.
  { intros e b l H. unfold wf in H. inversion H; subst. unfold wf'.
    assert (wt (set_eline e (e_line e)) = wt e) by reflexivity.
    destruct (wt e) eqn:W; simpl; [right|left; reflexivity]. repeat split; auto. }
  split. { repeat constructor. }
  eexists. eexists. split; [vm_compute; reflexivity|]. split; [vm_compute; reflexivity|].
  split; [reflexivity|]. split; [reflexivity|]. split; [reflexivity|].
  simpl. intro D. inversion D; subst. discriminate.
Qed.
Print Assumptions report_frame_refuted.

(* one list + remembered positions (what errors.py does) = a stack of segments, on every history *)
Theorem errorlog_positions_are_segments : forall ops st ss st1, repr st ss -> run st ops = Ok st1 ->
  exists ss1, srun ss ops = Ok ss1 /\ repr st1 ss1.
Proof. exact run_srun. Qed.
Print Assumptions errorlog_positions_are_segments.

(* non-vacuity: a history with everything in it, under the Director of [D_after] (lines 3-5 silenced for E0):
   a pre-filter error on a silenced line stays; an error on line 6 is kept, one on line 4 is not; a checkpoint
   records a foreign error and a same-file one on line 4 (filtered on entry), revert, copy to line 6 and 5 *)
Example log_history_example :
  exists st, build_events [other] [(1, 1)] D_after = Ok st /\
  let f := filter_error st [] in
  let e l := same_file_err l E0 false in
  let foreign := mkErr false (Some 1) E0 false in
  let post := [LAdd (e 6); LAdd (e 4); LCheckpoint; LAdd foreign; LAdd (e 4); LCheckpoint; LAdd (e 6); LRevert;
               LRevert; LCopyRec (mkP true 6 false); LCopyRec (mkP true 5 false); LAddAt (e 6) 3; LAddAt (e 3) 0;
               LAddAt (e 3) 6] in
  balanced 0 post = true /\ no_setfilter post /\ copies_foreignb (mkS [e 4] [] (Some f) []) post = true /\
  exists lst, run l_empty (program_history [e 4] f post) = Ok lst /\
              l_errors lst = [e 4; e 6; e 6; e 6] /\ l_rec lst = [foreign].
Proof.
  eexists. split; [vm_compute; reflexivity|]. split; [reflexivity|]. split; [repeat constructor|].
  split; [vm_compute; reflexivity|]. eexists. split; [vm_compute; reflexivity|]. split; reflexivity.
Qed.
