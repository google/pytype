(* Proofs about [unique_sorted_errors] (Canon/Model.v, from errors.py): the invariant of the dict of groups, what
   it gives for the report, and that the algorithm commutes with the projection of any carrier to the eight
   modelled fields. *)
From Coq Require Import List String Bool ZArith Permutation Sorted.
From PV Require Import Canon.Model Canon.SortLemmas.
Import ListNotations.
Local Open Scope string_scope.

(* [simpl] would expand the key of an error, and the test on keys, into the eight fields *)
Local Arguments urepr : simpl never.
Local Arguments urepr_eqb : simpl never.
Local Arguments sort_key : simpl never.

Inductive subseq {A} : list A -> list A -> Prop :=
| sub_nil : subseq [] []
| sub_keep : forall x l l', subseq l l' -> subseq (x :: l) (x :: l')
| sub_drop : forall x l l', subseq l l' -> subseq l (x :: l').

Lemma subseq_refl {A} : forall l : list A, subseq l l.
Proof. induction l; constructor; auto. Qed.

Lemma subseq_incl {A} : forall l l' : list A, subseq l l' -> incl l l'.
Proof.
  induction 1 as [|x l l' _ IH|x l l' _ IH]; intros y Hy; simpl in *; auto.
  destruct Hy; auto.
Qed.

Lemma subseq_length {A} : forall l l' : list A, subseq l l' -> (List.length l <= List.length l')%nat.
Proof. induction 1; simpl; auto using le_n_S. Qed.

Lemma subseq_fop {A} (R : A -> A -> Prop) : forall l l',
  subseq l l' -> ForallOrdPairs R l' -> ForallOrdPairs R l.
Proof.
  induction 1 as [|x l l' Hs IH|x l l' Hs IH]; intros H'; auto; inversion H' as [|? ? Hall Hrest]; subst; auto.
  constructor; auto. apply Forall_forall. intros y Hy.
  apply (proj1 (Forall_forall _ _) Hall), (subseq_incl _ _ Hs), Hy.
Qed.

Lemma fop_app {A} (R : A -> A -> Prop) : forall l1 l2,
  ForallOrdPairs R l1 -> ForallOrdPairs R l2 ->
  (forall a b, In a l1 -> In b l2 -> R a b) -> ForallOrdPairs R (l1 ++ l2)%list.
Proof.
  induction l1 as [|x t IH]; intros l2 H1 H2 Hc; simpl; auto.
  inversion H1 as [|? ? Hall Hrest]; subst. constructor.
  - apply Forall_app. split; auto.
    apply Forall_forall. intros; apply Hc; simpl; auto.
  - apply IH; auto. intros; apply Hc; simpl; auto.
Qed.

Lemma fop_snoc {A} (R : A -> A -> Prop) : forall l y,
  ForallOrdPairs R l -> (forall x, In x l -> R x y) -> ForallOrdPairs R (l ++ [y])%list.
Proof.
  intros l y H Hy. apply fop_app; auto.
  - repeat constructor.
  - intros a b Ha [<-|[]]. auto.
Qed.

(* the two ways the standard library says "every earlier element is related to every later one" *)
Lemma ss_fop {A} (R : A -> A -> Prop) : forall l, StronglySorted R l <-> ForallOrdPairs R l.
Proof. split; induction 1; constructor; auto. Qed.

Lemma filter_nil {A} (f : A -> bool) : forall l, (forall x, In x l -> f x = false) -> filter f l = [].
Proof.
  induction l as [|x t IH]; intros H; simpl; auto.
  rewrite H by (left; auto). apply IH. intros; apply H; right; auto.
Qed.

Lemma filter_len {A} (f : A -> bool) : forall l, (List.length (filter f l) <= List.length l)%nat.
Proof. induction l as [|x t IH]; simpl; auto. destruct (f x); simpl; auto using le_n_S. Qed.

Lemma nodup_map_inj {A B} (f : A -> B) : forall l a b,
  NoDup (map f l) -> In a l -> In b l -> f a = f b -> a = b.
Proof.
  induction l as [|x t IH]; simpl; intros a b Hn Ha Hb E; [contradiction|].
  inversion Hn as [|? ? Hx Ht]; subst.
  destruct Ha as [<-|Ha], Hb as [<-|Hb]; auto.
  - exfalso. apply Hx. rewrite E. apply in_map; auto.
  - exfalso. apply Hx. rewrite <- E. apply in_map; auto.
Qed.

Lemma good_sk : good sk_cmp.
Proof. apply good_pair; [apply good_string|apply good_Z]. Qed.

Definition ukey_t : Type := (position * string * option string * string)%type.

Definition pos_key (p : position) : string * Z :=
  match p with
  | PFile f l _ _ => (f, l)
  | PLine l _ _ => ("", l)
  | PNone => ("", 0%Z)
  end.

Definition ukey (k : ukey_t) : string * Z := pos_key (fst (fst (fst k))).

(* [groups], with the key type under its name: keeps the terms of the proofs below small *)
Definition dict : Type := list (ukey_t * list error).

(* errors with the same unique representation have the same sort key *)
Lemma ukey_urepr : forall e, ukey (urepr e) = sort_key e.
Proof.
  intros e. unfold ukey, urepr, position_of, sort_key. cbn [fst].
  destruct (file_or_empty e =? "") eqn:Ef; [|reflexivity].
  apply String.eqb_eq in Ef. rewrite Ef.
  destruct (e_line e =? 0)%Z eqn:El; [|reflexivity].
  apply Z.eqb_eq in El. rewrite El. reflexivity.
Qed.

Lemma opt_string_eqb_eq : forall a b, opt_string_eqb a b = true <-> a = b.
Proof.
  intros [a|] [b|]; simpl; try (split; discriminate).
  - rewrite String.eqb_eq. split; congruence.
  - split; reflexivity.
Qed.

Lemma opt_string_eqb_sym : forall a b, opt_string_eqb a b = opt_string_eqb b a.
Proof. intros [a|] [b|]; simpl; auto. apply String.eqb_sym. Qed.

Lemma position_eqb_eq : forall p q, position_eqb p q = true <-> p = q.
Proof.
  intros p q; split.
  - destruct p, q; simpl; try discriminate; auto.
    + intros [[[Hf%String.eqb_eq Hl%Z.eqb_eq]%andb_prop Hc%Z.eqb_eq]%andb_prop Hm%String.eqb_eq]%andb_prop.
      congruence.
    + intros [[Hl%Z.eqb_eq Hc%Z.eqb_eq]%andb_prop Hm%String.eqb_eq]%andb_prop. congruence.
  - intros <-. destruct p; simpl; rewrite ?String.eqb_refl, ?Z.eqb_refl; reflexivity.
Qed.

Lemma urepr_eqb_eq : forall a b : ukey_t, urepr_eqb a b = true <-> a = b.
Proof.
  intros [[[p m] d] n] [[[p' m'] d'] n']. unfold urepr_eqb. split.
  - intros [[[Hp%position_eqb_eq Hm%String.eqb_eq]%andb_prop Hd%opt_string_eqb_eq]%andb_prop
             Hn%String.eqb_eq]%andb_prop.
    congruence.
  - intros [= <- <- <- <-].
    rewrite (proj2 (position_eqb_eq p p) eq_refl), (proj2 (opt_string_eqb_eq d d) eq_refl),
      !String.eqb_refl. reflexivity.
Qed.

Lemma urepr_eqb_refl : forall a : ukey_t, urepr_eqb a a = true.
Proof. intros a. apply urepr_eqb_eq. reflexivity. Qed.

Definition incomparable (a b : error) : Prop := compare_tb (e_tb a) (e_tb b) = None.

Lemma compare_tb_none_sym : forall l r, compare_tb l r = None -> compare_tb r l = None.
Proof.
  intros l r. unfold compare_tb. rewrite (opt_string_eqb_sym r l).
  destruct (opt_string_eqb l r); [discriminate|].
  destruct (ends_with (strip_marker l) (strip_marker r)); [discriminate|].
  destruct (ends_with (strip_marker r) (strip_marker l)); [discriminate|]. reflexivity.
Qed.

Lemma compare_tb_refl : forall t, compare_tb t t = Some 0%Z.
Proof.
  intros t. unfold compare_tb. rewrite (proj2 (opt_string_eqb_eq t t) eq_refl). reflexivity.
Qed.

Lemma scan_spec : forall cur prevs kept,
  exists b res',
    scan cur prevs kept = (b, (rev kept ++ res')%list) /\ subseq res' prevs /\
    (b = false -> forall p, In p res' -> incomparable cur p).
Proof.
  intros cur. induction prevs as [|p rest IH]; intros kept; simpl.
  - exists false, []. rewrite app_nil_r. repeat split; [constructor|]. intros _ p [].
  - destruct (compare_tb (e_tb cur) (e_tb p)) as [c|] eqn:Ec.
    + destruct (c <? 0)%Z.
      * destruct (IH kept) as (b & res' & E & Hs & Hi).
        exists b, res'. repeat split; auto. constructor; auto.
      * exists true, (p :: rest). repeat split; [apply subseq_refl|discriminate].
    + destruct (IH (p :: kept)) as (b & res' & E & Hs & Hi).
      exists b, (p :: res'). simpl in E. rewrite <- app_assoc in E.
      repeat split; auto.
      * constructor; auto.
      * intros Hb q [<-|Hq]; auto.
Qed.

Lemma add_to_group_spec : forall cur g,
  let g' := add_to_group cur g in
  (forall e, In e g' -> e = cur \/ In e g) /\
  (ForallOrdPairs incomparable g -> ForallOrdPairs incomparable g') /\
  ((List.length g <= MAX_TRACEBACKS)%nat -> (List.length g' <= MAX_TRACEBACKS)%nat).
Proof.
  intros cur g. unfold add_to_group.
  destruct (scan_spec cur g []) as (b & res' & E & Hs & Hi). simpl in E. rewrite E.
  (* the survivors alone *)
  assert (Hres : (forall e, In e res' -> e = cur \/ In e g) /\
                 (ForallOrdPairs incomparable g -> ForallOrdPairs incomparable res') /\
                 ((List.length g <= MAX_TRACEBACKS)%nat -> (List.length res' <= MAX_TRACEBACKS)%nat)).
  { repeat split.
    - intros e He. right. apply (subseq_incl _ _ Hs), He.
    - apply subseq_fop, Hs.
    - apply Nat.le_trans, subseq_length, Hs. }
  destruct b; [exact Hres|].
  destruct (List.length res' <? MAX_TRACEBACKS)%nat eqn:El; [|exact Hres].
  destruct Hres as (H1 & H2 & _). repeat split.
  - intros e He. apply in_app_or in He as [He|[<-|[]]]; auto.
  - intros Hf. apply fop_snoc; auto. intros x Hx. apply compare_tb_none_sym, Hi; auto.
  - intros _. rewrite app_length, Nat.add_comm. apply Nat.ltb_lt, El.
Qed.

Definition grp_ok (kg : ukey_t * list error) : Prop :=
  (forall e, In e (snd kg) -> urepr e = fst kg) /\
  ForallOrdPairs incomparable (snd kg) /\
  (List.length (snd kg) <= MAX_TRACEBACKS)%nat.

Definition inv (gs : dict) : Prop := Forall grp_ok gs /\ NoDup (map fst gs).

Definition members (gs : dict) : list error := List.concat (map snd gs).

Lemma insert_keys : forall cur (gs : dict) (k : ukey_t),
  In k (map fst (insert_group cur gs)) -> In k (map fst gs) \/ k = urepr cur.
Proof.
  intros cur. induction gs as [|[k0 g] t IH]; intros k; simpl.
  - intros [<-|[]]; auto.
  - destruct (urepr_eqb k0 (urepr cur)); simpl.
    + intros [<-|H]; auto.
    + intros [<-|H]; auto. apply IH in H as [H|H]; auto.
Qed.

Lemma insert_inv : forall cur (gs : dict), inv gs -> inv (insert_group cur gs).
Proof.
  intros cur. induction gs as [|[k g] t IH]; intros [Hg Hn]; simpl.
  - split; [|repeat constructor; intros []].
    constructor; [|constructor]. repeat split; simpl.
    + intros e [<-|[]]; auto.
    + repeat constructor.
    + apply Nat.leb_le. reflexivity.
  - apply Forall_cons_iff in Hg as [Hk Ht]. simpl in Hn. inversion Hn as [|? ? Hnk Hnt]; subst.
    destruct (urepr_eqb k (urepr cur)) eqn:Ek.
    + apply urepr_eqb_eq in Ek. split; [|exact Hn].
      constructor; [|exact Ht].
      destruct Hk as (H1 & H2 & H3). simpl in *.
      destruct (add_to_group_spec cur g) as (A1 & A2 & A3).
      repeat split; simpl; auto.
      intros e He. apply A1 in He as [->|He]; auto.
    + destruct (IH (conj Ht Hnt)) as [Hg' Hn'].
      split; [constructor; auto|]. simpl. constructor; auto.
      intros Hin. apply insert_keys in Hin as [Hin|Hin]; auto.
      subst k. rewrite urepr_eqb_refl in Ek. discriminate.
Qed.

Lemma insert_members : forall cur (gs : dict), incl (members (insert_group cur gs)) (cur :: members gs).
Proof.
  intros cur. unfold members. induction gs as [|[k g] t IH]; simpl.
  - apply incl_refl.
  - destruct (urepr_eqb k (urepr cur)); simpl; intros e H; apply in_app_or in H as [H|H].
    + destruct (add_to_group_spec cur g) as (A1 & _). apply A1 in H as [->|H]; simpl; auto using in_or_app.
    + simpl; auto using in_or_app.
    + simpl; auto using in_or_app.
    + apply IH in H as [->|H]; simpl; auto using in_or_app.
Qed.

Lemma fold_insert_inv : forall es (gs : dict), inv gs -> inv (fold_left (fun gs e => insert_group e gs) es gs).
Proof.
  induction es as [|e t IH]; intros gs H; simpl; auto. apply IH. apply insert_inv; auto.
Qed.

Lemma inv_group_all : forall es, inv (group_all es).
Proof. intros es. apply fold_insert_inv. split; constructor. Qed.

Lemma group_all_members : forall es (gs : dict) x,
  In x (members (fold_left (fun gs e => insert_group e gs) es gs)) -> In x es \/ In x (members gs).
Proof.
  induction es as [|e t IH]; intros gs x; simpl; auto.
  intros H. apply IH in H as [H|H]; auto.
  apply insert_members in H as [->|H]; auto.
Qed.

Lemma in_members : forall (gs : dict) e, Forall grp_ok gs -> In e (members gs) -> In (urepr e) (map fst gs).
Proof.
  intros gs e Hg He. apply in_concat in He as (g & Hin & He).
  apply in_map_iff in Hin as (kg & <- & Hin).
  rewrite (proj1 (proj1 (Forall_forall _ _) Hg kg Hin) e He). apply in_map, Hin.
Qed.

Definition ks (gs : dict) : list (string * Z) := map (fun kg => ukey (fst kg)) gs.
Definition kl (a b : string * Z) : Prop := kle sk_cmp (fun x => x) a b.

Lemma in_members_ks : forall (gs : dict) e, Forall grp_ok gs -> In e (members gs) -> In (sort_key e) (ks gs).
Proof.
  intros gs e Hg He. rewrite <- ukey_urepr. unfold ks. rewrite <- (map_map fst ukey).
  apply in_map, in_members; auto.
Qed.

Lemma ks_insert : forall cur (gs : dict),
  ks (insert_group cur gs) = ks gs \/ ks (insert_group cur gs) = (ks gs ++ [sort_key cur])%list.
Proof.
  intros cur. induction gs as [|[k g] t IH]; simpl.
  - right. rewrite ukey_urepr. reflexivity.
  - destruct (urepr_eqb k (urepr cur)); simpl; auto.
    destruct IH as [E|E]; unfold ks in *; rewrite E; auto.
Qed.

Lemma group_all_sorted : forall es (gs : dict),
  ForallOrdPairs (kle sk_cmp sort_key) es ->
  ForallOrdPairs kl (ks gs) ->
  (forall x e, In x (ks gs) -> In e es -> kl x (sort_key e)) ->
  ForallOrdPairs kl (ks (fold_left (fun gs e => insert_group e gs) es gs)).
Proof.
  induction es as [|e t IH]; intros gs Hes Hgs Hb; simpl; auto.
  inversion Hes as [|? ? Hall Ht]; subst. rewrite Forall_forall in Hall.
  apply IH; auto.
  - destruct (ks_insert e gs) as [->| ->]; auto.
    apply fop_snoc; auto. intros x Hx. apply Hb; simpl; auto.
  - intros x e' Hx He'.
    destruct (ks_insert e gs) as [E|E]; rewrite E in Hx.
    + apply Hb; simpl; auto.
    + apply in_app_or in Hx as [Hx|[<-|[]]].
      * apply Hb; simpl; auto.
      * apply (Hall e' He').
Qed.

Lemma members_sorted : forall gs : dict,
  Forall grp_ok gs -> ForallOrdPairs kl (ks gs) -> ForallOrdPairs (kle sk_cmp sort_key) (members gs).
Proof.
  unfold members. induction gs as [|[k g] t IH]; intros Hg Hs; simpl; [constructor|].
  apply Forall_cons_iff in Hg as [(H1 & _ & _) Ht]. simpl in H1.
  inversion Hs as [|? ? Hall Hst]; subst. rewrite Forall_forall in Hall.
  assert (Hk : forall e, In e g -> sort_key e = ukey k).
  { intros e He. rewrite <- (H1 e He). symmetry. apply ukey_urepr. }
  apply fop_app; auto.
  - (* one group: all members share the sort key *)
    clear -Hk. induction g as [|x g IH]; constructor.
    + apply Forall_forall. intros y Hy. unfold kle, klt.
      rewrite (Hk x), (Hk y) by (simpl; auto).
      destruct good_sk as (_ & R & _). rewrite R. reflexivity.
    + apply IH. intros; apply Hk; simpl; auto.
  - intros a b Ha Hb. unfold kle, klt. rewrite (Hk a Ha).
    apply (Hall (sort_key b)), in_members_ks; auto.
Qed.

Lemma sorted_errors_sorted : forall es, ForallOrdPairs (kle sk_cmp sort_key) (sorted_errors es).
Proof. intros es. apply ss_fop. exact (sort_sorted sk_cmp sort_key good_sk es). Qed.

Lemma members_unique : forall gs : dict, inv gs -> ForallOrdPairs (fun a b => urepr a = urepr b -> incomparable a b) (members gs).
Proof.
  unfold members. induction gs as [|[k g] t IH]; intros [Hg Hn]; simpl; [constructor|].
  apply Forall_cons_iff in Hg as [(H1 & H2 & _) Ht]. simpl in *.
  inversion Hn as [|? ? Hnk Hnt]; subst.
  apply fop_app.
  - clear -H2. induction H2; constructor; auto.
    eapply Forall_impl; [|eassumption]. intros b Hb _. exact Hb.
  - apply IH. split; auto.
  - intros a b Ha Hb E. exfalso. apply Hnk.
    rewrite <- (H1 a Ha), E. apply in_members; auto.
Qed.

Lemma members_bounded : forall (gs : dict) (u : ukey_t), inv gs ->
  (List.length (filter (fun e => urepr_eqb (urepr e) u) (members gs)) <= MAX_TRACEBACKS)%nat.
Proof.
  unfold members. induction gs as [|[k g] t IH]; intros u [Hg Hn]; cbn [map List.concat fst snd];
    [apply Nat.le_0_l|].
  apply Forall_cons_iff in Hg as [(H1 & _ & H3) Ht]. cbn [fst snd map] in *.
  inversion Hn as [|? ? Hnk Hnt]; subst.
  rewrite filter_app. destruct (urepr_eqb k u) eqn:Ek.
  - (* this is the group of u, and the only one *)
    apply urepr_eqb_eq in Ek. subst u.
    rewrite (filter_nil (fun e => urepr_eqb (urepr e) k) (List.concat (map snd t))), app_nil_r.
    + eapply Nat.le_trans; [apply filter_len|exact H3].
    + intros e He. destruct (urepr_eqb (urepr e) k) eqn:E; auto.
      apply urepr_eqb_eq in E. rewrite <- E in Hnk. destruct Hnk. apply in_members; auto.
  - rewrite (filter_nil (fun e => urepr_eqb (urepr e) u) g); [apply IH; split; auto|].
    intros e He. rewrite (H1 e He). exact Ek.
Qed.

Section Carrier.
  Context {A : Type} (pe : A -> error).

  Lemma scan_on_map : forall cur prevs kept,
    (fst (scan_on pe cur prevs kept), map pe (snd (scan_on pe cur prevs kept)))
    = scan (pe cur) (map pe prevs) (map pe kept).
  Proof.
    intros cur. induction prevs as [|p rest IH]; intros kept; simpl.
    - rewrite map_rev. reflexivity.
    - destruct (compare_tb (e_tb (pe cur)) (e_tb (pe p))) as [c|].
      + destruct (c <? 0)%Z; [apply IH|].
        simpl. rewrite map_app, map_rev. reflexivity.
      + apply (IH (p :: kept)).
  Qed.

  Lemma add_to_group_on_map : forall cur g,
    map pe (add_to_group_on pe cur g) = add_to_group (pe cur) (map pe g).
  Proof.
    intros cur g. unfold add_to_group_on, add_to_group.
    pose proof (scan_on_map cur g []) as E. simpl in E.
    destruct (scan_on pe cur g []) as [b r]. simpl in E. rewrite <- E.
    destruct b; auto. rewrite map_length.
    destruct (List.length r <? MAX_TRACEBACKS)%nat; auto.
    rewrite map_app. reflexivity.
  Qed.

  Definition gmap (gs : list (ukey_t * list A)) : groups := map (fun kg => (fst kg, map pe (snd kg))) gs.

  Lemma insert_group_on_map : forall cur gs,
    gmap (insert_group_on pe cur gs) = insert_group (pe cur) (gmap gs).
  Proof.
    intros cur. induction gs as [|[k g] t IH]; simpl; auto.
    destruct (urepr_eqb k (urepr (pe cur))); simpl.
    - rewrite add_to_group_on_map. reflexivity.
    - rewrite IH. reflexivity.
  Qed.

  Lemma fold_on_map : forall xs gs,
    gmap (fold_left (fun gs e => insert_group_on pe e gs) xs gs)
    = fold_left (fun gs e => insert_group e gs) (map pe xs) (gmap gs).
  Proof.
    induction xs as [|x t IH]; intros gs; simpl; auto.
    rewrite IH, insert_group_on_map. reflexivity.
  Qed.

  Lemma concat_gmap : forall gs, map pe (List.concat (map snd gs)) = List.concat (map snd (gmap gs)).
  Proof.
    induction gs as [|[k g] t IH]; simpl; auto. rewrite map_app, IH. reflexivity.
  Qed.
End Carrier.
