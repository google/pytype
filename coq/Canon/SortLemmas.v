(* Comparisons that are total orders with Leibniz [Eq] ([good]): strings, integers, pairs, lists.
   Model.v's stable insertion sort by such a key yields a sorted permutation; hence it is a function
   of the multiset as soon as key-equal elements are equal, and the identity on sorted lists. *)
From Coq Require Import List String Ascii BinNat BinInt Permutation Sorted.
From PV Require Import Canon.Model.
Import ListNotations.

Definition good {A} (c : A -> A -> comparison) : Prop :=
  (forall a b, c a b = Eq -> a = b) /\
  (forall a, c a a = Eq) /\
  (forall a b, c a b = CompOpp (c b a)) /\
  (forall a b d, c a b = Lt -> c b d = Lt -> c a d = Lt).

Lemma good_N : good N.compare.
Proof.
  repeat split.
  - intros a b. apply N.compare_eq.
  - apply N.compare_refl.
  - intros; apply N.compare_antisym.
  - exact N.lt_trans.
Qed.

Lemma good_Z : good Z.compare.
Proof.
  repeat split.
  - intros a b. apply Z.compare_eq.
  - apply Z.compare_refl.
  - intros; apply Z.compare_antisym.
  - exact Z.lt_trans.
Qed.

Lemma good_ascii : good Ascii.compare.
Proof.
  destruct good_N as (_ & R & S & T).
  repeat split.
  - apply Ascii.compare_eq_iff.
  - intros a. unfold Ascii.compare. apply R.
  - intros; apply Ascii.compare_antisym.
  - intros a b d. unfold Ascii.compare. apply T.
Qed.

(* One step of a lexicographic comparison, [match c x y with Eq => r | o => o end]: the shape that
   [pair_cmp], [lex_cmp] and [String.compare] share. *)
Section LexStep.
  Context {A : Type} (c : A -> A -> comparison) (Hc : good c).

  Lemma lex_eq x y r : match c x y with Eq => r | o => o end = Eq -> x = y /\ r = Eq.
  Proof.
    destruct Hc as (E & _). destruct (c x y) eqn:H; try discriminate. auto.
  Qed.

  Lemma lex_refl x r : match c x x with Eq => r | o => o end = r.
  Proof. destruct Hc as (_ & R & _). rewrite R. reflexivity. Qed.

  Lemma lex_opp x y r r' : r = CompOpp r' ->
    match c x y with Eq => r | o => o end = CompOpp (match c y x with Eq => r' | o => o end).
  Proof.
    destruct Hc as (_ & _ & S & _). intros ->. rewrite (S x y). destruct (c y x); reflexivity.
  Qed.

  Lemma lex_trans x y z r1 r2 r3 : (r1 = Lt -> r2 = Lt -> r3 = Lt) ->
    match c x y with Eq => r1 | o => o end = Lt ->
    match c y z with Eq => r2 | o => o end = Lt ->
    match c x z with Eq => r3 | o => o end = Lt.
  Proof.
    destruct Hc as (E & _ & _ & T). intros Hr.
    destruct (c x y) eqn:Hxy; try discriminate.
    - apply E in Hxy as <-. destruct (c x z); auto.
    - intros _. destruct (c y z) eqn:Hyz; try discriminate; intros _.
      + apply E in Hyz as <-. rewrite Hxy. reflexivity.
      + rewrite (T _ _ _ Hxy Hyz). reflexivity.
  Qed.
End LexStep.

Lemma good_string : good String.compare.
Proof.
  repeat split.
  - apply String.compare_eq_iff.
  - induction a as [|x a IH]; simpl; auto. rewrite (lex_refl _ good_ascii). exact IH.
  - apply String.compare_antisym.
  - induction a as [|x a IH]; intros [|y b] [|z d]; simpl; try discriminate; auto.
    apply (lex_trans _ good_ascii), IH.
Qed.

Lemma good_pair {A B} (ca : A -> A -> comparison) (cb : B -> B -> comparison) :
  good ca -> good cb -> good (pair_cmp ca cb).
Proof.
  intros Ha (Eb & Rb & Sb & Tb). unfold pair_cmp. repeat split.
  - intros [a1 b1] [a2 b2] H. apply (lex_eq ca Ha) in H as [H1 H2]. apply Eb in H2.
    simpl in *. congruence.
  - intros p. rewrite (lex_refl ca Ha). apply Rb.
  - intros p q. apply (lex_opp ca Ha), Sb.
  - intros p q r. apply (lex_trans ca Ha), Tb.
Qed.

Lemma good_lex {A} (c : A -> A -> comparison) : good c -> good (lex_cmp c).
Proof.
  intros Hc. repeat split.
  - induction a as [|x a IH]; intros [|y b]; simpl; try discriminate; auto.
    intros H. apply (lex_eq c Hc) in H as [-> H]. f_equal. auto.
  - induction a as [|x a IH]; simpl; auto. rewrite (lex_refl c Hc). exact IH.
  - induction a as [|x a IH]; intros [|y b]; simpl; auto. apply (lex_opp c Hc), IH.
  - induction a as [|x a IH]; intros [|y b] [|z d]; simpl; try discriminate; auto.
    apply (lex_trans c Hc), IH.
Qed.

Lemma sort_cons {A} (ltb : A -> A -> bool) x l : sort ltb (x :: l) = insert ltb x (sort ltb l).
Proof. reflexivity. Qed.

Lemma insert_perm {A} (ltb : A -> A -> bool) x l : Permutation (insert ltb x l) (x :: l).
Proof.
  induction l as [|y t IH]; simpl; auto.
  destruct (ltb y x); auto.
  apply perm_trans with (y :: x :: t); [apply perm_skip, IH|apply perm_swap].
Qed.

Lemma sort_perm {A} (ltb : A -> A -> bool) l : Permutation (sort ltb l) l.
Proof.
  induction l as [|x t IH]; auto.
  rewrite sort_cons, insert_perm. auto.
Qed.

Lemma sort_in {A} (ltb : A -> A -> bool) l x : In x (sort ltb l) <-> In x l.
Proof.
  split; apply Permutation_in; [apply sort_perm | symmetry; apply sort_perm].
Qed.

Lemma insert_map {A B} (f : A -> B) (ltb : B -> B -> bool) x l :
  map f (insert (fun a b => ltb (f a) (f b)) x l) = insert ltb (f x) (map f l).
Proof.
  induction l as [|y t IH]; simpl; auto.
  destruct (ltb (f y) (f x)); simpl; congruence.
Qed.

Lemma sort_map {A B} (f : A -> B) (ltb : B -> B -> bool) l :
  map f (sort (fun a b => ltb (f a) (f b)) l) = sort ltb (map f l).
Proof.
  induction l as [|x t IH]; auto.
  rewrite sort_cons, insert_map, IH. reflexivity.
Qed.

Section KeySort.
  Context {A K : Type} (kc : K -> K -> comparison) (kf : A -> K).
  Hypothesis Hgood : good kc.

  Definition klt (a b : A) : bool := match kc (kf a) (kf b) with Lt => true | _ => false end.
  (* a <= b  :=  not (b < a) *)
  Definition kle (a b : A) : Prop := klt b a = false.
  Definition keq (a b : A) : Prop := kc (kf a) (kf b) = Eq.

  Lemma kle_total : forall a b, kle a b \/ kle b a.
  Proof.
    destruct Hgood as (E & R & S & T). intros a b. unfold kle, klt.
    rewrite (S (kf b) (kf a)). destruct (kc (kf a) (kf b)); simpl; auto.
  Qed.

  Lemma kle_refl : forall a, kle a a.
  Proof. destruct Hgood as (E & R & S & T). intros a. unfold kle, klt. rewrite R. reflexivity. Qed.

  Lemma kle_trans : forall a b d, kle a b -> kle b d -> kle a d.
  Proof.
    destruct Hgood as (E & R & S & T). unfold kle, klt. intros a b d H1 H2.
    destruct (kc (kf d) (kf a)) eqn:Hda; auto.
    destruct (kc (kf b) (kf a)) eqn:Hba; try discriminate.
    - apply E in Hba. rewrite Hba, Hda in H2. discriminate.
    - (* a < b and d < a, so d < b *)
      rewrite (T _ _ _ Hda) in H2; [discriminate|]. rewrite S, Hba. reflexivity.
  Qed.

  Lemma kle_antisym_keq : forall a b, kle a b -> kle b a -> keq a b.
  Proof.
    destruct Hgood as (E & R & S & T). unfold kle, klt, keq. intros a b.
    rewrite (S (kf b) (kf a)). destruct (kc (kf a) (kf b)); simpl; congruence.
  Qed.

  Lemma keq_kle : forall a b, keq a b -> kle a b.
  Proof.
    destruct Hgood as (E & R & S & T). unfold kle, klt, keq. intros a b H. rewrite S, H. reflexivity.
  Qed.

  Lemma keq_sym : forall a b, keq a b -> keq b a.
  Proof.
    destruct Hgood as (E & R & S & T). unfold keq. intros a b H. rewrite S, H. reflexivity.
  Qed.

  Notation ksort := (sort klt).
  Notation kinsert := (insert klt).

  Lemma sort_length : forall l, List.length (ksort l) = List.length l.
  Proof. intros. apply Permutation_length, sort_perm. Qed.

  Lemma insert_sorted : forall x l, StronglySorted kle l -> StronglySorted kle (kinsert x l).
  Proof.
    induction l as [|y t IH]; intros Hs; simpl.
    - repeat constructor.
    - destruct (StronglySorted_inv Hs) as [Hst Hall].
      destruct (klt y x) eqn:Hyx; constructor; auto.
      + eapply Permutation_Forall; [symmetry; apply insert_perm|]. constructor; [|exact Hall].
        destruct (kle_total y x) as [H|H]; [exact H|]. unfold kle in H. congruence.
      + constructor; [exact Hyx|].
        eapply Forall_impl; [|exact Hall]. intros z. apply kle_trans, Hyx.
  Qed.

  Lemma sort_sorted : forall l, StronglySorted kle (ksort l).
  Proof.
    induction l as [|x t IH]; [constructor|].
    rewrite sort_cons. apply insert_sorted, IH.
  Qed.

  Lemma sorted_perm_eq : forall l l',
    StronglySorted kle l -> StronglySorted kle l' -> Permutation l l' ->
    (forall x y, In x l -> In y l -> keq x y -> x = y) ->
    l = l'.
  Proof.
    induction l as [|x t IH]; intros [|y t'] Hs Hs' Hp Hsep.
    - reflexivity.
    - destruct (Permutation_nil_cons Hp).
    - symmetry in Hp. destruct (Permutation_nil_cons Hp).
    - apply StronglySorted_inv in Hs as [Hst Hall], Hs' as [Hst' Hall'].
      pose proof (proj1 (Forall_forall _ _) Hall) as Hle.
      pose proof (proj1 (Forall_forall _ _) Hall') as Hle'.
      assert (x = y) as <-.
      { destruct (Permutation_in x Hp (or_introl eq_refl)) as [Hx|Hx]; [auto|].
        destruct (Permutation_in y (Permutation_sym Hp) (or_introl eq_refl)) as [Hy|Hy]; [auto|].
        apply Hsep; simpl; auto using kle_antisym_keq. }
      f_equal. apply IH; auto.
      + exact (Permutation_cons_inv Hp).
      + intros; apply Hsep; simpl; auto.
  Qed.

  Lemma sort_perm_invariant : forall l l',
    Permutation l l' ->
    (forall x y, In x l -> In y l -> keq x y -> x = y) ->
    ksort l = ksort l'.
  Proof.
    intros l l' Hp Hsep.
    apply sorted_perm_eq; try apply sort_sorted.
    - rewrite sort_perm, Hp. symmetry. apply sort_perm.
    - intros x y Hx Hy. apply Hsep; eapply sort_in; eauto.
  Qed.

  Lemma sort_sorted_id : forall l, StronglySorted kle l -> ksort l = l.
  Proof.
    induction l as [|x t IH]; intros Hs; auto.
    apply StronglySorted_inv in Hs as [Hst Hall].
    rewrite sort_cons, IH by exact Hst.
    destruct Hall as [|y t' Hxy _]; simpl; auto.
    unfold kle in Hxy. rewrite Hxy. reflexivity.
  Qed.

  Lemma sort_idem : forall l, ksort (ksort l) = ksort l.
  Proof. intros. apply sort_sorted_id, sort_sorted. Qed.

  Lemma filter_sorted : forall (f : A -> bool) l, StronglySorted kle l -> StronglySorted kle (filter f l).
  Proof.
    induction l as [|x t IH]; intros Hs; simpl; auto.
    apply StronglySorted_inv in Hs as [Hst Hall].
    destruct (f x); auto.
    constructor; auto.
    apply Forall_forall. intros z Hz. apply (proj1 (Forall_forall _ _) Hall), (incl_filter f t), Hz.
  Qed.
End KeySort.
