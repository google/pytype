(* C06 — lemmas about the declaration-level model (Conv/Decl.v). *)
From Coq Require Import List Bool NArith Arith.
From PV Require Import Conv.Model Conv.Proofs Conv.Decl.
Import ListNotations.
Open Scope N_scope.

Section DtyInd.
Variable P : dty -> Prop.
Hypothesis Hparam : forall i, P (DParam i).
Hypothesis Hground : forall t, P (DGround t).
Hypothesis Hgen : forall c ps, Forall P ps -> P (DGeneric c ps).
Hypothesis Htup : forall ps, Forall P ps -> P (DTuple ps).
Hypothesis Hunion : forall ts, Forall P ts -> P (DUnion ts).
Fixpoint dty_ind' (d : dty) : P d :=
  let fix all (l : list dty) : Forall P l :=
    match l with [] => Forall_nil P | x :: l' => Forall_cons x (dty_ind' x) (all l') end in
  match d with
  | DParam i => Hparam i
  | DGround t => Hground t
  | DGeneric c ps => Hgen c ps (all ps)
  | DTuple ps => Htup ps (all ps)
  | DUnion ts => Hunion ts (all ts)
  end.
End DtyInd.

Lemma dedup_acc_Forall (P : ty -> Prop) l : forall seen, Forall P l -> Forall P (dedup_acc seen l).
Proof.
  induction l as [|x l IH]; intros seen H; simpl; auto.
  inversion H; subst. destruct (existsb (ty_eqb x) seen); auto.
Qed.

Lemma dedup_acc_idem l : forall seen, dedup_acc seen (dedup_acc seen l) = dedup_acc seen l.
Proof.
  induction l as [|x l IH]; intros seen; simpl; auto.
  destruct (existsb (ty_eqb x) seen) eqn:E; auto.
  simpl. rewrite E. rewrite IH. reflexivity.
Qed.

Lemma join_idem xs : join [join xs] = join xs.
Proof.
  unfold join at 2 3. set (new := dedup (flat_map flat xs)).
  assert (Forall flat_fixed new) as Hf by apply dedup_acc_Forall, flat_map_flat_elems.
  (* re-joining Union[new] flattens to [new] again, and [new] has no duplicates left *)
  assert (dedup (flat_map flat [TUnion new]) = new) as HU.
  { cbn [flat_map flat]. rewrite app_nil_r, (flat_map_fixed _ Hf). apply dedup_acc_idem. }
  destruct new as [|x [|y l]] eqn:En.
  - reflexivity.
  - inversion Hf as [|? ? Hx _]. unfold join. cbn [flat_map]. rewrite app_nil_r, Hx. reflexivity.
  - destruct (existsb is_any (x :: y :: l)) eqn:Ea.
    + destruct (existsb is_nonetype (x :: y :: l)); reflexivity.
    + unfold join. rewrite HU, Ea. reflexivity.
Qed.
Section Calls.
Variable arity : cid -> nat.
Variable acc : ty -> ty -> bool.
Hypothesis arity_type : arity type_id = 1%nat.
Hypothesis arity_tuple : arity tuple_id = 1%nat.

Lemma select_single {S} (accepts : S -> bool) n amb s :
  accepts s = true -> select accepts n amb [s] = [s].
Proof. intros H. unfold select. simpl. rewrite H. destruct ((1 <? n)%nat && amb); reflexivity. Qed.

(* The first signature, in the order of the stub, that accepts the call supplies the emitted type of  y = f(...),
   unless the group is widened (several signatures and an ambiguous call): whatever the arguments are (unions, Any,
   omitted defaults, *args, **kwargs, keyword-only). *)
Lemma call_first_accepted f c s rest :
  filter (fun s0 => sig_accepts acc s0 c) f = s :: rest ->
  (1 <? length f)%nat && ambiguous_call arity c = false ->
  wf_top arity (s_ret s) = true ->
  snd (call_emitted arity acc f c) = true /\
  nf (def_ty (fst (call_emitted arity acc f c))) = nf (s_ret s).
Proof.
  intros Hf Hone Hwf. unfold call_emitted, call_var, select. rewrite Hf, Hone.
  simpl. split; [reflexivity|].
  exact (conv_out_id_lemma arity arity_type arity_tuple (s_ret s) Hwf).
Qed.

(* no signature accepts: error and Any *)
Lemma call_none_accepted f c :
  filter (fun s0 => sig_accepts acc s0 c) f = [] -> call_emitted arity acc f c = (DConst TAny, false).
Proof. intros Hf. unfold call_emitted, call_var, select. rewrite Hf. reflexivity. Qed.

Fixpoint first_accepting (c : call) (f : list sig) : option sig :=
  match f with
  | [] => None
  | s :: f' => if sig_accepts acc s c then Some s else first_accepting c f'
  end.

Lemma filter_first c f :
  match first_accepting c f with
  | Some s => exists rest, filter (fun s0 => sig_accepts acc s0 c) f = s :: rest
  | None => filter (fun s0 => sig_accepts acc s0 c) f = []
  end.
Proof.
  induction f as [|s f IH]; simpl; auto.
  destruct (sig_accepts acc s c) eqn:E; [eexists; reflexivity|exact IH].
Qed.

Lemma first_accepting_own c pre s post :
  forallb (fun s0 => negb (sig_accepts acc s0 c)) pre = true -> sig_accepts acc s c = true ->
  first_accepting c (pre ++ s :: post) = Some s.
Proof.
  induction pre as [|p pre IH]; simpl; intros Hpre Hs.
  - rewrite Hs. reflexivity.
  - apply andb_prop in Hpre. destruct Hpre as [Hp Hpre]. apply negb_true_iff in Hp. rewrite Hp. auto.
Qed.

End Calls.

(* zip(param_names, posargs) when every parameter is passed its own type pairs each name with that type *)
Lemma zip_pos_map (ps : list param) :
  zip_pos (map p_name ps) (map p_ty ps) = map (fun p => (p_name p, p_ty p)) ps.
Proof. induction ps; simpl; congruence. Qed.

Section Classes.
Variable arity : cid -> nat.
Hypothesis arity_type : arity type_id = 1%nat.
Hypothesis arity_tuple : arity tuple_id = 1%nat.

(* a variable that is the conversion of a dialect type is emitted as that type *)
Lemma emitted_conv_var t :
  wf_top arity t = true ->
  snd (emitted arity (Some (conv_var arity t))) = true /\
  nf (def_ty (fst (emitted arity (Some (conv_var arity t))))) = nf t.
Proof.
  intros Hwf. simpl. split; auto. exact (conv_out_id_lemma arity arity_type arity_tuple t Hwf).
Qed.

Lemma dvar_ground env t : dvar arity env (DGround t) = conv_var arity t.
Proof. reflexivity. Qed.

Lemma dvar_views_ground env t : dvar_views arity env (DGround t) = conv_var arity t.
Proof. reflexivity. Qed.

(* single bindings for every parameter: one view *)
Lemma views_single env : Forall (fun vals => exists v, vals = [v]) env -> views env = [env].
Proof.
  induction 1 as [|vals env [v ->] _ IH]; simpl; auto. rewrite IH. reflexivity.
Qed.

Lemma dvar_views_single env d :
  Forall (fun vals => exists v, vals = [v]) env -> dvar_views arity env d = dvar arity env d.
Proof.
  intros H. unfold dvar_views. destruct (mentions_param d); auto.
  rewrite views_single by exact H. simpl. apply app_nil_r.
Qed.

Lemma dvar_container top E d : container_like d = true -> dvar_gen arity top (dinst arity E) d = [dinst arity E d].
Proof. destruct d; try discriminate; reflexivity. Qed.

(* below a union every member that the parser can produce contributes its own variable *)
Lemma dvar_union E ts :
  forallb dwf_member ts = true -> dvar arity E (DUnion ts) = flat_map (dvar arity E) ts.
Proof.
  intros H. unfold dvar at 1. cbn [dvar_gen]. apply flat_map_ext_Forall.
  apply forallb_Forall in H. eapply Forall_impl; [|exact H].
  intros m Hm. destruct m as [i|t| | |]; try discriminate; try reflexivity. destruct t; try discriminate; reflexivity.
Qed.

Lemma nth_inst_env ps i : nth i (inst_env arity ps) [] = conv_var arity (nth i ps TNothing).
Proof. exact (map_nth (conv_var arity) ps TNothing i). Qed.

Lemma nth_tpi env i :
  nth i (tpi env) [] = if (i <? length env)%nat then [VTParamInst (nth i env [])] else [].
Proof.
  unfold tpi. destruct (i <? length env)%nat eqn:E.
  - apply Nat.ltb_lt in E.
    rewrite (nth_indep _ [] ((fun vals => [VTParamInst vals]) [])) by (rewrite map_length; exact E).
    apply (map_nth (fun vals => [VTParamInst vals])).
  - apply Nat.ltb_ge in E. apply nth_overflow. rewrite map_length. exact E.
Qed.

(* x: T read at the top of an attribute: _filter_var splices the instance's values in *)
Lemma filter_var_tpi_single vals : vals <> [] -> filter_var [VTParamInst vals] = vals.
Proof.
  intros Hne. unfold filter_var. simpl. destruct vals; [congruence|]. simpl. rewrite app_nil_r. reflexivity.
Qed.

Lemma read_param top env i vals :
  nth i top [] = vals -> (i < length top)%nat -> vals <> [] ->
  filter_var (dvar_attr arity (tpi top) (tpi env) (DParam i)) = vals.
Proof.
  intros <- Hlt Hne. unfold dvar_attr, dvar_gen. rewrite nth_tpi, (proj2 (Nat.ltb_lt _ _) Hlt).
  apply filter_var_tpi_single, Hne.
Qed.

Lemma find_class_simple tbl c k :
  simple_tbl tbl = true -> find_class tbl c = Some k ->
  match k_base k with Some (_, args) => forallb simple_arg args = true | None => True end.
Proof.
  unfold simple_tbl. induction tbl as [|k0 tbl IH]; simpl; intros Hs Hf; [discriminate|].
  apply andb_prop in Hs. destruct Hs as [Hk Hs].
  destruct (k_id k0 =? c).
  - inversion Hf; subst. revert Hk. destruct (k_base k) as [[b args]|]; auto.
  - apply IH; auto.
Qed.

Lemma base_var_sim ps a :
  simple_arg a = true -> base_var arity (inst_env arity ps) a = conv_var arity (base_ty ps a).
Proof.
  destruct a as [i|t| | |]; simpl; intros H; try discriminate.
  - apply nth_inst_env.
  - destruct t; try discriminate. reflexivity.
Qed.

Lemma base_env_sim ps args :
  forallb simple_arg args = true ->
  map (base_var arity (inst_env arity ps)) args = inst_env arity (map (base_ty ps) args).
Proof.
  intros H. unfold inst_env. rewrite map_map. apply map_ext_Forall.
  apply forallb_Forall in H. eapply Forall_impl; [|exact H]. intros a. apply base_var_sim.
Qed.

Definition conv_link (kp : cdecl * list ty) : cdecl * list (list aval) := (fst kp, inst_env arity (snd kp)).

(* the chain of the model is the chain of the specification, converted *)
Lemma chain_sim tbl : simple_tbl tbl = true -> forall fuel c ps,
  chain arity fuel tbl c (inst_env arity ps) = map conv_link (tchain fuel tbl c ps).
Proof.
  intros Hs. induction fuel as [|fuel IH]; intros c ps; simpl; auto.
  destruct (find_class tbl c) as [k|] eqn:Hf; auto.
  pose proof (find_class_simple tbl c k Hs Hf) as Hb.
  simpl. unfold conv_link at 1. simpl. f_equal.
  destruct (k_base k) as [[b args]|]; auto.
  rewrite base_env_sim by exact Hb. apply IH.
Qed.

Lemma find_preload_sim name tch :
  match tfind_preload name tch with
  | Some (kps, d) => exists k, find_preload name (map conv_link tch) = Some (k, inst_env arity kps, d)
  | None => find_preload name (map conv_link tch) = None
  end.
Proof.
  induction tch as [|[k ps] tch IH]; simpl; [reflexivity|].
  destruct (lookup name (k_members k)) as [[d|mk sigs]|]; try exact IH.
  destruct (mentions_param d); [eexists; reflexivity|exact IH].
Qed.

Lemma find_first_sim name tch kps m :
  tfind_first name tch = Some (kps, m) ->
  exists k, find_first name (map conv_link tch) = Some (k, inst_env arity kps, m).
Proof.
  induction tch as [|[k ps] tch IH]; simpl; [discriminate|].
  destruct (lookup name (k_members k)) as [m0|]; [|exact IH].
  intros [= -> ->]. eexists; reflexivity.
Qed.

(* attribute lookup on an instance whose parameters are conversions, read off the specification's chain *)
Lemma attr_read_preload fixed fuel tbl c ps name kps d :
  simple_tbl tbl = true -> tfind_preload name (tchain fuel tbl c ps) = Some (kps, d) ->
  exists top, attr_read arity fixed fuel tbl c (inst_env arity ps) name =
              RVar (filter_var (dvar_attr arity (tpi top) (tpi (inst_env arity kps)) d)) /\
              (fixed = true -> top = inst_env arity kps).
Proof.
  intros Hs Hpre. unfold attr_read. rewrite (chain_sim tbl Hs).
  pose proof (find_preload_sim name (tchain fuel tbl c ps)) as Hf. rewrite Hpre in Hf. destruct Hf as [k ->].
  eexists. split; [reflexivity|]. intros ->. reflexivity.
Qed.

Lemma attr_read_first fixed fuel tbl c ps name kps m :
  simple_tbl tbl = true -> tfind_preload name (tchain fuel tbl c ps) = None ->
  tfind_first name (tchain fuel tbl c ps) = Some (kps, m) ->
  attr_read arity fixed fuel tbl c (inst_env arity ps) name =
  match m with
  | MConst d => RVar (dvar arity (inst_env arity kps) d)
  | MMethod KProperty [(_, r)] => RVar (dvar_views arity (inst_env arity kps) r)
  | MMethod KProperty _ => RUnbound
  | MMethod k sigs => RBound k (inst_env arity kps) sigs
  end.
Proof.
  intros Hs Hpre Hfirst. unfold attr_read. rewrite (chain_sim tbl Hs).
  pose proof (find_preload_sim name (tchain fuel tbl c ps)) as Hf. rewrite Hpre in Hf. rewrite Hf.
  destruct (find_first_sim _ _ _ _ Hfirst) as [k ->]. reflexivity.
Qed.

Lemma conv_var_nonempty t : wf_top arity t = true -> conv_var arity t <> [].
Proof.
  unfold wf_top. intros H. apply andb_prop in H. destruct H as [Hwf Hn].
  destruct (member_ok t) eqn:Hm.
  - rewrite (conv_var_single arity t Hm). discriminate.
  - destruct t; try discriminate.
    destruct (wf_union_inv arity _ Hwf) as (Hl & _ & Hms & _).
    rewrite (conv_var_union arity ts) by exact Hms.
    destruct (two_le_length _ Hl) as (t1 & t2 & ts' & ->). discriminate.
Qed.

(* resolution by full name: the instance's value for the declaring class's own parameter *)
Lemma read_own_param kps i env :
  wf_top arity (nth i kps TNothing) = true ->
  filter_var (dvar_attr arity (tpi (inst_env arity kps)) (tpi env) (DParam i)) = conv_var arity (nth i kps TNothing).
Proof.
  intros Hwf. apply read_param; [apply nth_inst_env | | apply conv_var_nonempty, Hwf].
  unfold inst_env. rewrite map_length. apply Nat.nle_gt. intros El.
  rewrite nth_overflow in Hwf by exact El. discriminate.
Qed.

Lemma conv_var_union_flat_map {A} (f : A -> list ty) l :
  conv_var arity (TUnion (flat_map f l)) = flat_map (fun a => conv_var arity (TUnion (f a))) l.
Proof. unfold conv_var. cbn [var_of]. apply flat_map_flat_map. Qed.

Lemma conv_var_umembers p : conv_var arity (TUnion (umembers p)) = conv_var arity p.
Proof. destruct p; reflexivity. Qed.

(* conversion with a substitution = conversion of the substituted type *)
Lemma dvar_subst ps : forall d, dwf arity d = true ->
  dvar arity (inst_env arity ps) d = conv_var arity (subst_ty ps d).
Proof.
  set (env := inst_env arity ps). induction d using dty_ind'; intros Hwf.
  - apply nth_inst_env.
  - reflexivity.
  - cbn [dwf] in Hwf.
    apply andb_prop in Hwf. destruct Hwf as [Hwf Hqs]. apply andb_prop in Hwf. destruct Hwf as [Hc Hl].
    apply negb_true_iff in Hc. apply forallb_Forall in Hqs.
    apply (f_equal (fun v => [v])). cbn [dinst subst_ty inst]. rewrite Hc, map_length, Hl. do 2 f_equal.
    rewrite map_map. apply map_ext_Forall, (Forall_mp H Hqs).
  - cbn [dwf] in Hwf. apply forallb_Forall in Hwf.
    apply (f_equal (fun v => [v])). cbn [dinst subst_ty inst]. f_equal.
    rewrite map_map. apply map_ext_Forall, (Forall_mp H Hwf).
  - cbn [dwf] in Hwf. apply andb_prop in Hwf. destruct Hwf as [Hts Hms]. apply forallb_Forall in Hts.
    rewrite dvar_union by exact Hms. cbn [subst_ty]. rewrite conv_var_union_flat_map.
    apply flat_map_ext_Forall. eapply Forall_impl; [|exact (Forall_mp H Hts)].
    intros m Hm. rewrite conv_var_umembers. exact Hm.
Qed.

Lemma single_env kps :
  forallb single_ty kps = true -> Forall (fun vals => exists v, vals = [v]) (inst_env arity kps).
Proof.
  intros H. apply Forall_map. apply forallb_Forall in H. eapply Forall_impl; [|exact H].
  intros p Hp. apply andb_prop in Hp. destruct Hp as [Hu Hn].
  destruct p; try discriminate; eexists; reflexivity.
Qed.

(* one view of the instance: a method's or property's declared type is converted once, under the substitution *)
Lemma dvar_views_subst kps d :
  forallb single_ty kps = true -> dwf arity d = true ->
  dvar_views arity (inst_env arity kps) d = conv_var arity (subst_ty kps d).
Proof. intros Hs Hd. rewrite (dvar_views_single _ _ (single_env _ Hs)). apply dvar_subst, Hd. Qed.

Lemma method_call_single acc kps s dret cl :
  sig_accepts acc s cl = true -> forallb single_ty kps = true -> dwf arity dret = true ->
  method_call arity acc (inst_env arity kps) [(s, dret)] cl = Some (conv_var arity (subst_ty kps dret)).
Proof.
  intros Hacc Hs Hd. unfold method_call.
  rewrite (select_single (fun sd : sig * dty => sig_accepts acc (fst sd) cl)) by exact Hacc.
  cbn [snd]. rewrite (dvar_views_subst _ _ Hs Hd). reflexivity.
Qed.

(* the printed form of one type argument *)
Notation jarg E d := (join (map (out arity) (dvar arity E d))).

Lemma out_dinst_generic_ext E1 E2 c qs :
  map (fun q => jarg E1 q) qs = map (fun q => jarg E2 q) qs ->
  out arity (dinst arity E1 (DGeneric c qs)) = out arity (dinst arity E2 (DGeneric c qs)).
Proof.
  intros H. unfold dvar in H. cbn [dinst]. destruct (c =? type_id); [reflexivity|].
  destruct (length qs <=? arity c)%nat; [|reflexivity].
  cbn [out]. rewrite !map_app, !map_map, H. reflexivity.
Qed.

Lemma out_dinst_tuple_ext E1 E2 qs :
  map (fun q => jarg E1 q) qs = map (fun q => jarg E2 q) qs ->
  out arity (dinst arity E1 (DTuple qs)) = out arity (dinst arity E2 (DTuple qs)).
Proof. intros H. unfold dvar in H. cbn [dinst out]. rewrite !map_map, H. reflexivity. Qed.

(* a TypeVar instance prints as the join of its values, and JoinTypes is idempotent: leaving the instances in
   place changes no type argument; it changes no binding either, except where the declared type is the parameter *)
Lemma out_dvar_tpi env : Forall (fun vals => vals <> []) env -> forall d,
  dwf arity d = true -> no_param_union d = true ->
  jarg (tpi env) d = jarg env d /\
  (is_dparam d = false -> map (out arity) (dvar arity (tpi env) d) = map (out arity) (dvar arity env d)).
Proof.
  intros Hne. induction d using dty_ind'; intros Hwf Hnp.
  - split; [|discriminate]. unfold dvar, dvar_gen. rewrite nth_tpi. destruct (i <? length env)%nat eqn:E.
    + apply Nat.ltb_lt in E. pose proof (proj1 (Forall_forall _ _) Hne _ (nth_In env [] E)) as Hi.
      cbn [map]. destruct (nth i env []) as [|v vs] eqn:Ev; [congruence|]. cbn [out]. apply join_idem.
    + apply Nat.ltb_ge in E. rewrite nth_overflow by exact E. reflexivity.
  - split; reflexivity.
  - cbn [dwf no_param_union] in Hwf, Hnp. apply andb_prop in Hwf. destruct Hwf as [_ Hqs].
    apply forallb_Forall in Hqs, Hnp.
    assert (map (out arity) (dvar arity (tpi env) (DGeneric c ps)) = map (out arity) (dvar arity env (DGeneric c ps))) as M.
    { apply (f_equal (fun x => [x])), out_dinst_generic_ext, map_ext_Forall.
      eapply Forall_impl; [|exact (Forall_mp (Forall_mp H Hqs) Hnp)]. intros q Hq. apply Hq. }
    split; [rewrite M; reflexivity | intros _; exact M].
  - cbn [dwf no_param_union] in Hwf, Hnp. apply forallb_Forall in Hwf, Hnp.
    assert (map (out arity) (dvar arity (tpi env) (DTuple ps)) = map (out arity) (dvar arity env (DTuple ps))) as M.
    { apply (f_equal (fun x => [x])), out_dinst_tuple_ext, map_ext_Forall.
      eapply Forall_impl; [|exact (Forall_mp (Forall_mp H Hwf) Hnp)]. intros q Hq. apply Hq. }
    split; [rewrite M; reflexivity | intros _; exact M].
  - cbn [dwf no_param_union] in Hwf, Hnp.
    apply andb_prop in Hwf. destruct Hwf as [Hts Hms].
    apply andb_prop in Hnp. destruct Hnp as [Hnp Hnd]. apply negb_true_iff in Hnd.
    assert (map (out arity) (dvar arity (tpi env) (DUnion ts)) = map (out arity) (dvar arity env (DUnion ts))) as M.
    { rewrite !dvar_union, !map_flat_map by exact Hms. apply flat_map_ext_Forall.
      apply forallb_Forall in Hts, Hnp. apply Forall_forall. intros m Hm.
      apply (proj1 (Forall_forall _ _) (Forall_mp (Forall_mp H Hts) Hnp) m Hm). destruct (is_dparam m) eqn:Edp; [|reflexivity].
      rewrite (proj2 (existsb_exists _ _)) in Hnd by (exists m; auto). discriminate. }
    split; [rewrite M; reflexivity | intros _; exact M].
Qed.

Lemma emitted_container E d :
  container_like d = true ->
  emitted arity (Some [dinst arity E d]) = (DConst (out arity (dinst arity E d)), true).
Proof.
  destruct d as [i|t|c qs|qs|us]; try discriminate; intros _; cbn [dinst]; [|reflexivity].
  destruct (c =? type_id); [reflexivity|]. destruct (length qs <=? arity c)%nat; reflexivity.
Qed.

Lemma nonempty_env kps :
  forallb (nonempty_ty arity) kps = true -> Forall (fun vals => vals <> []) (inst_env arity kps).
Proof.
  intros H. apply Forall_map. apply forallb_Forall in H. eapply Forall_impl; [|exact H].
  intros p Hp. unfold nonempty_ty in Hp. destruct (conv_var arity p); discriminate.
Qed.

(* a container-like attribute: one binding, the instance, printed as a constant *)
Lemma read_container top E d :
  container_like d = true ->
  emitted arity (Some (filter_var (dvar_attr arity top E d))) = (DConst (out arity (dinst arity E d)), true).
Proof.
  intros Hc. unfold dvar_attr. rewrite (dvar_container _ _ d Hc), <- (emitted_container E d Hc).
  destruct d as [i|t|c qs|qs|us]; try discriminate; cbn [dinst]; [|reflexivity].
  destruct (c =? type_id); [reflexivity|]. destruct (length qs <=? arity c)%nat; reflexivity.
Qed.

Lemma conv_var_container_subst kps d :
  container_like d = true -> dwf arity d = true ->
  conv_var arity (subst_ty kps d) = [dinst arity (inst_env arity kps) d].
Proof. intros Hc Hd. rewrite <- (dvar_subst kps d Hd). apply dvar_container, Hc. Qed.

Lemma out_dinst_tpi env d :
  Forall (fun vals => vals <> []) env -> container_like d = true -> dwf arity d = true -> no_param_union d = true ->
  out arity (dinst arity (tpi env) d) = out arity (dinst arity env d).
Proof.
  intros Hne Hc Hd Hnp. assert (is_dparam d = false) as Hp by (destruct d; try discriminate; reflexivity).
  pose proof (proj2 (out_dvar_tpi env Hne d Hd Hnp) Hp) as M.
  unfold dvar in M. rewrite !(dvar_container _ _ d Hc) in M. injection M as ->. reflexivity.
Qed.

End Classes.
