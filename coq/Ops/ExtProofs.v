(* C14: lemmas about the comparison / membership / in-place / unary dispatch models of Ops/Ext.v, for
   ARBITRARY builtin rows and user parts (the closed obligations over this run's rows are in Ops/ExtClosed.v). *)
From Coq Require Import List Bool PeanoNat.
From PV Require Import Ops.Model Ops.Proofs Ops.Ext.
Import ListNotations.

Lemma is_err_no_err : forall r, is_err (no_err r) = false.
Proof. intros r. destruct r; reflexivity. Qed.

(* == and != : report_errors=False, resp. the identity fall-back *)
Lemma eqne_err : forall (b : bool) r, is_err (if b then no_err r else r) = negb b && is_err r.
Proof. intros [|] r; [apply is_err_no_err|reflexivity]. Qed.

Lemma cmp_c_err : forall R x n y,
  is_err (cmp_c R x n y) =
  negb (is_eqne n) && (negb (succ R x y n) && negb (succ R y x (swapped n))).
Proof.
  intros. unfold cmp_c. cbv zeta. rewrite eqne_err. f_equal.
  destruct (negb (x =? y) && mem x (ci_mro (R y))); rewrite first_ok2_err; [apply andb_comm|reflexivity].
Qed.

Lemma cmp_py_err : forall T native x n y,
  is_err (cmp_py T native x n y) =
  match native x n y with
  | Some b => b
  | None => negb (is_eqne n) && negb (succ T x y n)
  end.
Proof.
  intros. unfold cmp_py. destruct (native x n y) as [[|]|]; try reflexivity.
  cbv zeta. rewrite eqne_err, first_ok1_err. reflexivity.
Qed.

Lemma inplace_py_err : forall T x n y,
  is_err (inplace_py T x n y) =
  match lookup T x (iname n) with
  | Some e => negb (e_call1 e y)
  | None => is_err (binop_py T x n y)
  end.
Proof.
  intros. unfold inplace_py. destruct (lookup T x (iname n)) as [e|]; [|reflexivity].
  destruct (e_call1 e y); reflexivity.
Qed.

Lemma inplace_c_err : forall R hard x n y,
  is_err (inplace_c R hard x n y) =
  match lookup R x (iname n) with
  | Some e => negb (e_call1 e y) && (hard x (iname n) || is_err (binop_c R x n y))
  | None => is_err (binop_c R x n y)
  end.
Proof.
  intros. unfold inplace_c. destruct (lookup R x (iname n)) as [e|]; [|reflexivity].
  destruct (e_call1 e y); [reflexivity|]. destruct (hard x (iname n)); reflexivity.
Qed.

(* pytype's error is CPython's when what answers at run time answers for pytype; each lemma names what else the
   dispatcher at hand needs *)
Lemma cmp_err_transfer : forall T R native x n y,
  native x n y <> Some true ->
  (succ R x y n = true -> succ T x y n = true) ->
  (succ T x y n = false -> succ R y x (swapped n) = false) ->
  is_err (cmp_py T native x n y) = true -> is_err (cmp_c R x n y) = true.
Proof.
  intros T R native x n y Hnat H1 H2. rewrite cmp_py_err, cmp_c_err.
  destruct (native x n y) as [[|]|]; [contradiction Hnat; reflexivity|discriminate|].
  intros E. apply andb_prop in E. destruct E as [-> E]. apply negb_true_iff in E.
  rewrite (H2 E), (transfer_false _ _ H1 E). reflexivity.
Qed.

(* pytype reports a failed call of a found __iop__ without trying the binary operator: then that one must fail too *)
Lemma inplace_err_transfer : forall T R hard x n y,
  (succ R x y (iname n) = true -> succ T x y (iname n) = true) ->
  (lookup T x (iname n) <> None -> is_err (binop_c R x n y) = true) ->
  (is_err (binop_py T x n y) = true -> is_err (binop_c R x n y) = true) ->
  is_err (inplace_py T x n y) = true -> is_err (inplace_c R hard x n y) = true.
Proof.
  intros T R hard x n y TR Hfall Hbin. rewrite inplace_py_err, inplace_c_err. rewrite !succ_lookup in TR.
  intros Epy.
  assert (BC : is_err (binop_c R x n y) = true).
  { destruct (lookup T x (iname n)); [apply Hfall; discriminate|apply Hbin; exact Epy]. }
  destruct (lookup R x (iname n)) as [er|]; [|exact BC]. rewrite BC, orb_true_r, andb_true_r.
  destruct (e_call1 er y); [|reflexivity]. specialize (TR eq_refl).
  destruct (lookup T x (iname n)) as [et|]; [rewrite TR in Epy|]; discriminate.
Qed.

Lemma cmp_py_builtin_indep : forall rows native U U' x n y, x < length rows -> y < length rows ->
  is_err (cmp_py (mk_table rows U) native x n y) = is_err (cmp_py (mk_table rows U') native x n y).
Proof.
  intros. rewrite !cmp_py_err. rewrite (succ_builtin_indep rows U U' x y n H H0). reflexivity.
Qed.

Lemma cmp_c_builtin_indep : forall rows U U' x n y, x < length rows -> y < length rows ->
  is_err (cmp_c (mk_table rows U) x n y) = is_err (cmp_c (mk_table rows U') x n y).
Proof.
  intros. rewrite !cmp_c_err.
  rewrite (succ_builtin_indep rows U U' x y n H H0), (succ_builtin_indep rows U U' y x (swapped n) H0 H).
  reflexivity.
Qed.

Lemma e_call1_builtin : forall nb U U' b a, a < nb ->
  e_call1 (entry_of nb U b) a = e_call1 (entry_of nb U' b) a.
Proof. intros. rewrite !entry_of_head by exact H. reflexivity. Qed.

Lemma inplace_py_builtin_indep : forall rows U U' x n y, x < length rows -> y < length rows ->
  is_err (inplace_py (mk_table rows U) x n y) = is_err (inplace_py (mk_table rows U') x n y).
Proof.
  intros rows U U' x n y Hx Hy. rewrite !inplace_py_err.
  destruct (nth_error_heads _ _ Hx) as [row E].
  rewrite (lookup_builtin _ U _ _ _ E), (lookup_builtin _ U' _ _ _ E).
  destruct (find_entry row (iname n)) as [b|]; cbn [option_map].
  - rewrite (e_call1_builtin _ U U' b y Hy). reflexivity.
  - apply binop_py_builtin_indep; assumption.
Qed.

Lemma inplace_c_builtin_indep : forall rows hard U U' x n y, x < length rows -> y < length rows ->
  is_err (inplace_c (mk_table rows U) hard x n y) = is_err (inplace_c (mk_table rows U') hard x n y).
Proof.
  intros rows hard U U' x n y Hx Hy. rewrite !inplace_c_err.
  destruct (nth_error_heads _ _ Hx) as [row E].
  rewrite (lookup_builtin _ U _ _ _ E), (lookup_builtin _ U' _ _ _ E).
  rewrite (binop_c_builtin_indep rows U U' x n y Hx Hy).
  destruct (find_entry row (iname n)) as [b|]; cbn [option_map]; [|reflexivity].
  rewrite (e_call1_builtin _ U U' b y Hy). reflexivity.
Qed.

Lemma call0_builtin_indep : forall rows U U' x n, x < length rows ->
  call0 (mk_table rows U) x n = call0 (mk_table rows U') x n.
Proof.
  intros rows U U' x n Hx. unfold call0. destruct (nth_error_heads _ _ Hx) as [row E].
  rewrite (lookup_builtin _ U _ _ _ E), (lookup_builtin _ U' _ _ _ E).
  destruct (find_entry row n) as [b|]; reflexivity.
Qed.

(* in_disp calls the __getitem__ of the sequence protocol with an int: C_INT has to be a head *)
Lemma in_builtin_indep : forall rows U U' i q, q < length rows -> i < length rows -> C_INT < length rows ->
  in_disp (mk_table rows U) i q = in_disp (mk_table rows U') i q.
Proof.
  intros rows U U' i q Hq Hi H1. unfold in_disp. destruct (nth_error_heads _ _ Hq) as [row E].
  rewrite !(lookup_builtin _ U _ _ _ E), !(lookup_builtin _ U' _ _ _ E).
  destruct (find_entry row N_CONTAINS) as [b|]; cbn [option_map].
  - rewrite (e_call1_builtin _ U U' b i Hi). reflexivity.
  - destruct (find_entry row N_ITER) as [b1|]; cbn [option_map]; [reflexivity|].
    destruct (find_entry row N_GETITEM) as [b2|]; cbn [option_map]; [|reflexivity].
    rewrite (e_call1_builtin _ U U' b2 C_INT H1). reflexivity.
Qed.

(* on two heads the dispatchers do not see the user part, so the pairwise checks speak of every table over the rows *)
Lemma cmp_pair_faithful_spec : forall rowsT rowsR ntbl UT UR x n y, cmp_pair_faithful rowsT rowsR ntbl = true ->
  length rowsT = length rowsR -> x < length rowsT -> y < length rowsT -> In n cmp_names ->
  is_err (cmp_py (mk_table rowsT UT) (native_of ntbl (length rowsT)) x n y) = true ->
  is_err (cmp_c (mk_table rowsR UR) x n y) = true.
Proof.
  intros rowsT rowsR ntbl UT UR x n y H Hlen Lx Ly Hn.
  rewrite (cmp_py_builtin_indep rowsT _ UT no_users) by assumption.
  rewrite (cmp_c_builtin_indep rowsR UR no_users) by (rewrite <- Hlen; assumption).
  apply implb_true_iff. exact (heads_pairs_all _ _ _ H x y n Lx Ly Hn).
Qed.

Lemma iop_pair_faithful_spec : forall rowsT rowsR hard UT UR x n y, iop_pair_faithful rowsT rowsR hard = true ->
  length rowsT = length rowsR -> x < length rowsT -> y < length rowsT -> In n arith_names ->
  excl_fp_iop x n y = false ->
  is_err (inplace_py (mk_table rowsT UT) x n y) = true ->
  is_err (inplace_c (mk_table rowsR UR) (hard_of hard) x n y) = true.
Proof.
  intros rowsT rowsR hard UT UR x n y H Hlen Lx Ly Hn Hex.
  rewrite (inplace_py_builtin_indep rowsT UT no_users) by assumption.
  rewrite (inplace_c_builtin_indep rowsR _ UR no_users) by (rewrite <- Hlen; assumption).
  apply implb_true_iff. pose proof (heads_pairs_all _ _ _ H x y n Lx Ly Hn) as P. cbv beta in P.
  rewrite Hex in P. exact P.
Qed.

Lemma in_pair_faithful_spec : forall rowsT rowsR UT UR i q, in_pair_faithful rowsT rowsR = true ->
  length rowsT = length rowsR -> C_INT < length rowsT -> i < length rowsT -> q < length rowsT ->
  in_disp (mk_table rowsT UT) i q = Err -> in_disp (mk_table rowsR UR) i q = Err.
Proof.
  intros rowsT rowsR UT UR i q H Hlen H1 Li Lq Hpy. apply is_err_Err.
  rewrite (in_builtin_indep rowsT UT no_users) in Hpy by assumption.
  rewrite (in_builtin_indep rowsR UR no_users) by (rewrite <- Hlen; assumption).
  pose proof (heads_names_all _ _ _ H q i Lq (in_heads _ _ Li)) as P. unfold in_py, in_c in P.
  rewrite Hpy in P. exact P.
Qed.

Lemma store_pair_faithful_spec : forall rowsT rowsR UT UR x n k, store_pair_faithful rowsT rowsR = true ->
  length rowsT = length rowsR -> x < length rowsT -> k < length rowsT -> In n store_names ->
  excl_fp_store x n = false ->
  succ (mk_table rowsR UR) x k n = true -> succ (mk_table rowsT UT) x k n = true.
Proof.
  intros rowsT rowsR UT UR x n k H Hlen Lx Lk Hn Hex.
  rewrite (succ_builtin_indep rowsT UT no_users) by assumption.
  rewrite (succ_builtin_indep rowsR UR no_users) by (rewrite <- Hlen; assumption).
  pose proof (heads_pairs_all _ _ _ H x k n Lx Lk Hn) as P. unfold store_py, store_c, store_disp in P.
  rewrite Hex, !first_ok1_err in P. intros S. rewrite S in P.
  destruct (succ (mk_table rowsT no_users) x k n); [reflexivity|discriminate].
Qed.

Lemma un_faithful_spec : forall rowsT rowsR UT UR x n, un_faithful rowsT rowsR = true ->
  length rowsT = length rowsR -> x < length rowsT -> In n un_names ->
  call0 (mk_table rowsT UT) x n = Err -> call0 (mk_table rowsR UR) x n = Err.
Proof.
  intros rowsT rowsR UT UR x n H Hlen Lx Hn Hpy. apply is_err_Err.
  rewrite (call0_builtin_indep rowsT UT no_users) in Hpy by assumption.
  rewrite (call0_builtin_indep rowsR UR no_users) by (rewrite <- Hlen; assumption).
  pose proof (heads_names_all _ _ _ H x n Lx Hn) as P. cbv beta in P. rewrite Hpy in P. exact P.
Qed.

Lemma ucol2_at : forall rowsT rowsR l n, ucol2_faithful rowsT rowsR = true -> l < length rowsT ->
  In n arg1_names -> excl_fp_store l n = false -> uacc_le (uacc_of rowsR l n) (uacc_of rowsT l n) = true.
Proof.
  intros rowsT rowsR l n H Hl Hn Hex. pose proof (heads_names_all _ _ _ H l n Hl Hn) as P. cbv beta in P.
  rewrite Hex in P. exact P.
Qed.

Lemma excl_store_other : forall l n, (n =? N_DELITEM) = false -> excl_fp_store l n = false.
Proof. intros l n H. unfold excl_fp_store. rewrite H. apply andb_false_r. Qed.

Lemma succ_transfer_new : forall rowsT rowsR UT UR l r n,
  length rowsT = length rowsR -> 0 < length rowsT ->
  ucol2_faithful rowsT rowsR = true -> obj_faithful rowsT rowsR = true ->
  user_ok (length rowsT) UR UT l -> user_ok (length rowsT) UR UT r ->
  In n arg1_names -> excl_fp_store l n = false -> length rowsT <= l \/ length rowsT <= r ->
  succ (mk_table rowsR UR) l r n = true -> succ (mk_table rowsT UT) l r n = true.
Proof.
  intros rowsT rowsR UT UR l r n Hlen Hpos Hu Hobj Hl Hr Hn Hex Hmix.
  apply (succ_transfer rowsT rowsR UT UR Hlen Hpos l r n Hmix Hl Hr); [|exact Hobj].
  intros Ll. apply (ucol2_at _ _ _ _ Hu Ll Hn Hex).
Qed.

Lemma not_both_heads : forall nb x y, nb <= x \/ nb <= y -> (x <? nb) && (y <? nb) = false.
Proof. intros nb x y [H|H]; apply Nat.ltb_ge in H; rewrite H; [reflexivity|apply andb_false_r]. Qed.

Lemma rt_cmp_rejects : forall rowsR UR c x m,
  rt_cmp_rejects_users rowsR = true -> c < length rowsR -> length rowsR <= x -> In m cmp_names ->
  succ (mk_table rowsR UR) c x m = false.
Proof.
  intros rowsR UR c x m H Hc Hx Hm. rewrite (succ_head_user _ _ _ _ _ Hc Hx).
  pose proof (heads_names_all _ _ _ H c m Hc Hm) as P. cbv beta in P.
  destruct (uacc_of rowsR c m); try discriminate. reflexivity.
Qed.

Lemma py_cmp_accepts : forall rowsT UT c y m,
  py_cmp_accepts_users rowsT = true -> c < length rowsT -> length rowsT <= y -> In m cmp_names ->
  succ (mk_table rowsT UT) c y m = true.
Proof.
  intros rowsT UT c y m H Hc Hy Hm. rewrite (succ_head_user _ _ _ _ _ Hc Hy).
  pose proof (heads_names_all _ _ _ H c m Hc Hm) as P. cbv beta in P.
  destruct (uacc_of rowsT c m); try discriminate. reflexivity.
Qed.

Lemma native_find_user : forall l nb x n, native_user_ok l nb = true -> native_find l x n nb <> Some true.
Proof.
  intros l nb x n. induction l as [|[[[x' n'] y'] b] t IH]; intros H; simpl; [discriminate|].
  simpl in H. apply andb_prop in H. destruct H as [H1 H2].
  destruct ((x' =? x) && (n' =? n) && (y' =? nb)) eqn:E; [|apply IH; exact H2].
  apply andb_prop in E. destruct E as [_ E]. apply Nat.eqb_eq in E. subst y'.
  rewrite Nat.leb_refl in H1. destruct b; discriminate.
Qed.

Lemma native_mixed : forall l nb x n y, native_user_ok l nb = true -> nb <= x \/ nb <= y ->
  native_of l nb x n y <> Some true.
Proof.
  intros l nb x n y H Hmix. unfold native_of. destruct (nb <=? x) eqn:Lx; [discriminate|].
  apply Nat.leb_gt in Lx. destruct Hmix as [Hx|Hy].
  - exfalso. apply (Nat.lt_irrefl x). eapply Nat.lt_le_trans; eassumption.
  - apply Nat.leb_le in Hy. rewrite Hy. apply native_find_user. exact H.
Qed.

Lemma cmp_in_arg1 : forall n, In n cmp_names -> In n arg1_names.
Proof. exact (names_map_in (fun n => n) cmp_names arg1_names eq_refl). Qed.

Lemma cmp_not_del : forall n, In n cmp_names -> (n =? N_DELITEM) = false.
Proof. intros n H. apply negb_true_iff. revert n H. apply names_all. reflexivity. Qed.

Lemma swapped_cmp : forall n, In n cmp_names -> In (swapped n) cmp_names.
Proof. exact (names_map_in swapped cmp_names cmp_names eq_refl). Qed.

Lemma cmp_reported_is_real_lemma : forall rowsT rowsR ntbl UT UR x n y,
  shape_ok rowsT rowsR = true -> cmp_pair_faithful rowsT rowsR ntbl = true ->
  ucol2_faithful rowsT rowsR = true -> obj_faithful rowsT rowsR = true ->
  rt_cmp_rejects_users rowsR = true -> native_user_ok ntbl (length rowsT) = true ->
  py_cmp_accepts_users rowsT = true ->
  user_ok (length rowsT) UR UT x -> user_ok (length rowsT) UR UT y ->
  In n cmp_names ->
  (length rowsT <= x -> length rowsT <= y -> succ (mk_table rowsR UR) y x (swapped n) = false) ->
  cmp_py (mk_table rowsT UT) (native_of ntbl (length rowsT)) x n y = Err ->
  cmp_c (mk_table rowsR UR) x n y = Err.
Proof.
  intros rowsT rowsR ntbl UT UR x n y Hshape Hpair Hucol Hobj Hrej Hnat Hacc Hrx Hry Hn Hrefl Hpy.
  destruct (shape_ok_parts _ _ Hshape) as [Hlen Hpos].
  apply is_err_Err. apply (f_equal is_err) in Hpy.
  destruct (Nat.lt_ge_cases x (length rowsT)) as [Lx|Lx]; [destruct (Nat.lt_ge_cases y (length rowsT)) as [Ly|Ly]|].
  - exact (cmp_pair_faithful_spec _ _ _ UT UR x n y Hpair Hlen Lx Ly Hn Hpy).
  - (* builtin x, user y: the stub's comparison dunder accepts every user class *)
    rewrite cmp_py_err in Hpy. destruct (native_of ntbl (length rowsT) x n y) as [b|] eqn:N.
    + subst b. exfalso. apply (native_mixed ntbl (length rowsT) x n y Hnat); [right; exact Ly|exact N].
    + rewrite (py_cmp_accepts rowsT UT x y n Hacc Lx Ly Hn), andb_false_r in Hpy. discriminate.
  - (* user x: its comparison transfers; the reflected one of a builtin y rejects x, that of a user y by hypothesis *)
    revert Hpy. apply cmp_err_transfer.
    + apply native_mixed; auto.
    + apply (succ_transfer_new rowsT rowsR UT UR x y n Hlen Hpos Hucol Hobj Hrx Hry (cmp_in_arg1 n Hn)
               (excl_store_other x n (cmp_not_del n Hn))). left. exact Lx.
    + intros _. destruct (Nat.lt_ge_cases y (length rowsT)) as [Ly|Ly]; [|exact (Hrefl Lx Ly)].
      apply (rt_cmp_rejects rowsR UR y x (swapped n) Hrej); [| |apply swapped_cmp; exact Hn];
        rewrite <- Hlen; assumption.
Qed.

(* == and != are never reported (and never fail at run time) *)
Lemma cmp_c_eqne : forall R x n y, is_eqne n = true -> is_err (cmp_c R x n y) = false.
Proof. intros R x n y H. rewrite cmp_c_err. rewrite H. reflexivity. Qed.

Lemma cmp_eqne_lemma : forall rowsT rowsR ntbl UT x n y,
  shape_ok rowsT rowsR = true -> cmp_pair_faithful rowsT rowsR ntbl = true ->
  native_user_ok ntbl (length rowsT) = true ->
  In n cmp_names -> is_eqne n = true ->
  is_err (cmp_py (mk_table rowsT UT) (native_of ntbl (length rowsT)) x n y) = false.
Proof.
  intros rowsT rowsR ntbl UT x n y Hshape Hpair Hnat Hn He.
  destruct (shape_ok_parts _ _ Hshape) as [Hlen _].
  assert (User : length rowsT <= x \/ length rowsT <= y ->
                 is_err (cmp_py (mk_table rowsT UT) (native_of ntbl (length rowsT)) x n y) = false).
  { intros Hu. rewrite cmp_py_err, He. pose proof (native_mixed ntbl (length rowsT) x n y Hnat Hu) as Hnm.
    destruct (native_of ntbl (length rowsT) x n y) as [[|]|]; [contradiction Hnm|..]; reflexivity. }
  destruct (Nat.lt_ge_cases x (length rowsT)) as [Lx|Lx]; [|auto].
  destruct (Nat.lt_ge_cases y (length rowsT)) as [Ly|Ly]; [|auto].
  (* two heads: an error would be one of cmp_c *)
  destruct (is_err (cmp_py (mk_table rowsT UT) (native_of ntbl (length rowsT)) x n y)) eqn:E; [|reflexivity].
  rewrite <- (cmp_c_eqne (mk_table rowsR no_users) x n y He). symmetry.
  exact (cmp_pair_faithful_spec _ _ _ UT no_users x n y Hpair Hlen Lx Ly Hn E).
Qed.

Definition look_le (a : cls) (r t : option entry) : Prop :=
  match r, t with
  | Some er, Some et => entry_le_for a er et
  | None, None => True
  | _, _ => False
  end.

Lemma user_look_le : forall rowsT rowsR UT UR a u n,
  length rowsT = length rowsR -> 0 < length rowsT ->
  obj_faithful rowsT rowsR = true -> obj_complete rowsT rowsR = true ->
  length rowsT <= u -> user_ok (length rowsT) UR UT u -> arg_ok (length rowsT) UR UT a ->
  look_le a (lookup (mk_table rowsR UR) u n) (lookup (mk_table rowsT UT) u n).
Proof.
  intros rowsT rowsR UT UR a u n Hlen Hpos Hobj Hcomp Hu Hrel Hok.
  pose proof (user_found_le rowsT rowsR UT UR Hlen Hpos a u n Hu Hrel Hok Hobj) as F.
  pose proof (user_missing rowsT rowsR UT UR Hlen Hpos u n Hu Hrel Hcomp) as M.
  unfold look_le. destruct (lookup (mk_table rowsR UR) u n) as [er|].
  - destruct (F er eq_refl) as [et [-> E]]. exact E.
  - rewrite (M eq_refl). exact I.
Qed.

Lemma in_err_transfer : forall T R i q,
  look_le i (lookup R q N_CONTAINS) (lookup T q N_CONTAINS) ->
  look_le C_INT (lookup R q N_ITER) (lookup T q N_ITER) ->
  look_le C_INT (lookup R q N_GETITEM) (lookup T q N_GETITEM) ->
  in_disp T i q = Err -> in_disp R i q = Err.
Proof.
  intros T R i q RC RI RG. unfold in_disp, look_le in *.
  destruct (lookup R q N_CONTAINS) as [erc|]; destruct (lookup T q N_CONTAINS) as [etc|]; try contradiction.
  - destruct RC as [_ RC]. destruct (e_call1 erc i); [rewrite (RC eq_refl); discriminate|reflexivity].
  - destruct (lookup R q N_ITER) as [eri|]; destruct (lookup T q N_ITER) as [eti|]; try contradiction.
    + destruct RI as [RI _]. destruct (e_call0 eri); [rewrite (RI eq_refl); discriminate|reflexivity].
    + destruct (lookup R q N_GETITEM) as [erg|]; destruct (lookup T q N_GETITEM) as [etg|]; try contradiction;
        [|reflexivity].
      destruct RG as [_ RG]. destruct (e_call1 erg C_INT); [rewrite (RG eq_refl); discriminate|reflexivity].
Qed.

(* when the sequence has no __contains__ the item plays no role *)
Lemma in_disp_no_contains : forall T i i' q, lookup T q N_CONTAINS = None -> in_disp T i q = in_disp T i' q.
Proof. intros T i i' q H. unfold in_disp. rewrite H. reflexivity. Qed.

Lemma in_disp_contains : forall T i q, lookup T q N_CONTAINS <> None ->
  is_err (in_disp T i q) = negb (succ T q i N_CONTAINS).
Proof.
  intros T i q H. unfold in_disp. rewrite succ_lookup.
  destruct (lookup T q N_CONTAINS) as [e|]; [destruct (e_call1 e i); reflexivity|contradiction].
Qed.

Lemma contains_presence_spec : forall rowsT rowsR UT UR q, contains_presence rowsT rowsR = true ->
  length rowsT = length rowsR -> q < length rowsT ->
  (lookup (mk_table rowsT UT) q N_CONTAINS = None <-> lookup (mk_table rowsR UR) q N_CONTAINS = None).
Proof.
  intros rowsT rowsR UT UR q H Hlen Lq. unfold contains_presence in H. rewrite forallb_forall in H.
  specialize (H q (in_heads _ _ Lq)). apply eqb_prop in H. unfold has_entry in H.
  destruct (nth_error_heads rowsT q Lq) as [rt ET].
  destruct (nth_error_heads rowsR q) as [rr ER]; [rewrite <- Hlen; exact Lq|].
  rewrite (lookup_builtin _ _ _ _ _ ET), (lookup_builtin _ _ _ _ _ ER). rewrite ET, ER in H.
  destruct (find_entry rt N_CONTAINS); destruct (find_entry rr N_CONTAINS); try discriminate H;
    split; intros E; try discriminate E; reflexivity.
Qed.

Lemma in_reported_is_real_lemma : forall rowsT rowsR UT UR i q,
  shape_ok rowsT rowsR = true -> in_pair_faithful rowsT rowsR = true ->
  ucol2_faithful rowsT rowsR = true -> obj_faithful rowsT rowsR = true -> obj_complete rowsT rowsR = true ->
  contains_presence rowsT rowsR = true -> C_INT < length rowsT ->
  user_ok (length rowsT) UR UT i -> user_ok (length rowsT) UR UT q ->
  in_py (mk_table rowsT UT) i q = Err -> in_c (mk_table rowsR UR) i q = Err.
Proof.
  intros rowsT rowsR UT UR i q Hshape Hpair Hucol Hobj Hcomp Hpres H1 Hri Hrq Hpy.
  destruct (shape_ok_parts _ _ Hshape) as [Hlen Hpos].
  unfold in_py, in_c in *.
  destruct (Nat.lt_ge_cases q (length rowsT)) as [Lq|Lq]; [destruct (Nat.lt_ge_cases i (length rowsT)) as [Li|Li]|].
  - exact (in_pair_faithful_spec _ _ UT UR i q Hpair Hlen H1 Li Lq Hpy).
  - (* builtin sequence, item an instance of a user class *)
    pose proof (contains_presence_spec _ _ UT UR q Hpres Hlen Lq) as Pr.
    destruct (lookup (mk_table rowsT UT) q N_CONTAINS) as [et|] eqn:LT.
    + (* __contains__ on both sides: the one option transfers *)
      assert (LR : lookup (mk_table rowsR UR) q N_CONTAINS <> None) by (intros N; apply Pr in N; discriminate).
      assert (LT' : lookup (mk_table rowsT UT) q N_CONTAINS <> None) by (rewrite LT; discriminate).
      apply is_err_Err. apply (f_equal is_err) in Hpy.
      rewrite (in_disp_contains _ i q LT') in Hpy. rewrite (in_disp_contains _ i q LR).
      apply negb_true_iff in Hpy. apply negb_true_iff. revert Hpy. apply transfer_false.
      apply (succ_transfer_user_right rowsT rowsR UT UR Hlen q i N_CONTAINS Lq Li (user_ok_arg_ok _ _ _ _ Hri)).
      apply (ucol2_at _ _ _ _ Hucol Lq); [apply mem_In|apply excl_store_other]; reflexivity.
    + (* on neither side: any head can stand for the item *)
      rewrite (in_disp_no_contains _ i 0 q (proj1 Pr eq_refl)).
      apply (in_pair_faithful_spec _ _ UT UR 0 q Hpair Hlen H1 Hpos Lq).
      rewrite <- (in_disp_no_contains _ i 0 q LT). exact Hpy.
  - (* the sequence is an instance of a user class *)
    pose proof (arg_ok_builtin _ UR UT C_INT H1) as Aint.
    pose proof (fun a n => user_look_le rowsT rowsR UT UR a q n Hlen Hpos Hobj Hcomp Lq Hrq) as L.
    revert Hpy. apply in_err_transfer; apply L; [exact (user_ok_arg_ok _ _ _ _ Hri)|exact Aint|exact Aint].
Qed.

Lemma arith_binop : forall n, In n arith_names -> In n binop_names.
Proof. exact (names_map_in (fun n => n) arith_names binop_names eq_refl). Qed.

Lemma arith_iname : forall n, In n arith_names -> In (iname n) arg1_names.
Proof. exact (names_map_in iname arith_names arg1_names eq_refl). Qed.

Lemma arith_iname_not_del : forall n, In n arith_names -> (iname n =? N_DELITEM) = false.
Proof. intros n H. apply negb_true_iff. revert n H. apply names_all. reflexivity. Qed.

Lemma arith_not_getitem : forall n x y, In n arith_names -> excl_fp_bin x n y = false.
Proof.
  intros n x y H. unfold excl_fp_bin. apply andb_false_intro2. apply negb_true_iff.
  revert n H. apply names_all. reflexivity.
Qed.

Lemma inplace_reported_is_real_lemma : forall rowsT rowsR hard UT UR x n y,
  shape_ok rowsT rowsR = true -> pair_faithful rowsT rowsR = true ->
  ucol_faithful rowsT rowsR = true -> obj_faithful rowsT rowsR = true ->
  iop_pair_faithful rowsT rowsR hard = true -> ucol2_faithful rowsT rowsR = true ->
  user_ok (length rowsT) UR UT x -> user_ok (length rowsT) UR UT y ->
  In n arith_names -> excl_fp_iop x n y = false ->
  ((x <? length rowsT) && (y <? length rowsT) = false ->
   lookup (mk_table rowsT UT) x (iname n) <> None -> binop_c (mk_table rowsR UR) x n y = Err) ->
  inplace_py (mk_table rowsT UT) x n y = Err -> inplace_c (mk_table rowsR UR) (hard_of hard) x n y = Err.
Proof.
  intros rowsT rowsR hard UT UR x n y Hshape Hpf Huc Hobj Hpair Hucol Hrx Hry Hn Hex Hfall Hpy.
  destruct (shape_ok_parts _ _ Hshape) as [Hlen Hpos].
  apply is_err_Err. apply (f_equal is_err) in Hpy.
  assert (User : length rowsT <= x \/ length rowsT <= y ->
                 is_err (inplace_c (mk_table rowsR UR) (hard_of hard) x n y) = true).
  { intros Hu. revert Hpy. apply inplace_err_transfer.
    - exact (succ_transfer_new rowsT rowsR UT UR x y (iname n) Hlen Hpos Hucol Hobj Hrx Hry (arith_iname n Hn)
               (excl_store_other x _ (arith_iname_not_del n Hn)) Hu).
    - intros Hl. rewrite (Hfall (not_both_heads _ _ _ Hu) Hl). reflexivity.
    - (* no __iop__ for pytype: the binary operator *)
      intros E. rewrite (reported_is_real_lemma rowsT rowsR UT UR x n y Hshape Hpf Huc Hobj Hrx Hry
                           (arith_binop n Hn) (arith_not_getitem n x y Hn) (is_err_Err _ E)). reflexivity. }
  destruct (Nat.lt_ge_cases x (length rowsT)) as [Lx|Lx]; [|auto].
  destruct (Nat.lt_ge_cases y (length rowsT)) as [Ly|Ly]; [|auto].
  exact (iop_pair_faithful_spec _ _ _ UT UR x n y Hpair Hlen Lx Ly Hn Hex Hpy).
Qed.

Lemma store_in_arg1 : forall n, In n store_names -> In n arg1_names.
Proof. exact (names_map_in (fun n => n) store_names arg1_names eq_refl). Qed.

Lemma store_reported_is_real_lemma : forall rowsT rowsR UT UR x n k,
  shape_ok rowsT rowsR = true -> store_pair_faithful rowsT rowsR = true ->
  ucol2_faithful rowsT rowsR = true -> obj_faithful rowsT rowsR = true ->
  user_ok (length rowsT) UR UT x -> user_ok (length rowsT) UR UT k -> In n store_names ->
  excl_fp_store x n = false ->
  store_py (mk_table rowsT UT) x n k = Err -> store_c (mk_table rowsR UR) x n k = Err.
Proof.
  intros rowsT rowsR UT UR x n k Hshape Hpair Hucol Hobj Hrx Hrk Hn Hex Hpy.
  destruct (shape_ok_parts _ _ Hshape) as [Hlen Hpos].
  apply is_err_Err. apply (f_equal is_err) in Hpy. unfold store_py, store_c, store_disp in *.
  rewrite first_ok1_err in *. apply negb_true_iff in Hpy. apply negb_true_iff.
  (* the one option: were it to succeed at run time, it would for pytype *)
  assert (TR : succ (mk_table rowsR UR) x k n = true -> succ (mk_table rowsT UT) x k n = true).
  { pose proof (succ_transfer_new rowsT rowsR UT UR x k n Hlen Hpos Hucol Hobj Hrx Hrk (store_in_arg1 n Hn) Hex)
      as User.
    destruct (Nat.lt_ge_cases x (length rowsT)) as [Lx|Lx]; [|auto].
    destruct (Nat.lt_ge_cases k (length rowsT)) as [Lk|Lk]; [|auto].
    exact (store_pair_faithful_spec _ _ UT UR x n k Hpair Hlen Lx Lk Hn Hex). }
  exact (transfer_false _ _ TR Hpy).
Qed.

Lemma un_reported_is_real_lemma : forall rowsT rowsR UT UR x n,
  shape_ok rowsT rowsR = true -> un_faithful rowsT rowsR = true -> obj_faithful rowsT rowsR = true ->
  user_ok (length rowsT) UR UT x -> In n un_names ->
  call0 (mk_table rowsT UT) x n = Err -> call0 (mk_table rowsR UR) x n = Err.
Proof.
  intros rowsT rowsR UT UR x n Hshape Hun Hobj Hrx Hn.
  destruct (shape_ok_parts _ _ Hshape) as [Hlen Hpos].
  destruct (Nat.lt_ge_cases x (length rowsT)) as [Lx|Lx].
  - exact (un_faithful_spec _ _ UT UR x n Hun Hlen Lx Hn).
  - apply (call_found_le (lookup (mk_table rowsR UR) x n) (lookup (mk_table rowsT UT) x n) n).
    apply (found_le_0 0).
    exact (user_found_le rowsT rowsR UT UR Hlen Hpos 0 x n Lx Hrx (arg_ok_builtin _ _ _ 0 Hpos) Hobj).
Qed.
