(* C14: the closed obligations of Ops/Ext.v over this run's REGENERATED builtin rows, native-comparison
   table and hard in-place table (vm_compute), and the two tables as the dispatchers of Ops/Ext.v take them. *)
From Coq Require Import List Bool PeanoNat.
From PV Require Import Ops.Model Generated.C14_Builtins Ops.Proofs Ops.Closed Ops.Ext Ops.ExtProofs Ops.HeadTable.
Import ListNotations.

Lemma cmp_pair_faithful_holds : cmp_pair_faithful py_rows rt_rows native_tbl = true.
Proof. rewrite (cmp_pair_faithful_eq _ _ _ rows_len), py_tab_eq, rt_tab_eq. vm_compute. reflexivity. Qed.

Lemma iop_pair_faithful_holds : iop_pair_faithful py_rows rt_rows rt_hard = true.
Proof. rewrite (iop_pair_faithful_eq _ _ rows_len), py_tab_eq, rt_tab_eq. vm_compute. reflexivity. Qed.

Lemma in_pair_faithful_holds : in_pair_faithful py_rows rt_rows = true.
Proof. rewrite in_pair_faithful_eq. vm_compute. reflexivity. Qed.

Lemma store_pair_faithful_holds : store_pair_faithful py_rows rt_rows = true.
Proof. rewrite (store_pair_faithful_eq _ _ rows_len), py_tab_eq, rt_tab_eq. vm_compute. reflexivity. Qed.

Lemma un_faithful_holds : un_faithful py_rows rt_rows = true.
Proof. vm_compute. reflexivity. Qed.

Lemma ucol2_faithful_holds : ucol2_faithful py_rows rt_rows = true.
Proof. vm_compute. reflexivity. Qed.

Lemma rt_cmp_rejects_users_holds : rt_cmp_rejects_users rt_rows = true.
Proof. vm_compute. reflexivity. Qed.

Lemma native_user_ok_holds : native_user_ok native_tbl (length py_rows) = true.
Proof. vm_compute. reflexivity. Qed.

Lemma py_cmp_accepts_users_holds : py_cmp_accepts_users py_rows = true.
Proof. vm_compute. reflexivity. Qed.

Lemma contains_presence_holds : contains_presence py_rows rt_rows = true.
Proof. vm_compute. reflexivity. Qed.

Definition NATIVE : cls -> name -> cls -> option bool := native_of native_tbl c14_nb.
Definition HARD : cls -> name -> bool := hard_of rt_hard.

Lemma int_is_head : C_INT < length py_rows.
Proof. vm_compute. repeat constructor. Qed.
