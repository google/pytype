(* C14: the closed obligations over this run's REGENERATED builtin rows, discharged by vm_compute (so a changed
   line of builtins.pytd re-proves or breaks them on the next run), the class tables over them, and the two lemmas of
   Ops/Proofs.v on them that several theorems of Props/C14.v share. *)
From Coq Require Import List Bool PeanoNat.
From PV Require Import Ops.Model Generated.C14_Builtins Ops.Proofs Ops.HeadTable.
Import ListNotations.

Lemma shape_ok_holds : shape_ok py_rows rt_rows = true.
Proof. vm_compute. reflexivity. Qed.

(* The checks that run a dispatcher on every pair of heads are evaluated over the tables of Ops/HeadTable.v, computed
   here once for this run's rows. *)
Definition py_tab : htable := Eval vm_compute in head_table py_rows.
Definition rt_tab : htable := Eval vm_compute in head_table rt_rows.

Lemma py_tab_eq : head_table py_rows = py_tab.
Proof. vm_compute. reflexivity. Qed.

Lemma rt_tab_eq : head_table rt_rows = rt_tab.
Proof. vm_compute. reflexivity. Qed.

Lemma rows_len : length py_rows = length rt_rows.
Proof. reflexivity. Qed.

Lemma pair_faithful_holds : pair_faithful py_rows rt_rows = true.
Proof. rewrite (pair_faithful_eq _ _ rows_len), py_tab_eq, rt_tab_eq. vm_compute. reflexivity. Qed.

Lemma ucol_faithful_holds : ucol_faithful py_rows rt_rows = true.
Proof. vm_compute. reflexivity. Qed.

Lemma obj_faithful_holds : obj_faithful py_rows rt_rows = true.
Proof. vm_compute. reflexivity. Qed.

Lemma obj_complete_holds : obj_complete py_rows rt_rows = true.
Proof. vm_compute. reflexivity. Qed.

Lemma unary_faithful_holds : unary_faithful py_rows rt_rows = true.
Proof. vm_compute. reflexivity. Qed.

Lemma pair_caught_holds : pair_caught py_rows rt_rows = true.
Proof. rewrite (pair_caught_eq _ _ rows_len), py_tab_eq, rt_tab_eq. vm_compute. reflexivity. Qed.

Lemma refl_closed_holds : refl_closed py_rows = true.
Proof. vm_compute. reflexivity. Qed.

Lemma presence_caught_holds : presence_caught py_rows rt_rows = true.
Proof. vm_compute. reflexivity. Qed.

(* The statements on this run's tables have the generated constant c14_nb where the lemmas of Ops/Proofs.v have
   length py_rows: both compute to the number of heads, and every [exact] makes the kernel check that they agree. *)

Definition PY (UT : table) : table := mk_table py_rows UT.
Definition RT (UR : table) : table := mk_table rt_rows UR.
Definition user_class_ok (UR UT : table) (u : cls) : Prop := user_ok c14_nb UR UT u.

Lemma unary_reported_is_real_inst : forall (UT UR : table) x n,
  user_class_ok UR UT x -> in_scope_fp rt_rows x n = true ->
  (attr (PY UT) x n = Err -> attr (RT UR) x n = Err) /\
  (mcall (PY UT) x n = Err -> mcall (RT UR) x n = Err) /\
  (call0 (PY UT) x n = Err -> call0 (RT UR) x n = Err).
Proof.
  intros UT UR x n.
  exact (unary_reported_is_real_lemma py_rows rt_rows UT UR x n shape_ok_holds unary_faithful_holds
           obj_faithful_holds).
Qed.

(* F2 / F3 are about two attribute names: no dunder below them is excluded *)
Lemma excl_fp_mcall_dunder : forall o n, n < N_AS_INTEGER_RATIO -> excl_fp_mcall o n = false.
Proof.
  intros o n H. unfold excl_fp_mcall, excl_fp_attr.
  rewrite (proj2 (Nat.eqb_neq n N_AS_INTEGER_RATIO) (Nat.lt_neq _ _ H)).
  rewrite (proj2 (Nat.eqb_neq n N_TO_BYTES) (Nat.lt_neq _ _ (Nat.lt_lt_succ_r _ _ H))).
  rewrite !andb_false_r. reflexivity.
Qed.

Lemma presence_caught_inst : forall (UT UR : table) x n,
  user_class_ok UR UT x -> (c14_nb <=? x) || ((N_NEG <=? n) && negb (is_new n)) = true ->
  (attr (RT UR) x n = Err -> attr (PY UT) x n = Err) /\
  (getattr (RT UR) x n = None -> mcall (PY UT) x n = Err) /\
  (lookup (RT UR) x n = None -> call0 (PY UT) x n = Err).
Proof.
  intros UT UR x n.
  exact (presence_caught_lemma py_rows rt_rows UT UR x n shape_ok_holds presence_caught_holds
           obj_complete_holds).
Qed.
