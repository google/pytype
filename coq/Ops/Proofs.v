(* C14 lemmas about the dispatch models, for ARBITRARY builtin rows and user parts (independent of the
   regenerated table; the closed obligations over this run's rows are discharged in Ops/Closed.v). *)
From Coq Require Import List Bool PeanoNat.
From PV Require Import Ops.Model.
Import ListNotations.

Definition entry_le (er et : entry) : Prop :=
  (e_call0 er = true -> e_call0 et = true) /\ (forall a, e_call1 er a = true -> e_call1 et a = true).

Definition entry_le_for (a : cls) (er et : entry) : Prop :=
  (e_call0 er = true -> e_call0 et = true) /\ (e_call1 er a = true -> e_call1 et a = true).

Definition opt_sim (r t : option entry) : Prop :=
  match r, t with
  | Some er, Some et => entry_le er et
  | None, None => True
  | _, _ => False
  end.

Definition own_sim (UR UT : table) (u : cls) : Prop :=
  forall n, opt_sim (ci_own (UR u) n) (ci_own (UT u) n).

Definition inst_sim (UR UT : table) (u : cls) : Prop :=
  match ci_inst (UR u), ci_inst (UT u) with
  | Some lr, Some lt => forall n, opt_sim (assoc n lr) (assoc n lt)
  | None, None => True
  | _, _ => False
  end.

(* same class definitions on both sides (same lookup chain, same defined names, same __init__ assignments),
   every chain made of user classes followed by object; the run-time behaviour of a user definition is at most
   as permissive as pytype's view of it (an unannotated def accepts everything) *)
Definition user_ok (nb : nat) (UR UT : table) (u : cls) : Prop :=
  nb <= u ->
    ci_look (UR u) = ci_look (UT u) /\
    (exists us, ci_look (UR u) = us ++ [0] /\ Forall (fun k => nb <= k) us) /\
    (forall k, In k (ci_look (UR u)) -> nb <= k -> own_sim UR UT k /\ inst_sim UR UT k).

(* what the argument class of a builtin dunder must satisfy: same chain, same defined names (implied by user_ok) *)
Definition arg_ok (nb : nat) (UR UT : table) (a : cls) : Prop :=
  nb <= a ->
    ci_look (UR a) = ci_look (UT a) /\
    (forall k, In k (ci_look (UR a)) -> nb <= k ->
       forall n, ci_own (UR k) n = None <-> ci_own (UT k) n = None).

Lemma entry_le_for_of : forall a er et, entry_le er et -> entry_le_for a er et.
Proof. intros a er et [H0 H1]. split; [exact H0|apply H1]. Qed.

Lemma opt_sim_none : forall r t, opt_sim r t -> (r = None <-> t = None).
Proof. intros [er|] [et|] H; try contradiction; split; intros E; try discriminate; reflexivity. Qed.

Lemma user_ok_arg_ok : forall nb UR UT a, user_ok nb UR UT a -> arg_ok nb UR UT a.
Proof.
  intros nb UR UT a H Ha. destruct (H Ha) as [Hl [_ Hk]]. split; [exact Hl|].
  intros k Hin Hkn n. apply opt_sim_none. exact (proj1 (Hk k Hin Hkn) n).
Qed.

(* showing user_ok of a given class: rows that are the same on both sides are related; so are two user_cls rows that
   define the same names, each definition at run time at most as permissive as in pytype's view *)
Lemma opt_sim_refl : forall o, opt_sim o o.
Proof. intros [e|]; [split; auto|exact I]. Qed.

Lemma sim_eq : forall UR UT k, UR k = UT k -> own_sim UR UT k /\ inst_sim UR UT k.
Proof.
  intros UR UT k E. unfold own_sim, inst_sim. rewrite E. split; [intros n; apply opt_sim_refl|].
  destruct (ci_inst (UT k)); [intros n; apply opt_sim_refl|exact I].
Qed.

Definition def_le (pr pt : name * (bool * (cls -> bool))) : Prop :=
  fst pr = fst pt /\ (fst (snd pr) = true -> fst (snd pt) = true) /\
  (forall a, snd (snd pr) a = true -> snd (snd pt) a = true).

Lemma own_sim_user_cls : forall UR UT k c mr mt ownr ownt ir it,
  UR k = user_cls c mr ownr ir -> UT k = user_cls c mt ownt it -> Forall2 def_le ownr ownt -> own_sim UR UT k.
Proof.
  intros UR UT k c mr mt ownr ownt ir it ER ET H n. rewrite ER, ET. clear ER ET. simpl.
  induction H as [|[kr pr] [kt pt] lr lt [Hk Hle] _ IH]; [exact I|].
  simpl in *. subst kt. destruct (kr =? n); [exact Hle|exact IH].
Qed.

Lemma user_ok_intro : forall nb UR UT u us,
  0 < nb -> ci_look (UR u) = us ++ [0] -> ci_look (UT u) = us ++ [0] ->
  (forall k, In k us -> nb <= k /\ own_sim UR UT k /\ inst_sim UR UT k) ->
  user_ok nb UR UT u.
Proof.
  intros nb UR UT u us Hpos HR HT H _. split; [rewrite HR, HT; reflexivity|]. split.
  - exists us. split; [exact HR|]. apply Forall_forall. intros k Hk. apply (H k Hk).
  - intros k Hin Hk. rewrite HR in Hin. apply in_app_or in Hin. destruct Hin as [Hin|[<-|[]]]; [apply (H k Hin)|].
    apply Nat.lt_nge in Hpos. contradiction.
Qed.

Lemma arg_ok_builtin : forall nb UR UT a, a < nb -> arg_ok nb UR UT a.
Proof. intros nb UR UT a H C. apply Nat.lt_nge in H. contradiction. Qed.

Lemma mem_In : forall a l, mem a l = true -> In a l.
Proof.
  intros a l H. apply existsb_exists in H. destruct H as [b [Hb E]]. apply Nat.eqb_eq in E. subst b. exact Hb.
Qed.

(* a property of every name of a fixed list is checked once, as a boolean over the list *)
Lemma names_all : forall (p : name -> bool) l, forallb p l = true -> forall n, In n l -> p n = true.
Proof. intros p l H n Hn. rewrite forallb_forall in H. exact (H n Hn). Qed.

(* ... in particular that its image under f lies in another fixed list *)
Lemma names_map_in : forall (f : name -> name) l l',
  forallb (fun n => mem (f n) l') l = true -> forall n, In n l -> In (f n) l'.
Proof. intros f l l' H n Hn. apply mem_In. exact (names_all _ _ H n Hn). Qed.

Lemma existsb_ext_in : forall (f g : nat -> bool) l, (forall k, In k l -> f k = g k) -> existsb f l = existsb g l.
Proof.
  intros f g l. induction l as [|h t IH]; intros H; [reflexivity|]. simpl.
  rewrite (H h (or_introl eq_refl)). rewrite IH; [reflexivity|]. intros k Hk. apply H. right. exact Hk.
Qed.

Lemma user_has_eq : forall nb UR UT a n, nb <= a -> arg_ok nb UR UT a ->
  user_has nb UR a n = user_has nb UT a n.
Proof.
  intros nb UR UT a n Ha H. destruct (H Ha) as [Hl Hk]. unfold user_has. rewrite <- Hl.
  apply existsb_ext_in. intros k Hin. destruct (nb <=? k) eqn:L; [|reflexivity]. simpl.
  apply Nat.leb_le in L. destruct (Hk k Hin L n) as [H1 H2].
  destruct (ci_own (UR k) n) eqn:E1; destruct (ci_own (UT k) n) eqn:E2; try reflexivity.
  - specialize (H2 eq_refl). discriminate.
  - specialize (H1 eq_refl). discriminate.
Qed.

Lemma uacc_le_sound : forall nb UR UT a ur ut, nb <= a -> arg_ok nb UR UT a ->
  uacc_le ur ut = true -> uacc_ok nb UR ur a = true -> uacc_ok nb UT ut a = true.
Proof.
  intros nb UR UT a ur ut Ha Hok Hle H.
  destruct ur as [| |lr]; destruct ut as [| |lt]; simpl in *; try discriminate; try reflexivity.
  apply existsb_exists in H. destruct H as [n [Hn Hu]].
  apply existsb_exists. exists n. split.
  - apply mem_In. exact (names_all _ _ Hle n Hn).
  - rewrite <- (user_has_eq nb UR UT a n Ha Hok). exact Hu.
Qed.

Definition succ (T : table) (l r : cls) (n : name) : bool :=
  match try_call1 T l r n with Some _ => true | None => false end.

Lemma succ_lookup : forall T l r n,
  succ T l r n = match lookup T l n with Some e => e_call1 e r | None => false end.
Proof.
  intros. unfold succ, try_call1. destruct (lookup T l n) as [e|]; [destruct (e_call1 e r)|]; reflexivity.
Qed.

Lemma try_call1_not_err : forall T l r n v, try_call1 T l r n = Some v -> is_err v = false.
Proof.
  intros T l r n v. unfold try_call1. destruct (lookup T l n) as [e|]; [|discriminate].
  destruct (e_call1 e r); [|discriminate]. intros H. inversion H. reflexivity.
Qed.

Lemma first_ok_cons_err : forall T a b c l,
  is_err (first_ok (try_call1 T a b c :: l)) = negb (succ T a b c) && is_err (first_ok l).
Proof.
  intros. unfold succ. simpl.
  destruct (try_call1 T a b c) eqn:H; [exact (try_call1_not_err _ _ _ _ _ H)|reflexivity].
Qed.

Lemma first_ok2_err : forall T a b c d e f,
  is_err (first_ok [try_call1 T a b c; try_call1 T d e f]) = negb (succ T a b c) && negb (succ T d e f).
Proof. intros. rewrite !first_ok_cons_err. simpl. rewrite andb_true_r. reflexivity. Qed.

Lemma first_ok1_err : forall T a b c,
  is_err (first_ok [try_call1 T a b c]) = negb (succ T a b c).
Proof. intros. rewrite first_ok_cons_err. apply andb_true_r. Qed.

Definition union_quirk (x : cls) (n : name) (y : cls) : bool := (n =? N_OR) && (x =? C_NONE) && (y =? C_NONE).

(* the typing.Union fallback turns an error into a success, and nothing else *)
Lemma union_fallback_err : forall r q, is_err (if is_err r && q then OkUnion else r) = negb q && is_err r.
Proof. intros r q. destruct (is_err r) eqn:E; destruct q; simpl; rewrite ?E; reflexivity. Qed.

Lemma binop_py_err : forall T x n y,
  is_err (binop_py T x n y) =
  negb (union_quirk x n y) &&
  match rname n with
  | Some r => negb (succ T x y n) && negb (succ T y x r)
  | None => negb (succ T x y n)
  end.
Proof.
  intros. unfold binop_py, union_quirk. rewrite <- !andb_assoc, union_fallback_err. f_equal.
  destruct (rname n) as [r|]; [|apply first_ok1_err].
  destruct (overrides T y x r); rewrite first_ok2_err; [apply andb_comm|reflexivity].
Qed.

Lemma binop_c_err : forall R x n y,
  is_err (binop_c R x n y) =
  match rname n with
  | Some r => negb (succ R x y n) && ((x =? y) || negb (succ R y x r))
  | None => negb (succ R x y n)
  end.
Proof.
  intros. unfold binop_c. destruct (rname n) as [r|].
  - destruct (x =? y).
    + rewrite first_ok1_err. simpl. rewrite andb_true_r. reflexivity.
    + destruct (existsb (Nat.eqb x) (ci_mro (R y)) && overloaded R y x r)%bool;
        rewrite first_ok2_err; simpl; [apply andb_comm|reflexivity].
  - apply first_ok1_err.
Qed.

(* an error of pytype's dispatch: every option failed; of CPython's: every option failed or was not tried *)
Lemma binop_py_err_fail : forall T x n y, is_err (binop_py T x n y) = true ->
  succ T x y n = false /\ forall r, rname n = Some r -> succ T y x r = false.
Proof.
  intros T x n y. rewrite binop_py_err. intros E. apply andb_prop in E. destruct E as [_ E].
  destruct (rname n) as [r|].
  - apply andb_prop in E. destruct E as [E1 E2]. apply negb_true_iff in E1. apply negb_true_iff in E2.
    split; [exact E1|]. intros r' [= <-]. exact E2.
  - apply negb_true_iff in E. split; [exact E|discriminate].
Qed.

Lemma binop_c_fail_err : forall R x n y,
  succ R x y n = false -> (forall r, rname n = Some r -> succ R y x r = false) ->
  is_err (binop_c R x n y) = true.
Proof.
  intros R x n y F1 F2. rewrite binop_c_err, F1. destruct (rname n) as [r|]; [|reflexivity].
  rewrite (F2 r eq_refl). apply orb_true_r.
Qed.

(* success goes from the run-time side to pytype's, so failure goes back *)
Lemma transfer_false : forall a b : bool, (a = true -> b = true) -> b = false -> a = false.
Proof. intros [|] b H E; [rewrite H in E by reflexivity; discriminate|reflexivity]. Qed.

(* if every option that succeeds at run time succeeds for pytype, a pytype error is a run-time error *)
Lemma binop_err_transfer : forall T R x n y,
  (succ R x y n = true -> succ T x y n = true) ->
  (forall r, rname n = Some r -> succ R y x r = true -> succ T y x r = true) ->
  is_err (binop_py T x n y) = true -> is_err (binop_c R x n y) = true.
Proof.
  intros T R x n y H1 H2 E. destruct (binop_py_err_fail _ _ _ _ E) as [F1 F2]. apply binop_c_fail_err.
  - exact (transfer_false _ _ H1 F1).
  - intros r Er. exact (transfer_false _ _ (H2 r Er) (F2 r Er)).
Qed.

Lemma lookup_chain_one : forall T k n, lookup_chain T [k] n = ci_own (T k) n.
Proof. intros. simpl. destruct (ci_own (T k) n); reflexivity. Qed.

Lemma lookup_chain_app : forall T a b m,
  lookup_chain T (a ++ b) m = match lookup_chain T a m with Some e => Some e | None => lookup_chain T b m end.
Proof.
  intros T a b m. induction a as [|k a IH]; [reflexivity|]. simpl.
  destruct (ci_own (T k) m); [reflexivity|exact IH].
Qed.

Lemma nth_error_heads : forall (rows : list brow) c, c < length rows -> exists r, nth_error rows c = Some r.
Proof.
  intros rows c H. apply nth_error_Some in H.
  destruct (nth_error rows c) as [r|]; [exists r; reflexivity|contradiction].
Qed.

Lemma mk_table_builtin : forall rows U c r, nth_error rows c = Some r ->
  mk_table rows U c = row_info (length rows) U c r.
Proof. intros. unfold mk_table. rewrite H. reflexivity. Qed.

Lemma mk_table_user : forall rows U c, length rows <= c -> mk_table rows U c = U c.
Proof. intros rows U c H. unfold mk_table. apply nth_error_None in H. rewrite H. reflexivity. Qed.

Lemma own_builtin : forall rows U c r n, nth_error rows c = Some r ->
  ci_own (mk_table rows U c) n = option_map (entry_of (length rows) U) (find_entry r n).
Proof. intros. rewrite (mk_table_builtin _ _ _ _ H). reflexivity. Qed.

Lemma lookup_builtin : forall rows U c r n, nth_error rows c = Some r ->
  lookup (mk_table rows U) c n = option_map (entry_of (length rows) U) (find_entry r n).
Proof.
  intros. unfold lookup. rewrite (mk_table_builtin _ _ _ _ H). simpl ci_look.
  rewrite lookup_chain_one. apply own_builtin. exact H.
Qed.

(* a builtin head has no instance attributes *)
Lemma getattr_builtin : forall rows U c n, c < length rows ->
  getattr (mk_table rows U) c n = lookup (mk_table rows U) c n.
Proof.
  intros rows U c n H. destruct (nth_error_heads _ _ H) as [r E]. unfold getattr.
  assert (I : inst_chain (mk_table rows U) (ci_look (mk_table rows U c)) = []).
  { rewrite (mk_table_builtin _ _ _ _ E). simpl. rewrite (mk_table_builtin _ _ _ _ E). reflexivity. }
  rewrite I. reflexivity.
Qed.

Lemma entry_of_head : forall nb U b a, a < nb -> e_call1 (entry_of nb U b) a = mem a (be_acc b).
Proof. intros nb U b a H. simpl. apply Nat.ltb_lt in H. rewrite H. reflexivity. Qed.

Lemma entry_of_user : forall nb U b a, nb <= a -> e_call1 (entry_of nb U b) a = uacc_ok nb U (be_uacc b) a.
Proof. intros nb U b a H. simpl. apply Nat.ltb_ge in H. rewrite H. reflexivity. Qed.

Lemma succ_head_user : forall rows U l r n, l < length rows -> length rows <= r ->
  succ (mk_table rows U) l r n = uacc_ok (length rows) U (uacc_of rows l n) r.
Proof.
  intros rows U l r n Hl Hr. destruct (nth_error_heads _ _ Hl) as [row E].
  rewrite succ_lookup, (lookup_builtin _ _ _ _ _ E). unfold uacc_of. rewrite E.
  destruct (find_entry row n) as [b|]; [|reflexivity]. apply entry_of_user. exact Hr.
Qed.

Lemma succ_builtin_indep : forall rows U U' l r n, l < length rows -> r < length rows ->
  succ (mk_table rows U) l r n = succ (mk_table rows U') l r n.
Proof.
  intros rows U U' l r n H Hr. destruct (nth_error_heads _ _ H) as [row E].
  rewrite !succ_lookup, (lookup_builtin _ U _ _ _ E), (lookup_builtin _ U' _ _ _ E).
  destruct (find_entry row n) as [b|]; [|reflexivity]. cbn [option_map].
  rewrite !entry_of_head by exact Hr. reflexivity.
Qed.

Lemma binop_py_builtin_indep : forall rows U U' x n y, x < length rows -> y < length rows ->
  is_err (binop_py (mk_table rows U) x n y) = is_err (binop_py (mk_table rows U') x n y).
Proof.
  intros. rewrite !binop_py_err.
  rewrite (succ_builtin_indep rows U U' x y n H H0).
  destruct (rname n) as [r|]; [rewrite (succ_builtin_indep rows U U' y x r H0 H)|]; reflexivity.
Qed.

Lemma binop_c_builtin_indep : forall rows U U' x n y, x < length rows -> y < length rows ->
  is_err (binop_c (mk_table rows U) x n y) = is_err (binop_c (mk_table rows U') x n y).
Proof.
  intros. rewrite !binop_c_err.
  rewrite (succ_builtin_indep rows U U' x y n H H0).
  destruct (rname n) as [r|]; [rewrite (succ_builtin_indep rows U U' y x r H0 H)|]; reflexivity.
Qed.

Lemma in_heads : forall (rows : list brow) c, c < length rows -> In c (heads rows).
Proof. intros. unfold heads. apply in_seq. split; [apply Nat.le_0_l|exact H]. Qed.

Lemma heads_names_all : forall rows (names : list nat) (p : cls -> nat -> bool),
  forallb (fun c => forallb (p c) names) (heads rows) = true ->
  forall c n, c < length rows -> In n names -> p c n = true.
Proof.
  intros rows names p H c n Hc Hn. rewrite forallb_forall in H. specialize (H c (in_heads _ _ Hc)).
  exact (names_all _ _ H n Hn).
Qed.

Lemma heads_pairs_all : forall rows names (p : cls -> cls -> name -> bool),
  forallb (fun x => forallb (fun y => forallb (p x y) names) (heads rows)) (heads rows) = true ->
  forall x y n, x < length rows -> y < length rows -> In n names -> p x y n = true.
Proof.
  intros rows names p H x y n Hx Hy Hn.
  exact (names_all _ _ (heads_names_all rows (heads rows) _ H x y Hx (in_heads _ _ Hy)) n Hn).
Qed.

Lemma heads_rows_all : forall rowsT rowsR (p : brow -> brow -> bool),
  forallb (fun c => match nth_error rowsT c, nth_error rowsR c with
                    | Some rt, Some rr => p rt rr
                    | _, _ => false
                    end) (heads rowsT) = true ->
  forall c, c < length rowsT ->
  exists rt rr, nth_error rowsT c = Some rt /\ nth_error rowsR c = Some rr /\ p rt rr = true.
Proof.
  intros rowsT rowsR p H c Hc. rewrite forallb_forall in H. specialize (H c (in_heads _ _ Hc)).
  destruct (nth_error rowsT c) as [rt|]; [|discriminate]. destruct (nth_error rowsR c) as [rr|]; [|discriminate].
  exists rt, rr. repeat split. exact H.
Qed.

Lemma find_entry_some : forall r n b, find_entry r n = Some b -> In b (br_entries r) /\ be_name b = n.
Proof.
  intros r n b H. unfold find_entry in H. apply find_some in H. destruct H as [H1 H2].
  split; [exact H1|]. apply Nat.eqb_eq. exact H2.
Qed.

Lemma entries_all : forall (p : bentry -> bool) r n b,
  forallb p (br_entries r) = true -> find_entry r n = Some b -> p b = true /\ be_name b = n.
Proof.
  intros p r n b H F. destruct (find_entry_some _ _ _ F) as [Hin Hn]. split; [|exact Hn].
  rewrite forallb_forall in H. exact (H b Hin).
Qed.

Lemma shape_ok_parts : forall rowsT rowsR, shape_ok rowsT rowsR = true ->
  length rowsT = length rowsR /\ 0 < length rowsT.
Proof.
  intros rowsT rowsR H. unfold shape_ok in H. apply andb_prop in H. destruct H as [H _].
  apply andb_prop in H. destruct H as [Hlen Hpos].
  split; [apply Nat.eqb_eq; exact Hlen|apply Nat.ltb_lt; exact Hpos].
Qed.

Lemma is_err_Err : forall r, is_err r = true -> r = Err.
Proof. intros []; [reflexivity|discriminate ..]. Qed.

(* on two heads the dispatchers do not see the user part, so the checks speak of every table over the rows *)
Lemma pair_faithful_spec : forall rowsT rowsR UT UR x n y, pair_faithful rowsT rowsR = true ->
  length rowsT = length rowsR ->
  x < length rowsT -> y < length rowsT -> In n binop_names -> excl_fp_bin x n y = false ->
  is_err (binop_py (mk_table rowsT UT) x n y) = true ->
  is_err (binop_c (mk_table rowsR UR) x n y) = true.
Proof.
  intros rowsT rowsR UT UR x n y H Hlen Lx Ly Hn Hex.
  rewrite (binop_py_builtin_indep rowsT UT no_users) by assumption.
  rewrite (binop_c_builtin_indep rowsR UR no_users) by (rewrite <- Hlen; assumption).
  intros Hpy. pose proof (heads_pairs_all _ _ _ H x y n Lx Ly Hn) as P. cbv beta in P.
  rewrite Hex, Hpy in P. exact P.
Qed.

Lemma pair_caught_spec : forall rowsT rowsR UT UR x n y, pair_caught rowsT rowsR = true ->
  length rowsT = length rowsR ->
  x < length rowsT -> y < length rowsT -> In n advertised_names -> excl_mc_bin x n y = false ->
  is_err (binop_c (mk_table rowsR UR) x n y) = true ->
  is_err (binop_py (mk_table rowsT UT) x n y) = true.
Proof.
  intros rowsT rowsR UT UR x n y H Hlen Lx Ly Hn Hex.
  rewrite (binop_py_builtin_indep rowsT UT no_users) by assumption.
  rewrite (binop_c_builtin_indep rowsR UR no_users) by (rewrite <- Hlen; assumption).
  intros Hc. pose proof (heads_pairs_all _ _ _ H x y n Lx Ly Hn) as P. cbv beta in P.
  rewrite Hex, Hc in P. exact P.
Qed.

Lemma ucol_at : forall rowsT rowsR l n, ucol_faithful rowsT rowsR = true -> l < length rowsT ->
  In n dunder1_names -> excl_fp_bin l n (length rowsT) = false ->
  uacc_le (uacc_of rowsR l n) (uacc_of rowsT l n) = true.
Proof.
  intros rowsT rowsR l n H Hl Hn Hex. pose proof (heads_names_all _ _ _ H l n Hl Hn) as P. cbv beta in P.
  rewrite Hex in P. exact P.
Qed.

Lemma bentry_le_sound : forall nb UR UT a br bt, bentry_le nb br bt = true -> arg_ok nb UR UT a ->
  entry_le_for a (entry_of nb UR br) (entry_of nb UT bt).
Proof.
  intros nb UR UT a br bt H Hok. unfold bentry_le in H.
  apply andb_prop in H. destruct H as [H H3]. apply andb_prop in H. destruct H as [H1 H2].
  split.
  - apply implb_true_iff. exact H1.
  - destruct (Nat.lt_ge_cases a nb) as [L|L].
    + rewrite !entry_of_head by exact L. apply implb_true_iff.
      apply (names_all _ _ H2). apply in_seq. split; [apply Nat.le_0_l|exact L].
    + rewrite !entry_of_user by exact L. apply (uacc_le_sound nb UR UT a _ _ L Hok H3).
Qed.

Definition found_le (a : cls) (r t : option entry) : Prop :=
  forall er, r = Some er -> exists et, t = Some et /\ entry_le_for a er et.

(* first match: where the first answers are related, a relation that holds of related definitions and of the second
   answers holds of the results *)
Lemma opt_sim_or : forall (P : option entry -> option entry -> Prop) r t r' t',
  opt_sim r t -> (forall er et, entry_le er et -> P (Some er) (Some et)) -> P r' t' ->
  P (match r with Some e => Some e | None => r' end) (match t with Some e => Some e | None => t' end).
Proof. intros P [er|] [et|] r' t' S Hle H; try contradiction; auto. Qed.

Lemma lookup_chain_sim : forall R T n us, Forall (own_sim R T) us ->
  opt_sim (lookup_chain R us n) (lookup_chain T us n).
Proof.
  intros R T n us H. induction H as [|k us Hk _ IH]; [exact I|]. simpl.
  apply opt_sim_or; [exact (Hk n)|exact (fun _ _ H => H)|exact IH].
Qed.

Lemma inst_chain_sim : forall R T n ch, Forall (inst_sim R T) ch ->
  opt_sim (assoc n (inst_chain R ch)) (assoc n (inst_chain T ch)).
Proof.
  intros R T n ch H. induction H as [|k ch Hk _ IH]; [exact I|]. simpl.
  unfold inst_sim in Hk.
  destruct (ci_inst (R k)); destruct (ci_inst (T k)); try contradiction; [apply Hk|exact IH].
Qed.

Section Sim.
  Variables rowsT rowsR : list brow.
  Variables UT UR : table.
  Let nb := length rowsT.
  Let T := mk_table rowsT UT.
  Let R := mk_table rowsR UR.
  Hypothesis Hlen : length rowsT = length rowsR.
  Hypothesis Hpos : 0 < length rowsT.

  Lemma own_row0 : forall a n, arg_ok nb UR UT a -> obj_faithful rowsT rowsR = true ->
    found_le a (ci_own (R 0) n) (ci_own (T 0) n).
  Proof.
    intros a n Hok Hobj er. unfold obj_faithful in Hobj.
    destruct (nth_error rowsT 0) as [rt|] eqn:ET; [|discriminate].
    destruct (nth_error rowsR 0) as [rr|] eqn:ER; [|discriminate].
    unfold R, T. rewrite (own_builtin _ _ _ _ _ ER), (own_builtin _ _ _ _ _ ET).
    destruct (find_entry rr n) as [br|] eqn:F; [|discriminate]. intros [= <-].
    destruct (entries_all _ _ _ _ Hobj F) as [C Hn]. rewrite Hn in C.
    destruct (find_entry rt n) as [bt|]; [|discriminate].
    exists (entry_of nb UT bt). split; [reflexivity|]. rewrite <- Hlen. apply bentry_le_sound; assumption.
  Qed.

  Lemma own_row0_conv : forall n, obj_complete rowsT rowsR = true ->
    ci_own (R 0) n = None -> ci_own (T 0) n = None.
  Proof.
    intros n Hobj. unfold obj_complete in Hobj.
    destruct (nth_error rowsT 0) as [rt|] eqn:ET; [|discriminate].
    destruct (nth_error rowsR 0) as [rr|] eqn:ER; [|discriminate].
    unfold R, T. rewrite (own_builtin _ _ _ _ _ ER), (own_builtin _ _ _ _ _ ET).
    destruct (find_entry rt n) as [bt|] eqn:F; [|reflexivity].
    destruct (entries_all _ _ _ _ Hobj F) as [C Hn]. rewrite Hn in C.
    destruct (find_entry rr n); discriminate.
  Qed.

  Lemma user_row : forall k, nb <= k -> T k = UT k /\ R k = UR k.
  Proof.
    intros k Hk. split; [apply mk_table_user; exact Hk|].
    apply mk_table_user. rewrite <- Hlen. exact Hk.
  Qed.

  Lemma inst_sim_obj : inst_sim R T 0.
  Proof.
    destruct (nth_error_heads rowsT 0 Hpos) as [rt ET].
    destruct (nth_error_heads rowsR 0) as [rr ER]; [rewrite <- Hlen; exact Hpos|].
    unfold inst_sim, R, T. rewrite (mk_table_builtin _ _ _ _ ET), (mk_table_builtin _ _ _ _ ER). exact I.
  Qed.

  (* A relation between the two views of a name that holds of related definitions, and of what object's row has,
     holds of what the lookup and the attribute access of a user class find: along the chain the same user class
     answers on both sides, or none does and object's row is asked. *)
  Lemma user_look : forall (P : option entry -> option entry -> Prop) u n,
    (forall er et, entry_le er et -> P (Some er) (Some et)) ->
    P (ci_own (R 0) n) (ci_own (T 0) n) ->
    nb <= u -> user_ok nb UR UT u ->
    P (lookup R u n) (lookup T u n) /\ P (getattr R u n) (getattr T u n).
  Proof.
    intros P u n Hle Hobj Hu Hrel. destruct (Hrel Hu) as [Hl [[us [Hus Hall]] Hk]].
    destruct (user_row u Hu) as [TU RU].
    assert (HR : ci_look (R u) = us ++ [0]) by (rewrite RU; exact Hus).
    assert (HT : ci_look (T u) = us ++ [0]) by (rewrite TU, <- Hl; exact Hus).
    assert (Hsim : Forall (fun k => own_sim R T k /\ inst_sim R T k) us).
    { rewrite Forall_forall in *. intros k Hin. unfold own_sim, inst_sim.
      destruct (user_row k (Hall k Hin)) as [-> ->].
      apply Hk; [rewrite Hus; apply in_or_app; left; exact Hin|exact (Hall k Hin)]. }
    apply Forall_and_inv in Hsim. destruct Hsim as [Hown Hinst].
    assert (L : P (lookup R u n) (lookup T u n)).
    { unfold lookup. rewrite HR, HT, !lookup_chain_app, !lookup_chain_one.
      apply opt_sim_or; [apply lookup_chain_sim; exact Hown|exact Hle|exact Hobj]. }
    split; [exact L|]. unfold getattr. rewrite HR, HT. apply opt_sim_or; [|exact Hle|exact L].
    apply inst_chain_sim. apply Forall_app. split; [exact Hinst|]. constructor; [exact inst_sim_obj|constructor].
  Qed.

  (* ... and of what they find for any class, if it holds of the lookups of the builtin heads *)
  Lemma look_all : forall (P : option entry -> option entry -> Prop) x n,
    (forall er et, entry_le er et -> P (Some er) (Some et)) ->
    P (ci_own (R 0) n) (ci_own (T 0) n) ->
    (x < nb -> P (lookup R x n) (lookup T x n)) ->
    user_ok nb UR UT x ->
    P (lookup R x n) (lookup T x n) /\ P (getattr R x n) (getattr T x n).
  Proof.
    intros P x n Hle Hobj Hhead Hrel. destruct (Nat.lt_ge_cases x nb) as [Lx|Lx].
    - unfold T, R. rewrite !getattr_builtin by (rewrite <- ?Hlen; exact Lx). split; exact (Hhead Lx).
    - apply user_look; assumption.
  Qed.

  Lemma user_found_le : forall a u n, nb <= u -> user_ok nb UR UT u -> arg_ok nb UR UT a ->
    obj_faithful rowsT rowsR = true -> found_le a (lookup R u n) (lookup T u n).
  Proof.
    intros a u n Hu Hrel Hok Hobj.
    apply (user_look (found_le a) u n); [|apply own_row0; assumption|exact Hu|exact Hrel].
    intros er et Hle e [= <-]. exists et. split; [reflexivity|apply entry_le_for_of; exact Hle].
  Qed.

  Lemma user_missing : forall u n, nb <= u -> user_ok nb UR UT u -> obj_complete rowsT rowsR = true ->
    lookup R u n = None -> lookup T u n = None.
  Proof.
    intros u n Hu Hrel Hobj.
    apply (user_look (fun r t => r = None -> t = None) u n);
      [discriminate|apply own_row0_conv; exact Hobj|exact Hu|exact Hrel].
  Qed.

  (* success of one option transfers from the run-time table to the pytype table, unless both operands are
     builtin heads (that case is decided by pair_faithful) *)
  Lemma succ_transfer_user_left : forall l r n, nb <= l -> user_ok nb UR UT l -> arg_ok nb UR UT r ->
    obj_faithful rowsT rowsR = true ->
    succ R l r n = true -> succ T l r n = true.
  Proof.
    intros l r n Hl Hrel Hok Hobj. rewrite !succ_lookup.
    pose proof (user_found_le r l n Hl Hrel Hok Hobj) as F.
    destruct (lookup R l n) as [er|]; [|discriminate].
    destruct (F er eq_refl) as [et [-> [_ E]]]. exact E.
  Qed.

  Lemma succ_transfer_user_right : forall l r n, l < nb -> nb <= r -> arg_ok nb UR UT r ->
    uacc_le (uacc_of rowsR l n) (uacc_of rowsT l n) = true ->
    succ R l r n = true -> succ T l r n = true.
  Proof.
    intros l r n Hl Hr Hok Hu. unfold T, R.
    rewrite !succ_head_user by (rewrite <- ?Hlen; assumption). rewrite <- Hlen.
    apply (uacc_le_sound nb UR UT r _ _ Hr Hok Hu).
  Qed.

  Lemma succ_transfer : forall l r n, nb <= l \/ nb <= r ->
    user_ok nb UR UT l -> user_ok nb UR UT r ->
    (l < nb -> uacc_le (uacc_of rowsR l n) (uacc_of rowsT l n) = true) ->
    obj_faithful rowsT rowsR = true ->
    succ R l r n = true -> succ T l r n = true.
  Proof.
    intros l r n Hu Hl Hr Hacc Hobj.
    destruct (Nat.lt_ge_cases l nb) as [Ll|Ll].
    - destruct Hu as [Hu|Hu]; [exfalso; apply (Nat.lt_irrefl l); eapply Nat.lt_le_trans; eassumption|].
      apply succ_transfer_user_right; auto using user_ok_arg_ok.
    - apply succ_transfer_user_left; auto using user_ok_arg_ok.
  Qed.
End Sim.

Lemma rname_dunder1 : forall n r, rname n = Some r -> In r dunder1_names.
Proof.
  intros n r H. unfold rname in H. destruct (n <? 24) eqn:L; [|discriminate].
  destruct (Nat.even n); [|discriminate]. injection H as <-.
  apply Nat.ltb_lt in L. apply in_seq. split; [apply Nat.le_0_l|apply le_n_S; exact L].
Qed.

Lemma binop_dunder1 : forall n, In n binop_names -> In n dunder1_names.
Proof. exact (names_map_in (fun n => n) binop_names dunder1_names eq_refl). Qed.

Lemma rname_not_getitem : forall n r, rname n = Some r -> (r =? N_GETITEM) = false.
Proof.
  intros n r H. unfold rname in H. destruct ((n <? 24) && Nat.even n)%bool eqn:E; [|discriminate].
  inversion H; subst r. apply andb_prop in E. destruct E as [E E2]. apply Nat.ltb_lt in E.
  apply Nat.eqb_neq. unfold N_GETITEM. intros C. injection C as C. subst n. discriminate E2.
Qed.

Lemma reported_is_real_lemma : forall (rowsT rowsR : list brow) (UT UR : table) x n y,
  shape_ok rowsT rowsR = true -> pair_faithful rowsT rowsR = true ->
  ucol_faithful rowsT rowsR = true -> obj_faithful rowsT rowsR = true ->
  user_ok (length rowsT) UR UT x -> user_ok (length rowsT) UR UT y ->
  In n binop_names -> excl_fp_bin x n y = false ->
  binop_py (mk_table rowsT UT) x n y = Err -> binop_c (mk_table rowsR UR) x n y = Err.
Proof.
  intros rowsT rowsR UT UR x n y Hshape Hpair Hucol Hobj Hrx Hry Hn Hex Hpy.
  destruct (shape_ok_parts _ _ Hshape) as [Hlen Hpos].
  apply is_err_Err. apply (f_equal is_err) in Hpy.
  assert (User : length rowsT <= x \/ length rowsT <= y ->
                 is_err (binop_c (mk_table rowsR UR) x n y) = true).
  { (* a user class among the operands: each option transfers *)
    intros Hu. revert Hpy. apply binop_err_transfer.
    - apply (succ_transfer rowsT rowsR UT UR Hlen Hpos x y n Hu Hrx Hry); [|exact Hobj].
      intros Lx. exact (ucol_at _ _ x n Hucol Lx (binop_dunder1 n Hn) Hex).
    - intros r Er. apply (succ_transfer rowsT rowsR UT UR Hlen Hpos y x r (proj1 (or_comm _ _) Hu) Hry Hrx);
        [|exact Hobj].
      intros Ly. apply (ucol_at _ _ y r Hucol Ly (rname_dunder1 n r Er)).
      unfold excl_fp_bin. rewrite (rname_not_getitem n r Er). apply andb_false_r. }
  destruct (Nat.lt_ge_cases x (length rowsT)) as [Lx|Lx]; [|exact (User (or_introl Lx))].
  destruct (Nat.lt_ge_cases y (length rowsT)) as [Ly|Ly]; [|exact (User (or_intror Ly))].
  (* both builtin: the finite check *)
  exact (pair_faithful_spec _ _ UT UR x n y Hpair Hlen Lx Ly Hn Hex Hpy).
Qed.

Lemma mistake_caught_lemma : forall (rowsT rowsR : list brow) (UT UR : table) x n y,
  shape_ok rowsT rowsR = true -> pair_caught rowsT rowsR = true ->
  x < length rowsT -> y < length rowsT -> In n advertised_names -> excl_mc_bin x n y = false ->
  binop_c (mk_table rowsR UR) x n y = Err -> binop_py (mk_table rowsT UT) x n y = Err.
Proof.
  intros rowsT rowsR UT UR x n y Hshape Hpair Lx Ly Hn Hex Hc.
  destruct (shape_ok_parts _ _ Hshape) as [Hlen _].
  apply is_err_Err. apply (f_equal is_err) in Hc.
  exact (pair_caught_spec _ _ UT UR x n y Hpair Hlen Lx Ly Hn Hex Hc).
Qed.

(* mcall and call0 apply this to what getattr, resp. lookup, finds *)
Definition call_found (o : option entry) (n : name) : res :=
  match o with
  | Some e => if e_call0 e then Ok (e_owner e) n else Err
  | None => Err
  end.

Definition found0_le (r t : option entry) : Prop :=
  forall er, r = Some er -> exists et, t = Some et /\ (e_call0 er = true -> e_call0 et = true).

Lemma found_le_0 : forall a r t, found_le a r t -> found0_le r t.
Proof. intros a r t H er E. destruct (H er E) as [et [Et [L _]]]. exists et. split; assumption. Qed.

Lemma call_found_le : forall r t n, found0_le r t -> call_found t n = Err -> call_found r n = Err.
Proof.
  intros [er|] t n H; [|reflexivity]. destruct (H er eq_refl) as [et [-> E]]. simpl.
  destruct (e_call0 er); [rewrite (E eq_refl); discriminate|reflexivity].
Qed.

Lemma scope_head : forall nb x (s : bool), x < nb -> (nb <=? x) || s = true -> s = true.
Proof. intros nb x s H. apply Nat.leb_gt in H. rewrite H. exact (fun E => E). Qed.

(* where an error of pytype on x.n, x.n(), x() or -x is claimed to be real: any name on an instance of a user class;
   on a builtin head the names from __neg__ on that are not dunders of Ops/Ext.v, minus F2 / F3 *)
Definition in_scope_fp (rowsR : list brow) (x : cls) (n : name) : bool :=
  (length rowsR <=? x) ||
  ((N_NEG <=? n) && negb (is_new n) && negb (excl_fp_mcall (rt_owner rowsR x n) n)).

Lemma unary_faithful_head : forall rowsT rowsR UT UR x n,
  unary_faithful rowsT rowsR = true -> x < length rowsT -> x < length rowsR -> in_scope_fp rowsR x n = true ->
  found0_le (lookup (mk_table rowsR UR) x n) (lookup (mk_table rowsT UT) x n).
Proof.
  intros rowsT rowsR UT UR x n Hun Hx Hx' Hs. apply (scope_head _ _ _ Hx') in Hs.
  apply andb_prop in Hs. destruct Hs as [Hs Hexc]. apply andb_prop in Hs. destruct Hs as [Hn Hnew].
  apply negb_true_iff in Hnew. apply negb_true_iff in Hexc.
  assert (Lt : (n <? N_NEG) = false) by (apply Nat.ltb_ge; apply Nat.leb_le; exact Hn).
  destruct (heads_rows_all _ _ _ Hun x Hx) as [rt [rr [ET [ER Hrow]]]].
  rewrite (lookup_builtin _ _ _ _ _ ER), (lookup_builtin _ _ _ _ _ ET).
  unfold rt_owner in Hexc. rewrite ER in Hexc.
  intros er Her. destruct (find_entry rr n) as [br|] eqn:F; [|discriminate]. injection Her as <-.
  destruct (entries_all _ _ _ _ Hrow F) as [C Hnm]. cbv zeta in C. rewrite Hnm, Lt, Hnew in C. simpl in C.
  destruct (find_entry rt n) as [bt|].
  - exists (entry_of (length rowsT) UT bt). split; [reflexivity|].
    rewrite Hexc in C. apply implb_true_iff. exact C.
  - unfold excl_fp_mcall in Hexc. rewrite C in Hexc. discriminate.
Qed.

(* pytype error => run-time error *)
Lemma unary_reported_is_real_lemma : forall (rowsT rowsR : list brow) (UT UR : table) x n,
  shape_ok rowsT rowsR = true -> unary_faithful rowsT rowsR = true -> obj_faithful rowsT rowsR = true ->
  user_ok (length rowsT) UR UT x ->
  in_scope_fp rowsR x n = true ->
  (attr (mk_table rowsT UT) x n = Err -> attr (mk_table rowsR UR) x n = Err) /\
  (mcall (mk_table rowsT UT) x n = Err -> mcall (mk_table rowsR UR) x n = Err) /\
  (call0 (mk_table rowsT UT) x n = Err -> call0 (mk_table rowsR UR) x n = Err).
Proof.
  intros rowsT rowsR UT UR x n Hshape Hun Hobj Hrel Hscope.
  destruct (shape_ok_parts _ _ Hshape) as [Hlen Hpos].
  destruct (look_all rowsT rowsR UT UR Hlen Hpos found0_le x n) as [L G]; [| | |exact Hrel|].
  - intros er et [H0 _] e [= <-]. exists et. split; [reflexivity|exact H0].
  - apply (found_le_0 0). apply own_row0; [exact Hlen|apply arg_ok_builtin; exact Hpos|exact Hobj].
  - intros Lx. apply unary_faithful_head; [exact Hun|exact Lx|rewrite <- Hlen; exact Lx|exact Hscope].
  - split; [|split].
    + unfold attr. destruct (getattr (mk_table rowsR UR) x n) as [er|]; [|reflexivity].
      destruct (G er eq_refl) as [et [-> _]]. discriminate.
    + exact (call_found_le _ _ n G).
    + exact (call_found_le _ _ n L).
Qed.

(* run-time error => pytype error: a name a stub row has exists at run time *)
Lemma presence_caught_head : forall rowsT rowsR UT UR x n,
  presence_caught rowsT rowsR = true -> x < length rowsT -> (N_NEG <=? n) && negb (is_new n) = true ->
  forall et, lookup (mk_table rowsT UT) x n = Some et ->
  exists er, lookup (mk_table rowsR UR) x n = Some er /\ (n = N_NEG -> e_call0 et = true -> e_call0 er = true).
Proof.
  intros rowsT rowsR UT UR x n Hpres Hx Hs et Het.
  apply andb_prop in Hs. destruct Hs as [Hn Hnew]. apply negb_true_iff in Hnew.
  assert (Lt : (n <? N_NEG) = false) by (apply Nat.ltb_ge; apply Nat.leb_le; exact Hn).
  destruct (heads_rows_all _ _ _ Hpres x Hx) as [rt [rr [ET [ER Hrow]]]].
  rewrite (lookup_builtin _ _ _ _ _ ET) in Het. rewrite (lookup_builtin _ _ _ _ _ ER).
  destruct (find_entry rt n) as [bt|] eqn:F; [|discriminate]. injection Het as <-.
  destruct (entries_all _ _ _ _ Hrow F) as [C Hnm]. rewrite Hnm, Lt, Hnew in C. simpl in C.
  destruct (find_entry rr n) as [br|]; [|discriminate].
  exists (entry_of (length rowsR) UR br). split; [reflexivity|].
  intros ->. apply implb_true_iff. exact C.
Qed.

Lemma presence_caught_lemma : forall (rowsT rowsR : list brow) (UT UR : table) x n,
  shape_ok rowsT rowsR = true -> presence_caught rowsT rowsR = true -> obj_complete rowsT rowsR = true ->
  user_ok (length rowsT) UR UT x ->
  (length rowsT <=? x) || ((N_NEG <=? n) && negb (is_new n)) = true ->
  (attr (mk_table rowsR UR) x n = Err -> attr (mk_table rowsT UT) x n = Err) /\
  (getattr (mk_table rowsR UR) x n = None -> mcall (mk_table rowsT UT) x n = Err) /\
  (lookup (mk_table rowsR UR) x n = None -> call0 (mk_table rowsT UT) x n = Err).
Proof.
  intros rowsT rowsR UT UR x n Hshape Hpres Hobj Hrel Hscope.
  destruct (shape_ok_parts _ _ Hshape) as [Hlen Hpos].
  destruct (look_all rowsT rowsR UT UR Hlen Hpos (fun r t => r = None -> t = None) x n) as [L G];
    [discriminate|apply own_row0_conv; exact Hobj| |exact Hrel|].
  - intros Lx N. destruct (lookup (mk_table rowsT UT) x n) as [et|] eqn:E; [|reflexivity].
    destruct (presence_caught_head _ _ UT UR x n Hpres Lx (scope_head _ _ _ Lx Hscope) et E) as [er [Er _]].
    rewrite Er in N. discriminate.
  - unfold attr, mcall, call0. split; [|split].
    + destruct (getattr (mk_table rowsR UR) x n); [discriminate|]. rewrite (G eq_refl). reflexivity.
    + intros N. rewrite (G N). reflexivity.
    + intros N. rewrite (L N). reflexivity.
Qed.

Lemma neg_caught_lemma : forall (rowsT rowsR : list brow) (UT UR : table) x,
  presence_caught rowsT rowsR = true -> x < length rowsT ->
  neg (mk_table rowsR UR) x = Err -> neg (mk_table rowsT UT) x = Err.
Proof.
  intros rowsT rowsR UT UR x Hpres Lx. apply (call_found_le _ _ N_NEG).
  intros et Het. destruct (presence_caught_head _ _ UT UR x N_NEG Hpres Lx eq_refl et Het) as [er [Er C]].
  exists er. split; [exact Er|exact (C eq_refl)].
Qed.
