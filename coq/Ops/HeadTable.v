(* C14: the options of every dispatcher on two builtin heads, tabulated once.

   The closed checks of Ops/Model.v, Ops/Ext.v and Ops/Derived.v run the dispatchers on every pair of heads and every
   operator name.  Each run looks the same dunders up again (a scan of the flattened row, comparing unary names), and
   the kernel's own reduction machine, which is all that coqchk has, pays for every scan: seconds per check.  Whether a
   dispatcher reports an error depends only on which of its options succeed (binop_py_err and its like), so it is enough
   to look every (head, dunder) up once, record which heads the entry accepts, and restate each check over that table.
   Everything here is about ARBITRARY rows; Ops/Closed.v and its like evaluate the tables of this run. *)
From Coq Require Import List Bool PeanoNat.
From PV Require Import Ops.Model Ops.Proofs Ops.Ext Ops.ExtProofs Ops.Derived.
Import ListNotations.

(* row x, column n: None if head x has no dunder n, else for every head y whether the dunder accepts an instance of y *)
Definition htable := list (list (option (list bool))).

Definition head_table (rows : list brow) : htable :=
  map (fun x => map (fun n => option_map (fun e => map (e_call1 e) (heads rows))
                                         (lookup (mk_table rows no_users) x n))
                    (seq 0 N_NEW_END))
      (heads rows).

Definition tlook (t : htable) (x : cls) (n : name) (y : cls) : option bool :=
  option_map (fun l => nth y l false) (nth n (nth x t []) None).

Definition tsucc (t : htable) (x y : cls) (n : name) : bool :=
  match tlook t x n y with Some b => b | None => false end.

Lemma nth_map_seq : forall {A} (f : nat -> A) k i d, i < k -> nth i (map f (seq 0 k)) d = f i.
Proof.
  intros A f k i d H. rewrite (nth_indep _ d (f 0)) by (rewrite map_length, seq_length; exact H).
  rewrite (map_nth f), seq_nth by exact H. reflexivity.
Qed.

Lemma tlook_spec : forall rows x n y, x < length rows -> y < length rows -> n < N_NEW_END ->
  tlook (head_table rows) x n y = option_map (fun e => e_call1 e y) (lookup (mk_table rows no_users) x n).
Proof.
  intros rows x n y Hx Hy Hn. unfold tlook, head_table, heads.
  rewrite (nth_map_seq _ _ x) by exact Hx. rewrite (nth_map_seq _ _ n) by exact Hn.
  destruct (lookup (mk_table rows no_users) x n) as [e|]; [|reflexivity].
  cbn [option_map]. rewrite (nth_map_seq _ _ y) by exact Hy. reflexivity.
Qed.

Lemma tsucc_spec : forall rows x y n, x < length rows -> y < length rows -> n < N_NEW_END ->
  tsucc (head_table rows) x y n = succ (mk_table rows no_users) x y n.
Proof.
  intros rows x y n Hx Hy Hn. unfold tsucc, succ, try_call1. rewrite (tlook_spec rows x n y Hx Hy Hn).
  destruct (lookup (mk_table rows no_users) x n) as [e|]; [|reflexivity].
  cbn [option_map]. destruct (e_call1 e y); reflexivity.
Qed.

(* Err-ness of each dispatcher, given which options succeed (the right-hand sides of binop_py_err, binop_c_err) *)
Definition py_err (s : cls -> cls -> name -> bool) (x : cls) (n : name) (y : cls) : bool :=
  negb (union_quirk x n y) &&
  match rname n with
  | Some r => negb (s x y n) && negb (s y x r)
  | None => negb (s x y n)
  end.

Definition c_err (s : cls -> cls -> name -> bool) (x : cls) (n : name) (y : cls) : bool :=
  match rname n with
  | Some r => negb (s x y n) && ((x =? y) || negb (s y x r))
  | None => negb (s x y n)
  end.

(* the in-place dispatchers also ask whether the in-place dunder exists: l is the lookup, read at the argument *)
Definition iop_py_err_of (l : cls -> name -> cls -> option bool) (s : cls -> cls -> name -> bool) x n y : bool :=
  match l x (iname n) y with
  | Some b => negb b
  | None => py_err s x n y
  end.

Definition iop_c_err_of (l : cls -> name -> cls -> option bool) (s : cls -> cls -> name -> bool)
           (hard : cls -> name -> bool) x n y : bool :=
  match l x (iname n) y with
  | Some b => negb b && (hard x (iname n) || c_err s x n y)
  | None => c_err s x n y
  end.

Definition look_at (T : table) (x : cls) (n : name) (y : cls) : option bool :=
  option_map (fun e => e_call1 e y) (lookup T x n).

Lemma inplace_py_err_of : forall T x n y,
  is_err (inplace_py T x n y) = iop_py_err_of (look_at T) (succ T) x n y.
Proof.
  intros. rewrite inplace_py_err. unfold iop_py_err_of, look_at.
  destruct (lookup T x (iname n)); [reflexivity|apply binop_py_err].
Qed.

Lemma inplace_c_err_of : forall R hard x n y,
  is_err (inplace_c R hard x n y) = iop_c_err_of (look_at R) (succ R) hard x n y.
Proof.
  intros. rewrite inplace_c_err. unfold iop_c_err_of, look_at.
  destruct (lookup R x (iname n)); cbn [option_map]; rewrite binop_c_err; reflexivity.
Qed.

Section Checks.
  Variables tT tR : htable.
  Variable nb : nat.
  Let hs := seq 0 nb.
  Let all3 (names : list name) (body : cls -> cls -> name -> bool) : bool :=
    forallb (fun x => forallb (fun y => forallb (body x y) names) hs) hs.

  Definition pair_faithful_t : bool :=
    all3 binop_names (fun x y n => excl_fp_bin x n y || implb (py_err (tsucc tT) x n y) (c_err (tsucc tR) x n y)).
  Definition pair_caught_t : bool :=
    all3 advertised_names (fun x y n => excl_mc_bin x n y || implb (c_err (tsucc tR) x n y) (py_err (tsucc tT) x n y)).
  Definition dpair_faithful_t : bool :=
    all3 binop_names (fun x y n =>
      excl_fp_bin x n y ||
      implb (negb (tsucc tT x y n) && negb (match rname n with Some r => tsucc tT y x r | None => false end))
            (negb (tsucc tR x y n) && negb (match rname n with Some r => tsucc tR y x r | None => false end))).
  Definition iop_pair_faithful_t (hard : cls -> name -> bool) : bool :=
    all3 arith_names (fun x y n =>
      excl_fp_iop x n y ||
      implb (iop_py_err_of (tlook tT) (tsucc tT) x n y) (iop_c_err_of (tlook tR) (tsucc tR) hard x n y)).
  Definition store_pair_faithful_t : bool :=
    all3 store_names (fun x k n => excl_fp_store x n || implb (negb (tsucc tT x k n)) (negb (tsucc tR x k n))).
End Checks.

Lemma forallb_ext_in : forall {A} (f g : A -> bool) l, (forall a, In a l -> f a = g a) -> forallb f l = forallb g l.
Proof.
  intros A f g l. induction l as [|h t IH]; intros H; [reflexivity|]. cbn [forallb].
  rewrite (H h (or_introl eq_refl)), IH; [reflexivity|]. intros a Ha. apply H. right. exact Ha.
Qed.

(* every binary operator name, and its reflected name, is a column of the table *)
Lemma binop_col : forall n, In n binop_names -> n < N_NEW_END /\ forall r, rname n = Some r -> r < N_NEW_END.
Proof.
  intros n H. split.
  - apply Nat.ltb_lt. revert n H. apply names_all. reflexivity.
  - intros r Hr. apply rname_dunder1 in Hr. apply in_seq in Hr. destruct Hr as [_ Hr].
    eapply Nat.lt_trans; [exact Hr|]. apply Nat.ltb_lt. reflexivity.
Qed.

Section Equations.
  Variables rowsT rowsR : list brow.
  Hypothesis Hlen : length rowsT = length rowsR.
  Let tT := head_table rowsT.
  Let tR := head_table rowsR.
  Let T := mk_table rowsT no_users.
  Let R := mk_table rowsR no_users.

  (* the step all the equations share: under the three quantifiers the operands are heads *)
  Lemma all3_heads : forall names (f g : cls -> cls -> name -> bool),
    (forall x y n, x < length rowsT -> y < length rowsT -> In n names -> f x y n = g x y n) ->
    forallb (fun x => forallb (fun y => forallb (f x y) names) (heads rowsT)) (heads rowsT) =
    forallb (fun x => forallb (fun y => forallb (g x y) names) (seq 0 (length rowsT))) (seq 0 (length rowsT)).
  Proof.
    intros names f g H. unfold heads.
    apply forallb_ext_in. intros x Hx. apply forallb_ext_in. intros y Hy. apply forallb_ext_in. intros n Hn.
    apply in_seq in Hx. apply in_seq in Hy. apply H; [apply Hx|apply Hy|exact Hn].
  Qed.

  Lemma succT : forall x y n, x < length rowsT -> y < length rowsT -> n < N_NEW_END -> succ T x y n = tsucc tT x y n.
  Proof. intros. symmetry. apply tsucc_spec; assumption. Qed.

  Lemma succR : forall x y n, x < length rowsT -> y < length rowsT -> n < N_NEW_END -> succ R x y n = tsucc tR x y n.
  Proof. intros x y n Hx Hy Hn. rewrite Hlen in Hx, Hy. symmetry. apply tsucc_spec; assumption. Qed.

  Lemma py_err_heads : forall x n y, x < length rowsT -> y < length rowsT -> In n binop_names ->
    py_err (succ T) x n y = py_err (tsucc tT) x n y.
  Proof.
    intros x n y Hx Hy Hn. destruct (binop_col n Hn) as [Cn Cr]. unfold py_err.
    rewrite (succT x y n) by assumption. destruct (rname n) as [r|]; [|reflexivity].
    rewrite (succT y x r) by auto. reflexivity.
  Qed.

  Lemma c_err_heads : forall x n y, x < length rowsT -> y < length rowsT -> In n binop_names ->
    c_err (succ R) x n y = c_err (tsucc tR) x n y.
  Proof.
    intros x n y Hx Hy Hn. destruct (binop_col n Hn) as [Cn Cr]. unfold c_err.
    rewrite (succR x y n) by assumption. destruct (rname n) as [r|]; [|reflexivity].
    rewrite (succR y x r) by auto. reflexivity.
  Qed.

  Lemma py_err_t : forall x n y, x < length rowsT -> y < length rowsT -> In n binop_names ->
    is_err (binop_py T x n y) = py_err (tsucc tT) x n y.
  Proof. intros. rewrite binop_py_err. apply py_err_heads; assumption. Qed.

  Lemma c_err_t : forall x n y, x < length rowsT -> y < length rowsT -> In n binop_names ->
    is_err (binop_c R x n y) = c_err (tsucc tR) x n y.
  Proof. intros. rewrite binop_c_err. apply c_err_heads; assumption. Qed.

  Lemma pair_faithful_eq : pair_faithful rowsT rowsR = pair_faithful_t tT tR (length rowsT).
  Proof.
    apply all3_heads. intros x y n Hx Hy Hn. rewrite py_err_t, c_err_t by assumption. reflexivity.
  Qed.

  Lemma pair_caught_eq : pair_caught rowsT rowsR = pair_caught_t tT tR (length rowsT).
  Proof.
    apply all3_heads. intros x y n Hx Hy Hn.
    assert (Hb : In n binop_names) by (apply mem_In; revert n Hn; apply names_all; reflexivity).
    rewrite py_err_t, c_err_t by assumption. reflexivity.
  Qed.

  Lemma dpair_faithful_eq : dpair_faithful rowsT rowsR = dpair_faithful_t tT tR (length rowsT).
  Proof.
    apply all3_heads. intros x y n Hx Hy Hn. destruct (binop_col n Hn) as [Cn Cr].
    unfold rsucc_b. change succ_b with succ. fold T R.
    rewrite (succT x y n), (succR x y n) by assumption.
    destruct (rname n) as [r|]; [|reflexivity]. rewrite (succT y x r), (succR y x r) by auto. reflexivity.
  Qed.

  Lemma look_atT : forall x n y, x < length rowsT -> y < length rowsT -> n < N_NEW_END -> look_at T x n y = tlook tT x n y.
  Proof. intros. symmetry. apply tlook_spec; assumption. Qed.

  Lemma look_atR : forall x n y, x < length rowsT -> y < length rowsT -> n < N_NEW_END -> look_at R x n y = tlook tR x n y.
  Proof. intros x n y Hx Hy Hn. rewrite Hlen in Hx, Hy. symmetry. apply tlook_spec; assumption. Qed.

  Lemma iop_pair_faithful_eq : forall hard,
    iop_pair_faithful rowsT rowsR hard = iop_pair_faithful_t tT tR (length rowsT) (hard_of hard).
  Proof.
    intros hard. apply all3_heads. intros x y n Hx Hy Hn.
    assert (Ci : iname n < N_NEW_END) by (apply Nat.ltb_lt; revert n Hn; apply names_all; reflexivity).
    assert (Hb : In n binop_names) by (apply arith_binop; exact Hn).
    fold T R. rewrite inplace_py_err_of, inplace_c_err_of. unfold iop_py_err_of, iop_c_err_of.
    rewrite (look_atT x (iname n) y), (look_atR x (iname n) y) by assumption.
    rewrite py_err_heads, c_err_heads by assumption. reflexivity.
  Qed.

  Lemma store_pair_faithful_eq : store_pair_faithful rowsT rowsR = store_pair_faithful_t tT tR (length rowsT).
  Proof.
    apply all3_heads. intros x k n Hx Hk Hn.
    assert (Cn : n < N_NEW_END) by (apply Nat.ltb_lt; revert n Hn; apply names_all; reflexivity).
    unfold store_py, store_c, store_disp. fold T R. rewrite !first_ok1_err.
    rewrite (succT x k n), (succR x k n) by assumption. reflexivity.
  Qed.
End Equations.

(* cmp_pair_faithful asks compare.cmp_rel's table once per pair of heads and comparison, each time by a scan from its
   first line; that is most of what the check costs the kernel's reduction machine.  Here the lines of the left
   operand are selected once per head and those of the right operand once per pair, and the dunders are looked up in
   the head tables. *)
Definition cmp_pair_faithful_t (tT tR : htable) (nb : nat) (ntbl : list (cls * name * cls * bool)) : bool :=
  forallb (fun x =>
    let lx := filter (fun e => fst (fst (fst e)) =? x) ntbl in
    forallb (fun y =>
      let lxy := filter (fun e => snd (fst e) =? y) lx in
      forallb (fun n =>
        implb (match native_find lxy x n y with
               | Some b => b
               | None => negb (is_eqne n) && negb (tsucc tT x y n)
               end)
              (negb (is_eqne n) && (negb (tsucc tR x y n) && negb (tsucc tR y x (swapped n)))))
        cmp_names) (seq 0 nb)) (seq 0 nb).

(* lines that cannot match may be dropped *)
Lemma native_find_filter : forall (p : cls * name * cls * bool -> bool) l x n y,
  (forall (x' : cls) (n' : name) (y' : cls) b, (x' =? x) && (n' =? n) && (y' =? y) = true -> p (x', n', y', b) = true) ->
  native_find (filter p l) x n y = native_find l x n y.
Proof.
  intros p l x n y Hp. induction l as [|[[[x' n'] y'] b] t IH]; [reflexivity|]. simpl.
  destruct ((x' =? x) && (n' =? n) && (y' =? y)) eqn:E.
  - rewrite (Hp _ _ _ b E). simpl. rewrite E. reflexivity.
  - destruct (p (x', n', y', b)); simpl; [rewrite E|]; exact IH.
Qed.

Lemma cmp_pair_faithful_eq : forall rowsT rowsR ntbl, length rowsT = length rowsR ->
  cmp_pair_faithful rowsT rowsR ntbl =
  cmp_pair_faithful_t (head_table rowsT) (head_table rowsR) (length rowsT) ntbl.
Proof.
  intros rowsT rowsR ntbl Hlen. unfold cmp_pair_faithful, cmp_pair_faithful_t, heads.
  apply forallb_ext_in. intros x Hx. apply forallb_ext_in. intros y Hy. apply forallb_ext_in. intros n Hn.
  apply in_seq in Hx. apply in_seq in Hy. destruct Hx as [_ Hx]. destruct Hy as [_ Hy]. simpl in Hx, Hy.
  assert (C : n < N_NEW_END /\ swapped n < N_NEW_END)
    by (split; apply Nat.ltb_lt; revert n Hn; apply names_all; reflexivity).
  destruct C as [Cn Cs].
  rewrite cmp_py_err, cmp_c_err.
  rewrite (succT rowsT x y n), (succR rowsT rowsR Hlen x y n), (succR rowsT rowsR Hlen y x (swapped n)) by assumption.
  unfold native_of. rewrite (proj2 (Nat.leb_gt _ _) Hx), (proj2 (Nat.leb_gt _ _) Hy).
  rewrite !native_find_filter; [reflexivity| |]; intros x' n' y' b E;
    apply andb_prop in E; destruct E as [E Ey]; apply andb_prop in E; destruct E as [Ex _]; assumption.
Qed.

(* in_disp looks the same three dunders of the sequence up for every item: here once per sequence *)
Definition in_found (c it g : option entry) (item : cls) : res :=
  match c with
  | Some e => if e_call1 e item then Ok (e_owner e) N_CONTAINS else Err
  | None =>
      match it with
      | Some e => if e_call0 e then Ok (e_owner e) N_ITER else Err
      | None => match g with
                | Some e => if e_call1 e C_INT then Ok (e_owner e) N_GETITEM else Err
                | None => Err
                end
      end
  end.

Definition in_pair_faithful_s (rowsT rowsR : list brow) : bool :=
  forallb (fun q =>
    let found (rows : list brow) (n : name) := lookup (mk_table rows no_users) q n in
    let cT := found rowsT N_CONTAINS in let iT := found rowsT N_ITER in let gT := found rowsT N_GETITEM in
    let cR := found rowsR N_CONTAINS in let iR := found rowsR N_ITER in let gR := found rowsR N_GETITEM in
    forallb (fun i => implb (is_err (in_found cT iT gT i)) (is_err (in_found cR iR gR i))) (heads rowsT))
    (heads rowsT).

Lemma in_pair_faithful_eq : forall rowsT rowsR, in_pair_faithful rowsT rowsR = in_pair_faithful_s rowsT rowsR.
Proof. reflexivity. Qed.
