(* C14: the closed obligation of Ops/Derived.v over this run's REGENERATED builtin rows (vm_compute), and its class
   tables over them. *)
From Coq Require Import List Bool PeanoNat.
From PV Require Import Ops.Model Generated.C14_Builtins Ops.Proofs Ops.Closed Ops.Derived Ops.DerivedProofs Ops.HeadTable.
Import ListNotations.

Lemma dpair_faithful_holds : dpair_faithful py_rows rt_rows = true.
Proof. rewrite (dpair_faithful_eq _ _ rows_len), py_tab_eq, rt_tab_eq. vm_compute. reflexivity. Qed.

Definition PYD (UT : table) : table := mk_table_d py_rows UT.
Definition RTD (UR : table) : table := mk_table_d rt_rows UR.
Definition derived_class_ok (UR UT : table) (u : cls) : Prop := derived_ok c14_nb UR UT u.
