(* C14, lemmas about the class tables of Ops/Derived.v: binary operators / subscript on operands that are builtin values or instances of user classes
   DERIVING FROM a builtin head, for arbitrary builtin rows and arbitrary user parts. *)
From Coq Require Import List Bool PeanoNat.
From PV Require Import Ops.Model Ops.Proofs Ops.Derived.
Import ListNotations.

(* u is a class whose lookup chain is  us ++ [B]:  user classes, then the builtin head B (not object) *)
Definition dshape (nb : nat) (U : table) (u : cls) (us : list cls) (B : cls) : Prop :=
  ci_look (U u) = us ++ [B] /\ Forall (fun k => nb <= k) us /\ 0 < B /\ B < nb.

(* same class definition on both sides; run-time behaviour of a user definition at most as permissive as pytype's *)
Definition derived_ok (nb : nat) (UR UT : table) (u : cls) : Prop :=
  nb <= u -> exists us B, dshape nb UR u us B /\ dshape nb UT u us B /\ (forall k, In k us -> own_sim UR UT k).

(* every dunder written in a user class is an unannotated def: pytype accepts any argument *)
Definition py_total (UT : table) : Prop :=
  forall k n e a, ci_own (UT k) n = Some e -> e_call1 e a = true.

(* the builtin head an operand is, or derives from *)
Definition dbase (nb : nat) (U : table) (x : cls) : cls := if x <? nb then x else base_of U x.

(* dunder m of head B lists head a among the builtin classes it accepts / accepts an instance of class a under the
   rule of Ops/Derived.v (a head, or a class derived from a head it lists, or a class accepted structurally) *)
Definition memacc (rows : list brow) (B : cls) (m : name) (a : cls) : bool :=
  match nth_error rows B with
  | Some r => match find_entry r m with Some b => mem a (be_acc b) | None => false end
  | None => false
  end.

Definition bsucc (rows : list brow) (U : table) (B : cls) (m : name) (a : cls) : bool :=
  match nth_error rows B with
  | Some r => match find_entry r m with Some b => acc_d (length rows) U b a | None => false end
  | None => false
  end.

Lemma succ_b_eq : forall T l r n, succ_b T l r n = succ T l r n.
Proof. reflexivity. Qed.

Lemma mk_table_d_builtin : forall rows U c r, nth_error rows c = Some r ->
  mk_table_d rows U c = row_info_d (length rows) U c r.
Proof. intros. unfold mk_table_d. rewrite H. reflexivity. Qed.

Lemma mk_table_d_user : forall rows U c, length rows <= c -> mk_table_d rows U c = U c.
Proof. intros rows U c H. unfold mk_table_d. apply nth_error_None in H. rewrite H. reflexivity. Qed.

Lemma lookup_chain_users : forall rows U us m, Forall (fun k => length rows <= k) us ->
  lookup_chain (mk_table_d rows U) us m = lookup_chain U us m.
Proof.
  intros rows U us m H. induction H as [|k us Hk _ IH]; [reflexivity|]. simpl.
  rewrite (mk_table_d_user rows U k Hk). rewrite IH. reflexivity.
Qed.

Lemma own_d_builtin : forall rows U B m, B < length rows ->
  ci_own (mk_table_d rows U B) m =
  match nth_error rows B with
  | Some r => option_map (entry_of_d (length rows) U) (find_entry r m)
  | None => None
  end.
Proof.
  intros rows U B m H. destruct (nth_error_heads _ _ H) as [r E].
  rewrite (mk_table_d_builtin _ _ _ _ E), E. reflexivity.
Qed.

Lemma succ_d_builtin : forall rows U x y m, x < length rows ->
  succ (mk_table_d rows U) x y m = bsucc rows U x m y.
Proof.
  intros rows U x y m H. rewrite succ_lookup. unfold lookup, bsucc.
  destruct (nth_error_heads _ _ H) as [r E]. rewrite (mk_table_d_builtin _ _ _ _ E). simpl ci_look.
  rewrite lookup_chain_one, (own_d_builtin _ _ _ _ H), E.
  destruct (find_entry r m); reflexivity.
Qed.

Lemma succ_d_derived : forall rows U x us B y m, length rows <= x -> dshape (length rows) U x us B ->
  succ (mk_table_d rows U) x y m =
  match lookup_chain U us m with
  | Some e => e_call1 e y
  | None => bsucc rows U B m y
  end.
Proof.
  intros rows U x us B y m Hx [Hl [Hus [HB0 HB]]].
  rewrite succ_lookup. unfold lookup. rewrite (mk_table_d_user _ _ _ Hx), Hl, lookup_chain_app.
  rewrite (lookup_chain_users rows U us m Hus).
  destruct (lookup_chain U us m) as [e|]; [reflexivity|].
  rewrite lookup_chain_one, (own_d_builtin rows U B m HB). unfold bsucc.
  destruct (nth_error rows B) as [r|]; [|reflexivity]. destruct (find_entry r m); reflexivity.
Qed.

Lemma base_of_shape : forall nb U u us B, dshape nb U u us B -> base_of U u = B.
Proof. intros nb U u us B [Hl _]. unfold base_of. rewrite Hl. apply last_last. Qed.

(* the acceptance splits into the membership of the base head and the structural part *)
Lemma bsucc_split : forall rows U B m a Ba,
  (a < length rows /\ Ba = a) \/ (length rows <= a /\ base_of U a = Ba /\ 0 < Ba /\ Ba < length rows) ->
  bsucc rows U B m a =
  memacc rows B m Ba || ((length rows <=? a) && uacc_ok (length rows) U (uacc_of rows B m) a).
Proof.
  intros rows U B m a Ba H. unfold bsucc, memacc, uacc_of.
  destruct (nth_error rows B) as [r|]; [|destruct (length rows <=? a); reflexivity].
  destruct (find_entry r m) as [b|]; [|destruct (length rows <=? a); reflexivity].
  unfold acc_d. destruct H as [[Ha E]|[Ha [E [H0 H1]]]].
  - subst Ba. rewrite (proj2 (Nat.ltb_lt _ _) Ha), (proj2 (Nat.leb_gt _ _) Ha). symmetry. apply orb_false_r.
  - rewrite (proj2 (Nat.ltb_ge _ _) Ha), (proj2 (Nat.leb_le _ _) Ha), E.
    rewrite (proj2 (Nat.ltb_lt _ _) H0), (proj2 (Nat.ltb_lt _ _) H1). reflexivity.
Qed.

Lemma succ0_memacc : forall rows B m a, B < length rows -> a < length rows ->
  succ (mk_table rows no_users) B a m = memacc rows B m a.
Proof.
  intros rows B m a HB Ha. destruct (nth_error_heads _ _ HB) as [r E].
  rewrite succ_lookup, (lookup_builtin _ _ _ _ _ E). unfold memacc. rewrite E.
  destruct (find_entry r m) as [b|]; [|reflexivity]. apply entry_of_head. exact Ha.
Qed.

(* the closed check, read at two heads: if the memberships of both of pytype's options fail, so do CPython's *)
Lemma dpair_faithful_spec : forall rowsT rowsR x n y, dpair_faithful rowsT rowsR = true ->
  length rowsT = length rowsR -> x < length rowsT -> y < length rowsT ->
  In n binop_names -> excl_fp_bin x n y = false ->
  memacc rowsT x n y = false -> (forall r, rname n = Some r -> memacc rowsT y r x = false) ->
  memacc rowsR x n y = false /\ (forall r, rname n = Some r -> memacc rowsR y r x = false).
Proof.
  intros rowsT rowsR x n y H Hlen Lx Ly Hn Hex M1 M2.
  pose proof (heads_pairs_all _ _ _ H x y n Lx Ly Hn) as P. cbv beta in P.
  unfold rsucc_b in P. change succ_b with succ in P.
  assert (Lx' : x < length rowsR) by (rewrite <- Hlen; exact Lx).
  assert (Ly' : y < length rowsR) by (rewrite <- Hlen; exact Ly).
  rewrite Hex, (succ0_memacc rowsT _ n _ Lx Ly), (succ0_memacc rowsR _ n _ Lx' Ly'), M1 in P.
  destruct (rname n) as [r|].
  - rewrite (succ0_memacc rowsT _ r _ Ly Lx), (succ0_memacc rowsR _ r _ Ly' Lx'), (M2 r eq_refl) in P.
    apply andb_prop in P. destruct P as [P1 P2]. apply negb_true_iff in P1. apply negb_true_iff in P2.
    split; [exact P1|]. intros r' [= <-]. exact P2.
  - apply andb_prop in P. destruct P as [P1 _]. apply negb_true_iff in P1. split; [exact P1|discriminate].
Qed.

Lemma chain_none : forall UR UT us m, (forall k, In k us -> own_sim UR UT k) ->
  lookup_chain UT us m = None -> lookup_chain UR us m = None.
Proof.
  intros UR UT us m Hs. apply Forall_forall in Hs.
  apply (opt_sim_none _ _ (lookup_chain_sim UR UT m us Hs)).
Qed.

Lemma chain_total : forall UT us m e a, py_total UT -> lookup_chain UT us m = Some e -> e_call1 e a = true.
Proof.
  intros UT us m e a Ht. induction us as [|k us IH]; intros H; [discriminate|]. simpl in H.
  destruct (ci_own (UT k) m) as [e'|] eqn:E; [|exact (IH H)].
  inversion H; subst e'. exact (Ht k m e a E).
Qed.

Lemma py_total_user_table : forall nb l,
  Forall (fun ci => forall n e a, ci_own ci n = Some e -> e_call1 e a = true) l -> py_total (user_table nb l).
Proof.
  intros nb l H k n e a. unfold user_table.
  destruct (nth_in_or_default (k - nb) l empty_cls) as [Hin| ->]; [|discriminate].
  rewrite Forall_forall in H. apply (H _ Hin).
Qed.

Lemma user_cls_d_total : forall c mro look own, Forall (fun p => forall a, snd (snd p) a = true) own ->
  forall n e a, ci_own (user_cls_d c mro look own) n = Some e -> e_call1 e a = true.
Proof.
  intros c mro look own H n e a. simpl. induction H as [|[k p] own Hp _ IH]; [discriminate|]. simpl.
  destruct (k =? n); [intros [= <-]; apply Hp|exact IH].
Qed.

Lemma derived_arg_ok : forall nb UR UT a, derived_ok nb UR UT a -> arg_ok nb UR UT a.
Proof.
  intros nb UR UT a H Ha. destruct (H Ha) as [us [B [[HlR [HusR [_ HBR]]] [[HlT _] Hs]]]].
  split; [rewrite HlR, HlT; reflexivity|].
  intros k Hin Hk n. rewrite HlR in Hin. apply in_app_or in Hin. destruct Hin as [Hin|[<-|[]]].
  - apply opt_sim_none. exact (Hs k Hin n).
  - apply Nat.lt_nge in HBR. contradiction.
Qed.

(* a class is a builtin head (us = [], B = itself) or derived; either way it stands on a head other than object *)
Lemma dbase_cases : forall nb UR UT r, derived_ok nb UR UT r ->
  (r < nb /\ dbase nb UT r = r) \/
  (nb <= r /\ base_of UR r = dbase nb UT r /\ base_of UT r = dbase nb UT r /\ 0 < dbase nb UT r /\ dbase nb UT r < nb).
Proof.
  intros nb UR UT r Hr. unfold dbase. destruct (Nat.ltb_spec r nb) as [L|L]; [left; split; [exact L|reflexivity]|].
  right. destruct (Hr L) as [us [B [HR [HT _]]]].
  rewrite (base_of_shape _ _ _ _ _ HT), (base_of_shape _ _ _ _ _ HR). destruct HT as [_ [_ [H0 H1]]]. auto.
Qed.

Section Main.
  Variables rowsT rowsR : list brow.
  Variables UT UR : table.
  Let nb := length rowsT.
  Let T := mk_table_d rowsT UT.
  Let R := mk_table_d rowsR UR.
  Hypothesis Hlen : length rowsT = length rowsR.
  Hypothesis Hucol : ucol_faithful rowsT rowsR = true.
  Hypothesis Htot : py_total UT.

  Lemma dbase_lt : forall x, derived_ok nb UR UT x -> dbase nb UT x < nb.
  Proof.
    intros x Hx. destruct (dbase_cases nb UR UT x Hx) as [[L ->]|[_ [_ [_ [_ L]]]]]; exact L.
  Qed.
  (* A failing option of pytype, taken apart: the dunder of the left operand's base head does not list the base of the
     right operand; it does not accept the right operand structurally; and the user classes before the base do not
     define the dunder (on neither side, the definitions being the same).  rt_fail puts a failing run-time option
     together from the same three parts, read on the run-time rows. *)
  Lemma py_fail : forall l r m, derived_ok nb UR UT l -> derived_ok nb UR UT r ->
    succ T l r m = false ->
    memacc rowsT (dbase nb UT l) m (dbase nb UT r) = false /\
    ((nb <=? r) && uacc_ok nb UT (uacc_of rowsT (dbase nb UT l) m) r = false) /\
    (nb <= l -> exists us B, dshape nb UR l us B /\ dshape nb UT l us B /\ lookup_chain UR us m = None).
  Proof.
    intros l r m Hl Hr H.
    assert (Hsplit : forall B, bsucc rowsT UT B m r = false ->
              memacc rowsT B m (dbase nb UT r) = false /\ (nb <=? r) && uacc_ok nb UT (uacc_of rowsT B m) r = false).
    { intros B Hb. apply orb_false_elim. rewrite <- Hb. symmetry. apply bsucc_split.
      destruct (dbase_cases nb UR UT r Hr) as [C|[L [_ C]]]; [left; exact C|right; exact (conj L C)]. }
    unfold dbase at 1 3. destruct (Nat.ltb_spec l nb) as [L|L].
    - unfold T in H. rewrite (succ_d_builtin rowsT UT l r m L) in H.
      destruct (Hsplit l H) as [A B]. split; [exact A|]. split; [exact B|].
      intros C. apply Nat.lt_nge in L. contradiction.
    - destruct (Hl L) as [us [B [HR [HT Hs]]]].
      unfold T in H. rewrite (succ_d_derived rowsT UT l us B r m L HT) in H.
      rewrite (base_of_shape _ _ _ _ _ HT).
      destruct (lookup_chain UT us m) as [e|] eqn:E.
      + rewrite (chain_total UT us m e r Htot E) in H. discriminate.
      + destruct (Hsplit B H) as [A B']. split; [exact A|]. split; [exact B'|].
        intros _. exists us, B. split; [exact HR|]. split; [exact HT|]. apply (chain_none UR UT us m Hs E).
  Qed.

  Lemma rt_fail : forall l r m, derived_ok nb UR UT l -> derived_ok nb UR UT r ->
    In m dunder1_names -> excl_fp_bin (dbase nb UT l) m nb = false ->
    memacc rowsR (dbase nb UT l) m (dbase nb UT r) = false ->
    (nb <=? r) && uacc_ok nb UT (uacc_of rowsT (dbase nb UT l) m) r = false ->
    (nb <= l -> exists us B, dshape nb UR l us B /\ dshape nb UT l us B /\ lookup_chain UR us m = None) ->
    succ R l r m = false.
  Proof.
    intros l r m Hl Hr Hm Hex Hmem Hu Hch. pose proof (dbase_lt l Hl) as HB.
    assert (Hb : bsucc rowsR UR (dbase nb UT l) m r = false).
    { rewrite (bsucc_split rowsR UR (dbase nb UT l) m r (dbase nb UT r)).
      - rewrite Hmem, <- Hlen. fold nb. simpl.
        destruct (nb <=? r) eqn:L; [|reflexivity]. simpl in *. apply Nat.leb_le in L.
        revert Hu. apply transfer_false.
        exact (uacc_le_sound nb UR UT r _ _ L (derived_arg_ok nb UR UT r Hr) (ucol_at _ _ _ _ Hucol HB Hm Hex)).
      - rewrite <- Hlen. fold nb.
        destruct (dbase_cases nb UR UT r Hr) as [C|[L [C1 [_ C2]]]]; [left; exact C|right; exact (conj L (conj C1 C2))]. }
    unfold dbase in Hb, Hch. destruct (Nat.ltb_spec l nb) as [L|L].
    - unfold R. rewrite (succ_d_builtin rowsR UR l r m); [exact Hb|rewrite <- Hlen; exact L].
    - destruct (Hch L) as [us [B [HR [HT E]]]]. unfold nb in L, HR. rewrite Hlen in L, HR.
      unfold R. rewrite (succ_d_derived rowsR UR l us B r m L HR), E.
      rewrite (base_of_shape _ _ _ _ _ HT) in Hb. exact Hb.
  Qed.

End Main.

Lemma excl_fp_bin_indep : forall x n y y', excl_fp_bin x n y = excl_fp_bin x n y'.
Proof. reflexivity. Qed.

Lemma derived_reported_is_real_lemma : forall (rowsT rowsR : list brow) (UT UR : table) x n y,
  shape_ok rowsT rowsR = true -> dpair_faithful rowsT rowsR = true -> ucol_faithful rowsT rowsR = true ->
  py_total UT ->
  derived_ok (length rowsT) UR UT x -> derived_ok (length rowsT) UR UT y ->
  In n binop_names ->
  excl_fp_bin (dbase (length rowsT) UT x) n (dbase (length rowsT) UT y) = false ->
  binop_py (mk_table_d rowsT UT) x n y = Err -> binop_c (mk_table_d rowsR UR) x n y = Err.
Proof.
  intros rowsT rowsR UT UR x n y Hshape Hpair Hucol Htot Hx Hy Hn Hex Hpy.
  destruct (shape_ok_parts _ _ Hshape) as [Hlen _].
  apply is_err_Err. apply (f_equal is_err) in Hpy.
  destruct (binop_py_err_fail _ _ _ _ Hpy) as [F1 F2].
  pose proof (dbase_lt rowsT UT UR x Hx) as Bx. pose proof (dbase_lt rowsT UT UR y Hy) as By.
  (* each failing option of pytype, taken apart ... *)
  destruct (py_fail rowsT UT UR Htot x y n Hx Hy F1) as [M1 [U1 C1]].
  pose proof (fun r Er => py_fail rowsT UT UR Htot y x r Hy Hx (F2 r Er)) as A2.
  (* ... the membership parts go over to the run-time rows together ... *)
  destruct (dpair_faithful_spec _ _ _ n _ Hpair Hlen Bx By Hn Hex M1 (fun r Er => proj1 (A2 r Er))) as [P1 P2].
  (* ... and each run-time option is put together again *)
  apply binop_c_fail_err.
  - exact (rt_fail rowsT rowsR UT UR Hlen Hucol x y n Hx Hy (binop_dunder1 n Hn) Hex P1 U1 C1).
  - intros r Er. destruct (A2 r Er) as [_ [U2 C2]].
    apply (rt_fail rowsT rowsR UT UR Hlen Hucol y x r Hy Hx (rname_dunder1 n r Er)); auto.
    unfold excl_fp_bin. rewrite (rname_not_getitem n r Er). apply andb_false_r.
Qed.
