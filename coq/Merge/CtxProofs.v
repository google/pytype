(* C20, PROCESS level: proofs about Merge/Ctx.v: with share = false and memo = false the context-passing model
   collapses to Merge/Files.v over "merge_sources in a fresh context"; the models and trees of the refutations. *)
From Coq Require Import List NArith Bool Arith Lia.
From PV Require Import Merge.Model Merge.Proofs Merge.Files Merge.FilesProofs Merge.FilesLift Merge.Ctx.
Import ListNotations.
Open Scope N_scope.

Lemma merge_in_fresh v p s : merge_in v ctx0 p s = (merge v p s, m_needs (merge v p s)).
Proof.
  unfold merge_in, merge, ctx0. cbn [app].
  destruct (apply_items _ p a0) as [core st]. reflexivity.
Qed.

Lemma merge_seq_length v share : forall l cx, length (merge_seq v share cx l) = length l.
Proof.
  induction l as [|[p s] r IH]; intros cx; [reflexivity|].
  cbn [merge_seq]. destruct (merge_in v (if share then cx else ctx0) p s) as [m cx']. cbn [length]. now rewrite IH.
Qed.

(* the context after a merge: what it held before, then this stub's requests - it only grows; every field of the
   result but the output module is that of [merge] *)
Lemma merge_in_eq v cx p s :
  let m := merge v p s in
  exists out, merge_in v cx p s =
    (mkM out (m_err m) (m_leak m) (m_clsdecl m) (cx ++ m_needs m) (m_fresh m) (m_generic m), cx ++ m_needs m).
Proof.
  cbv zeta. remember (merge v p s) as m eqn:Hm. unfold merge in Hm. unfold merge_in.
  destruct (apply_items _ p a0) as [core st]. subst m. eexists. reflexivity.
Qed.

(* witness of the shared context: a.pyi needs an import, b.pyi needs none.
   a.py:  def price(x): ...        a.pyi: from fractions import Fraction ; def price(x: int) -> Fraction: ...
   b.py:  def count(n): ...        b.pyi: def count(n: int) -> int: ...
   identifiers: 101 price, 102 x, 103 count, 104 n, 110 fractions, 111 Fraction *)
Definition wa_p : list item := [Fun 101 0 (mkParams [] [mkParam 102 None None] NoStar [] None) None [Other 1]].
Definition wa_s : list item :=
  [Import true [110] [111] [] 0;
   Fun 101 0 (mkParams [] [mkParam 102 (Some (EName id_int)) None] NoStar [] None) (Some (EName 111)) [Other 2]].
Definition wb_p : list item := [Fun 103 0 (mkParams [] [mkParam 104 None None] NoStar [] None) None [Other 3]].
Definition wb_s : list item :=
  [Fun 103 0 (mkParams [] [mkParam 104 (Some (EName id_int)) None] NoStar [] None) (Some (EName id_int)) [Other 4]].
Definition w_seq := [(wa_p, wa_s); (wb_p, wb_s)].
Definition wb_out_fresh : list item :=
  [Fun 103 0 (mkParams [] [mkParam 104 (Some (EName id_int)) None] NoStar [] None) (Some (EName id_int)) [Other 3]].
Definition wb_out_shared : list item := Added (Import true [110] [] [111] 0) :: wb_out_fresh.

Section PP.
Variables (B T C : Type) (read : B -> option T) (write : T -> B) (teqb : T -> T -> bool).
Variables (fresh : C) (msrcC : C -> T -> T -> option T * C).
Variables (cwd : loc) (tree : node B).
Notation msrc := (msrc_fresh T C fresh msrcC).

Lemma mfsrc_c_none ov py s m bk :
  merge_files_src_c B T C read write teqb fresh msrcC cwd tree ov None py s m bk =
  (merge_files_src B T read write teqb msrc cwd tree ov py s m bk, None).
Proof.
  unfold merge_files_src_c, merge_files_src, msrc_fresh.
  destruct (st_read B tree ov (lexloc cwd py)); try reflexivity.
  destruct (read b); try reflexivity.
  destruct (msrcC fresh t s) as [r c']. cbn [fst].
  destruct r; try reflexivity.
  destruct m; try reflexivity.
  destruct (negb (teqb t0 t)); try reflexivity.
  destruct (truthy bk); try reflexivity.
  destruct (lookup B tree (lexloc cwd (backup_path py n))) as [[|]|]; reflexivity.
Qed.

Lemma mfiles_c_plain ov mm py pyi m bk :
  merge_files_c B T C read write teqb fresh msrcC false cwd tree ov mm None py pyi m bk =
  (merge_files B T read write teqb msrc cwd tree ov py pyi m bk, None, mm).
Proof.
  unfold merge_files_c, merge_files.
  destruct (st_read B tree ov (lexloc cwd pyi)); try reflexivity.
  destruct (read b); try reflexivity.
  rewrite mfsrc_c_none. reflexivity.
Qed.

Lemma tree_step_c_plain bk ts mm j :
  tree_step_c B T C read write teqb fresh msrcC false cwd tree bk (mkTC B T C ts None mm) j =
  mkTC B T C (tree_step B T read write teqb msrc cwd tree bk ts j) None mm.
Proof.
  unfold tree_step_c, tree_step. cbn [tc_st tc_ctx tc_memo].
  destruct (t_raised B ts); [reflexivity|].
  destruct (st_exists B tree (t_ov B ts) (lexloc cwd (snd j))); [|reflexivity].
  rewrite mfiles_c_plain.
  destruct (f_res B T (merge_files B T read write teqb msrc cwd tree (t_ov B ts) (fst j) (snd j) OVERWRITE bk)) as [[|]| |];
    reflexivity.
Qed.

Lemma fold_tree_c_plain bk mm : forall js ts,
  fold_left (tree_step_c B T C read write teqb fresh msrcC false cwd tree bk) js (mkTC B T C ts None mm) =
  mkTC B T C (fold_left (tree_step B T read write teqb msrc cwd tree bk) js ts) None mm.
Proof.
  induction js as [|j r IH]; intros ts; [reflexivity|].
  cbn [fold_left]. rewrite tree_step_c_plain. apply IH.
Qed.

(* merge_tree as written (no context handed down, no memo): the context-passing model collapses to Merge/Files.v's
   merge_tree over the pure function msrc_fresh - whatever msrcC does with its context *)
Lemma merge_tree_c_plain fixed ov mm top P bk :
  merge_tree_c B T C read write teqb fresh msrcC false false fixed cwd tree ov mm top P bk =
  mkTC B T C (fold_left (tree_step B T read write teqb msrc cwd tree bk) (jobs B fixed cwd tree top P) (mkTS B ov [] [] false))
       None mm.
Proof. unfold merge_tree_c. apply fold_tree_c_plain. Qed.

Lemma h_step_plain fixed h o :
  let '(h', x) := h_step B T C read write teqb fresh msrcC false false fixed cwd tree h o in
  (h_ov B T h', x) = fresh_step B T C read write teqb fresh msrcC fixed cwd tree (h_ov B T h) o /\
  h_memo B T h' = h_memo B T h.
Proof.
  destruct o as [py pyi m bk|top P bk|ip df bk py pyi|l b]; cbn [h_step fresh_step].
  - rewrite mfiles_c_plain. split; reflexivity.
  - rewrite merge_tree_c_plain. cbn [tc_st tc_memo h_ov h_memo]. split; reflexivity.
  - destruct (truthy bk) eqn:Eb; destruct ip; try (split; reflexivity);
      rewrite mfiles_c_plain; split; reflexivity.
  - split; reflexivity.
Qed.

Lemma main_no_inplace_never_writes share memo fixed h df bk py pyi :
  h_ov B T (fst (h_step B T C read write teqb fresh msrcC share memo fixed cwd tree h (OpMain false df bk py pyi))) = h_ov B T h.
Proof.
  cbn [h_step]. destruct (truthy bk) eqn:Eb; [reflexivity|].
  unfold merge_files_c.
  assert (Hsrc : forall s cx, f_ov B T (fst (merge_files_src_c B T C read write teqb fresh msrcC cwd tree (h_ov B T h) cx py s
                                             (main_mode false df) None)) = h_ov B T h).
  { intros s cx. unfold merge_files_src_c.
    destruct (st_read B tree (h_ov B T h) (lexloc cwd py)); try reflexivity.
    destruct (read b); try reflexivity.
    destruct (msrcC _ t s) as [r c']. destruct r; try reflexivity.
    destruct df; cbn [main_mode]; reflexivity. }
  destruct (if memo then memo_get T pyi (h_memo B T h) else None) as [s|].
  - specialize (Hsrc s None). destruct (merge_files_src_c _ _ _ _ _ _ _ _ _ _ _ _ _ s _ _) as [r cx']. exact Hsrc.
  - destruct (st_read B tree (h_ov B T h) (lexloc cwd pyi)); try reflexivity.
    destruct (read b); try reflexivity.
    specialize (Hsrc t None). destruct (merge_files_src_c _ _ _ _ _ _ _ _ _ _ _ _ _ t _ _) as [r cx']. exact Hsrc.
Qed.

End PP.

(* one context for the whole tree: contents are mini syntax trees, the context is [ctx] *)
Definition msrcC_model (v : variant) (cx : ctx) (p s : list item) : option (list item) * ctx :=
  let '(m, cx') := merge_in v cx p s in ((if m_err m then None else Some (m_out m)), cx').

Lemma msrc_fresh_model v p s : msrc_fresh _ _ ctx0 (msrcC_model v) p s = msrc_model v p s.
Proof. unfold msrc_fresh, msrcC_model, msrc_model. rewrite merge_in_fresh. reflexivity. Qed.

Definition s_tree : node (list item) :=
  Dir [(nm_src, Dir [(nm_a_py, File wa_p); (nm_b_py, File wb_p)]);
       (nm_s, Dir [(stub_name nm_a_py, File wa_s); (stub_name nm_b_py, File wb_s)])].
Definition it_eqb (a b : list item) : bool := list_eqb N.eqb (flat_map ser_item a) (flat_map ser_item b).
Definition s_run (share : bool) :=
  merge_tree_c (list item) (list item) ctx (@Some _) (fun t => t) it_eqb ctx0 (msrcC_model Fixed)
               share false true [] s_tree [] [] w_top w_P None.

(* stub text remembered per path string: merge, put the source back, rewrite the stub, merge again *)
Definition m_tree : tnode := Dir [(nm_d, Dir [(nm_a_py, File [120; 10]); (stub_name nm_a_py, File [49])])].
Definition m_py : pth := mkP 0 [nm_d; nm_a_py].
Definition m_pyi : pth := mkP 0 [nm_d; stub_name nm_a_py].
Definition m_ops : list (op (list N)) :=
  [OpFiles m_py m_pyi OVERWRITE None;
   OpWrite [nm_d; nm_a_py] [120; 10];
   OpWrite [nm_d; stub_name nm_a_py] [50];
   OpFiles m_py m_pyi OVERWRITE None].
Definition toy_msrcC (c : unit) (p s : list N) : option (list N) * unit := (toy_msrc p s, tt).
Definition m_run (memo : bool) :=
  run_history (list N) (list N) unit read_text write_text text_eqb tt toy_msrcC false memo true [] m_tree
              (mkH _ _ [] []) m_ops.
