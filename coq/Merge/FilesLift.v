(* C20, FILE level: text mode, the merge_sources theorems lifted to whole trees, the trees of the refutations. *)
From Coq Require Import List NArith Bool Arith Lia.
From PV Require Import Merge.Model Merge.Proofs Merge.Files Merge.FilesProofs.
Import ListNotations.
Open Scope N_scope.

Lemma un_cons c r : universal_newlines (c :: r) =
  if c =? 13 then 10 :: match r with
                        | d :: r' => if d =? 10 then universal_newlines r' else universal_newlines r
                        | [] => universal_newlines r
                        end
  else c :: universal_newlines r.
Proof.
  destruct c as [|p]; [reflexivity|].
  destruct p as [p|p|]; try reflexivity; destruct p as [p|p|]; try reflexivity;
    destruct p as [p|p|]; try reflexivity; destruct p as [p|p|]; try reflexivity.
  destruct r as [|d r']; [reflexivity|].
  destruct d as [|q]; [reflexivity|].
  destruct q as [q|q|]; try reflexivity; destruct q as [q|q|]; try reflexivity;
    destruct q as [q|q|]; try reflexivity; destruct q as [q|q|]; try reflexivity.
Qed.
Lemma universal_newlines_no_cr_len : forall n t, (length t <= n)%nat -> ~ In 13 (universal_newlines t).
Proof.
  induction n as [|n IH]; intros t Hl.
  - destruct t; [intros []|cbn in Hl; lia].
  - destruct t as [|c r]; [intros []|]. cbn [length] in Hl. rewrite un_cons.
    destruct (c =? 13) eqn:Ec.
    + intros [H|H]; [discriminate|]. revert H.
      destruct r as [|d r']; [apply IH; cbn; lia|].
      destruct (d =? 10); apply IH; cbn [length] in *; lia.
    + intros [H|H]; [subst c; discriminate|]. revert H. apply IH. lia.
Qed.
Lemma universal_newlines_no_cr t : ~ In 13 (universal_newlines t).
Proof. apply (universal_newlines_no_cr_len (length t)). lia. Qed.
(* contents are the mini syntax trees of Merge/Model.v, merge_sources is the model [merge v] *)
Definition msrc_model (v : variant) (p s : list item) : option (list item) :=
  let m := merge v p s in if m_err m then None else Some (m_out m).

Section LIFT.
Variables (v : variant) (teqb : list item -> list item -> bool).
Variables (cwd : loc) (tree : node (list item)) (backup : option name) (fixed : bool) (top P : pth).
Notation IT := (list item).
Notation rd0 := (st_read IT tree []).
Notation js := (jobs IT fixed cwd tree top P).
Notation final := (t_ov IT (merge_tree IT IT (@Some IT) (fun t => t) teqb (msrc_model v) fixed cwd tree top P backup)).
Notation indep0 := (indep IT IT (@Some IT) (fun t => t) teqb (msrc_model v) cwd tree backup [] js).
Notation no_raise0 := (no_raise IT IT (@Some IT) teqb (msrc_model v) cwd tree backup [] js).

(* every file after the tree merge is its original, or merge_sources of its original with the stub the loop
   paired it with, or (at a backup location) the original of the source next to it *)
Lemma tree_file_cases l c' :
  indep0 -> no_raise0 -> st_read IT tree final l = RFile c' ->
  rd0 l = RFile c' \/
  (exists j c s, In j js /\ l = lexloc cwd (fst j) /\ rd0 l = RFile c /\ rd0 (lexloc cwd (snd j)) = RFile s /\
                 m_err (merge v c s) = false /\ c' = m_out (merge v c s)) \/
  (exists j bk, In j js /\ truthy backup = Some bk /\ l = lexloc cwd (backup_path (fst j) bk) /\
                rd0 (lexloc cwd (fst j)) = RFile c').
Proof.
  intros Hi Hn H.
  destruct (merge_tree_final_read IT IT (@Some IT) (fun t => t) teqb (msrc_model v) cwd tree backup fixed top P l c' Hi Hn H)
    as [H0|(j & Hj & Hin)]; [left; exact H0|right].
  apply jwrites_inv in Hin. destruct Hin as (pb & a & Hjo & Hcase).
  apply out_of_changed_inv in Hjo. destruct Hjo as (sb & s & p & R1 & R2 & R3 & R4 & R5 & R6).
  inversion R2; subst s. inversion R4; subst p.
  destruct Hcase as [[El Ec]|(bk & Hb & El & Ec)].
  - left. exists j, pb, sb. unfold msrc_model in R5.
    destruct (m_err (merge v pb sb)) eqn:Em; [discriminate|]. injection R5 as <-.
    subst l. repeat split; auto.
  - right. exists j, bk. subst c'. repeat split; auto.
Qed.

(* a predicate that holds of a source and of its merge with its own stub holds of what the location holds after
   the tree merge (backup locations excepted) *)
Lemma tree_lift (Pr : IT -> Prop) l c c' :
  indep0 -> no_raise0 -> rd0 l = RFile c -> st_read IT tree final l = RFile c' ->
  (forall j bk, In j js -> truthy backup = Some bk -> l <> lexloc cwd (backup_path (fst j) bk)) ->
  Pr c ->
  (forall j s, In j js -> l = lexloc cwd (fst j) -> rd0 (lexloc cwd (snd j)) = RFile s ->
               m_err (merge v c s) = false -> Pr (m_out (merge v c s))) ->
  Pr c'.
Proof.
  intros Hi Hn H0 H1 Hbk Hrefl Hm.
  destruct (tree_file_cases l c' Hi Hn H1) as [E|[(j & c0 & s & Hj & El & Ec & Es & Em & ->)|(j & bk & Hj & Hb & El & _)]].
  - rewrite H0 in E. inversion E; subst c'. exact Hrefl.
  - rewrite H0 in Ec. inversion Ec; subst c0. exact (Hm j s Hj El Es Em).
  - destruct (Hbk j bk Hj Hb El).
Qed.

End LIFT.

(* toy merge_sources of the witnesses: the stub text is put in front of the source text *)
Definition toy_msrc (p s : list N) : option (list N) := Some (s ++ p).
Definition locs (cwd : loc) (j : pth * pth) : loc * loc := (lexloc cwd (fst j), lexloc cwd (snd j)).
Definition nm_src : name := [115; 114; 99].      Definition nm_s : name := [115].
Definition nm_sub : name := [115; 117; 98].      Definition nm_d : name := [100].
Definition nm_a_py : name := [97; 46; 112; 121]. Definition nm_b_py : name := [98; 46; 112; 121].

(* src/a.py, src/sub/a.py; stubs s/a.pyi, s/sub/a.pyi; a decoy a.pyi one directory above the stub root *)
Definition w_tree : tnode :=
  Dir [(nm_src, Dir [(nm_a_py, File [120; 10]); (nm_sub, Dir [(nm_a_py, File [121; 10])])]);
       (nm_s, Dir [(stub_name nm_a_py, File [49]); (nm_sub, Dir [(stub_name nm_a_py, File [50])])]);
       (stub_name nm_a_py, File [51])].
Definition w_top : pth := mkP 0 [nm_src].
Definition w_P : pth := mkP 0 [nm_s].

(* stubs next to the sources, backup extension "pyi": the backup of a.py is a.py.pyi, which then is taken for the
   stub of a.py.py *)
Definition nm_a_py_py : name := nm_a_py ++ [46; 112; 121].
Definition c_tree : tnode :=
  Dir [(nm_d, Dir [(nm_a_py, File [120; 10]); (nm_a_py_py, File [121; 10]); (stub_name nm_a_py, File [49])])].
Definition c_top : pth := mkP 0 [nm_d].
Definition c_bk : option name := Some [112; 121; 105].

(* a source that is not valid utf-8: the UnicodeDecodeError is not a MergeError, merge_tree stops there *)
Definition u_tree : tnode :=
  Dir [(nm_d, Dir [(nm_a_py, File [255]); (stub_name nm_a_py, File [49]);
                   (nm_b_py, File [120; 10]); (stub_name nm_b_py, File [49])])].
