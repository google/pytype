(* C20 proofs over Merge/Model.v: the annotation pass (apply_items) and the collector, by joint induction on
   items and item lists; the shape of [merge]'s output (merge_out, merge_fields); the slot relation [fills]
   (merge_slots), from which the theorems of Props/C20.v follow. *)
From Coq Require Import List NArith Bool PeanoNat.
From PV Require Import Merge.Model.
Import ListNotations.
Open Scope N_scope.

(* induction on items and item lists together (item is nested through list) *)

Section ItemInd.
  Variable P : item -> Prop.
  Variable Q : list item -> Prop.
  Hypothesis Hnil : Q [].
  Hypothesis Hcons : forall x l, P x -> Q l -> Q (x :: l).
  Hypothesis HFun : forall n d ps r b, Q b -> P (Fun n d ps r b).
  Hypothesis HCls : forall n h bs b, Q b -> P (Cls n h bs b).
  Hypothesis HAssign : forall ts v, P (Assign ts v).
  Hypothesis HAnn : forall t a v, P (AnnAssign t a v).
  Hypothesis HBlock : forall i b, Q b -> P (Block i b).
  Hypothesis HImport : forall f m ns ad i, P (Import f m ns ad i).
  Hypothesis HDoc : forall i, P (Doc i).
  Hypothesis HOther : forall i, P (Other i).
  Hypothesis HAdded : forall it, P it -> P (Added it).

  Fixpoint item_ind2 (it : item) : P it :=
    let items := fix go (l : list item) : Q l :=
                   match l with [] => Hnil | x :: r => Hcons x r (item_ind2 x) (go r) end in
    match it with
    | Fun n d ps r b => HFun n d ps r b (items b)
    | Cls n h bs b => HCls n h bs b (items b)
    | Assign ts v => HAssign ts v
    | AnnAssign t a v => HAnn t a v
    | Block i b => HBlock i b (items b)
    | Import f m ns ad i => HImport f m ns ad i
    | Doc i => HDoc i
    | Other i => HOther i
    | Added x => HAdded x (item_ind2 x)
    end.

  Lemma item_list_ind : (forall it, P it) /\ (forall l, Q l).
  Proof.
    split; [exact item_ind2|]. induction l; [exact Hnil|]. apply Hcons; [apply item_ind2|assumption].
  Qed.
End ItemInd.

Lemma flat_map_firstn_skipn {A B} (f : A -> list B) (k : nat) (l : list A) :
  flat_map f (firstn k l) ++ flat_map f (skipn k l) = flat_map f l.
Proof. rewrite <- flat_map_app, firstn_skipn. reflexivity. Qed.

Lemma skipn_add {A} (k n : nat) (l : list A) : skipn (k + n) l = skipn n (skipn k l).
Proof.
  revert l. induction k as [|k IH]; intros l; [reflexivity|].
  destruct l as [|x l]; cbn [Nat.add skipn]; [destruct n; reflexivity|apply IH].
Qed.

Lemma dict_get_In {K V} (eq : K -> K -> bool) (k : K) (d : list (K * V)) (v : V) :
  dict_get eq k d = Some v -> exists k', In (k', v) d /\ eq k' k = true.
Proof.
  induction d as [|[k' v'] d IH]; simpl; [discriminate|].
  destruct (eq k' k) eqn:E.
  - intros H; inversion H; subst. exists k'. auto.
  - intros H. destruct (IH H) as (k'' & Hin & Hk). exists k''. auto.
Qed.

Lemma dict_set_In {K V} (eq : K -> K -> bool) (k : K) (v : V) (d : list (K * V)) (k0 : K) (v0 : V) :
  In (k0, v0) (dict_set eq k v d) -> (k0, v0) = (k, v) \/ In (k0, v0) d.
Proof.
  induction d as [|[k' v'] d IH]; simpl.
  - intros [H|[]]. left. congruence.
  - destruct (eq k' k); simpl.
    + intros [H|H]; [left; congruence|right; right; exact H].
    + intros [H|H]; [right; left; exact H|]. destruct (IH H); auto.
Qed.

Lemma list_eqb_true_iff {A} (eq : A -> A -> bool) (Heq : forall a b, eq a b = true <-> a = b) :
  forall a b, list_eqb eq a b = true <-> a = b.
Proof.
  induction a as [|x a IH]; destruct b as [|y b]; cbn [list_eqb]; split; intros H;
    try reflexivity; try discriminate.
  - apply andb_true_iff in H. destruct H as [H1 H2]. apply Heq in H1. apply IH in H2. subst. reflexivity.
  - inversion H; subst. apply andb_true_iff. split; [apply Heq|apply IH]; reflexivity.
Qed.

(* path_eqb, and name_eqb / text_eqb of Merge/Files.v, are this test *)
Lemma list_eqb_N_iff (a b : list N) : list_eqb N.eqb a b = true <-> a = b.
Proof. apply list_eqb_true_iff. exact N.eqb_eq. Qed.

Lemma path_eqb_refl (a : path) : path_eqb a a = true.
Proof. unfold path_eqb. induction a as [|x a IH]; cbn [list_eqb]; auto. rewrite N.eqb_refl. exact IH. Qed.

Lemma qname_snoc (l : list path) (x : path) : qname (l ++ [x]) = qname l ++ x.
Proof. unfold qname. rewrite concat_app. cbn [concat]. rewrite app_nil_r. reflexivity. Qed.

Lemma apply_go_eq (e : env) (b : list item) (s : astate) :
  (fix go (l : list item) (s : astate) : list item * astate :=
     match l with
     | [] => ([], s)
     | x :: r => let '(x', s') := apply_item e x s in
                 let '(r', s'') := go r s' in (x' :: r', s'')
     end) b s = apply_items e b s.
Proof. revert s. induction b as [|x b IH]; intros s; simpl; [reflexivity|].
  destruct (apply_item e x s) as [x' s']. rewrite IH. reflexivity. Qed.

Lemma collect_go_eq (imp : list (N * path)) (b : list item) (c : cstate) :
  (fix go (l : list item) (c : cstate) : cstate :=
     match l with [] => c | x :: r => go r (collect_item imp x c) end) b c = collect_items imp b c.
Proof. revert c. induction b as [|x b IH]; intros c; simpl; [reflexivity|]. apply IH. Qed.

(* leave_ClassDef: the Generic[...] base of the stub's class of that name, when the source class has none *)
Definition cls_generic (e : env) (q : path) (bs : list expr) : option expr :=
  match q with
  | [k] => match dict_get N.eqb k (eclasses e) with
           | Some (Cls _ _ sbs _) =>
               match find_generic_base sbs, find_generic_base bs with
               | Some b1, None => Some b1
               | _, _ => None
               end
           | _ => None
           end
  | _ => None
  end.

(* the state after a class body that ended in s; g: a Generic base was appended *)
Definition cls_leave (n : N) (g : bool) (s : astate) : astate :=
  mkA (removelast (qual s)) (done s) (n :: visited s) (decls s) (stv s) (g || changed s)
      (leak s) (clsdecl s) (g || genadd s).

Lemma cls_generic_match {X} e q bs (f : expr -> X) (d : X) :
  match q with
  | [k] => match dict_get N.eqb k (eclasses e) with
           | Some (Cls _ _ sbs _) =>
               match find_generic_base sbs, find_generic_base bs with
               | Some b1, None => f b1
               | _, _ => d
               end
           | _ => d
           end
  | _ => d
  end = match cls_generic e q bs with Some b1 => f b1 | None => d end.
Proof.
  unfold cls_generic. destruct q as [|k [|]]; try reflexivity.
  destruct (dict_get N.eqb k (eclasses e)) as [[]|]; try reflexivity.
  destruct (find_generic_base bases), (find_generic_base bs); reflexivity.
Qed.

Lemma apply_item_Cls e n h bs b s :
  apply_item e (Cls n h bs b) s =
  let '(b', s2) := apply_items e b (a_push [n] s) in
  match cls_generic e (qname (qual s2)) bs with
  | Some b1 => (Cls n h (bs ++ [b1]) b', cls_leave n true s2)
  | None => (Cls n h bs b', cls_leave n false s2)
  end.
Proof.
  cbn [apply_item]. rewrite apply_go_eq. destruct (apply_items e b (a_push [n] s)) as [b' s2].
  exact (cls_generic_match e _ bs (fun b1 => (Cls n h (bs ++ [b1]) b', cls_leave n true s2))
                           (Cls n h bs b', cls_leave n false s2)).
Qed.

Lemma apply_item_Block e i b s :
  apply_item e (Block i b) s = let '(b', s') := apply_items e b s in (Block i b', s').
Proof. simpl. rewrite apply_go_eq. reflexivity. Qed.

Lemma apply_items_cons e x l s :
  apply_items e (x :: l) s =
  let '(x', s') := apply_item e x s in let '(l', s'') := apply_items e l s' in (x' :: l', s'').
Proof. reflexivity. Qed.

Lemma apply_fun_item e n d ps r b s :
  fst (apply_fun e n d ps r b s) = Fun n d ps r b \/
  exists fa,
    dict_get fkey_eqb (qname (qual s ++ [[n]]), shape_of ps) (efuns e) = Some fa /\
    fst (apply_fun e n d ps r b s) =
    Fun n d (update_parameters (egnames e) (visited s) ps (fst fa))
        (match r, snd fa with None, Some a => Some (quote (egnames e) (visited s) a) | _, _ => r end) b.
Proof.
  unfold apply_fun. destruct (dict_get _ _ _) as [fa|]; [|left; reflexivity].
  destruct (match_signatures ps r fa); [right; exists fa; split; reflexivity|left; reflexivity].
Qed.

Lemma apply_assign_item e ts v s :
  fst (apply_assign e ts v s) = Assign ts v \/
  exists n a vis,
    ts = [TName n] /\ dict_get path_eqb (qname (qual s ++ [[n]])) (eattrs e) = Some a /\
    fst (apply_assign e ts v s) = AnnAssign (TName n) (quote (egnames e) vis a) (Some v).
Proof.
  unfold apply_assign. set (s0 := if vtv v then _ else s).
  destruct ts as [|t [|t2 ts]]; [left; reflexivity| |left; reflexivity].
  destruct t as [n|k nm i].
  - assert (Hq : qual s0 = qual s) by (subst s0; cbn [tname]; destruct (vtv v); reflexivity).
    cbn zeta. cbn [a_push qual]. rewrite Hq.
    destruct (dict_get _ _ _) as [a|] eqn:Eg; [destruct (mem_path _ _)|]; try (left; reflexivity).
    right. exists n, a. eexists. repeat split. exact Eg.
  - left. destruct k; [destruct nm| |]; reflexivity.
Qed.

(* how the annotation pass moves its state: the monitors only go from false to true; unless the
   leak monitor is set the qualifier is restored; every recorded toplevel declaration is an entry
   of the attribute table, found under the bare name unless the clsdecl monitor is set *)

Definition flags_le (s s' : astate) : Prop :=
  (leak s = true -> leak s' = true) /\ (clsdecl s = true -> clsdecl s' = true) /\
  (genadd s = true -> genadd s' = true).

Definition decls_ok (e : env) (s : astate) : Prop :=
  forall nm a, In (nm, a) (decls s) ->
    exists q, dict_get path_eqb (q ++ nm) (eattrs e) = Some a /\ (clsdecl s = false -> q = []).

Record pass_le (e : env) (s s' : astate) : Prop := mkPassLe {
  pl_flags : flags_le s s';
  pl_qual : leak s' = false -> qual s' = qual s;
  pl_decls : decls_ok e s -> decls_ok e s' }.

Lemma leak_false_back s s' : flags_le s s' -> leak s' = false -> leak s = false.
Proof. intros (H & _) H'. destruct (leak s); auto. rewrite H in H'; auto. Qed.

Lemma genadd_false_back s s' : flags_le s s' -> genadd s' = false -> genadd s = false.
Proof. intros (_ & _ & H) H'. destruct (genadd s); auto. rewrite H in H'; auto. Qed.

Lemma pass_le_refl e s : pass_le e s s.
Proof. split; [unfold flags_le|..]; auto. Qed.

Lemma pass_le_trans e a b c : pass_le e a b -> pass_le e b c -> pass_le e a c.
Proof.
  intros [F1 Q1 D1] [F2 Q2 D2]. split; [unfold flags_le in *; intuition| |auto].
  intros Hl. rewrite (Q2 Hl). apply Q1. exact (leak_false_back _ _ F2 Hl).
Qed.

Lemma pass_le_same e s s' :
  (leak s' = false -> qual s' = qual s) -> (leak s = true -> leak s' = true) ->
  (genadd s = true -> genadd s' = true) -> clsdecl s' = clsdecl s -> decls s' = decls s ->
  pass_le e s s'.
Proof.
  intros Hq Hl Hg Hc Hd. split; [unfold flags_le; rewrite Hc; auto|exact Hq|].
  unfold decls_ok. rewrite Hc, Hd. auto.
Qed.

Lemma add_toplevel_pass e nm s : pass_le e s (add_toplevel e nm s).
Proof.
  unfold add_toplevel. destruct (dict_get _ _ _) as [a|] eqn:Eg; [|apply pass_le_refl].
  rewrite qname_snoc in Eg.
  split; [unfold flags_le; cbn [leak clsdecl genadd]; intuition|reflexivity|].
  intros Hd nm' a' Hin. cbn [decls clsdecl] in *.
  apply dict_set_In in Hin. destruct Hin as [Heq|Hin].
  - inversion Heq; subst. exists (qname (qual s)). split; [exact Eg|].
    intros Hc. apply orb_false_iff in Hc. destruct Hc as [_ Hc].
    destruct (qname (qual s)); [reflexivity|discriminate].
  - destruct (Hd _ _ Hin) as (q & Hq & Hc). exists q. split; [exact Hq|].
    intros Hc'. apply orb_false_iff in Hc'. apply Hc, Hc'.
Qed.

Lemma add_toplevels_pass e nms s : pass_le e s (add_toplevels e nms s).
Proof.
  unfold add_toplevels. revert s. induction nms as [|o nms IH]; intros s; cbn [fold_left].
  - apply pass_le_refl.
  - eapply pass_le_trans; [|apply IH].
    destruct o as [nm|]; [|apply pass_le_refl].
    destruct (not_underscore nm); [apply add_toplevel_pass|apply pass_le_refl].
Qed.

Lemma apply_assign_pass e ts v s : pass_le e s (snd (apply_assign e ts v s)).
Proof.
  unfold apply_assign. set (s0 := if vtv v then _ else s).
  apply pass_le_trans with (b := s0).
  { subst s0. destruct (vtv v); [|apply pass_le_refl].
    destruct ts as [|t ?]; [apply pass_le_refl|].
    destruct (tname t); [apply pass_le_same; auto|apply pass_le_refl]. }
  clearbody s0.
  destruct ts as [|[n|k nm i] [|t2 ts]]; cbn [snd]; try apply add_toplevels_pass.
  - cbn zeta. destruct (dict_get _ _ _); [destruct (mem_path _ _)|]; cbn [snd];
      apply pass_le_same; cbn [a_pop a_push qual leak]; auto using removelast_last; discriminate.
  - destruct k; [destruct nm| |]; cbn [snd];
      [apply pass_le_same; cbn [a_pop a_push qual]; auto using removelast_last
      |apply pass_le_refl..|apply add_toplevels_pass].
Qed.

Lemma apply_fun_pass e n d ps r b s : pass_le e s (snd (apply_fun e n d ps r b s)).
Proof.
  unfold apply_fun. destruct (dict_get _ _ _) as [fa|]; [|apply pass_le_refl].
  destruct (match_signatures ps r fa); [|apply pass_le_refl].
  cbn [snd]. match goal with |- context [if ?c then _ else _] => destruct c end;
    [apply pass_le_same; auto|apply pass_le_refl].
Qed.

Lemma apply_pass e :
  (forall it s, pass_le e s (snd (apply_item e it s))) /\
  (forall l s, pass_le e s (snd (apply_items e l s))).
Proof.
  apply item_list_ind; try (intros; apply pass_le_refl).
  - intros x l Hx Hl s. rewrite apply_items_cons.
    specialize (Hx s). destruct (apply_item e x s) as [x' s'].
    specialize (Hl s'). destruct (apply_items e l s') as [l' s''].
    exact (pass_le_trans _ _ _ _ Hx Hl).
  - intros. apply apply_fun_pass.
  - intros n h bs b Hb s. rewrite apply_item_Cls.
    specialize (Hb (a_push [n] s)). destruct (apply_items e b (a_push [n] s)) as [b' s2].
    destruct Hb as [(Fl & Fc & Fg) Q D]. cbn [snd a_push leak clsdecl genadd qual] in *.
    assert (Hq : leak s2 = false -> removelast (qual s2) = qual s)
      by (intros Hl; rewrite (Q Hl); apply removelast_last).
    destruct (cls_generic _ _ _); cbn [snd];
      (split; [unfold flags_le; cbn [cls_leave leak clsdecl genadd orb]; auto|exact Hq|exact D]).
  - intros. apply apply_assign_pass.
  - intros i b Hb s. rewrite apply_item_Block.
    specialize (Hb s). destruct (apply_items e b s) as [b' s']. exact Hb.
Qed.

Lemma apply_items_pass e l s : pass_le e s (snd (apply_items e l s)).
Proof. apply apply_pass. Qed.


Lemma erase_param_upd gn vis p a : erase_param (upd_param gn vis p a) = erase_param p.
Proof. unfold upd_param. destruct (pann p), a; reflexivity. Qed.

Lemma map_erase_upd_positional gn vis ps qs :
  map erase_param (upd_positional gn vis ps qs) = map erase_param ps.
Proof.
  revert qs. induction ps as [|p ps IH]; intros qs; destruct qs as [|q qs]; cbn [upd_positional map]; auto.
  rewrite erase_param_upd, IH. reflexivity.
Qed.

Lemma map_erase_upd_named gn vis ps qs : map erase_param (upd_named gn vis ps qs) = map erase_param ps.
Proof. unfold upd_named. rewrite map_map. apply map_ext. intros. apply erase_param_upd. Qed.

Lemma erase_params_update gn vis ps qs :
  erase_params (update_parameters gn vis ps qs) = erase_params ps.
Proof.
  unfold erase_params, update_parameters. cbn [posonly pos star kwonly kwstar].
  rewrite !map_erase_upd_positional, map_erase_upd_named. reflexivity.
Qed.

Lemma erase_apply e :
  (forall it s, genadd (snd (apply_item e it s)) = false ->
                erase_item (fst (apply_item e it s)) = erase_item it) /\
  (forall l s, genadd (snd (apply_items e l s)) = false -> erase (fst (apply_items e l s)) = erase l).
Proof.
  apply item_list_ind; try reflexivity.
  - intros x l Hx Hl s. rewrite apply_items_cons.
    specialize (Hx s). destruct (apply_item e x s) as [x' s'].
    specialize (Hl s'). pose proof (pl_flags _ _ _ (apply_items_pass e l s')) as Hf.
    destruct (apply_items e l s') as [l' s'']. cbn [fst snd] in *. intros Hg.
    change (erase_item x' ++ erase l' = erase_item x ++ erase l).
    rewrite Hl, Hx; [reflexivity|exact (genadd_false_back _ _ Hf Hg)|exact Hg].
  - intros n d ps r b _ s _. cbn [apply_item].
    destruct (apply_fun_item e n d ps r b s) as [->|(fa & _ & ->)]; [reflexivity|].
    cbn [erase_item]. rewrite erase_params_update. reflexivity.
  - intros n h bs b Hb s. rewrite apply_item_Cls.
    specialize (Hb (a_push [n] s)). destruct (apply_items e b (a_push [n] s)) as [b' s2]. cbn [fst snd] in Hb.
    destruct (cls_generic _ _ _); cbn [fst snd cls_leave genadd orb]; [discriminate|].
    intros Hg. cbn [erase_item]. fold (erase b'). rewrite (Hb Hg). reflexivity.
  - intros ts v s _. cbn [apply_item].
    destruct (apply_assign_item e ts v s) as [->|(n & a & vis & -> & _ & ->)]; reflexivity.
  - intros i b Hb s. rewrite apply_item_Block.
    specialize (Hb s). destruct (apply_items e b s) as [b' s']. cbn [fst snd] in *. intros Hg.
    cbn [erase_item]. fold (erase b'). rewrite (Hb Hg). reflexivity.
Qed.

Lemma collect_item_Cls imp n h bs b c :
  collect_item imp (Cls n h bs b) c =
  let c2 := c_use imp bs (c_push [n] c) in
  c_pop (collect_items imp b
           (mkC (cq c2) (cfuns c2) (cattrs c2)
                (dict_set N.eqb n (Cls n h (map dq_expr bs) b) (cclasses c2))
                (ctvs c2) (cnames c2) (cneeds c2)
                (cerr c2 || existsb (fun b => match b with EStr _ | EOther _ _ => true | _ => false end) bs))).
Proof. simpl. rewrite collect_go_eq. reflexivity. Qed.

Lemma collect_item_Block imp i b c : collect_item imp (Block i b) c = collect_items imp b c.
Proof. simpl. rewrite collect_go_eq. reflexivity. Qed.

Lemma dict_set_Forall {K V} (eq : K -> K -> bool) (P : K * V -> Prop) k v d :
  P (k, v) -> Forall P d -> Forall P (dict_set eq k v d).
Proof.
  intros Hk Hd. apply Forall_forall. intros [k0 v0] Hin. apply dict_set_In in Hin.
  destruct Hin as [->|Hin]; [exact Hk|]. rewrite Forall_forall in Hd. exact (Hd _ Hin).
Qed.

(* the tables hold what the stub says, dequalified, under the true qualified names [SD]; the
   recorded TypeVar statements are `X = TypeVar(...)` assignments, the recorded classes classes *)
Definition ctable (SD : list sdef) (c : cstate) : Prop :=
  (forall key fa, In (key, fa) (cfuns c) ->
     exists ps r, In (SFun (fst key) ps r) SD /\ snd key = shape_of ps /\
                  fa = (dq_params ps, option_map dq_expr r)) /\
  (forall q a, In (q, a) (cattrs c) -> exists a0, In (SVar q a0) SD /\ a = dq_expr a0) /\
  Forall (fun kv => exists ts v, snd kv = Assign ts v /\ vtv v = true) (ctvs c) /\
  Forall (fun kd => exists n h bs b, snd kd = Cls n h bs b) (cclasses c).

Lemma collect_ctable imp SD :
  (forall it c, incl (stub_defs (qname (cq c)) it) SD -> ctable SD c ->
                cq (collect_item imp it c) = cq c /\ ctable SD (collect_item imp it c)) /\
  (forall l c, incl (flat_map (stub_defs (qname (cq c))) l) SD -> ctable SD c ->
               cq (collect_items imp l c) = cq c /\ ctable SD (collect_items imp l c)).
Proof.
  apply item_list_ind; try (intros; split; [reflexivity|assumption]).
  - intros x l Hx Hl c Hi Hc. cbn [collect_items flat_map] in *. apply incl_app_inv in Hi.
    destruct Hi as [Hi1 Hi2]. destruct (Hx c Hi1 Hc) as [Hq1 Hc1]. rewrite <- Hq1 in Hi2.
    destruct (Hl _ Hi2 Hc1) as [Hq2 Hc2]. rewrite Hq2. auto.
  - intros n d ps r b _ c Hi (Hf & Hrest).
    cbn [collect_item c_pop c_push c_use cq cfuns cattrs ctvs cclasses].
    split; [apply removelast_last|]. split; [|exact Hrest].
    intros key fa [Heq|Hin]; [|auto]. inversion Heq; subst key fa. cbn [fst snd].
    exists ps, r. rewrite qname_snoc. repeat split. apply Hi. left. reflexivity.
  - intros n h bs b Hb c Hi (Hf & Ha & Ht & Hk). rewrite collect_item_Cls. cbn zeta.
    match goal with |- context [collect_items imp b ?x] => destruct (Hb x) as [Hq Hc] end.
    + cbn [cq c_use c_push]. rewrite qname_snoc. exact Hi.
    + repeat split; try assumption. cbn [cclasses c_use c_push].
      apply dict_set_Forall; [cbn [snd]; eauto|exact Hk].
    + cbn [c_pop cq]. rewrite Hq. split; [apply removelast_last|exact Hc].
  - intros ts v c _ Hc. assert (Hid : cq c = cq c /\ ctable SD c) by (split; [reflexivity|exact Hc]).
    cbn [collect_item]. destruct (vtv v) eqn:Ev; [|exact Hid]. destruct ts as [|t ts]; [exact Hid|].
    destruct (tname t); [|exact Hid]. split; [reflexivity|]. destruct Hc as (Hf & Ha & Ht & Hk).
    repeat split; try assumption. cbn [ctvs]. apply dict_set_Forall; [cbn [snd]; eauto|exact Ht].
  - intros t a v c Hi Hc. cbn [collect_item stub_defs] in *.
    destruct (tname t) as [nm|]; [|split; [reflexivity|exact Hc]]. destruct Hc as (Hf & Ha & Hrest).
    cbn [c_pop c_push c_use cq cfuns cattrs ctvs cclasses].
    split; [apply removelast_last|]. split; [exact Hf|]. split; [|exact Hrest].
    intros q a' [Heq|Hin]; [|auto]. inversion Heq; subst q a'.
    exists a. rewrite qname_snoc. split; [apply Hi; left|]; reflexivity.
  - intros i b Hb c. rewrite collect_item_Block. apply Hb.
Qed.

Lemma collect_stub imp s : ctable (stub_all s) (collect_items imp s c0).
Proof.
  apply (proj2 (collect_ctable imp (stub_all s)) s c0); [apply incl_refl|].
  repeat split; try constructor; intros ? ? [].
Qed.

(* AddImportsVisitor touches only `from` imports of the modules it has work for: it extends the
   added names of one and inserts new ones.  A statement-wise projection [f] that does not see
   either is unchanged. *)

Lemma flat_map_nil {A B} (f : A -> list B) (l : list A) : Forall (fun x => f x = []) l -> flat_map f l = [].
Proof. induction 1 as [|x l Hx _ IH]; cbn [flat_map]; [reflexivity|]. rewrite Hx, IH. reflexivity. Qed.

Lemma flat_map_merge_into_block {A} (f : item -> list A) blk : forall work,
  (forall m objs ns ad i, In (m, objs) work ->
     f (Import true m ns (ad ++ objs) i) = f (Import true m ns ad i)) ->
  flat_map f (fst (merge_into_block blk work)) = flat_map f blk /\
  incl (snd (merge_into_block blk work)) work.
Proof.
  induction blk as [|x blk IH]; intros work Hf; cbn [merge_into_block];
    [split; [reflexivity|apply incl_refl]|].
  assert (Hdef : let r := let '(r', w') := merge_into_block blk work in (x :: r', w') in
                 flat_map f (fst r) = flat_map f (x :: blk) /\ incl (snd r) work).
  { destruct (IH work Hf) as [H1 H2]. destruct (merge_into_block blk work).
    split; [cbn [fst flat_map] in *; rewrite H1; reflexivity|exact H2]. }
  destruct x as [| | | | |[|] m ns ad i| | |]; try exact Hdef.
  destruct (dict_get path_eqb m work) as [objs|] eqn:Eg; [|exact Hdef].
  apply dict_get_In in Eg. destruct Eg as (m' & Hin & Hm). apply list_eqb_N_iff in Hm. subst m'.
  set (w' := filter _ work). assert (Hw : incl w' work) by apply incl_filter.
  destruct (IH w') as [H1 H2]; [intros; apply Hf, Hw; assumption|].
  destruct (merge_into_block blk w') as [r' w'']. cbn [fst snd flat_map] in *.
  split; [rewrite H1, (Hf _ _ _ _ _ Hin); reflexivity|exact (incl_tran H2 Hw)].
Qed.

Lemma flat_map_add_imports {A} (f : item -> list A) needs orig core :
  (forall m objs ns ad i, In (m, objs) (import_work needs orig) ->
     f (Import true m ns (ad ++ objs) i) = f (Import true m ns ad i)) ->
  (forall m objs, In (m, objs) (import_work needs orig) -> f (Added (Import true m [] objs 0)) = []) ->
  flat_map f (add_imports needs orig core) = flat_map f core.
Proof.
  intros Hf Ha. unfold add_imports.
  set (k := skip_first orig). set (n := length (top_block orig)).
  destruct (flat_map_merge_into_block f (firstn n (skipn k core)) _ Hf) as [H1 H2].
  destruct (merge_into_block _ _) as [blk' rest]. cbn [fst snd] in *.
  rewrite !flat_map_app, H1, (flat_map_nil f (map _ rest)).
  - cbn [app]. rewrite (skipn_add k n core), <- !flat_map_app.
    rewrite (firstn_skipn n (skipn k core)), (firstn_skipn k core). reflexivity.
  - apply Forall_map, Forall_forall. intros [m objs] Hin. apply Ha, H2, Hin.
Qed.

Lemma insert_path_In m x l : In m (insert_path x l) -> m = x \/ In m l.
Proof.
  induction l as [|y l IH]; cbn [insert_path].
  - intros [H|[]]; auto.
  - destruct (path_eqb x y); [auto|]. destruct (path_leb x y).
    + intros [H|H]; auto.
    + intros [H|H]; [right; left; auto|]. destruct (IH H); auto. right; right; auto.
Qed.

Lemma import_work_In needs p m objs : In (m, objs) (import_work needs p) -> In m (map fst needs).
Proof.
  unfold import_work. intros Hin. apply in_flat_map in Hin. destruct Hin as (m' & Hm' & Hin).
  match type of Hin with In _ (match ?l with _ => _ end) => destruct l end; [destruct Hin|].
  destruct Hin as [Heq|[]]. inversion Heq; subst m'. clear -Hm'.
  induction (map fst needs) as [|y l IH]; cbn [fold_right] in Hm'; [exact Hm'|].
  apply insert_path_In in Hm'. destruct Hm'; [left; auto|right; auto].
Qed.

(* the parts of [merge]: the stub tables, the annotation pass over the source; leave_Module puts the
   import edits and the inserted statements around the result of the pass *)

Definition merge_coll (v : variant) (s : list item) : cstate :=
  collect_items (stub_imports (filter_stub v s)) (filter_stub v s) c0.
Definition merge_env (v : variant) (p s : list item) : env :=
  let c := merge_coll v s in mkE (cfuns c) (cattrs c) (cclasses c) (global_names p).
Definition merge_core (v : variant) (p s : list item) : list item :=
  fst (apply_items (merge_env v p s) p a0).
Definition merge_state (v : variant) (p s : list item) : astate :=
  snd (apply_items (merge_env v p s) p a0).

(* a statement inserted at module level: a declaration recorded by the pass, a TypeVar assignment,
   or a class of the stub (then m_fresh is not empty) *)
Definition inserted (v : variant) (p s : list item) (it : item) : Prop :=
  (exists nm a, In (nm, a) (decls (merge_state v p s)) /\
     it = Added (AnnAssign (TName (hd 0 nm))
                           (quote (global_names p) (visited (merge_state v p s)) a) None)) \/
  (exists ts val, vtv val = true /\ it = Added (Assign ts val)) \/
  (m_fresh (merge v p s) <> [] /\ exists n h bs b, it = Added (Cls n h bs b)).

Lemma merge_out v p s :
  m_out (merge v p s) = p \/
  exists k top,
    let wi := add_imports (m_needs (merge v p s)) p (merge_core v p s) in
    m_out (merge v p s) = firstn k wi ++ top ++ skipn k wi /\ Forall (inserted v p s) top.
Proof.
  pose proof (collect_stub (stub_imports (filter_stub v s)) (filter_stub v s)) as (_ & _ & Ht & Hk).
  unfold inserted, merge_core, merge_state, merge_env, merge_coll in *.
  remember (merge v p s) as m eqn:Em. unfold merge in Em.
  destruct (apply_items _ p a0) as [core st]. subst m. cbn [fst snd m_out m_needs m_fresh].
  match goal with |- context [if ?c then _ else _] => destruct c end; [right|left; reflexivity].
  eexists _, _. split; [reflexivity|].
  rewrite Forall_forall in Ht, Hk. repeat (apply Forall_app; split); apply Forall_forall; intros it Hin;
    apply in_map_iff in Hin; destruct Hin as (x & <- & Hx).
  - left. destruct x as [nm a]. eauto.
  - right; left. apply filter_In in Hx. destruct Hx as [Hx _]. apply filter_In in Hx. destruct Hx as [Hx _].
    destruct (Ht _ Hx) as (ts & val & -> & Hv). eauto.
  - right; right. split; [intros E; apply (in_map fst) in Hx; rewrite E in Hx; exact Hx|].
    apply filter_In in Hx. destruct Hx as [Hx _]. destruct (Hk _ Hx) as (n & h & bs & b & ->). eauto.
Qed.

Lemma merge_fields v p s :
  m_leak (merge v p s) = leak (merge_state v p s) /\
  m_clsdecl (merge v p s) = clsdecl (merge_state v p s) /\
  m_generic (merge v p s) = genadd (merge_state v p s) /\
  m_needs (merge v p s) = cneeds (merge_coll v s) /\
  (m_err (merge v p s) = false ->
   forallb (fun kd : path * expr => single (fst kd)) (decls (merge_state v p s)) = true).
Proof.
  unfold merge_state, merge_env, merge_coll. remember (merge v p s) as m eqn:Em. unfold merge in Em.
  destruct (apply_items _ p a0) as [core st]. subst m. cbn [snd m_leak m_clsdecl m_generic m_needs m_err].
  repeat split. intros H. apply orb_false_iff in H. destruct H as [_ H].
  apply negb_false_iff in H. exact H.
Qed.

Lemma flat_map_merge_out {A} (f : item -> list A) v p s :
  (forall fr m ns ad i, f (Import fr m ns ad i) = f (Import fr m ns [] i)) ->
  (forall it, f (Added it) = []) ->
  flat_map f (m_out (merge v p s)) = flat_map f p \/
  flat_map f (m_out (merge v p s)) = flat_map f (merge_core v p s).
Proof.
  intros Hi Ha. destruct (merge_out v p s) as [->|(k & top & -> & Ht)]; [left; reflexivity|right].
  rewrite !flat_map_app, (flat_map_nil f top).
  - cbn [app]. rewrite flat_map_firstn_skipn. apply flat_map_add_imports; intros; [|apply Ha].
    rewrite (Hi _ _ _ (_ ++ _)). symmetry. apply Hi.
  - eapply Forall_impl; [|exact Ht].
    intros it [(? & ? & _ & ->)|[(? & ? & _ & ->)|(_ & ? & ? & ? & ? & ->)]]; apply Ha.
Qed.

Lemma merge_erases_lemma v p s :
  m_generic (merge v p s) = false -> m_fresh (merge v p s) = [] ->
  needs_typing_only (merge v p s) = true ->
  erase (m_out (merge v p s)) = erase p.
Proof.
  intros Hg Hf Hn. destruct (merge_fields v p s) as (_ & _ & Eg & _). rewrite Eg in Hg.
  destruct (merge_out v p s) as [->|(k & top & -> & Ht)]; [reflexivity|]. cbv zeta.
  assert (Hty : forall m objs, In (m, objs) (import_work (m_needs (merge v p s)) p) -> is_typing m = true).
  { intros m objs Hin. apply import_work_In, in_map_iff in Hin. destruct Hin as (mn & <- & Hin).
    unfold needs_typing_only in Hn. rewrite forallb_forall in Hn. exact (Hn _ Hin). }
  unfold erase. rewrite !flat_map_app, (flat_map_nil erase_item top).
  - cbn [app]. rewrite flat_map_firstn_skipn, flat_map_add_imports.
    + exact (proj2 (erase_apply _) p a0 Hg).
    + intros m objs ns ad i Hin. cbn [erase_item]. rewrite (Hty _ _ Hin). reflexivity.
    + intros m objs Hin. cbn [erase_item]. rewrite (Hty _ _ Hin). reflexivity.
  - eapply Forall_impl; [|exact Ht].
    intros it [(? & ? & _ & ->)|[(? & val & Hv & ->)|(Hne & _)]]; [reflexivity| |contradiction].
    cbn [erase_item]. rewrite Hv. reflexivity.
Qed.


Lemma Forall2_refl {A} (Q : A -> A -> Prop) (l : list A) : (forall x, Q x x) -> Forall2 Q l l.
Proof. intros H. induction l; constructor; auto. Qed.

Lemma Forall2_flat_map {A B} (Q : B -> B -> Prop) (f g : A -> list B) (l l' : list A) :
  Forall2 (fun x y => Forall2 Q (f x) (g y)) l l' -> Forall2 Q (flat_map f l) (flat_map g l').
Proof. induction 1; cbn [flat_map]; [constructor|]. apply Forall2_app; auto. Qed.

Lemma Forall2_nth {A} (Q : A -> A -> Prop) (l l' : list A) :
  Forall2 Q l l' -> forall i,
  match nth_error l i, nth_error l' i with
  | Some x, Some y => Q x y
  | None, None => True
  | _, _ => False
  end.
Proof.
  induction 1 as [|a b l l' Hab _ IH]; intros [|i]; cbn [nth_error]; auto. apply IH.
Qed.

Lemma quote_same gn vis a : same_ann (quote gn vis a) a.
Proof.
  unfold quote, same_ann. destruct a; auto.
  destruct (memN n gn && negb (memN n vis)); [right; eauto|left; auto].
Qed.

Lemma upd_param_name gn vis p a : pname (upd_param gn vis p a) = pname p.
Proof. unfold upd_param. destruct (pann p), a; reflexivity. Qed.

Lemma upd_positional_length gn vis ps qs : length (upd_positional gn vis ps qs) = length ps.
Proof.
  revert qs. induction ps as [|p ps IH]; intros [|q qs]; cbn [upd_positional length]; auto.
Qed.

Lemma shape_update gn vis ps qs : shape_of (update_parameters gn vis ps qs) = shape_of ps.
Proof.
  unfold shape_of, update_parameters. cbn [posonly pos star kwonly kwstar].
  rewrite !upd_positional_length. f_equal.
  unfold upd_named. rewrite map_map. f_equal. apply map_ext. intros. apply upd_param_name.
Qed.

(* the table entry the pass reads for a slot of shape sh and kind w when its qualifier spells q *)
Definition found (e : env) (q : path) (sh : option shape) (w : which) (a0 : expr) : Prop :=
  match w with
  | WVar => dict_get path_eqb q (eattrs e) = Some a0
  | _ => exists sh0 fa, sh = Some sh0 /\ dict_get fkey_eqb (q, sh0) (efuns e) = Some fa /\
                        ann_in (fst fa) (snd fa) w = Some a0
  end.

Section Fills.
  Variable e : env.
  (* L stands for "the pass ends with the leak monitor unset": then the qualifier under which an
     entry was found is the true qualified name of the slot.  L := False gives what holds always. *)
  Variable L : Prop.

  Definition origin (qn : option path) (sh : option shape) (w : which) (a0 : expr) : Prop :=
    exists q, found e q sh w a0 /\ (L -> qn = Some q).

  Definition fills (sl sl' : slot) : Prop :=
    s_qn sl' = s_qn sl /\ s_shape sl' = s_shape sl /\ s_which sl' = s_which sl /\
    match s_ann sl with
    | Some a => s_ann sl' = Some a
    | None => forall a, s_ann sl' = Some a ->
                        exists a0, origin (s_qn sl) (s_shape sl) (s_which sl) a0 /\ same_ann a a0
    end.

  Lemma fills_refl sl : fills sl sl.
  Proof. unfold fills. repeat split. destruct (s_ann sl); [reflexivity|discriminate]. Qed.

  Lemma fills_same l : Forall2 fills l l.
  Proof. apply Forall2_refl, fills_refl. Qed.

  Lemma fills_param qn sh w gn vis p a :
    (forall a0, a = Some a0 -> origin qn sh w a0) ->
    fills (mkSlot qn sh w (pann p)) (mkSlot qn sh w (pann (upd_param gn vis p a))).
  Proof.
    intros Hg. unfold fills. cbn [s_qn s_shape s_which s_ann]. repeat split.
    unfold upd_param. destruct (pann p) eqn:E; [rewrite E; reflexivity|].
    destruct a as [a0|]; cbn [pann]; [|rewrite E; discriminate].
    intros a1 H1. inversion H1; subst a1. exists a0. split; [auto|apply quote_same].
  Qed.

  Lemma pslots_fills qn sh mk gn vis : forall ps qs i0,
    (forall j q a0, nth_error qs j = Some q -> pann q = Some a0 -> origin qn (Some sh) (mk (i0 + j)%nat) a0) ->
    Forall2 fills (pslots qn sh mk i0 ps) (pslots qn sh mk i0 (upd_positional gn vis ps qs)).
  Proof.
    induction ps as [|p ps IH]; intros [|q qs] i0 Hg; cbn [upd_positional pslots]; try apply fills_same.
    constructor.
    - apply fills_param. intros a0 Ha. rewrite <- (Nat.add_0_r i0). exact (Hg 0%nat q a0 eq_refl Ha).
    - apply IH. intros j q' a0 Hn Ha. rewrite Nat.add_succ_comm. exact (Hg (S j) q' a0 Hn Ha).
  Qed.

  Lemma fun_slots_fills qn q ps r gn vis fa :
    dict_get fkey_eqb (q, shape_of ps) (efuns e) = Some fa -> (L -> qn = Some q) ->
    Forall2 fills (fun_slots qn ps r)
            (fun_slots qn (update_parameters gn vis ps (fst fa))
                       (match r, snd fa with None, Some a => Some (quote gn vis a) | _, _ => r end)).
  Proof.
    intros Hfa Hq. unfold fun_slots. rewrite shape_update.
    cbn [update_parameters posonly pos star kwonly kwstar].
    assert (Hgive : forall w a0, w <> WVar -> ann_in (fst fa) (snd fa) w = Some a0 ->
                                 origin qn (Some (shape_of ps)) w a0).
    { intros w a0 Hw Ha. exists q. split; [|exact Hq].
      destruct w; try congruence; exists (shape_of ps), fa; auto. }
    constructor.
    { unfold fills. cbn [s_qn s_shape s_which s_ann]. repeat split.
      destruct r; [reflexivity|]. destruct (snd fa) as [a0|] eqn:Ea; [|discriminate].
      intros a1 H1. inversion H1; subst a1. exists a0. split; [|apply quote_same].
      apply Hgive; [discriminate|reflexivity]. }
    repeat apply Forall2_app; try apply fills_same.
    - apply pslots_fills. intros j p a0 Hn Ha. apply Hgive; [discriminate|].
      cbn [ann_in Nat.add]. rewrite Hn. exact Ha.
    - apply pslots_fills. intros j p a0 Hn Ha. apply Hgive; [discriminate|].
      cbn [ann_in Nat.add]. rewrite Hn. exact Ha.
    - unfold upd_named. rewrite map_map.
      induction (kwonly ps) as [|p l IH]; cbn [map]; constructor; auto.
      rewrite upd_param_name. apply fills_param. intros a0 Ha. apply Hgive; [discriminate|exact Ha].
  Qed.

  Lemma apply_fills :
    (forall it s ch, (L -> leak (snd (apply_item e it s)) = false) -> (L -> ch = Some (qname (qual s))) ->
       Forall2 fills (slots ch it) (slots ch (fst (apply_item e it s)))) /\
    (forall l s ch, (L -> leak (snd (apply_items e l s)) = false) -> (L -> ch = Some (qname (qual s))) ->
       Forall2 fills (flat_map (slots ch) l) (flat_map (slots ch) (fst (apply_items e l s)))).
  Proof.
    apply item_list_ind; try (intros; apply fills_same).
    - intros x l Hx Hl s ch. rewrite apply_items_cons.
      specialize (Hx s ch). pose proof (apply_pass e) as [Hp _]. specialize (Hp x s).
      destruct (apply_item e x s) as [x' s'].
      specialize (Hl s' ch). pose proof (apply_items_pass e l s') as Hp'.
      destruct (apply_items e l s') as [l' s'']. cbn [fst snd flat_map] in *. intros Hk Hc.
      assert (Hk' : L -> leak s' = false) by (intros HL; exact (leak_false_back _ _ (pl_flags _ _ _ Hp') (Hk HL))).
      apply Forall2_app; [auto|]. apply Hl; [exact Hk|].
      intros HL. rewrite (pl_qual _ _ _ Hp (Hk' HL)). auto.
    - intros n d ps r b _ s ch _ Hc. cbn [apply_item].
      destruct (apply_fun_item e n d ps r b s) as [->|(fa & Hfa & ->)]; [apply fills_same|].
      cbn [slots]. apply Forall2_app; [|apply fills_same].
      apply (fun_slots_fills _ _ _ _ _ _ _ Hfa). intros HL. rewrite (Hc HL), qname_snoc. reflexivity.
    - intros n h bs b Hb s ch. rewrite apply_item_Cls.
      specialize (Hb (a_push [n] s) (ext ch [n])).
      destruct (apply_items e b (a_push [n] s)) as [b' s2]. cbn [fst snd] in Hb.
      intros Hk Hc. assert (Hb' : Forall2 fills (flat_map (slots (ext ch [n])) b) (flat_map (slots (ext ch [n])) b')).
      { apply Hb; [destruct (cls_generic _ _ _); exact Hk|].
        intros HL. rewrite (Hc HL). cbn [a_push qual ext option_map]. rewrite qname_snoc. reflexivity. }
      destruct (cls_generic _ _ _); exact Hb'.
    - intros ts v s ch _ Hc. cbn [apply_item].
      destruct (apply_assign_item e ts v s) as [->|(n & a & vis & -> & Ha & ->)]; [apply fills_same|].
      cbn [slots tname]. constructor; [|constructor].
      unfold fills. cbn [s_qn s_shape s_which s_ann]. repeat split.
      intros a1 H1. inversion H1; subst a1. exists a. split; [|apply quote_same].
      exists (qname (qual s ++ [[n]])). split; [exact Ha|].
      intros HL. rewrite (Hc HL), qname_snoc. reflexivity.
    - intros i b Hb s ch. rewrite apply_item_Block.
      specialize (Hb s ch). destruct (apply_items e b s) as [b' s']. exact Hb.
  Qed.
End Fills.

Lemma merge_slots (L : Prop) v p s :
  (L -> m_leak (merge v p s) = false) ->
  Forall2 (fills (merge_env v p s) L) (mslots p) (mslots (m_out (merge v p s))).
Proof.
  intros HL. unfold mslots.
  destruct (flat_map_merge_out (slots (Some [])) v p s) as [->| ->]; try reflexivity; [apply fills_same|].
  apply apply_fills; [|reflexivity].
  destruct (merge_fields v p s) as (E & _). rewrite E in HL. exact HL.
Qed.

Lemma merge_slots_nth (L : Prop) v p s i :
  (L -> m_leak (merge v p s) = false) ->
  match ann_at p i, ann_at (m_out (merge v p s)) i with
  | Some sl, Some sl' => fills (merge_env v p s) L sl sl'
  | None, None => True
  | _, _ => False
  end.
Proof. intros HL. apply Forall2_nth, merge_slots, HL. Qed.

Lemma filled_origin (L : Prop) v p s i sl sl' a :
  (L -> m_leak (merge v p s) = false) ->
  ann_at p i = Some sl -> s_ann sl = None ->
  ann_at (m_out (merge v p s)) i = Some sl' -> s_ann sl' = Some a ->
  exists a0, origin (merge_env v p s) L (s_qn sl) (s_shape sl) (s_which sl) a0 /\ same_ann a a0.
Proof.
  intros HL Hi Hn Hi' Ha. pose proof (merge_slots_nth L v p s i HL) as H.
  rewrite Hi, Hi' in H. destruct H as (_ & _ & _ & Hann). rewrite Hn in Hann. exact (Hann a Ha).
Qed.


Lemma strip_tr_defs :
  (forall it chain, incl (flat_map (stub_defs chain) (strip_tr it)) (stub_defs chain it)) /\
  (forall l chain, incl (flat_map (stub_defs chain) (flat_map strip_tr l)) (flat_map (stub_defs chain) l)).
Proof.
  apply item_list_ind;
    try (intros; cbn [strip_tr flat_map stub_defs]; rewrite app_nil_r; auto using incl_refl; fail).
  - intros chain. apply incl_refl.
  - intros x l Hx Hl chain. cbn [flat_map]. rewrite flat_map_app. apply incl_app_app; auto.
  - intros t a [v|] chain; cbn [strip_tr]; [|destruct (is_trivial a)]; cbn [flat_map];
      rewrite ?app_nil_r; auto using incl_refl, incl_nil_l.
Qed.

Lemma is_any_or_never_bare a : is_any_or_never (Some (NExpr a)) = bare_any_never a.
Proof. destruct a; reflexivity. Qed.

(* RemoveAnyNeverTransformer: a return that is left is not a bare Any / Never; with the fix the
   same holds of variable annotations *)
Lemma strip_an_defs v :
  (forall it chain,
     (forall q ps a, In (SFun q ps (Some a)) (flat_map (stub_defs chain) (strip_an v it)) ->
                     In (SFun q ps (Some a)) (stub_defs chain it) /\ bare_any_never a = false) /\
     (v = Fixed -> forall q a, In (SVar q a) (flat_map (stub_defs chain) (strip_an v it)) ->
                               In (SVar q a) (stub_defs chain it) /\ bare_any_never a = false)) /\
  (forall l chain,
     (forall q ps a, In (SFun q ps (Some a)) (flat_map (stub_defs chain) (flat_map (strip_an v) l)) ->
                     In (SFun q ps (Some a)) (flat_map (stub_defs chain) l) /\ bare_any_never a = false) /\
     (v = Fixed -> forall q a, In (SVar q a) (flat_map (stub_defs chain) (flat_map (strip_an v) l)) ->
                               In (SVar q a) (flat_map (stub_defs chain) l) /\ bare_any_never a = false)).
Proof.
  apply item_list_ind; try (intros; split; intros; contradiction).
  - intros x l Hx Hl chain. cbn [flat_map]. rewrite flat_map_app.
    destruct (Hx chain) as [Hx1 Hx2], (Hl chain) as [Hl1 Hl2].
    split; [intros q ps a Hin|intros Hv q a Hin]; apply in_app_or in Hin; destruct Hin as [Hin|Hin].
    + destruct (Hx1 _ _ _ Hin) as [H1 H2]. split; [apply in_or_app; left; exact H1|exact H2].
    + destruct (Hl1 _ _ _ Hin) as [H1 H2]. split; [apply in_or_app; right; exact H1|exact H2].
    + destruct (Hx2 Hv _ _ Hin) as [H1 H2]. split; [apply in_or_app; left; exact H1|exact H2].
    + destruct (Hl2 Hv _ _ Hin) as [H1 H2]. split; [apply in_or_app; right; exact H1|exact H2].
  - intros n d ps r b _ chain. cbn [strip_an]. split.
    + intros q ps' a. destruct r as [a0|]; cbn [option_map];
        [rewrite is_any_or_never_bare; destruct (bare_any_never a0) eqn:E|cbn [is_any_or_never]];
        cbn [flat_map stub_defs app]; intros [H|[]]; inversion H; subst. split; [left; reflexivity|exact E].
    + intros _ q a. destruct (is_any_or_never _); intros [H|[]]; discriminate.
  - intros n h bs b Hb chain. cbn [strip_an flat_map stub_defs]. rewrite app_nil_r. apply Hb.
  - intros t a val chain. cbn [strip_an]. unfold an_leave_annassign.
    assert (Hno : forall q ps a0, ~ In (SFun q ps (Some a0)) (stub_defs chain (AnnAssign t a val))).
    { intros q ps a0. cbn [stub_defs]. destruct (tname t); [intros [H|[]]; discriminate|intros []]. }
    destruct v.
    + cbn [is_any_or_never flat_map]. rewrite app_nil_r.
      split; [intros q ps a0 H; destruct (Hno _ _ _ H)|discriminate].
    + rewrite is_any_or_never_bare. destruct (bare_any_never a) eqn:E.
      * split; [|intros _]; destruct val; contradiction.
      * cbn [flat_map]. rewrite app_nil_r. split; [intros q ps a0 H; destruct (Hno _ _ _ H)|].
        intros _ q a0 H. split; [exact H|]. cbn [stub_defs] in H.
        destruct (tname t); [|contradiction]. destruct H as [H|[]]. inversion H; subst. exact E.
  - intros i b Hb chain. cbn [strip_an flat_map stub_defs]. rewrite app_nil_r. apply Hb.
Qed.

Lemma stub_defs_ok f :
  (forall it chain,
     (rets_ok f it = true ->
      forall q ps a, In (SFun q ps (Some a)) (stub_defs chain it) -> f a = true) /\
     (vars_ok f it = true -> forall q a, In (SVar q a) (stub_defs chain it) -> f a = true)) /\
  (forall l chain,
     (forallb (rets_ok f) l = true ->
      forall q ps a, In (SFun q ps (Some a)) (flat_map (stub_defs chain) l) -> f a = true) /\
     (forallb (vars_ok f) l = true ->
      forall q a, In (SVar q a) (flat_map (stub_defs chain) l) -> f a = true)).
Proof.
  apply item_list_ind; try (intros; split; intros; contradiction).
  - intros x l Hx Hl chain. cbn [forallb flat_map].
    destruct (Hx chain) as [Hx1 Hx2], (Hl chain) as [Hl1 Hl2].
    split; intros H; apply andb_true_iff in H; destruct H as [Ha Hb];
      [intros q ps a Hin|intros q a Hin]; apply in_app_or in Hin; destruct Hin as [Hin|Hin].
    + exact (Hx1 Ha _ _ _ Hin).
    + exact (Hl1 Hb _ _ _ Hin).
    + exact (Hx2 Ha _ _ Hin).
    + exact (Hl2 Hb _ _ Hin).
  - intros n d ps r b _ chain. cbn [rets_ok vars_ok stub_defs].
    split; [intros Hr q ps' a [H|[]]; inversion H; subst; exact Hr|intros _ q a [H|[]]; discriminate].
  - intros n h bs b Hb chain. apply Hb.
  - intros t a v chain. cbn [rets_ok vars_ok stub_defs]. destruct (tname t); [|split; intros; contradiction].
    split; [intros _ q ps a0 [H|[]]; discriminate|intros Hv q a0 [H|[]]; inversion H; subst; exact Hv].
  - intros i b Hb chain. apply Hb.
Qed.

Lemma filter_stub_defs v s :
  (forall q ps a, In (SFun q ps (Some a)) (stub_all (filter_stub v s)) ->
                  In (SFun q ps (Some a)) (stub_all s) /\ bare_any_never a = false) /\
  (v = Fixed -> forall q a, In (SVar q a) (stub_all (filter_stub v s)) ->
                            In (SVar q a) (stub_all s) /\ bare_any_never a = false).
Proof.
  unfold stub_all, filter_stub, strip_trivial, strip_any_never.
  pose proof (proj2 strip_tr_defs (flat_map (strip_an v) s) []) as Ht.
  destruct (proj2 (strip_an_defs v) s []) as [H1 H2].
  split; [intros q ps a H|intros Hv q a H]; apply Ht in H; auto.
Qed.

Lemma dq_not_bare a : bare_any_never a = false -> not_dotted_any a = true -> bare_any_never (dq_expr a) = false.
Proof.
  destruct a; cbn [dq_expr bare_any_never not_dotted_any]; auto.
  - intros _ H. apply negb_true_iff in H. exact H.
  - destruct (is_type_head a); reflexivity.
Qed.

Lemma same_ann_bare a a0 : same_ann a a0 -> bare_any_never a0 = false -> bare_any_never a = false.
Proof. intros [->|(n & -> & ->)]; auto. Qed.

Lemma funs_clean v p s key fa a0 :
  forallb (rets_ok not_dotted_any) s = true ->
  In (key, fa) (efuns (merge_env v p s)) -> snd fa = Some a0 -> bare_any_never a0 = false.
Proof.
  intros Hs Hin Hr. destruct (collect_stub (stub_imports (filter_stub v s)) (filter_stub v s)) as (Hf & _).
  apply Hf in Hin. destruct Hin as (ps & [a|] & Hd & _ & ->); [|discriminate]. inversion Hr; subst a0.
  apply (proj1 (filter_stub_defs v s)) in Hd. destruct Hd as [Hd Hb].
  apply dq_not_bare; [exact Hb|]. exact (proj1 (proj2 (stub_defs_ok _) s []) Hs _ _ _ Hd).
Qed.

Lemma attrs_clean p s q a0 :
  forallb (vars_ok not_dotted_any) s = true ->
  In (q, a0) (eattrs (merge_env Fixed p s)) -> bare_any_never a0 = false.
Proof.
  intros Hs Hin. destruct (collect_stub (stub_imports (filter_stub Fixed s)) (filter_stub Fixed s)) as (_ & Ha & _).
  apply Ha in Hin. destruct Hin as (a & Hd & ->).
  apply (proj2 (filter_stub_defs Fixed s) eq_refl) in Hd. destruct Hd as [Hd Hb].
  apply dq_not_bare; [exact Hb|]. exact (proj2 (proj2 (stub_defs_ok _) s []) Hs _ _ Hd).
Qed.

Definition decl_of (it : item) : list (path * expr) :=
  match it with
  | Added (AnnAssign t a None) => match tname t with Some nm => [(nm, a)] | None => [] end
  | _ => []
  end.

Lemma decl_of_apply_item e it s : decl_of (fst (apply_item e it s)) = decl_of it.
Proof.
  destruct it; try reflexivity.
  - cbn [apply_item]. destruct (apply_fun_item e name deco ps ret body s) as [->|(fa & _ & ->)]; reflexivity.
  - rewrite apply_item_Cls. destruct (apply_items e body (a_push [name] s)).
    destruct (cls_generic _ _ _); reflexivity.
  - cbn [apply_item]. destruct (apply_assign_item e ts v s) as [->|(n & a & vis & _ & _ & ->)]; reflexivity.
  - rewrite apply_item_Block. destruct (apply_items e body s). reflexivity.
Qed.

Lemma added_decls_apply_items e b : forall s, added_decls (fst (apply_items e b s)) = added_decls b.
Proof.
  induction b as [|x b IH]; intros s; [reflexivity|]. rewrite apply_items_cons.
  pose proof (decl_of_apply_item e x s) as Hx. destruct (apply_item e x s) as [x' s'].
  specialize (IH s'). destruct (apply_items e b s') as [b' s''].
  change (decl_of x' ++ added_decls b' = decl_of x ++ added_decls b). cbn [fst] in *. rewrite Hx, IH. reflexivity.
Qed.

Lemma added_decls_out v p s nm a :
  In (nm, a) (added_decls (m_out (merge v p s))) ->
  In (nm, a) (added_decls p) \/
  exists nm0 a0, In (nm0, a0) (decls (merge_state v p s)) /\ nm = [hd 0 nm0] /\
                 a = quote (global_names p) (visited (merge_state v p s)) a0.
Proof.
  destruct (merge_out v p s) as [->|(k & top & -> & Ht)]; [auto|]. cbv zeta.
  set (wi := add_imports _ _ _).
  assert (Hwi : flat_map decl_of wi = added_decls p).
  { subst wi. rewrite flat_map_add_imports by reflexivity. apply added_decls_apply_items. }
  rewrite <- Hwi, <- (flat_map_firstn_skipn decl_of k wi).
  change added_decls with (flat_map decl_of). rewrite !flat_map_app, !in_app_iff.
  intros [H|[H|H]]; [auto| |auto].
  right. apply in_flat_map in H. destruct H as (it & Hit & Hin). rewrite Forall_forall in Ht.
  destruct (Ht _ Hit) as [(nm0 & a0 & Hd & ->)|[(? & ? & _ & ->)|(_ & ? & ? & ? & ? & ->)]];
    try contradiction.
  destruct Hin as [Heq|[]]. inversion Heq. eauto.
Qed.


Section ExprInd.
  Variable P : expr -> Prop.
  Hypothesis HName : forall n, P (EName n).
  Hypothesis HAttr : forall q n, P (EAttr q n).
  Hypothesis HSub : forall h args, P h -> Forall P args -> P (ESub h args).
  Hypothesis HStr : forall n, P (EStr n).
  Hypothesis HOther : forall i subs, Forall P subs -> P (EOther i subs).
  Fixpoint expr_ind' (e : expr) : P e :=
    let all := fix go (l : list expr) : Forall P l :=
                 match l with [] => Forall_nil P | x :: r => Forall_cons x (expr_ind' x) (go r) end in
    match e with
    | EName n => HName n
    | EAttr q n => HAttr q n
    | ESub h args => HSub h args (expr_ind' h) (all args)
    | EStr n => HStr n
    | EOther i subs => HOther i subs (all subs)
    end.
End ExprInd.

Lemma existsb_false_Forall {A} (f : A -> bool) l : existsb f l = false -> Forall (fun x => f x = false) l.
Proof.
  induction l as [|x l IH]; cbn [existsb]; [constructor|]. intros H. apply orb_false_iff in H.
  destruct H. constructor; auto.
Qed.

Lemma map_id_Forall {A} (f : A -> A) (g : A -> bool) (l : list A) :
  Forall (fun x => g x = false -> f x = x) l -> existsb g l = false -> map f l = l.
Proof.
  induction 1 as [|x l Hx _ IH]; cbn [existsb map]; auto. intros H.
  apply orb_false_iff in H. destruct H. rewrite Hx, IH; auto.
Qed.

Lemma dq_id a : expr_dotted a = false -> dq_expr a = a.
Proof.
  induction a using expr_ind'; cbn [expr_dotted dq_expr]; auto; try discriminate.
  - intros H0. apply orb_false_iff in H0. destruct H0 as [H1 H2].
    rewrite IHa by exact H1. destruct (is_type_head a); [reflexivity|].
    rewrite (map_id_Forall dq_expr expr_dotted); auto.
  - intros H0. rewrite (map_id_Forall dq_expr expr_dotted); auto.
Qed.

Lemma dq_param_id p : param_dotted p = false -> dq_param p = p.
Proof.
  unfold param_dotted, dq_param. destruct p as [n [a|] d]; cbn [pname pann pdef option_map]; auto.
  intros H. rewrite dq_id; auto.
Qed.

Lemma dq_params_id ps : params_dotted ps = false -> dq_params ps = ps.
Proof.
  unfold params_dotted, dq_params. intros H.
  apply orb_false_iff in H. destruct H as [H _]. apply orb_false_iff in H. destruct H as [_ H].
  destruct ps as [po pp st kw ks]. cbn [posonly pos star kwonly kwstar] in *. f_equal.
  apply (map_id_Forall dq_param param_dotted); auto.
  apply Forall_forall. intros. apply dq_param_id; auto.
Qed.

Lemma stub_defs_undotted :
  (forall it chain, item_dotted it = false ->
     (forall q ps r, In (SFun q ps r) (stub_defs chain it) -> dq_params ps = ps /\ option_map dq_expr r = r) /\
     (forall q a, In (SVar q a) (stub_defs chain it) -> dq_expr a = a)) /\
  (forall l chain, existsb item_dotted l = false ->
     (forall q ps r, In (SFun q ps r) (flat_map (stub_defs chain) l) ->
                     dq_params ps = ps /\ option_map dq_expr r = r) /\
     (forall q a, In (SVar q a) (flat_map (stub_defs chain) l) -> dq_expr a = a)).
Proof.
  apply item_list_ind; try (intros; split; intros; contradiction).
  - intros x l Hx Hl chain Hd. cbn [existsb flat_map] in *. apply orb_false_iff in Hd. destruct Hd as [Hd1 Hd2].
    destruct (Hx chain Hd1) as [Hx1 Hx2], (Hl chain Hd2) as [Hl1 Hl2].
    split; [intros q ps r Hin|intros q a Hin]; apply in_app_or in Hin; destruct Hin as [Hin|Hin].
    + exact (Hx1 _ _ _ Hin).
    + exact (Hl1 _ _ _ Hin).
    + exact (Hx2 _ _ Hin).
    + exact (Hl2 _ _ Hin).
  - intros n d ps r b _ chain Hd. cbn [item_dotted stub_defs] in *. apply orb_false_iff in Hd. destruct Hd as [Hd1 Hd2].
    split; [|intros q a [H|[]]; discriminate]. intros q ps' r' [H|[]]. inversion H; subst.
    split; [apply dq_params_id, Hd1|]. destruct r' as [a|]; cbn [option_map]; [rewrite dq_id; auto|reflexivity].
  - intros n h bs b Hb chain Hd. cbn [item_dotted] in Hd. apply orb_false_iff in Hd. apply Hb, Hd.
  - intros t a v chain Hd. cbn [item_dotted stub_defs] in *. destruct (tname t); [|split; intros; contradiction].
    split; [intros q ps r [H|[]]; discriminate|intros q a0 [H|[]]; inversion H; subst; apply dq_id, Hd].
  - intros i b Hb chain Hd. apply Hb, Hd.
Qed.

Lemma shape_eqb_eq a b : shape_eqb a b = true -> a = b.
Proof.
  destruct a as [a1 a2 a3 a4 a5], b as [b1 b2 b3 b4 b5]. unfold shape_eqb.
  cbn [sh_pos sh_kw sh_posonly sh_star sh_kwstar].
  intros H. repeat (apply andb_true_iff in H; destruct H as [H ?]).
  apply Nat.eqb_eq in H. apply list_eqb_N_iff in H3. apply Nat.eqb_eq in H2.
  apply eqb_prop in H1. apply eqb_prop in H0. subst. reflexivity.
Qed.

Lemma fkey_eqb_eq (a b : fkey) : fkey_eqb a b = true -> a = b.
Proof.
  destruct a as [a1 a2], b as [b1 b2]. unfold fkey_eqb. cbn [fst snd]. intros H.
  apply andb_true_iff in H. destruct H as [H1 H2].
  apply list_eqb_N_iff in H1. apply shape_eqb_eq in H2. subst. reflexivity.
Qed.

(* [ctable] as the pass reads it (dict_get), for a stub without dotted names, where dequalifying changes nothing *)
Definition env_sound (e : env) (SD : list sdef) : Prop :=
  (forall key fa, dict_get fkey_eqb key (efuns e) = Some fa ->
     exists ps r, In (SFun (fst key) ps r) SD /\ snd key = shape_of ps /\ fa = (ps, r)) /\
  (forall q a, dict_get path_eqb q (eattrs e) = Some a -> In (SVar q a) SD).

Lemma env_sound_merge v p s :
  dotted_free (filter_stub v s) = true -> env_sound (merge_env v p s) (stub_all (filter_stub v s)).
Proof.
  intros Hd. apply negb_true_iff in Hd. destruct (proj2 stub_defs_undotted _ [] Hd) as [Uf Ua].
  destruct (collect_stub (stub_imports (filter_stub v s)) (filter_stub v s)) as (Hf & Ha & _).
  split; cbn [merge_env efuns eattrs].
  - intros key fa Hg. apply dict_get_In in Hg. destruct Hg as (k' & Hin & Hk).
    apply fkey_eqb_eq in Hk. subst k'. destruct (Hf _ _ Hin) as (ps & r & Hsd & Hsh & ->).
    exists ps, r. destruct (Uf _ _ _ Hsd) as [-> ->]. auto.
  - intros q a Hg. apply dict_get_In in Hg. destruct Hg as (k' & Hin & Hk).
    apply list_eqb_N_iff in Hk. subst k'. destruct (Ha _ _ Hin) as (a1 & Hsd & ->). rewrite (Ua _ _ Hsd). exact Hsd.
Qed.

Lemma origin_stub_gives e SD sl a0 :
  env_sound e SD -> origin e True (s_qn sl) (s_shape sl) (s_which sl) a0 -> stub_gives SD sl a0.
Proof.
  intros [Hf Ha] (q & Hfound & Hq). unfold stub_gives. rewrite (Hq I).
  destruct (s_which sl); cbn [found] in Hfound; try (apply Ha, Hfound);
    destruct Hfound as (sh0 & fa & Hs & Hg & Hann); apply Hf in Hg; destruct Hg as (ps & r & Hin & Hk & ->);
    exists ps, r; rewrite Hs; cbn [fst snd] in *; subst sh0; auto.
Qed.

Lemma filled_from_stub v p s i sl sl' a :
  dotted_free (filter_stub v s) = true -> m_leak (merge v p s) = false ->
  ann_at p i = Some sl -> s_ann sl = None ->
  ann_at (m_out (merge v p s)) i = Some sl' -> s_ann sl' = Some a ->
  exists a0, stub_gives (stub_all (filter_stub v s)) sl a0 /\ same_ann a a0.
Proof.
  intros Hd Hl Hi Hn Hi' Ha.
  destruct (filled_origin True v p s i sl sl' a (fun _ => Hl) Hi Hn Hi' Ha) as (a0 & Ho & Hsame).
  exists a0. split; [exact (origin_stub_gives _ _ _ _ (env_sound_merge v p s Hd) Ho)|exact Hsame].
Qed.

(* witnesses of the refuted statements (ids: 10 Inner, 20 Outer / C, 30 f / m, 40 x, 41 y, 50 self, 60 List) *)
Definition nested_p : list item :=
  [Cls 20 100 [] [Cls 10 101 [] [Other 102]];
   Fun 30 103 (mkParams [] [] NoStar [] None) None [Other 104]].
Definition nested_s : list item :=
  [Cls 20 100 [] [Cls 10 101 [] [Other 105]];
   Fun 30 103 (mkParams [] [] NoStar [] None) (Some (EAttr [20] 10)) [Other 105]].
Definition leak_p : list item :=
  [Cls 20 100 [] [Assign [TName 40] (mkVal 101 false); Assign [TName 40] (mkVal 102 false);
                  Fun 30 103 (mkParams [] [mkParam 50 None None] NoStar [] None) None [Other 104]];
   Fun 30 103 (mkParams [] [mkParam 50 None None] NoStar [] None) None [Other 105]].
Definition leak_s : list item :=
  [Cls 20 100 [] [AnnAssign (TName 40) (ESub (EName 60) [EName id_int]) None;
                  Fun 30 103 (mkParams [] [mkParam 50 None None] NoStar [] None) (Some (EName id_int)) [Other 106]];
   Fun 30 103 (mkParams [] [mkParam 50 None None] NoStar [] None) (Some (EName id_str)) [Other 106]].
Definition any_p : list item := [Assign [TName 40] (mkVal 101 false)].
Definition any_s : list item := [Import true [id_typing] [id_Any] [] 0; AnnAssign (TName 40) (EName id_Any) None].

Definition chain_p : list item :=
  [Cls 20 100 [] [Assign [TName 40; TName 41] (mkVal 101 false)]].
Definition chain_s : list item :=
  [Cls 20 100 [] [AnnAssign (TName 40) (ESub (EName 60) [EName id_int]) None;
                  AnnAssign (TName 41) (ESub (EName 60) [EName id_int]) None]].

Lemma inserted_from_stub_refuted_lemma :
  exists p s i sl sl' a, forall v,
    dotted_free (filter_stub v s) = true /\ m_clsdecl (merge v p s) = false /\ m_err (merge v p s) = false /\
    ann_at p i = Some sl /\ s_ann sl = None /\
    ann_at (m_out (merge v p s)) i = Some sl' /\ s_ann sl' = Some a /\
    ~ exists a0, stub_gives (stub_all (filter_stub v s)) sl a0 /\ same_ann a a0.
Proof.
  set (sh := mkShape 1 [] 0 false false).
  exists leak_p, leak_s, 4%nat, (mkSlot (Some [30]) (Some sh) WRet None),
         (mkSlot (Some [30]) (Some sh) WRet (Some (EName id_int))), (EName id_int).
  intros v.
  assert (Hs : stub_all (filter_stub v leak_s) =
               [SVar [20; 40] (ESub (EName 60) [EName id_int]);
                SFun [20; 30] (mkParams [] [mkParam 50 None None] NoStar [] None) (Some (EName id_int));
                SFun [30] (mkParams [] [mkParam 50 None None] NoStar [] None) (Some (EName id_str))]).
  { destruct v; vm_compute; reflexivity. }
  repeat split; try (destruct v; vm_compute; reflexivity).
  rewrite Hs. intros (a0 & Hg & Hsame). unfold stub_gives in Hg. cbn [s_qn s_which s_shape] in Hg.
  destruct Hg as (ps & r & Hin & _ & Hann).
  cbn [In] in Hin. destruct Hin as [H|[H|[H|[]]]]; try discriminate.
  inversion H; subst. cbn [ann_in] in Hann. inversion Hann; subst.
  destruct Hsame as [H1|(n & H1 & H2)]; discriminate.
Qed.

Lemma inserted_declaration_refuted_lemma :
  exists p s nm a, forall v,
    dotted_free (filter_stub v s) = true /\ m_leak (merge v p s) = false /\ m_err (merge v p s) = false /\
    In (nm, a) (added_decls (m_out (merge v p s))) /\ ~ In (nm, a) (added_decls p) /\
    ~ exists a0, In (SVar nm a0) (stub_all (filter_stub v s)) /\ same_ann a a0.
Proof.
  exists chain_p, chain_s, [40], (ESub (EName 60) [EName id_int]). intros v.
  assert (Hs : stub_all (filter_stub v chain_s) =
               [SVar [20; 40] (ESub (EName 60) [EName id_int]); SVar [20; 41] (ESub (EName 60) [EName id_int])]).
  { destruct v; vm_compute; reflexivity. }
  assert (Ho : added_decls (m_out (merge v chain_p chain_s)) =
               [([40], ESub (EName 60) [EName id_int]); ([41], ESub (EName 60) [EName id_int])]).
  { destruct v; vm_compute; reflexivity. }
  rewrite Hs, Ho. do 3 (split; [destruct v; vm_compute; reflexivity|]).
  split; [left; reflexivity|]. split; [intros []|].
  intros (a0 & Hin & _). cbn [In] in Hin. destruct Hin as [H|[H|[]]]; discriminate.
Qed.
