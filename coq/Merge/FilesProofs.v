(* C20, FILE level: proofs about Merge/Files.v: join / normpath / abspath / relpath agree with lexical resolution;
   the stub merge_tree picks; merge_files by mode; merge_tree's loop as a map over the per-file outcomes; merge_tree in terms of the values
   of merge_sources only. *)
From Coq Require Import List NArith Bool Arith Lia.
From PV Require Import Merge.Model Merge.Proofs Merge.Files.
Import ListNotations.
Open Scope N_scope.

Lemma name_eqb_refl a : name_eqb a a = true.
Proof. apply list_eqb_N_iff. reflexivity. Qed.
Lemma loc_eqb_iff a b : loc_eqb a b = true <-> a = b.
Proof. apply list_eqb_true_iff. exact list_eqb_N_iff. Qed.
Lemma loc_eqb_neq a b : a <> b -> loc_eqb a b = false.
Proof. intros H. destruct (loc_eqb a b) eqn:E; auto. apply loc_eqb_iff in E. contradiction. Qed.
Lemma text_eqb_iff a b : text_eqb a b = true <-> a = b.
Proof. apply list_eqb_N_iff. Qed.

Definition nonspecial (c : name) : bool := negb (is_empty c || is_dot c || is_dotdot c).
Definition nsl (l : list name) : Prop := Forall (fun c => nonspecial c = true) l.

Lemma ordinary_nonspecial c : ordinary c = true -> nonspecial c = true.
Proof.
  unfold ordinary, nonspecial. destruct (is_empty c), (is_dot c), (is_dotdot c); cbn; auto; discriminate.
Qed.

Lemma lex_step_ns st c : nonspecial c = true -> lex_step st c = st ++ [c].
Proof.
  unfold nonspecial, lex_step. destruct (is_empty c), (is_dot c), (is_dotdot c); cbn; auto; discriminate.
Qed.
Lemma lexwalk_app st a b : lexwalk st (a ++ b) = lexwalk (lexwalk st a) b.
Proof. apply fold_left_app. Qed.
Lemma lexwalk_ns : forall ds st, nsl ds -> lexwalk st ds = st ++ ds.
Proof.
  induction ds as [|d ds IH]; intros st H; cbn [lexwalk fold_left].
  - rewrite app_nil_r. reflexivity.
  - inversion H; subst. fold (lexwalk (lex_step st d) ds). rewrite IH by assumption.
    rewrite lex_step_ns by assumption. rewrite <- app_assoc. reflexivity.
Qed.
Lemma nsl_removelast l : nsl l -> nsl (removelast l).
Proof.
  destruct l as [|y l _] using rev_ind; [intros _; constructor|].
  rewrite removelast_last. intros H. apply Forall_app in H. apply H.
Qed.
Lemma nsl_app a b : nsl a -> nsl b -> nsl (a ++ b).
Proof. intros. apply Forall_app. split; assumption. Qed.
Lemma lex_step_nsl st c : nsl st -> nsl (lex_step st c).
Proof.
  intros H. unfold lex_step. destruct (is_empty c || is_dot c) eqn:E1; [assumption|].
  destruct (is_dotdot c) eqn:E2; [apply nsl_removelast; assumption|].
  apply nsl_app; [assumption|]. constructor; [|constructor].
  unfold nonspecial. apply orb_false_iff in E1. destruct E1 as [-> ->]. rewrite E2. reflexivity.
Qed.
Lemma lexwalk_nsl : forall cs st, nsl st -> nsl (lexwalk st cs).
Proof.
  induction cs as [|c cs IH]; intros st H; cbn [lexwalk fold_left]; [assumption|].
  apply IH. apply lex_step_nsl. assumption.
Qed.
Lemma lexloc_nsl cwd p : nsl cwd -> nsl (lexloc cwd p).
Proof. intros H. unfold lexloc. apply lexwalk_nsl. destruct (isabs p); [constructor|assumption]. Qed.

Lemma is_nil_app_single {A} (l : list A) (x : A) : is_nil (l ++ [x]) = false.
Proof. destruct l; reflexivity. Qed.

Lemma ends_sep_snoc k cs c : ends_sep (mkP k (cs ++ [c])) = is_empty c.
Proof.
  unfold ends_sep. cbn [p_comps]. destruct (cs ++ [c]) eqn:E; [destruct cs; discriminate|].
  rewrite <- E, last_last. reflexivity.
Qed.

Lemma lexloc_join cwd a b : isabs b = false ->
  lexloc cwd (join a b) = lexwalk (lexloc cwd a) (p_comps b).
Proof.
  intros Hb. unfold join. rewrite Hb. destruct a as [k cs]. cbn [p_abs p_comps].
  assert (Habs : forall cs', lexloc cwd (mkP k cs') = lexwalk (lexloc cwd (mkP k [])) cs') by reflexivity.
  destruct (p_empty (mkP k cs)) eqn:Ea.
  - destruct k, cs; try discriminate. unfold lexloc. rewrite Hb. reflexivity.
  - rewrite (Habs cs), <- lexwalk_app. destruct (ends_sep (mkP k cs)) eqn:Es.
    + destruct (is_nil (p_comps b)) eqn:En; [destruct (p_comps b); [rewrite app_nil_r; apply Habs|discriminate]|].
      rewrite Habs. destruct cs as [|c0 cs0 _] using rev_ind; [reflexivity|].
      rewrite ends_sep_snoc in Es. rewrite removelast_last, !lexwalk_app. f_equal.
      cbn [lexwalk fold_left]. unfold lex_step. rewrite Es. reflexivity.
    + rewrite Habs, !lexwalk_app. destruct (p_comps b); reflexivity.
Qed.
Lemma lexloc_join1 cwd a n : nonspecial n = true -> lexloc cwd (join1 a n) = lexloc cwd a ++ [n].
Proof.
  intros H. unfold join1. rewrite lexloc_join by reflexivity. cbn [p_comps lexwalk fold_left].
  apply lex_step_ns. assumption.
Qed.
Lemma join1_nonempty a n : p_empty a = false -> p_empty (join1 a n) = false.
Proof.
  intros H. unfold join1, join. cbn [isabs p_abs Nat.eqb negb p_comps is_nil]. rewrite H.
  destruct (ends_sep a); unfold p_empty; cbn [p_abs p_comps]; rewrite is_nil_app_single; apply andb_false_r.
Qed.
Lemma walk_root_loc cwd : forall ds top, nsl ds -> lexloc cwd (walk_root top ds) = lexloc cwd top ++ ds.
Proof.
  unfold walk_root. induction ds as [|d ds IH]; intros top H; cbn [fold_left].
  - rewrite app_nil_r. reflexivity.
  - inversion H; subst. rewrite IH by assumption. rewrite lexloc_join1 by assumption.
    rewrite <- app_assoc. reflexivity.
Qed.
Lemma walk_root_nonempty : forall ds top, p_empty top = false -> p_empty (walk_root top ds) = false.
Proof.
  unfold walk_root. induction ds as [|d ds IH]; intros top H; cbn [fold_left]; [assumption|].
  apply IH. apply join1_nonempty. assumption.
Qed.

Definition nodd (l : list name) : Prop := Forall (fun c => is_dotdot c = false) l.

(* normpath, absolute case: the loop IS the lexical walk *)
Lemma np_abs_loop : forall cs st, nsl st ->
  fold_left (np_step true) cs st = fold_left lex_step cs st.
Proof.
  induction cs as [|c cs IH]; intros st H; cbn [fold_left]; [reflexivity|].
  assert (E : np_step true st c = lex_step st c).
  { unfold np_step, lex_step. destruct (is_empty c || is_dot c); [reflexivity|].
    destruct (is_dotdot c); [|reflexivity]. cbn [negb andb orb].
    destruct st as [|y st' _] using rev_ind; [reflexivity|].
    rewrite is_nil_app_single, last_last. cbn [negb andb].
    apply Forall_app in H. destruct H as [_ H]. inversion H as [|? ? Hy _]. unfold nonspecial in Hy.
    destruct (is_dotdot y); [rewrite !orb_true_r in Hy; discriminate|reflexivity]. }
  rewrite E. apply IH. apply lex_step_nsl. assumption.
Qed.

(* normpath, relative case: leading ".." are kept, and walking the result from any base gives the same place *)
Definition npstack (l : list name) : Prop := Forall (fun c => is_empty c || is_dot c = false) l.
Lemma np_rel_step base st c : npstack st ->
  npstack (np_step false st c) /\ lexwalk base (np_step false st c) = lex_step (lexwalk base st) c.
Proof.
  intros H. unfold np_step.
  destruct (is_empty c || is_dot c) eqn:E1; [split; [assumption|unfold lex_step; rewrite E1; reflexivity]|].
  assert (Hpush : npstack (st ++ [c]) /\ lexwalk base (st ++ [c]) = lex_step (lexwalk base st) c).
  { split; [apply Forall_app; split; [assumption|constructor; [assumption|constructor]]|apply lexwalk_app]. }
  destruct (is_dotdot c) eqn:E2; [|exact Hpush]. cbn [negb andb].
  destruct st as [|y st' _] using rev_ind; [exact Hpush|].
  rewrite is_nil_app_single, last_last. cbn [negb andb orb].
  destruct (is_dotdot y) eqn:E3; [exact Hpush|].
  apply Forall_app in H. destruct H as [Hst' Hy]. inversion Hy as [|? ? Hy' _].
  rewrite removelast_last, lexwalk_app. split; [exact Hst'|]. cbn [lexwalk fold_left].
  rewrite (lex_step_ns _ y) by (unfold nonspecial; rewrite Hy', E3; reflexivity).
  unfold lex_step. rewrite E1, E2, removelast_last. reflexivity.
Qed.
Lemma np_rel_loop base : forall cs st, npstack st ->
  lexwalk base (fold_left (np_step false) cs st) = lexwalk (lexwalk base st) cs.
Proof.
  induction cs as [|c cs IH]; intros st H; cbn [fold_left]; [reflexivity|].
  destruct (np_rel_step base st c H) as [H1 H2].
  change (lexwalk (lexwalk base st) (c :: cs)) with (lexwalk (lex_step (lexwalk base st) c) cs).
  rewrite IH by assumption. rewrite H2. reflexivity.
Qed.

Lemma isabs_norm_abs k cs cs' : isabs (mkP (norm_abs k) cs) = isabs (mkP k cs').
Proof. unfold isabs; cbn [p_abs]. destruct k as [|[|[|k]]]; reflexivity. Qed.

Lemma lexloc_normpath cwd p : lexloc cwd (normpath p) = lexloc cwd p.
Proof.
  unfold normpath. destruct (p_empty p) eqn:Ee.
  - unfold p_empty in Ee. apply andb_true_iff in Ee. destruct Ee as [E1 E2].
    destruct p as [k cs]. cbn [p_abs p_comps] in *. destruct cs; [|discriminate].
    apply Nat.eqb_eq in E1. subst k. reflexivity.
  - destruct (isabs p) eqn:Ea; cbn [negb andb].
    + unfold lexloc. rewrite (isabs_norm_abs (p_abs p) _ (p_comps p)).
      destruct p as [k cs]. cbn [p_abs p_comps] in *. rewrite Ea. cbn [p_comps].
      unfold np_loop. rewrite np_abs_loop by constructor.
      fold (lexwalk [] cs). rewrite lexwalk_ns; [reflexivity|]. apply lexwalk_nsl. constructor.
    + assert (Hk : p_abs p = 0%nat).
      { unfold isabs in Ea. destruct (p_abs p); [reflexivity|discriminate]. }
      pose proof (np_rel_loop cwd (p_comps p) [] (Forall_nil _)) as Hn.
      cbn [lexwalk fold_left] in Hn. fold (np_loop false (p_comps p)) in Hn.
      destruct (is_nil (np_loop false (p_comps p))) eqn:En.
      * destruct (np_loop false (p_comps p)); [|discriminate].
        unfold lexloc. rewrite Ea. cbn [isabs p_abs Nat.eqb negb p_comps].
        rewrite <- Hn. reflexivity.
      * unfold lexloc. rewrite Ea, Hk. cbn [norm_abs isabs p_abs Nat.eqb negb p_comps]. exact Hn.
Qed.

Lemma filter_nonempty_ns l : nsl l -> filter (fun c => negb (is_empty c)) l = l.
Proof.
  induction l as [|x l IH]; intros H; cbn [filter]; [reflexivity|]. inversion H; subst.
  unfold nonspecial in H2. destruct (is_empty x); [discriminate|]. cbn [negb]. rewrite IH by assumption.
  reflexivity.
Qed.

Lemma abs_list_loc cwd p : nsl cwd -> abs_list cwd p = lexloc cwd p.
Proof.
  intros Hc. unfold abs_list, abspath.
  set (q := if isabs p then p else join (mkP 1 cwd) p).
  assert (Hq : isabs q = true /\ lexloc cwd q = lexloc cwd p).
  { subst q. destruct (isabs p) eqn:Ea; [split; [assumption|reflexivity]|]. split.
    - unfold join. rewrite Ea. cbn [p_empty p_abs Nat.eqb andb].
      destruct (ends_sep (mkP 1 cwd)); [destruct (is_nil (p_comps p))|]; reflexivity.
    - rewrite lexloc_join by assumption. unfold lexloc at 1. cbn [isabs p_abs Nat.eqb negb p_comps].
      rewrite (lexwalk_ns cwd [] Hc). cbn [app]. unfold lexloc. rewrite Ea. reflexivity. }
  destruct Hq as [Hq1 Hq2]. rewrite <- Hq2.
  unfold normpath.
  assert (Hne : p_empty q = false).
  { unfold p_empty. unfold isabs in Hq1. destruct (p_abs q); [discriminate|reflexivity]. }
  rewrite Hne, Hq1. cbn [negb andb p_comps].
  unfold np_loop. rewrite np_abs_loop by constructor. fold (lexwalk [] (p_comps q)).
  unfold lexloc. rewrite Hq1.
  apply filter_nonempty_ns. apply lexwalk_nsl. constructor.
Qed.

Lemma lcp_prefix : forall a b, lcp a (a ++ b) = a.
Proof. induction a as [|x a IH]; intros b; cbn [lcp app]; [reflexivity|]. rewrite name_eqb_refl, IH. reflexivity. Qed.
Lemma skipn_app_exact {A} (a b : list A) : skipn (length a) (a ++ b) = b.
Proof. induction a; cbn; auto. Qed.

Lemma relpath_below cwd root top ds : nsl cwd -> p_empty root = false ->
  lexloc cwd root = lexloc cwd top ++ ds ->
  relpath cwd root top = Some (if is_nil ds then mkP 0 [n_dot] else mkP 0 ds).
Proof.
  intros Hc Hr Hl. unfold relpath. rewrite Hr. rewrite !abs_list_loc by assumption. rewrite Hl.
  rewrite lcp_prefix. rewrite Nat.sub_diag. cbn [repeat app]. rewrite skipn_app_exact. reflexivity.
Qed.

Lemma stub_name_ns f : nonspecial (stub_name f) = true.
Proof.
  unfold nonspecial, stub_name, is_dot, is_dotdot.
  assert (H1 : forall x, f ++ [105] = x -> last x 0 = 105) by (intros x <-; apply last_last).
  assert (E0 : is_empty (f ++ [105]) = false) by (destruct f; reflexivity).
  rewrite E0.
  destruct (name_eqb (f ++ [105]) n_dot) eqn:E1;
    [apply list_eqb_N_iff in E1; apply H1 in E1; cbn in E1; discriminate|].
  destruct (name_eqb (f ++ [105]) n_dotdot) eqn:E2;
    [apply list_eqb_N_iff in E2; apply H1 in E2; cbn in E2; discriminate|].
  reflexivity.
Qed.

(* the stub merge_tree (after b7143da) picks for each .py file *)
Definition names_ok (w : list (list name * list name)) : Prop :=
  Forall (fun e => nsl (fst e) /\ nsl (snd e)) w.

Lemma dir_jobs_fixed cwd top P (e : list name * list name) :
  nsl cwd -> p_empty top = false -> nsl (fst e) -> nsl (snd e) ->
  map (fun j => (lexloc cwd (fst j), lexloc cwd (snd j))) (dir_jobs true cwd top P e) =
  map (fun f => (lexloc cwd top ++ fst e ++ [f], lexloc cwd P ++ fst e ++ [stub_name f]))
      (filter ends_py (snd e)).
Proof.
  intros Hc Ht Hd Hf. unfold dir_jobs.
  rewrite (relpath_below cwd _ top (fst e));
    [| assumption | apply walk_root_nonempty; assumption | apply walk_root_loc; assumption].
  set (rel := if is_nil (fst e) then mkP 0 [n_dot] else mkP 0 (fst e)).
  assert (Hpd : lexloc cwd (normpath (join P rel)) = lexloc cwd P ++ fst e).
  { rewrite lexloc_normpath. rewrite lexloc_join by (subst rel; destruct (is_nil (fst e)); reflexivity).
    subst rel. revert Hd. generalize (fst e) as ds. intros ds Hd. destruct ds as [|d ds]; cbn [is_nil p_comps].
    - rewrite app_nil_r. reflexivity.
    - apply lexwalk_ns. assumption. }
  pose proof (walk_root_loc cwd (fst e) top Hd) as Hroot.
  revert Hf. generalize (snd e) as fs. intros fs Hf.
  induction fs as [|f fs IH]; cbn [flat_map filter map]; [reflexivity|].
  inversion Hf; subst. destruct (ends_py f); cbn [app map].
  - f_equal; [|apply IH; assumption]. cbn [fst snd].
    rewrite (lexloc_join1 cwd _ f) by assumption.
    rewrite (lexloc_join1 cwd _ (stub_name f)) by apply stub_name_ns.
    rewrite Hroot, Hpd. rewrite <- !app_assoc. reflexivity.
  - apply IH. assumption.
Qed.

Section FP.
Variables (B T : Type) (read : B -> option T) (write : T -> B) (teqb : T -> T -> bool)
          (msrc : T -> T -> option T).
Variables (cwd : loc) (tree : node B) (backup : option name).

Notation mfiles := (merge_files B T read write teqb msrc cwd tree).
Notation tstep := (tree_step B T read write teqb msrc cwd tree backup).
Notation rjobs := (run_jobs B T read write teqb msrc cwd tree backup).

Lemma ov_get_app_notin l (w ov : overlay B) :
  (forall k, In k (map fst w) -> k <> l) -> ov_get B l (w ++ ov) = ov_get B l ov.
Proof.
  induction w as [|[k b] w IH]; intros H; cbn [app ov_get]; [reflexivity|].
  rewrite loc_eqb_neq by (apply H; left; reflexivity). apply IH. intros k' Hk. apply H. right. exact Hk.
Qed.
Lemma st_read_app_notin l (w ov : overlay B) :
  (forall k, In k (map fst w) -> k <> l) -> st_read B tree (w ++ ov) l = st_read B tree ov l.
Proof. intros H. unfold st_read. rewrite ov_get_app_notin by assumption. reflexivity. Qed.
Lemma ov_get_in_nodup l b (w : overlay B) :
  NoDup (map fst w) -> In (l, b) w -> ov_get B l w = Some b.
Proof.
  induction w as [|[k b'] w IH]; intros Hn Hin; [contradiction|]. cbn [ov_get]. cbn [map fst] in Hn.
  inversion Hn; subst. destruct Hin as [Hin|Hin].
  - inversion Hin; subst. rewrite (proj2 (loc_eqb_iff l l) eq_refl). reflexivity.
  - rewrite loc_eqb_neq.
    + apply IH; assumption.
    + intros ->. apply H1. apply (in_map fst) in Hin. exact Hin.
Qed.

(* what one iteration does, as a function of the two reads *)
Inductive jout := JSkip | JSame | JChanged (pb : B) (a : T) | JErr | JRaise.
Definition out_of (py : pth) (rpyi rpy : rd B) : jout :=
  match rpyi with
  | RNone => JSkip
  | RDir => JRaise
  | RFile sb =>
      match read sb with
      | None => JRaise
      | Some s =>
          match rpy with
          | RFile pb =>
              match read pb with
              | None => JRaise
              | Some p =>
                  match msrc p s with
                  | None => JErr
                  | Some a =>
                      if teqb a p then JSame
                      else match truthy backup with
                           | Some bk => match lookup B tree (lexloc cwd (backup_path py bk)) with
                                        | Some (Dir _) => JRaise
                                        | _ => JChanged pb a
                                        end
                           | None => JChanged pb a
                           end
                  end
              end
          | _ => JRaise
          end
      end
  end.
Definition writes (py : pth) (o : jout) : overlay B :=
  match o with
  | JChanged pb a => (lexloc cwd py, write a) ::
                     match truthy backup with
                     | Some bk => [(lexloc cwd (backup_path py bk), pb)]
                     | None => []
                     end
  | _ => []
  end.
Definition is_changed (o : jout) : bool := match o with JChanged _ _ => true | _ => false end.
Definition is_err (o : jout) : bool := match o with JErr => true | _ => false end.
Definition is_raise (o : jout) : bool := match o with JRaise => true | _ => false end.
Definition apply_out (s : tstate B) (py : pth) (o : jout) : tstate B :=
  mkTS B (writes py o ++ t_ov B s)
       (t_changed B s ++ if is_changed o then [py] else [])
       (t_errors B s ++ if is_err o then [py] else [])
       (is_raise o).

Lemma mfiles_overwrite_spec ov py pyi :
  let o := out_of py (st_read B tree ov (lexloc cwd pyi)) (st_read B tree ov (lexloc cwd py)) in
  st_read B tree ov (lexloc cwd pyi) <> RNone ->
  mfiles ov py pyi OVERWRITE backup =
  mkF B T (writes py o ++ ov)
      (match o with
       | JChanged _ _ => FOk true | JSame | JSkip => FOk false | JErr => FMergeError | JRaise => FRaised
       end) (PNothing T).
Proof.
  unfold merge_files, merge_files_src, out_of, writes.
  destruct (st_read B tree ov (lexloc cwd pyi)) as [sb| |]; [|reflexivity|contradiction]. intros _.
  destruct (read sb) as [s|]; [|reflexivity].
  destruct (st_read B tree ov (lexloc cwd py)) as [pb| |]; try reflexivity.
  destruct (read pb) as [p|]; [|reflexivity].
  destruct (msrc p s) as [a|]; [|reflexivity].
  destruct (teqb a p); [reflexivity|]. cbn [negb].
  destruct (truthy backup) as [bk|]; [|reflexivity].
  destruct (lookup B tree (lexloc cwd (backup_path py bk))) as [[b0|es0]|]; reflexivity.
Qed.

Lemma step_spec (s : tstate B) (j : pth * pth) : t_raised B s = false ->
  tstep s j = apply_out s (fst j) (out_of (fst j) (st_read B tree (t_ov B s) (lexloc cwd (snd j)))
                                          (st_read B tree (t_ov B s) (lexloc cwd (fst j)))).
Proof.
  destruct s as [ov ch er rs]. cbn [t_raised]. intros ->.
  unfold tree_step, apply_out, st_exists. cbn [t_raised t_ov t_changed t_errors].
  destruct (st_read B tree ov (lexloc cwd (snd j))) eqn:E;
    [rewrite <- E, mfiles_overwrite_spec by (rewrite E; discriminate); cbn [f_res f_ov];
     destruct (out_of _ _ _)..|]; cbn [is_changed is_err is_raise writes app]; rewrite !app_nil_r; reflexivity.
Qed.

Definition jo (ov0 : overlay B) (j : pth * pth) : jout :=
  out_of (fst j) (st_read B tree ov0 (lexloc cwd (snd j))) (st_read B tree ov0 (lexloc cwd (fst j))).
Definition jwrites (ov0 : overlay B) (j : pth * pth) : overlay B := writes (fst j) (jo ov0 j).

(* no iteration reads a file an EARLIER iteration wrote (rewritten source or backup copy) *)
Fixpoint indep (ov0 : overlay B) (js : list (pth * pth)) : Prop :=
  match js with
  | [] => True
  | j0 :: r => (forall j l, In j r -> In l (map fst (jwrites ov0 j0)) ->
                            l <> lexloc cwd (fst j) /\ l <> lexloc cwd (snd j)) /\ indep ov0 r
  end.
Definition no_raise (ov0 : overlay B) (js : list (pth * pth)) : Prop :=
  forall j, In j js -> is_raise (jo ov0 j) = false.

Lemma run_jobs_spec (ov0 : overlay B) : forall js s,
  t_raised B s = false ->
  (forall j, In j js ->
     st_read B tree (t_ov B s) (lexloc cwd (fst j)) = st_read B tree ov0 (lexloc cwd (fst j)) /\
     st_read B tree (t_ov B s) (lexloc cwd (snd j)) = st_read B tree ov0 (lexloc cwd (snd j))) ->
  indep ov0 js -> no_raise ov0 js ->
  t_ov B (rjobs js s) = flat_map (jwrites ov0) (rev js) ++ t_ov B s /\
  t_changed B (rjobs js s) = t_changed B s ++ map fst (filter (fun j => is_changed (jo ov0 j)) js) /\
  t_errors B (rjobs js s) = t_errors B s ++ map fst (filter (fun j => is_err (jo ov0 j)) js) /\
  t_raised B (rjobs js s) = false.
Proof.
  induction js as [|j0 r IH]; intros s Hr Hreads Hi Hn.
  - cbn. rewrite !app_nil_r. auto.
  - unfold run_jobs. cbn [fold_left]. fold (rjobs r (tstep s j0)).
    rewrite step_spec by assumption.
    destruct (Hreads j0 (or_introl eq_refl)) as [R1 R2]. rewrite R1, R2. fold (jo ov0 j0).
    set (s' := apply_out s (fst j0) (jo ov0 j0)).
    destruct Hi as [Hi0 Hi].
    destruct (IH s') as (E1 & E2 & E3 & E4);
      [apply Hn; left; reflexivity| |exact Hi|intros j Hj; apply Hn; right; exact Hj|].
    { intros j Hj. destruct (Hreads j (or_intror Hj)) as [A1 A2]. subst s'. cbn [apply_out t_ov].
      fold (jwrites ov0 j0).
      split; (rewrite st_read_app_notin; [assumption|]); intros k Hk; apply (Hi0 j k Hj Hk). }
    rewrite E1, E2, E3, E4. subst s'. cbn [apply_out t_ov t_changed t_errors rev filter].
    fold (jwrites ov0 j0).
    rewrite flat_map_app. cbn [flat_map]. rewrite app_nil_r. rewrite <- !app_assoc.
    repeat split; try reflexivity.
    + f_equal. destruct (is_changed (jo ov0 j0)); reflexivity.
    + f_equal. destruct (is_err (jo ov0 j0)); reflexivity.
Qed.

Lemma out_of_changed_inv py rpyi rpy pb a : out_of py rpyi rpy = JChanged pb a ->
  exists sb s p,
    rpyi = RFile sb /\ read sb = Some s /\ rpy = RFile pb /\ read pb = Some p /\
    msrc p s = Some a /\ teqb a p = false.
Proof.
  unfold out_of.
  destruct rpyi as [sb| |]; try discriminate.
  destruct (read sb) as [s|] eqn:R2; try discriminate.
  destruct rpy as [pb'| |]; try discriminate.
  destruct (read pb') as [p|] eqn:R4; try discriminate.
  destruct (msrc p s) as [a'|] eqn:R5; try discriminate.
  destruct (teqb a' p) eqn:R6; try discriminate.
  destruct (truthy backup) as [bk|];
    [destruct (lookup B tree (lexloc cwd (backup_path py bk))) as [[?|?]|]; try discriminate|];
    intros E; inversion E; subst; exists sb, s, p; repeat split; assumption.
Qed.
Lemma mfiles_changed_flag ov py pyi m ch sb s pb p a :
  (forall x y, teqb x y = true <-> x = y) ->
  st_read B tree ov (lexloc cwd pyi) = RFile sb -> read sb = Some s ->
  st_read B tree ov (lexloc cwd py) = RFile pb -> read pb = Some p -> msrc p s = Some a ->
  f_res B T (mfiles ov py pyi m backup) = FOk ch -> (ch = true <-> a <> p).
Proof.
  intros Heq R1 R2 R3 R4 R5. unfold merge_files, merge_files_src. rewrite R1, R2, R3, R4, R5.
  destruct (teqb a p) eqn:Et; cbn [negb].
  - apply Heq in Et. destruct m; cbn [f_res]; intros E; inversion E; subst; split; congruence.
  - assert (a <> p) by (intros E; apply Heq in E; congruence).
    destruct m; cbn [f_res]; try (intros E; inversion E; subst; split; congruence).
    destruct (truthy backup) as [bk|]; cbn [f_res].
    + destruct (lookup B tree (lexloc cwd (backup_path py bk))) as [[?|?]|]; cbn [f_res];
        intros E; inversion E; subst; split; congruence.
    + intros E; inversion E; subst; split; congruence.
Qed.

Lemma ov_get_app_or l (w ov : overlay B) :
  (exists b, ov_get B l (w ++ ov) = Some b /\ In (l, b) w) \/ ov_get B l (w ++ ov) = ov_get B l ov.
Proof.
  induction w as [|[k b] w IH]; cbn [app ov_get]; [right; reflexivity|].
  destruct (loc_eqb k l) eqn:E.
  - apply loc_eqb_iff in E. subst k. left. exists b. split; [reflexivity|left; reflexivity].
  - destruct IH as [(b' & H1 & H2)|H]; [left; exists b'; split; [assumption|right; assumption]|right; exact H].
Qed.
Lemma st_read_app_or l (w ov : overlay B) c :
  st_read B tree (w ++ ov) l = RFile c -> In (l, c) w \/ st_read B tree ov l = RFile c.
Proof.
  unfold st_read. destruct (ov_get_app_or l w ov) as [(b & H1 & H2)|H].
  - rewrite H1. intros E. inversion E; subst. left. exact H2.
  - rewrite H. intros E. right. exact E.
Qed.
Lemma jwrites_inv ov0 j l c : In (l, c) (jwrites ov0 j) ->
  exists pb a, jo ov0 j = JChanged pb a /\
    ((l = lexloc cwd (fst j) /\ c = write a) \/
     (exists bk, truthy backup = Some bk /\ l = lexloc cwd (backup_path (fst j) bk) /\ c = pb)).
Proof.
  unfold jwrites, writes. destruct (jo ov0 j) as [| |pb a| |]; try contradiction.
  intros [H|H].
  - inversion H; subst. exists pb, a. split; [reflexivity|left; split; reflexivity].
  - destruct (truthy backup) as [bk|]; [|contradiction]. destruct H as [H|[]]. inversion H.
    exists c, a. split; [reflexivity|]. right. exists bk. repeat split; congruence.
Qed.
(* merge_tree as a whole: the files written are the per-file results computed from the ORIGINAL state *)
Lemma merge_tree_spec fixed top P :
  let js := jobs B fixed cwd tree top P in
  indep [] js -> no_raise [] js ->
  let r := merge_tree B T read write teqb msrc fixed cwd tree top P backup in
  t_ov B r = flat_map (jwrites []) (rev js) /\
  t_changed B r = map fst (filter (fun j => is_changed (jo [] j)) js) /\
  t_errors B r = map fst (filter (fun j => is_err (jo [] j)) js) /\
  t_raised B r = false.
Proof.
  intros js Hi Hn r. subst r. unfold merge_tree. fold js.
  destruct (run_jobs_spec [] js (mkTS B [] [] [] false) eq_refl (fun j _ => conj eq_refl eq_refl) Hi Hn)
    as (E1 & E2 & E3 & E4).
  cbn [t_ov t_changed t_errors app] in *. rewrite app_nil_r in E1. auto.
Qed.
Lemma merge_tree_final_read fixed top P l c :
  let js := jobs B fixed cwd tree top P in
  indep [] js -> no_raise [] js ->
  st_read B tree (t_ov B (merge_tree B T read write teqb msrc fixed cwd tree top P backup)) l = RFile c ->
  st_read B tree [] l = RFile c \/ exists j, In j js /\ In (l, c) (jwrites [] j).
Proof.
  intros js Hi Hn. destruct (merge_tree_spec fixed top P Hi Hn) as (E1 & _). rewrite E1.
  rewrite <- (app_nil_r (flat_map _ _)). intros H. apply st_read_app_or in H. destruct H as [H|H]; [|left; exact H].
  right. apply in_flat_map in H. destruct H as (j & Hj & Hin). exists j. split; [|exact Hin].
  apply in_rev. exact Hj.
Qed.
End FP.

(* merge_tree depends on merge_sources only through its values *)
Section EXT.
Variables (B T : Type) (read : B -> option T) (write : T -> B) (teqb : T -> T -> bool).
Variables (m1 m2 : T -> T -> option T) (cwd : loc) (tree : node B).
Hypothesis Hm : forall p s, m1 p s = m2 p s.

Lemma merge_files_src_ext ov py s m bk :
  merge_files_src B T read write teqb m1 cwd tree ov py s m bk = merge_files_src B T read write teqb m2 cwd tree ov py s m bk.
Proof.
  unfold merge_files_src. destruct (st_read B tree ov (lexloc cwd py)); try reflexivity.
  destruct (read b); try reflexivity. rewrite Hm. reflexivity.
Qed.
Lemma merge_files_ext ov py pyi m bk :
  merge_files B T read write teqb m1 cwd tree ov py pyi m bk = merge_files B T read write teqb m2 cwd tree ov py pyi m bk.
Proof.
  unfold merge_files. destruct (st_read B tree ov (lexloc cwd pyi)); try reflexivity.
  destruct (read b); try reflexivity. apply merge_files_src_ext.
Qed.
Lemma tree_step_ext bk s j :
  tree_step B T read write teqb m1 cwd tree bk s j = tree_step B T read write teqb m2 cwd tree bk s j.
Proof. unfold tree_step. rewrite merge_files_ext. reflexivity. Qed.
Lemma merge_tree_ext fixed top P bk :
  merge_tree B T read write teqb m1 fixed cwd tree top P bk = merge_tree B T read write teqb m2 fixed cwd tree top P bk.
Proof.
  unfold merge_tree, run_jobs. generalize (mkTS B [] [] [] false).
  induction (jobs B fixed cwd tree top P) as [|j r IH]; intros s; [reflexivity|].
  cbn [fold_left]. rewrite tree_step_ext. apply IH.
Qed.
End EXT.
