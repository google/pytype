(* C13 lemmas about coq/Bind/SplatModel.v (call sites with * / ** splats). *)
From Coq Require Import List Arith Bool Lia.
From PV Require Import Bind.Model Bind.Proofs Bind.SplatModel.
Import ListNotations.

(* without forgiveness the loop is the search for the first unbound parameter *)
Lemma missing_loop_find forgive l1 l2 ca :
  (forall b, forgive b = false) ->
  missing_loop forgive (map (fun n => (n, false)) l1 ++ map (fun n => (n, true)) l2) ca =
  match find (fun key => negb (dmem key ca)) (l1 ++ l2) with Some key => inr key | None => inl ca end.
Proof.
  intros H. induction l1 as [|a l1 IH]; simpl.
  - induction l2 as [|a l2 IH]; simpl; [reflexivity|]. destruct (dmem a ca); simpl; [exact IH|]. rewrite H. reflexivity.
  - destruct (dmem a ca); simpl; [exact IH|]. rewrite H. reflexivity.
Qed.

Lemma bind_py_star_plain fixed s c : bind_py_star fixed None false s c = bind_py_gen fixed s c.
Proof.
  unfold bind_py_star, bind_py_gen. cbv zeta.
  rewrite missing_loop_find by reflexivity.
  destruct (find _ _); reflexivity.
Qed.

Lemma missing_loop_inr forgive chain : forall ca0 ca key,
  (forall k, dmem k ca0 = true -> dmem k ca = true) ->
  missing_loop forgive chain ca = inr key ->
  exists b, In (key, b) chain /\ forgive b = false /\ dmem key ca0 = false.
Proof.
  induction chain as [|[k b] t IH]; intros ca0 ca key Inv H; simpl in H; [discriminate|].
  destruct (dmem k ca) eqn:Ek.
  - destruct (IH ca0 ca key Inv H) as [b' [H1 H2]]. exists b'. split; [right; auto|auto].
  - destruct (forgive b) eqn:Ef.
    + destruct (IH ca0 (dset k AnyV ca) key) as [b' [H1 H2]]; auto.
      * intros k' Hk'. unfold dmem. rewrite dget_dset. destruct (k' =? k); auto. apply Inv in Hk'. exact Hk'.
      * exists b'. split; [right; auto|auto].
    + inversion H; subst key. exists b. split; [left; auto|]. split; auto.
      destruct (dmem k ca0) eqn:E0; auto. apply Inv in E0. congruence.
Qed.

Lemma missing_loop_inr' forgive chain ca key :
  missing_loop forgive chain ca = inr key ->
  exists b, In (key, b) chain /\ forgive b = false /\ dmem key ca = false.
Proof. apply missing_loop_inr. auto. Qed.

Lemma missing_loop_forgive_irrelevant forgive chain ca :
  (forall key b, In (key, b) chain -> forgive b = true -> dmem key ca = true) ->
  missing_loop forgive chain ca = missing_loop (fun _ => false) chain ca.
Proof.
  induction chain as [|[k b] t IH]; intros H; simpl; auto.
  destruct (dmem k ca) eqn:Ek.
  - apply IH. intros key b' Hin. apply H. right; auto.
  - destruct (forgive b) eqn:Ef; auto. rewrite (H k b) in Ek; [discriminate|left; auto|auto].
Qed.

Definition chain_of (s : sig) : list (name * bool) :=
  map (fun n => (n, false)) (filter (fun n => negb (mem n (defaults s))) (param_names s))
  ++ map (fun n => (n, true)) (kwonly s).

Lemma In_chain_of s key b :
  In (key, b) (chain_of s) ->
  (b = false /\ In key (filter (fun n => negb (mem n (defaults s))) (param_names s))) \/ (b = true /\ In key (kwonly s)).
Proof.
  intros H. apply in_app_or in H.
  destruct H as [H|H]; apply in_map_iff in H; destruct H as [n [E H]]; inversion E; subst; auto.
Qed.

Lemma bind_py_star_unfold star sstar s c :
  NoDup (param_names s) -> NoDup (kws c) ->
  bind_py_star true star sstar s c =
  if nonempty (dup_kws s c) then Err (EDuplicateKeyword (dup_kws s c)) else
  if nonempty (extra_kws s c) && negb (is_some (kwargs s)) then Err (EWrongKeywordArgs (extra_kws s c)) else
  if nonempty (posonly_kws s c) && negb (is_some (kwargs s)) then Err (EWrongKeywordArgs (posonly_kws s c)) else
  match missing_loop (fun kwonly => sstar || (is_some star && negb kwonly)) (chain_of s) (callargs2 s c) with
  | inr key => Err (EMissingParameter key)
  | inl ca =>
    if (length (param_names s) <? npos c) && negb (is_some (varargs s)) then Err EWrongArgCount else
    Ok (dset_opt (kwargs s) (if sstar then KwOpaque else ref_starstar s c)
          (dset_opt (varargs s) (match star with
                                 | Some v => v
                                 | None => VarArgs (skipn (length (param_names s)) (seq 0 (npos c)))
                                 end) ca))
  end.
Proof.
  intros NA NK. unfold bind_py_star, chain_of.
  rewrite (dict_of_id (map (fun k => (k, Kw k)) (kws c))) by (apply (eq_ind_r (@NoDup name) NK (keys_kwsd c))).
  rewrite (dict_of_id (combine (param_names s) (map Pos (seq 0 (npos c)))))
    by (rewrite keys_combine_pos; apply NoDup_firstn; exact NA).
  rewrite keys_combine_pos. fold (kwsd c). rewrite keys_kwsd.
  rewrite map_length, seq_length.
  rewrite (filter_ext _ (fun key => negb (mem key (posonly s)) && mem key (kws c)))
    by (intros a; rewrite dmem_kwsd; reflexivity).
  destruct (missing_loop _ _ _); [|reflexivity]. rewrite py_tail_eq. reflexivity.
Qed.

(* the errors of bind_py_star true: RefErr with the forgiven cases removed *)
Lemma star_err star sstar s c :
  names_ok s -> NoDup (kws c) -> is_err (bind_py_star true star sstar s c) = true ->
  multiple_values s c \/ unexpected_keyword s c \/ too_many_positional s c
  \/ (sstar = false /\ star = None /\ missing_positional s c)
  \/ (sstar = false /\ missing_kwonly s c).
Proof.
  intros W NK. rewrite bind_py_star_unfold by (auto; apply W).
  destruct (dup_kwsP s c W) as [H|N1]; [auto|].
  pose proof (extra_kws_spec s c W) as N2.
  destruct (nonempty (extra_kws s c) && _); [auto|]. destruct (nonempty (posonly_kws s c) && _); [auto|].
  destruct (missing_loop _ _ _) as [ca|key] eqn:E4.
  { destruct (too_manyP s c) as [H|N3]; [auto|discriminate]. }
  intros _. apply missing_loop_inr' in E4. destruct E4 as [b [Hin [Hf Hm]]].
  unfold dmem in Hm. destruct (dget key (callargs2 s c)) eqn:Hg; [discriminate|].
  apply orb_false_elim in Hf. destruct Hf as [Hf1 Hf2].
  apply In_chain_of in Hin. destruct Hin as [[-> Hin]|[-> Hin]].
  - apply filter_In in Hin. right. right. right. left. split; [exact Hf1|].
    split; [destruct star; [discriminate|reflexivity]|]. eapply callargs2_missing_pos; eauto. apply Hin.
  - right. right. right. right. split; [exact Hf1|]. eapply callargs2_missing_kwo; eauto.
Qed.

Lemma all_IArg_repeat (l : list item) : (forall x, In x l -> x = IArg) -> l = repeat IArg (length l).
Proof.
  induction l as [|a l IH]; simpl; intros H; auto.
  rewrite (H a) by auto. f_equal. apply IH. auto.
Qed.

Lemma take_args_repeat n : take_args (repeat IArg n) = n.
Proof. induction n; simpl; auto. Qed.

Lemma expanded_npos_repeat n lens : expanded_npos (repeat IArg n) lens = n.
Proof. induction n; simpl; auto. Qed.

Lemma all_any_repeat np n : all_any np (repeat IArg n) = map PArg (seq 0 (np + n)).
Proof.
  unfold all_any. rewrite seq_app, map_app. f_equal. simpl.
  revert np. induction n; intros np; simpl; auto. f_equal. apply IHn.
Qed.

Lemma unpack_match_concrete s np n kws :
  unpack_match s (mkX np (repeat IArg n) kws false) =
  let N := np + n in
  if required_posargs kws (defaults s) (param_names s) <=? N then
    match varargs s with
    | None => (map PArg (seq 0 N), None)
    | Some _ =>
      let extra := skipn (length (param_names s)) (seq 0 N) in
      (firstn (length (param_names s)) (map PArg (seq 0 N)), if nonempty extra then Some (STuple extra) else None)
    end
  else (map PArg (seq 0 N), None).
Proof.
  unfold unpack_match. cbn [x_npos x_items x_kws x_opaque].
  rewrite take_args_repeat.
  rewrite (skipn_all2 (repeat IArg n)) by (rewrite repeat_length; lia).
  cbn [rev take_args length firstn nonempty andb Nat.sub].
  rewrite all_any_repeat, repeat_length. rewrite !Nat.add_0_r. cbv zeta.
  destruct (_ <=? _); reflexivity.
Qed.

Lemma nth_error_PArg_seq N j :
  nth_error (map PArg (seq 0 N)) j = if j <? N then Some (PArg j) else None.
Proof.
  destruct (j <? N) eqn:E.
  - apply Nat.ltb_lt in E. rewrite nth_error_map. 
    rewrite (nth_error_nth' (seq 0 N) 0) by (rewrite seq_length; lia). rewrite seq_nth by lia. reflexivity.
  - apply Nat.ltb_ge in E. apply nth_error_None. rewrite map_length, seq_length. lia.
Qed.

Lemma nth_error_firstn' {A} n (l : list A) j :
  nth_error (firstn n l) j = if j <? n then nth_error l j else None.
Proof.
  revert n j. induction l as [|a l IH]; intros n j; simpl.
  - rewrite firstn_nil. destruct j; destruct (_ <? _); reflexivity.
  - destruct n; simpl.
    + destruct j; reflexivity.
    + destruct j; simpl; auto. rewrite IH. reflexivity.
Qed.

Lemma resolve_id ps v :
  (forall j, nth_error ps j = Some (PArg j) \/ nth_error ps j = None) -> resolve ps v = v.
Proof.
  intros H. destruct v; simpl; auto.
  - unfold resolve_ix. destruct (H i) as [-> | ->]; reflexivity.
  - f_equal. rewrite <- (map_id l) at 2. apply map_ext. intros j. unfold ix_of.
    destruct (H j) as [-> | ->]; reflexivity.
Qed.

Lemma map_resolve_id ps (d : dict) :
  (forall j, nth_error ps j = Some (PArg j) \/ nth_error ps j = None) ->
  map (fun kv => (fst kv, resolve ps (snd kv))) d = d.
Proof.
  intros H. rewrite <- (map_id d) at 2. apply map_ext. intros [k v]. simpl. rewrite resolve_id; auto.
Qed.

Lemma combine_seq_ge (l : list name) i n :
  length l <= n -> combine l (map Pos (seq i n)) = combine l (map Pos (seq i (length l))).
Proof.
  revert i n. induction l as [|a l IH]; intros i n H; simpl; auto.
  destruct n; simpl in *; [lia|]. f_equal. apply IH. lia.
Qed.

Lemma callargs2_ge s n1 n2 kws :
  length (param_names s) <= n1 -> length (param_names s) <= n2 ->
  callargs2 s (mkShape n1 kws) = callargs2 s (mkShape n2 kws).
Proof.
  intros H1 H2. unfold callargs2, callargs_gen, positional, kwsd. simpl.
  rewrite (combine_seq_ge _ 0 n1 H1), (combine_seq_ge _ 0 n2 H2). reflexivity.
Qed.

(* *args taken from args.starargs: the same binding as with all positional arguments *)
Lemma bind_py_star_tuple s n N kws :
  names_ok s -> NoDup kws -> varargs s <> None -> n = length (param_names s) -> n <= N ->
  bind_py_star true (Some (VarArgs (skipn n (seq 0 N)))) false s (mkShape n kws)
  = bind_py_fixed s (mkShape N kws).
Proof.
  intros W NK Hva En HN.
  unfold bind_py_fixed. rewrite bind_py_star_unfold, bind_py_gen_unfold by (auto; apply W). fold callargs2.
  unfold dup_kws, extra_kws, posonly_kws, ref_starstar. cbn [npos Model.kws].
  rewrite (firstn_all2 (n := n)), (firstn_all2 (n := N)) by lia.
  rewrite (callargs2_ge s n N) by lia.
  rewrite missing_loop_forgive_irrelevant.
  2:{ intros key b Hin Hf. simpl in Hf. destruct b; [discriminate|].
      apply In_chain_of in Hin. destruct Hin as [[_ Hin]|[E _]]; [|discriminate E].
      apply filter_In in Hin. destruct (In_A_indexed s key (proj1 Hin)) as [j [Hjp Hj]].
      unfold dmem. rewrite callargs2_get by (auto; apply W). destruct (_ && _); [reflexivity|].
      rewrite (positional_pos s (mkShape N kws) j key W Hjp). cbn [npos].
      rewrite (proj2 (Nat.ltb_lt j N)) by lia. reflexivity. }
  unfold chain_of. rewrite missing_loop_find by reflexivity.
  destruct (varargs s) as [va|] eqn:Eva; [|congruence]. rewrite !andb_false_r.
  subst n. destruct (find _ _); reflexivity.
Qed.

Lemma bind_px_concrete s c :
  wf_sig s -> NoDup (x_kws c) -> concrete c -> bind_px s c = bind_py_fixed s (expand c [] []).
Proof.
  intros WS NK [HI HO]. destruct c as [np items kws op]. simpl in *. subst op.
  rewrite (all_IArg_repeat items HI). set (n := length items).
  unfold expand. cbn [x_npos x_items x_kws x_opaque]. rewrite expanded_npos_repeat, app_nil_r.
  unfold bind_px, bind_px_gen. rewrite unpack_match_concrete. cbv zeta. cbn [x_npos x_items x_kws x_opaque]. set (N := np + n).
  assert (Hid : forall j, nth_error (map PArg (seq 0 N)) j = Some (PArg j) \/ nth_error (map PArg (seq 0 N)) j = None).
  { intros j. rewrite nth_error_PArg_seq. destruct (j <? N); auto. }
  assert (Base : match bind_py_star true (option_map star_value None) false s
                         (mkShape (length (map PArg (seq 0 N))) kws) with
                 | Ok d => Ok (map (fun kv => (fst kv, resolve (map PArg (seq 0 N)) (snd kv))) d)
                 | Err e => Err e
                 end = bind_py_fixed s (mkShape N kws)).
  { simpl option_map. rewrite bind_py_star_plain. rewrite map_length, seq_length.
    fold (bind_py_fixed s (mkShape N kws)). destruct (bind_py_fixed s (mkShape N kws)); auto.
    rewrite map_resolve_id; auto. }
  destruct (_ <=? N); [|exact Base].
  destruct (varargs s) as [va|] eqn:Eva; [|exact Base].
  set (np' := length (param_names s)).
  destruct (Nat.le_gt_cases N np') as [L|L].
  - rewrite skipn_all2 by (rewrite seq_length; lia). simpl nonempty. cbv iota.
    rewrite firstn_all2 by (rewrite map_length, seq_length; lia). exact Base.
  - assert (nonempty (skipn np' (seq 0 N)) = true) as ->.
    { rewrite skipn_seq. destruct (N - np') eqn:E; [lia|reflexivity]. }
    rewrite firstn_length, map_length, seq_length. rewrite Nat.min_l by lia.
    simpl option_map. rewrite bind_py_star_tuple; auto; try lia; try congruence; [|apply wf_names, WS].
    destruct (bind_py_fixed s (mkShape N kws)); auto.
    rewrite map_resolve_id; auto.
    intros j. rewrite nth_error_firstn', nth_error_PArg_seq. destruct (j <? np'); auto. destruct (j <? N); auto.
Qed.

Lemma splat_concrete_agree_lemma :
  forall s c, wf_sig s -> NoDup (x_kws c) -> concrete c -> agree s (bind_px s c) (bind_c s (expand c [] [])).
Proof.
  intros s c WS NK HC. rewrite bind_px_concrete; auto.
  apply bind_agree_fixed_lemma; auto.
  unfold wf_shape, expand. simpl. destruct HC as [_ ->]. rewrite app_nil_r. exact NK.
Qed.

Lemma required_le kws D ps : required_posargs kws D ps <= length ps.
Proof. induction ps as [|a t IH]; simpl; auto. destruct (_ || _); lia. Qed.

Lemma required_before kws D ps i j p :
  In (j, p) (indexed i ps) -> j < i + required_posargs kws D ps -> mem p kws = false /\ mem p D = false.
Proof.
  revert i. induction ps as [|a t IH]; intros i H Hj; simpl in *; [tauto|].
  destruct (mem a kws || mem a D) eqn:E.
  - destruct H as [H|H]; [inversion H; lia | apply indexed_range in H; lia].
  - destruct H as [H|H].
    + inversion H; subst. apply orb_false_elim in E. exact E.
    + apply (IH (S i)); auto. lia.
Qed.

Lemma required_at kws D ps i j p :
  In (j, p) (indexed i ps) -> j = i + required_posargs kws D ps -> mem p kws || mem p D = true.
Proof.
  revert i. induction ps as [|a t IH]; intros i H Hj; simpl in *; [tauto|].
  destruct (mem a kws || mem a D) eqn:E.
  - destruct H as [H|H]; [inversion H; subst; exact E | apply indexed_range in H; lia].
  - destruct H as [H|H].
    + inversion H; lia.
    + apply (IH (S i)); auto. lia.
Qed.

Lemma indexed_exists {A} i (l : list A) k : i <= k < i + length l -> exists x, In (k, x) (indexed i l).
Proof.
  intros H. destruct (nth_error l (k - i)) as [x|] eqn:E.
  - exists x. apply In_indexed. split; [lia|exact E].
  - apply nth_error_None in E. lia.
Qed.

Lemma take_args_le_expanded l lens : take_args l <= expanded_npos l lens.
Proof. induction l as [|[|] t IH]; simpl; try lia. Qed.

Lemma take_all_expanded l lens :
  skipn (take_args l) l = [] -> expanded_npos l lens = length l /\ take_args l = length l.
Proof.
  induction l as [|[|] t IH]; simpl; intros H; auto.
  - destruct (IH H) as [H1 H2]. rewrite H1, H2. auto.
  - discriminate.
Qed.

Lemma all_any_length np items : length (all_any np items) = np + length items.
Proof. unfold all_any. rewrite app_length, !map_length, seq_length, indexed_length. reflexivity. Qed.

Lemma unpack_match_star_last s c lens ps st :
  star_last c -> unpack_match s c = (ps, st) ->
  length ps <= max (x_npos c + expanded_npos (x_items c) lens)
                   (required_posargs (x_kws c) (defaults s) (param_names s))
  /\ (st = None -> x_npos c + expanded_npos (x_items c) lens <= length ps
                   \/ required_posargs (x_kws c) (defaults s) (param_names s) <= length ps).
Proof.
  destruct c as [np items kws op]. unfold star_last, unpack_match. cbn [x_npos x_items x_kws x_opaque].
  intros SL. cbv zeta. rewrite SL. rewrite Nat.sub_0_r, firstn_all. rewrite Nat.eqb_refl, andb_true_r.
  pose proof (take_args_le_expanded items lens) as HL.
  set (required := required_posargs kws (defaults s) (param_names s)).
  destruct (skipn (take_args items) items) as [|x r] eqn:ER.
  - destruct (take_all_expanded items lens ER) as [H1 H2]. rewrite H1, H2 in *.
    cbn [nonempty length]. rewrite !Nat.add_0_r.
    destruct (required <=? np + length items) eqn:ERq.
    + destruct (varargs s) as [va|].
      * intros H. injection H as <- <-.
        rewrite firstn_length, all_any_length. split; [lia|].
        intros Hst. left.
        destruct (skipn (length (param_names s)) (seq 0 (np + length items))) eqn:Esk; [|discriminate].
        rewrite skipn_seq in Esk. assert (np + length items - length (param_names s) = 0).
        { destruct (np + length items - length (param_names s)); [reflexivity|discriminate]. }
        lia.
      * intros H. injection H as <- <-. rewrite all_any_length. split; [lia|]. intros _. left. lia.
    + intros H. injection H as <- <-. rewrite map_length, seq_length. split; [lia|]. intros _. left. lia.
  - cbn [nonempty]. destruct (varargs s) as [va|].
    + intros H. injection H as <- <-. rewrite map_length, seq_length. split; [lia|]. discriminate.
    + intros H. injection H as <- <-. rewrite app_length, map_length, seq_length, repeat_length.
      split; [|intros _; right]; lia.
Qed.

(* a positional parameter the mapper finds unbound after giving it what the splat could supply: the expanded call
   leaves it, or the first parameter that takes a keyword, without a value or with two *)
Lemma missing_beyond_required s kws L Nx j p :
  names_ok s -> defaults_suffix (defaults s) (param_names s) = true ->
  (forall k, In k kws -> ~ In k (posonly s)) ->
  In (j, p) (indexed 0 (param_names s)) -> L <= j ->
  ~ (length (posonly s) <= j /\ In p kws) -> ~ In p (defaults s) ->
  Nx <= L \/ required_posargs kws (defaults s) (param_names s) <= L ->
  multiple_values s (mkShape Nx kws) \/ missing_positional s (mkShape Nx kws).
Proof.
  intros W WD HP Hjp Hj Hnk Hd F. set (required := required_posargs kws (defaults s) (param_names s)) in *.
  assert (Hnp : ~ In p kws).
  { intros Hin. apply Hnk. split; [|exact Hin]. apply Nat.nlt_ge. intros L'.
    apply (HP p Hin), (pos_index_posonly s j p W Hjp), L'. }
  assert (Beyond : Nx <= j -> missing_positional s (mkShape Nx kws)).
  { intros L'. exists j, p. split; [exact Hjp|]. split; [exact L'|]. split; [|exact Hd]. intros [_ Hin]. exact (Hnp Hin). }
  destruct F as [F|F]; [right; apply Beyond; lia|].
  apply mem_nIn in Hnp. pose proof (proj2 (mem_nIn _ _) Hd) as Hd'.
  assert (j <> required) as Hne.
  { intros E. pose proof (required_at kws (defaults s) (param_names s) 0 j p Hjp E) as Ht.
    rewrite Hnp, Hd' in Ht. discriminate. }
  pose proof (indexed_range _ _ _ _ Hjp) as [Hjr _]. simpl in Hjr.
  destruct (indexed_exists 0 (param_names s) required) as [q Hq]; [fold required in Hne; lia|].
  pose proof (required_at kws (defaults s) (param_names s) 0 required q Hq eq_refl) as Ht.
  pose proof (defaults_suffix_index s j p WD Hjp) as [Hdc Hjd].
  pose proof (defaults_suffix_index s required q WD Hq) as [_ Hqd].
  assert (mem q (defaults s) = false) as Hqn. { apply Hqd. apply Hjd in Hd'. fold required in Hne. lia. }
  rewrite Hqn, orb_false_r in Ht. apply mem_In in Ht.
  assert (length (posonly s) <= required) as Hpq.
  { apply Nat.nlt_ge. intros L'. apply (HP q Ht), (pos_index_posonly s required q W Hq), L'. }
  destruct (Nat.lt_ge_cases required Nx) as [L'|L'].
  - left. exists required, q. repeat split; auto.
  - right. apply Beyond. fold required in Hne. lia.
Qed.

Lemma splat_no_false_positive_partial_lemma :
  forall s c lens extra,
    wf_sig s -> NoDup (x_kws c ++ (if x_opaque c then extra else [])) -> star_last c ->
    (forall k, In k (x_kws c) -> ~ In k (posonly s)) ->
    is_err (bind_px s c) = true -> is_err (bind_c s (expand c lens extra)) = true.
Proof.
  intros s c lens extra WS ND SL HP HE.
  pose proof (c_ref s (expand c lens extra) WS ND) as HC.
  destruct WS as [WN WD]. pose proof (wf_names s WN) as W.
  assert (NK : NoDup (x_kws c)) by (apply NoDup_app_iff in ND; apply ND).
  assert (R : RefErr s (expand c lens extra)).
  2:{ destruct (bind_c s (expand c lens extra)); auto. destruct HC as [HC _]. contradiction. }
  clear HC. unfold bind_px, bind_px_gen in HE. destruct (unpack_match s c) as [ps st] eqn:EU.
  assert (HE' : is_err (bind_py_star true (option_map star_value st) (x_opaque c) s
                          (mkShape (length ps) (x_kws c))) = true).
  { destruct (bind_py_star _ _ _ _ _); simpl in *; auto. }
  clear HE. apply star_err in HE'; auto.
  destruct (unpack_match_star_last s c lens ps st SL EU) as [F1 F2].
  unfold RefErr, expand. set (Nx := x_npos c + expanded_npos (x_items c) lens) in *.
  destruct HE' as [[j [p [Hjp [Hj [Hpo Hk]]]]]
                  | [[Hkw [k [Hk Hn]]]
                  | [[Hl Hva]
                  | [[Hss [Hst [j [p [Hjp [Hj [Hnk Hd]]]]]]]
                  | [Hss [p [Hp [Hk Hd]]]]]]]]; cbn [npos kws] in *.
  - (* a parameter filled twice lies before the splat's end, or the splat was stretched to reach it *)
    destruct (Nat.lt_ge_cases j Nx) as [L|L].
    + left. exists j, p. repeat split; auto. apply in_or_app. auto.
    + exfalso. assert (j < 0 + required_posargs (x_kws c) (defaults s) (param_names s)) as Hr by lia.
      destruct (required_before _ _ _ 0 j p Hjp Hr) as [Hm _]. apply mem_nIn in Hm. auto.
  - right. left. split; auto. exists k. split; auto. apply in_or_app. auto.
  - right. right. left. split; auto. cbn [npos]. pose proof (required_le (x_kws c) (defaults s) (param_names s)). lia.
  - rewrite Hss, app_nil_r. assert (st = None) as Est by (destruct st; [discriminate|reflexivity]).
    destruct (missing_beyond_required s (x_kws c) (length ps) Nx j p W WD HP Hjp Hj Hnk Hd (F2 Est)) as [H|H];
      [left; exact H|right; right; right; left; exact H].
  - right. right. right. right. rewrite Hss, app_nil_r. exists p. auto.
Qed.

Print Assumptions bind_py_star_plain.
Print Assumptions missing_loop_inr.
Print Assumptions missing_loop_forgive_irrelevant.
Print Assumptions bind_py_star_unfold.
Print Assumptions star_err.
Print Assumptions bind_px_concrete.
Print Assumptions splat_concrete_agree_lemma.
Print Assumptions splat_no_false_positive_partial_lemma.
