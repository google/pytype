(* C13 lemmas about coq/Bind/Model.v.

   Both binders are characterised against one closed-form description ([RefErr], [ref_dict]):
     py_ref : bind_py_fixed s c  is  Err  iff RefErr, and on Ok agrees with ref_dict on every parameter
     c_ref  : bind_c s c         likewise
   from which bind_agree_fixed follows; bind_py (the mapper before fix 98ee907) equals bind_py_fixed (the
   repository's mapper) whenever no keyword names a positional-only parameter of a **kwargs function, and
   disagrees with CPython on every other call it accepts. *)
From Coq Require Import List Arith Bool Lia.
From PV Require Import Bind.Model.
Import ListNotations.

Lemma mem_In k l : mem k l = true <-> In k l.
Proof.
  unfold mem. rewrite existsb_exists. split.
  - intros [x [H1 H2]]. apply Nat.eqb_eq in H2. subst. exact H1.
  - intros H. exists k. split; [exact H | apply Nat.eqb_refl].
Qed.

Lemma mem_nIn k l : mem k l = false <-> ~ In k l.
Proof. rewrite <- mem_In. symmetry. apply not_true_iff_false. Qed.

Lemma mem_app k l1 l2 : mem k (l1 ++ l2) = mem k l1 || mem k l2.
Proof. apply existsb_app. Qed.

Lemma nonempty_exists {A} (l : list A) : nonempty l = true <-> exists x, In x l.
Proof.
  destruct l as [|a l]; simpl; split; try discriminate.
  - intros [x []].
  - intros _. exists a. left. reflexivity.
  - reflexivity.
Qed.

Lemma nonempty_filter {A} (f : A -> bool) l : nonempty (filter f l) = existsb f l.
Proof. induction l as [|a l IH]; simpl; [reflexivity|]. destruct (f a); [reflexivity|exact IH]. Qed.

Lemma nonempty_map {A B} (f : A -> B) l : nonempty (map f l) = nonempty l.
Proof. destruct l; reflexivity. Qed.

Lemma existsb_false {A} (f : A -> bool) l : existsb f l = false <-> forall x, In x l -> f x = false.
Proof.
  rewrite <- not_true_iff_false, existsb_exists. split.
  - intros H x Hx. apply not_true_iff_false. intros E. apply H. exists x. auto.
  - intros H [x [Hx E]]. rewrite (H x Hx) in E. discriminate.
Qed.

Lemma existsb_ext_in {A} (f g : A -> bool) l : (forall x, In x l -> f x = g x) -> existsb f l = existsb g l.
Proof. induction l; simpl; intros H; auto. rewrite H, IHl; auto. Qed.

Lemma existsb_map {A B} (f : B -> bool) (g : A -> B) l : existsb f (map g l) = existsb (fun x => f (g x)) l.
Proof. induction l; simpl; auto. rewrite IHl. reflexivity. Qed.

Lemma filter_none {A} (f : A -> bool) l : (forall x, In x l -> f x = false) -> filter f l = [].
Proof. induction l; simpl; intros H; auto. rewrite H; auto. Qed.

Lemma filter_all {A} (f : A -> bool) l : (forall x, In x l -> f x = true) -> filter f l = l.
Proof. induction l; simpl; intros H; auto. rewrite H; auto. rewrite IHl; auto. Qed.

Lemma NoDup_app_iff {A} (l1 l2 : list A) :
  NoDup (l1 ++ l2) <-> NoDup l1 /\ NoDup l2 /\ (forall x, In x l1 -> In x l2 -> False).
Proof.
  induction l1 as [|a l1 IH]; simpl.
  - split; [intros H; split; [constructor|split; [exact H|tauto]] | tauto].
  - split.
    + intros H. inversion H as [|? ? Hn Hd]; subst. apply IH in Hd. destruct Hd as [H1 [H2 H3]].
      split; [constructor; [intros Hi; apply Hn, in_or_app; left; exact Hi|exact H1]|]. split; [exact H2|].
      intros x [->|Hx] Hx2; [apply Hn, in_or_app; right; exact Hx2|exact (H3 x Hx Hx2)].
    + intros [H1 [H2 H3]]. inversion H1 as [|? ? Hn Hd]; subst. constructor.
      * intros Hi. apply in_app_or in Hi. destruct Hi as [Hi|Hi]; [exact (Hn Hi)|exact (H3 a (or_introl eq_refl) Hi)].
      * apply IH. split; [exact Hd|]. split; [exact H2|]. intros x Hx. apply H3. right. exact Hx.
Qed.

Lemma firstn_In {A} n (l : list A) x : In x (firstn n l) -> In x l.
Proof. rewrite <- (firstn_skipn n l) at 2. intros H. apply in_or_app. auto. Qed.

Lemma NoDup_firstn {A} n (l : list A) : NoDup l -> NoDup (firstn n l).
Proof. rewrite <- (firstn_skipn n l) at 1. intros H. apply NoDup_app_iff in H. apply H. Qed.

Lemma skipn_seq k i n : skipn k (seq i n) = seq (i + k) (n - k).
Proof.
  revert i n. induction k; intros i n; simpl.
  - rewrite Nat.add_0_r, Nat.sub_0_r. reflexivity.
  - destruct n; simpl; auto. rewrite IHk. replace (i + S k) with (S i + k) by lia. reflexivity.
Qed.

Lemma In_indexed {A} i (l : list A) j x : In (j, x) (indexed i l) <-> i <= j /\ nth_error l (j - i) = Some x.
Proof.
  revert i. induction l as [|a l IH]; intros i; simpl.
  - split; [tauto|]. intros [_ H]. destruct (j - i); discriminate.
  - rewrite IH. split.
    + intros [H|[H1 H2]].
      * inversion H; subst. rewrite Nat.sub_diag. auto.
      * split; [lia|]. replace (j - i) with (S (j - S i)) by lia. exact H2.
    + intros [H1 H2]. destruct (j - i) as [|n] eqn:E; simpl in H2.
      * left. f_equal; [lia|congruence].
      * right. split; [lia|]. replace (j - S i) with n by lia. exact H2.
Qed.

Lemma indexed_range {A} i (l : list A) j x : In (j, x) (indexed i l) -> i <= j < i + length l /\ In x l.
Proof.
  rewrite In_indexed. intros [H1 H2]. split; [|eapply nth_error_In; eauto].
  assert (j - i < length l) by (apply nth_error_Some; congruence). lia.
Qed.

Lemma indexed_In {A} i (l : list A) x : In x l -> exists j, In (j, x) (indexed i l).
Proof.
  intros H. apply In_nth_error in H. destruct H as [n Hn]. exists (i + n). apply In_indexed.
  split; [lia|]. replace (i + n - i) with n by lia. exact Hn.
Qed.

Lemma indexed_fun {A} i (l : list A) j x y : In (j, x) (indexed i l) -> In (j, y) (indexed i l) -> x = y.
Proof. rewrite !In_indexed. intros [_ H1] [_ H2]. congruence. Qed.

Lemma indexed_inj i (l : list name) j1 j2 x :
  NoDup l -> In (j1, x) (indexed i l) -> In (j2, x) (indexed i l) -> j1 = j2.
Proof.
  rewrite !In_indexed. intros ND [L1 H1] [L2 H2].
  assert (j1 - i = j2 - i); [|lia].
  apply (proj1 (NoDup_nth_error l) ND); [apply nth_error_Some|]; congruence.
Qed.

Lemma indexed_app {A} i (l1 l2 : list A) :
  indexed i (l1 ++ l2) = indexed i l1 ++ indexed (i + length l1) l2.
Proof.
  revert i. induction l1; intros i; simpl.
  - rewrite Nat.add_0_r. reflexivity.
  - rewrite IHl1. replace (S i + length l1) with (i + S (length l1)) by lia. reflexivity.
Qed.

Lemma indexed_length {A} i (l : list A) : length (indexed i l) = length l.
Proof. revert i. induction l; intros; simpl; auto. Qed.

Lemma firstn_indexed {A} n i (l : list A) x :
  In x (firstn n l) <-> exists j, j < i + n /\ In (j, x) (indexed i l).
Proof.
  revert n i. induction l as [|a l IH]; intros n i; simpl.
  - destruct n; simpl; split; try tauto; intros [j [_ []]].
  - destruct n; simpl.
    + split; [tauto|]. intros [j [H1 [H2|H2]]].
      * inversion H2; lia.
      * apply indexed_range in H2. lia.
    + rewrite (IH n (S i)). split.
      * intros [H|[j [H1 H2]]]; [subst; exists i; split; [lia|auto] | exists j; split; [lia|auto]].
      * intros [j [H1 [H2|H2]]]; [inversion H2; auto | right; exists j; split; [lia|auto]].
Qed.

Lemma dget_dset k k' v d : dget k (dset k' v d) = if k =? k' then Some v else dget k d.
Proof.
  induction d as [|[k0 v0] d IH]; simpl.
  - reflexivity.
  - destruct (k' =? k0) eqn:E; simpl.
    + apply Nat.eqb_eq in E. subst. destruct (k =? k0); reflexivity.
    + rewrite IH. destruct (k =? k0) eqn:E0; auto.
      destruct (k =? k') eqn:E1; auto. apply Nat.eqb_eq in E0, E1. subst. rewrite Nat.eqb_refl in E. discriminate.
Qed.

Lemma dget_dset_other k k' v d : k <> k' -> dget k (dset k' v d) = dget k d.
Proof. intros H. rewrite dget_dset. apply Nat.eqb_neq in H. rewrite H. reflexivity. Qed.

Lemma dget_dset_same k v d : dget k (dset k v d) = Some v.
Proof. rewrite dget_dset, Nat.eqb_refl. reflexivity. Qed.

Lemma dget_app k d1 d2 : dget k (d1 ++ d2) = match dget k d1 with Some v => Some v | None => dget k d2 end.
Proof. induction d1 as [|[k0 v0] d1 IH]; simpl; auto. destruct (k =? k0); auto. Qed.

Lemma dget_None k d : dget k d = None <-> ~ In k (keys d).
Proof.
  induction d as [|[k0 v0] d IH]; simpl; [tauto|]. destruct (k =? k0) eqn:E.
  - apply Nat.eqb_eq in E. split; [discriminate|]. intros H. exfalso. apply H. auto.
  - apply Nat.eqb_neq in E. rewrite IH. split; intros H; [intros [H1|H1]; [congruence|tauto] | tauto].
Qed.

Lemma dmem_In k d : dmem k d = true <-> In k (keys d).
Proof.
  unfold dmem. destruct (dget k d) eqn:E; simpl.
  - split; [intros _|reflexivity]. destruct (in_dec Nat.eq_dec k (keys d)) as [H|H]; [exact H|].
    apply dget_None in H. congruence.
  - apply dget_None in E. split; [discriminate|contradiction].
Qed.

Lemma dset_fresh k v d : ~ In k (keys d) -> dset k v d = d ++ [(k, v)].
Proof.
  induction d as [|[k0 v0] d IH]; simpl; intros H; auto.
  destruct (k =? k0) eqn:E.
  - apply Nat.eqb_eq in E. exfalso. apply H. auto.
  - rewrite IH; auto.
Qed.

Lemma dupdate_fresh d o : NoDup (keys (d ++ o)) -> dupdate d o = d ++ o.
Proof.
  revert d. induction o as [|[k v] o IH]; intros d H; simpl.
  - rewrite app_nil_r. reflexivity.
  - unfold dupdate in *. simpl. rewrite dset_fresh.
    + rewrite IH; rewrite <- app_assoc; simpl; auto.
    + unfold keys in *. rewrite map_app in H. simpl in H. apply NoDup_remove_2 in H.
      intros Hin. apply H. apply in_or_app. auto.
Qed.

Lemma dict_of_id l : NoDup (keys l) -> dict_of l = l.
Proof. apply (dupdate_fresh []). Qed.

Lemma dget_dupdate k d o :
  NoDup (keys o) -> dget k (dupdate d o) = match dget k o with Some v => Some v | None => dget k d end.
Proof.
  revert d. induction o as [|[k0 v0] o IH]; intros d H; simpl; auto.
  unfold dupdate in *. simpl. inversion H as [|? ? Hn Hd]; subst. rewrite IH; auto. rewrite dget_dset.
  destruct (k =? k0) eqn:E; auto.
  apply Nat.eqb_eq in E. subst. apply dget_None in Hn. rewrite Hn. reflexivity.
Qed.

Lemma dget_dupdate_notin k d o : ~ In k (keys o) -> dget k (dupdate d o) = dget k d.
Proof.
  revert d. induction o as [|[k0 v0] o IH]; intros d H; simpl; auto.
  unfold dupdate in *. simpl. rewrite IH.
  - apply dget_dset_other. intros ->. apply H. simpl. auto.
  - intros Hin. apply H. simpl. auto.
Qed.

(* dict(...) of constant-valued items, duplicates allowed *)
Lemma dget_dupdate_const k v d l :
  dget k (dupdate d (map (fun n => (n, v)) l)) = if mem k l then Some v else dget k d.
Proof.
  revert d. induction l as [|a l IH]; intros d; simpl; auto.
  unfold dupdate in *. simpl. rewrite IH. rewrite dget_dset.
  destruct (mem k l) eqn:E; simpl.
  - rewrite orb_true_r. reflexivity.
  - rewrite orb_false_r. reflexivity.
Qed.

Lemma keys_map_pair {A} (f : A -> name) (g : A -> value) l : keys (map (fun x => (f x, g x)) l) = map f l.
Proof. apply map_map. Qed.

Lemma dget_filter_map (f : name -> bool) (g : name -> value) k l :
  dget k (filter (fun kv => f (fst kv)) (map (fun n => (n, g n)) l))
  = if mem k l && f k then Some (g k) else None.
Proof.
  induction l as [|a l IH]; simpl; auto. destruct (f a) eqn:Ef; simpl.
  - destruct (k =? a) eqn:E; simpl; auto. apply Nat.eqb_eq in E. subst. rewrite Ef. reflexivity.
  - rewrite IH. destruct (k =? a) eqn:E; simpl; auto. apply Nat.eqb_eq in E. subst. rewrite Ef.
    rewrite andb_false_r. reflexivity.
Qed.

Lemma dget_map_self (g : name -> value) k l :
  dget k (map (fun n => (n, g n)) l) = if mem k l then Some (g k) else None.
Proof.
  induction l as [|a l IH]; simpl; auto. destruct (k =? a) eqn:E; simpl; auto.
  apply Nat.eqb_eq in E. subst. reflexivity.
Qed.

Lemma keys_filter_map (f : name -> bool) (g : name -> value) l :
  keys (filter (fun kv => f (fst kv)) (map (fun n => (n, g n)) l)) = filter f l.
Proof. induction l; simpl; auto. destruct (f a); simpl; rewrite ?IHl; auto. Qed.

(* zip(param_names, posargs) *)
Lemma keys_combine_pos (A : list name) i n : keys (combine A (map Pos (seq i n))) = firstn n A.
Proof.
  revert i n. induction A; intros i n; simpl.
  - destruct n; reflexivity.
  - destruct n; simpl; auto. unfold keys in *. rewrite IHA. reflexivity.
Qed.

Lemma dget_combine_pos (A : list name) i n j p :
  NoDup A -> In (j, p) (indexed i A) ->
  dget p (combine A (map Pos (seq i n))) = if j <? i + n then Some (Pos j) else None.
Proof.
  revert i n. induction A as [|a A IH]; intros i n ND H; simpl in H; [tauto|].
  inversion ND as [|? ? Hn Hd]; subst. destruct n; simpl.
  - destruct (j <? i + 0) eqn:E; auto. apply Nat.ltb_lt in E.
    assert (i <= j) by (destruct H as [H|H]; [inversion H; lia | apply indexed_range in H; lia]). lia.
  - destruct H as [H|H].
    + inversion H; subst. rewrite Nat.eqb_refl. assert (j <? j + S n = true) as -> by (apply Nat.ltb_lt; lia). reflexivity.
    + assert (p =? a = false) as ->.
      { apply Nat.eqb_neq. intros ->. apply indexed_range in H. tauto. }
      rewrite (IH (S i) n); auto. replace (S i + n) with (i + S n) by lia. reflexivity.
Qed.

Lemma dget_combine_notin (A : list name) i n p : ~ In p A -> dget p (combine A (map Pos (seq i n))) = None.
Proof. intros H. apply dget_None. rewrite keys_combine_pos. intros Hin. apply H. eapply firstn_In; eauto. Qed.

Lemma keys_indexed_map (f : nat -> name -> value) i l :
  keys (map (fun jp => (snd jp, f (fst jp) (snd jp))) (indexed i l)) = l.
Proof. revert i. induction l; intros i; simpl; auto. unfold keys in *. rewrite IHl. reflexivity. Qed.

Lemma dget_indexed_map (f : nat -> name -> value) i l j p :
  NoDup l -> In (j, p) (indexed i l) ->
  dget p (map (fun jp => (snd jp, f (fst jp) (snd jp))) (indexed i l)) = Some (f j p).
Proof.
  revert i. induction l as [|a l IH]; intros i ND H; simpl in H; [tauto|].
  inversion ND as [|? ? Hn Hd]; subst. simpl. destruct H as [H|H].
  - inversion H; subst. rewrite Nat.eqb_refl. reflexivity.
  - assert (p =? a = false) as ->.
    { apply Nat.eqb_neq. intros ->. apply indexed_range in H. tauto. }
    apply IH; auto.
Qed.

(* the closed-form description both binders are compared with: the five ways a call can fail (CPython's
   TypeErrors, "unexpected keyword" and "positional-only passed as keyword" taken as one), and what each
   parameter holds otherwise *)

Definition multiple_values (s : sig) (c : shape) : Prop :=
  exists j p, In (j, p) (indexed 0 (param_names s)) /\ j < npos c /\ length (posonly s) <= j /\ In p (kws c).
Definition unexpected_keyword (s : sig) (c : shape) : Prop :=
  kwargs s = None /\ exists k, In k (kws c) /\ ~ In k (pos_or_kw s ++ kwonly s).
Definition too_many_positional (s : sig) (c : shape) : Prop :=
  length (param_names s) < npos c /\ varargs s = None.
Definition missing_positional (s : sig) (c : shape) : Prop :=
  exists j p, In (j, p) (indexed 0 (param_names s)) /\ npos c <= j
              /\ ~ (length (posonly s) <= j /\ In p (kws c)) /\ ~ In p (defaults s).
Definition missing_kwonly (s : sig) (c : shape) : Prop :=
  exists p, In p (kwonly s) /\ ~ In p (kws c) /\ ~ In p (defaults s).

Definition RefErr (s : sig) (c : shape) : Prop :=
  multiple_values s c \/ unexpected_keyword s c \/ too_many_positional s c
  \/ missing_positional s c \/ missing_kwonly s c.

Definition ref_val_pos (s : sig) (c : shape) (j : nat) (p : name) : value :=
  if j <? npos c then Pos j
  else if (length (posonly s) <=? j) && mem p (kws c) then Kw p else Default.

Definition ref_val_kwo (c : shape) (p : name) : value := if mem p (kws c) then Kw p else Default.

Definition ref_star (s : sig) (c : shape) : value :=
  VarArgs (seq (length (param_names s)) (npos c - length (param_names s))).

Definition ref_starstar (s : sig) (c : shape) : value :=
  KwArgs (filter (fun k => negb (mem k (pos_or_kw s ++ kwonly s))) (kws c)).

Definition ref_dict (s : sig) (c : shape) : dict :=
  map (fun jp => (snd jp, ref_val_pos s c (fst jp) (snd jp))) (indexed 0 (param_names s))
  ++ map (fun p => (p, ref_val_kwo c p)) (kwonly s)
  ++ map (fun va => (va, ref_star s c)) (opt_list (varargs s))
  ++ map (fun kn => (kn, ref_starstar s c)) (opt_list (kwargs s)).

Definition follows_ref {E} (s : sig) (c : shape) (r : result E) : Prop :=
  match r with
  | Err _ => RefErr s c
  | Ok d => ~ RefErr s c /\ forall p, In p (all_names s) -> dget p d = dget p (ref_dict s c)
  end.

(* what the call itself hands to the positional parameter p at index j / to the keyword-only parameter p,
   when it does not hand it two things; a parameter left with nothing falls back on its default *)
Definition given (s : sig) (c : shape) (j : nat) (p : name) : option value :=
  if j <? npos c then Some (Pos j)
  else if (length (posonly s) <=? j) && mem p (kws c) then Some (Kw p) else None.
Definition given_kwo (c : shape) (p : name) : option value := if mem p (kws c) then Some (Kw p) else None.
Definition or_default (D : list name) (p : name) (o : option value) : option value :=
  match o with Some v => Some v | None => if mem p D then Some Default else None end.

Lemma given_None s c j p :
  given s c j p = None <-> npos c <= j /\ ~ (length (posonly s) <= j /\ In p (kws c)).
Proof.
  unfold given. destruct (j <? npos c) eqn:Ej.
  - apply Nat.ltb_lt in Ej. split; [discriminate|]. intros [H _]. lia.
  - apply Nat.ltb_ge in Ej. destruct (_ && _) eqn:Ek.
    + apply andb_prop in Ek. destruct Ek as [E1 E2]. apply Nat.leb_le in E1. apply mem_In in E2.
      split; [discriminate|]. intros [_ H]. exfalso. auto.
    + split; [|reflexivity]. intros _. split; [exact Ej|]. intros [H1 H2].
      apply Nat.leb_le in H1. apply mem_In in H2. rewrite H1, H2 in Ek. discriminate.
Qed.

Lemma or_default_given_None s c j p :
  or_default (defaults s) p (given s c j p) = None <->
  npos c <= j /\ ~ (length (posonly s) <= j /\ In p (kws c)) /\ ~ In p (defaults s).
Proof.
  unfold or_default. destruct (given s c j p) eqn:Eg.
  - split; [discriminate|]. intros [H1 [H2 _]]. rewrite (proj2 (given_None s c j p) (conj H1 H2)) in Eg. discriminate.
  - apply given_None in Eg. destruct Eg as [H1 H2]. destruct (mem p (defaults s)) eqn:Ed.
    + apply mem_In in Ed. split; [discriminate|]. intros [_ [_ H]]. contradiction.
    + apply mem_nIn in Ed. split; auto.
Qed.

Lemma or_default_given_kwo_None s c p :
  or_default (defaults s) p (given_kwo c p) = None <-> ~ In p (kws c) /\ ~ In p (defaults s).
Proof.
  unfold or_default, given_kwo. destruct (mem p (kws c)) eqn:Ek.
  - apply mem_In in Ek. split; [discriminate|]. intros [H _]. contradiction.
  - apply mem_nIn in Ek. destruct (mem p (defaults s)) eqn:Ed.
    + apply mem_In in Ed. split; [discriminate|]. intros [_ H]. contradiction.
    + apply mem_nIn in Ed. split; auto.
Qed.

Lemma or_default_ref_pos s c j p :
  ~ missing_positional s c -> In (j, p) (indexed 0 (param_names s)) ->
  or_default (defaults s) p (given s c j p) = Some (ref_val_pos s c j p).
Proof.
  intros N H. destruct (or_default _ _ _) eqn:E.
  - revert E. unfold or_default, given, ref_val_pos. destruct (j <? npos c); [congruence|].
    destruct (_ && _); [congruence|]. destruct (mem p (defaults s)); congruence.
  - exfalso. apply N. exists j, p. split; [exact H|]. apply or_default_given_None. exact E.
Qed.

Lemma or_default_ref_kwo s c p :
  ~ missing_kwonly s c -> In p (kwonly s) -> or_default (defaults s) p (given_kwo c p) = Some (ref_val_kwo c p).
Proof.
  intros N H. destruct (or_default _ _ _) eqn:E.
  - revert E. unfold or_default, given_kwo, ref_val_kwo. destruct (mem p (kws c)); [congruence|].
    destruct (mem p (defaults s)); congruence.
  - exfalso. apply N. exists p. split; [exact H|]. apply or_default_given_kwo_None. exact E.
Qed.

Lemma too_manyP s c :
  reflect (too_many_positional s c) ((length (param_names s) <? npos c) && negb (is_some (varargs s))).
Proof.
  apply iff_reflect. unfold too_many_positional. rewrite andb_true_iff, Nat.ltb_lt.
  destruct (varargs s); simpl; split; intros [H1 H2]; split; auto; discriminate.
Qed.

(* what wf_sig says about names *)
Record names_ok (s : sig) : Prop := {
  nd_A : NoDup (param_names s);
  nd_K : NoDup (kwonly s);
  nd_AK : forall p, In p (param_names s) -> In p (kwonly s) -> False;
  nd_PQ : forall p, In p (posonly s) -> In p (pos_or_kw s) -> False;
  nd_va : forall va, varargs s = Some va -> ~ In va (param_names s) /\ ~ In va (kwonly s);
  nd_kn : forall kn, kwargs s = Some kn -> ~ In kn (param_names s) /\ ~ In kn (kwonly s) /\ varargs s <> Some kn }.

Lemma wf_names s : NoDup (all_names s) -> names_ok s.
Proof.
  unfold all_names. rewrite app_assoc. fold (param_names s). intros H.
  apply NoDup_app_iff in H. destruct H as [HA [H HAr]]. apply NoDup_app_iff in H. destruct H as [HK [H HKr]].
  apply NoDup_app_iff in H. destruct H as [_ [_ HVO]]. constructor; auto.
  - intros p H1 H2. apply (HAr p H1). apply in_or_app. auto.
  - apply NoDup_app_iff in HA. apply HA.
  - intros va E. rewrite E in *. split; intros Hin; [apply (HAr va Hin); apply in_or_app; right|apply (HKr va Hin)];
      apply in_or_app; left; left; reflexivity.
  - intros kn E. rewrite E in *. split; [|split]; intros Hin.
    + apply (HAr kn Hin). do 2 (apply in_or_app; right). left. reflexivity.
    + apply (HKr kn Hin). apply in_or_app. right. left. reflexivity.
    + rewrite Hin in HVO. apply (HVO kn); left; reflexivity.
Qed.

Lemma In_posonly_A s p : In p (posonly s) -> In p (param_names s).
Proof. intros H. apply in_or_app. auto. Qed.
Lemma In_pkw_A s p : In p (pos_or_kw s) -> In p (param_names s).
Proof. intros H. apply in_or_app. auto. Qed.

Lemma pos_index_posonly s j p :
  names_ok s -> In (j, p) (indexed 0 (param_names s)) -> (j < length (posonly s) <-> In p (posonly s)).
Proof.
  intros W H. unfold param_names in H. rewrite indexed_app in H. apply in_app_or in H. destruct H as [H|H].
  - apply indexed_range in H. simpl in H. split; intros; [tauto|lia].
  - apply indexed_range in H. simpl in H. split; intros H1; [lia|]. exfalso. eapply nd_PQ; eauto. tauto.
Qed.

Lemma negb_mem_posonly s j p :
  names_ok s -> In (j, p) (indexed 0 (param_names s)) ->
  negb (mem p (posonly s)) = (length (posonly s) <=? j).
Proof.
  intros W H. apply eq_true_iff_eq. rewrite negb_true_iff, mem_nIn, Nat.leb_le, <- (pos_index_posonly s j p W H). lia.
Qed.

Lemma In_A_indexed s p : In p (param_names s) -> exists j, In (j, p) (indexed 0 (param_names s)) /\ j < length (param_names s).
Proof. intros H. destruct (indexed_In 0 _ _ H) as [j Hj]. exists j. split; auto. apply indexed_range in Hj. lia. Qed.

Lemma kw_target s k :
  names_ok s ->
  (In k (pos_or_kw s ++ kwonly s) <-> In k (param_names s ++ kwonly s) /\ ~ In k (posonly s)).
Proof.
  intros W. split.
  - intros H. apply in_app_or in H. split.
    + apply in_or_app. destruct H as [H|H]; [left; apply In_pkw_A, H|right; exact H].
    + intros HP. destruct H as [H|H]; [exact (nd_PQ s W k HP H)|exact (nd_AK s W k (In_posonly_A s k HP) H)].
  - intros [H HP]. apply in_app_or in H. apply in_or_app. destruct H as [H|H]; [|right; exact H].
    apply in_app_or in H. destruct H as [H|H]; [contradiction|left; exact H].
Qed.

Lemma dget_va_tail s (D : dict) vva vkn va :
  varargs s = Some va -> dget va D = None ->
  dget va (D ++ map (fun va => (va, vva)) (opt_list (varargs s)) ++ map (fun kn => (kn, vkn)) (opt_list (kwargs s)))
  = Some vva.
Proof. intros E H. rewrite dget_app, H, E. simpl. rewrite Nat.eqb_refl. reflexivity. Qed.

Lemma dget_kn_tail s (D : dict) vva vkn kn :
  names_ok s -> kwargs s = Some kn -> dget kn D = None ->
  dget kn (D ++ map (fun va => (va, vva)) (opt_list (varargs s)) ++ map (fun kn => (kn, vkn)) (opt_list (kwargs s)))
  = Some vkn.
Proof.
  intros W E H. destruct (nd_kn s W kn E) as [_ [_ H3]]. rewrite dget_app, H, dget_app, E.
  destruct (varargs s) as [va|]; simpl; [|rewrite Nat.eqb_refl; reflexivity].
  assert (kn =? va = false) as -> by (apply Nat.eqb_neq; intros ->; apply H3; reflexivity).
  rewrite Nat.eqb_refl. reflexivity.
Qed.

Lemma dget_kwargs_irrelevant s (D : dict) X Y p :
  kwargs s <> Some p ->
  dget p (D ++ map (fun kn => (kn, X)) (opt_list (kwargs s))) = dget p (D ++ map (fun kn => (kn, Y)) (opt_list (kwargs s))).
Proof.
  intros H. rewrite !dget_app. destruct (kwargs s) as [kn|]; simpl; [|reflexivity].
  destruct (p =? kn) eqn:E; [apply Nat.eqb_eq in E; congruence|reflexivity].
Qed.

Lemma ref_dict_pos s c j p :
  names_ok s -> In (j, p) (indexed 0 (param_names s)) -> dget p (ref_dict s c) = Some (ref_val_pos s c j p).
Proof.
  intros W H. unfold ref_dict. rewrite dget_app.
  rewrite (dget_indexed_map (ref_val_pos s c) 0 _ j p); auto. apply W.
Qed.

Lemma ref_dict_kwo s c p :
  names_ok s -> In p (kwonly s) -> dget p (ref_dict s c) = Some (ref_val_kwo c p).
Proof.
  intros W H. unfold ref_dict. rewrite dget_app, (proj2 (dget_None p _)).
  - rewrite dget_app, dget_map_self, (proj2 (mem_In _ _) H). reflexivity.
  - rewrite keys_indexed_map. intros Hin. eapply nd_AK; eauto.
Qed.

Lemma ref_dict_front_None s c p :
  ~ In p (param_names s) -> ~ In p (kwonly s) ->
  dget p (map (fun jp => (snd jp, ref_val_pos s c (fst jp) (snd jp))) (indexed 0 (param_names s))
          ++ map (fun p => (p, ref_val_kwo c p)) (kwonly s)) = None.
Proof.
  intros H1 H2. rewrite dget_app, (proj2 (dget_None p _)) by (rewrite keys_indexed_map; exact H1).
  rewrite dget_map_self, (proj2 (mem_nIn _ _) H2). reflexivity.
Qed.

Lemma ref_dict_va s c va :
  names_ok s -> varargs s = Some va -> dget va (ref_dict s c) = Some (ref_star s c).
Proof.
  intros W E. destruct (nd_va s W va E) as [H1 H2]. unfold ref_dict. rewrite app_assoc.
  apply dget_va_tail; auto using ref_dict_front_None.
Qed.

Lemma ref_dict_kn s c kn :
  names_ok s -> kwargs s = Some kn -> dget kn (ref_dict s c) = Some (ref_starstar s c).
Proof.
  intros W E. destruct (nd_kn s W kn E) as [H1 [H2 _]]. unfold ref_dict. rewrite app_assoc.
  apply dget_kn_tail; auto using ref_dict_front_None.
Qed.

Lemma In_opt_list {A} (x : A) o : In x (opt_list o) <-> o = Some x.
Proof.
  destruct o as [y|]; simpl; split; try discriminate; try tauto.
  - intros [->|[]]. reflexivity.
  - intros E. left. congruence.
Qed.

Lemma all_names_cases s p :
  In p (all_names s) ->
  In p (param_names s) \/ In p (kwonly s) \/ varargs s = Some p \/ kwargs s = Some p.
Proof.
  unfold all_names. rewrite app_assoc. fold (param_names s). intros H.
  apply in_app_or in H. destruct H as [H|H]; [left; exact H|]. right.
  apply in_app_or in H. destruct H as [H|H]; [left; exact H|]. right.
  apply in_app_or in H. destruct H as [H|H]; apply In_opt_list in H; auto.
Qed.

Lemma kwargs_in_all_names s kn : kwargs s = Some kn -> In kn (all_names s).
Proof. unfold all_names. intros E. do 4 (apply in_or_app; right). apply In_opt_list, E. Qed.

Lemma ref_dict_ext s c d :
  names_ok s ->
  (forall j p, In (j, p) (indexed 0 (param_names s)) -> dget p d = Some (ref_val_pos s c j p)) ->
  (forall p, In p (kwonly s) -> dget p d = Some (ref_val_kwo c p)) ->
  (forall va, varargs s = Some va -> dget va d = Some (ref_star s c)) ->
  (forall kn, kwargs s = Some kn -> dget kn d = Some (ref_starstar s c)) ->
  forall p, In p (all_names s) -> dget p d = dget p (ref_dict s c).
Proof.
  intros W H1 H2 H3 H4 p Hp. apply all_names_cases in Hp. destruct Hp as [Hp|[Hp|[Hp|Hp]]].
  - destruct (In_A_indexed s p Hp) as [j [Hjp _]]. rewrite (H1 j p Hjp). symmetry. apply ref_dict_pos; auto.
  - rewrite (H2 p Hp). symmetry. apply ref_dict_kwo; auto.
  - rewrite (H3 p Hp). symmetry. apply ref_dict_va; auto.
  - rewrite (H4 p Hp). symmetry. apply ref_dict_kn; auto.
Qed.

Lemma ref_dict_total s c p : names_ok s -> In p (all_names s) -> dget p (ref_dict s c) <> None.
Proof.
  intros W Hp. apply all_names_cases in Hp. destruct Hp as [Hp|[Hp|[Hp|Hp]]].
  - destruct (In_A_indexed s p Hp) as [j [Hjp _]]. rewrite (ref_dict_pos s c j p W Hjp). discriminate.
  - rewrite (ref_dict_kwo s c p W Hp). discriminate.
  - rewrite (ref_dict_va s c p W Hp). discriminate.
  - rewrite (ref_dict_kn s c p W Hp). discriminate.
Qed.

Lemma follows_ref_agree {E1 E2} s c (r1 : result E1) (r2 : result E2) :
  names_ok s -> follows_ref s c r1 -> follows_ref s c r2 -> agree s r1 r2.
Proof.
  intros W H1 H2. destruct r1 as [d1|e1], r2 as [d2|e2]; simpl in *; try tauto.
  destruct H1 as [_ H1], H2 as [_ H2]. intros p Hp. rewrite (H1 p Hp), (H2 p Hp). split; auto.
  apply ref_dict_total; auto.
Qed.

Definition kwsd (c : shape) : dict := map (fun k => (k, Kw k)) (kws c).

Lemma keys_kwsd c : keys (kwsd c) = kws c.
Proof. unfold kwsd, keys. rewrite map_map. apply map_id. Qed.

Lemma dmem_kwsd c k : dmem k (kwsd c) = mem k (kws c).
Proof. unfold dmem, kwsd. rewrite dget_map_self. destruct (mem k (kws c)); reflexivity. Qed.

Definition positional (s : sig) (c : shape) : dict := combine (param_names s) (map Pos (seq 0 (npos c))).

Lemma keys_positional s c : keys (positional s c) = firstn (npos c) (param_names s).
Proof. apply keys_combine_pos. Qed.

(* the sets SignedFunction._map_args raises for; PyTDSignature._map_args has the last two *)
Definition dup_kws (s : sig) (c : shape) : list name :=
  filter (fun key => negb (mem key (posonly s)) && mem key (kws c)) (firstn (npos c) (param_names s)).
Definition extra_kws (s : sig) (c : shape) : list name :=
  filter (fun k => negb (mem k (param_names s ++ kwonly s))) (kws c).
Definition posonly_kws (s : sig) (c : shape) : list name := filter (fun k => mem k (posonly s)) (kws c).

Lemma extra_kws_boundary s c :
  (forall k, In k (kws c) -> ~ In k (posonly s)) ->
  extra_kws s c = filter (fun k => negb (mem k (pos_or_kw s ++ kwonly s))) (kws c).
Proof.
  intros H. apply filter_ext_in. intros k Hk. unfold param_names.
  rewrite <- app_assoc, (mem_app k (posonly s)), (proj2 (mem_nIn k (posonly s)) (H k Hk)). reflexivity.
Qed.

Lemma multiple_values_names s c :
  names_ok s ->
  (multiple_values s c <->
   exists p, In p (firstn (npos c) (param_names s)) /\ negb (mem p (posonly s)) && mem p (kws c) = true).
Proof.
  intros W. split.
  - intros [j [p [Hjp [Hj [Hnp Hk]]]]]. exists p. split; [apply (firstn_indexed _ 0); eauto|].
    rewrite (negb_mem_posonly s j p W Hjp), (proj2 (Nat.leb_le _ _) Hnp). apply mem_In, Hk.
  - intros [p [Hf Hc]]. apply (firstn_indexed _ 0) in Hf. destruct Hf as [j [Hj Hjp]].
    rewrite (negb_mem_posonly s j p W Hjp) in Hc. apply andb_prop in Hc. destruct Hc as [E1 E2].
    apply Nat.leb_le in E1. apply mem_In in E2. exists j, p. auto.
Qed.

Lemma dup_kwsP s c : names_ok s -> reflect (multiple_values s c) (nonempty (dup_kws s c)).
Proof.
  intros W. apply iff_reflect. unfold dup_kws. rewrite nonempty_filter, existsb_exists.
  apply multiple_values_names, W.
Qed.

Lemma extra_kws_spec s c :
  names_ok s ->
  if nonempty (extra_kws s c) && negb (is_some (kwargs s)) || nonempty (posonly_kws s c) && negb (is_some (kwargs s))
  then unexpected_keyword s c else ~ unexpected_keyword s c.
Proof.
  intros W. rewrite <- andb_orb_distrib_l. unfold unexpected_keyword, extra_kws, posonly_kws.
  rewrite !nonempty_filter. destruct (kwargs s); simpl; [rewrite andb_false_r; intros [H _]; discriminate|].
  rewrite andb_true_r. destruct (_ || _) eqn:E.
  - split; [reflexivity|]. apply orb_prop in E.
    destruct E as [E|E]; apply existsb_exists in E; destruct E as [k [Hk Hc]]; exists k; (split; [exact Hk|]);
      intros Hin; apply (kw_target s k W) in Hin; destruct Hin as [H1 H2];
      [apply negb_true_iff, mem_nIn in Hc|apply mem_In in Hc]; contradiction.
  - intros [_ [k [Hk Hn]]]. apply orb_false_elim in E. destruct E as [E1 E2].
    apply (proj1 (existsb_false _ _)) with (x := k) in E1, E2; [|exact Hk|exact Hk].
    apply negb_false_iff, mem_In in E1. apply mem_nIn in E2.
    apply Hn, kw_target; auto.
Qed.

(* callargs after the defaults, the positional and the keyword arguments have been entered
   ([fixed] as in bind_py_gen: keywords naming positional-only parameters are left out) *)
Definition callargs_gen (fixed : bool) (s : sig) (c : shape) : dict :=
  dupdate (dupdate (dict_of (map (fun n => (n, Default)) (defaults s))) (positional s c))
          (if fixed then filter (fun kv => negb (mem (fst kv) (posonly s))) (kwsd c) else kwsd c).

Definition callargs2 : sig -> shape -> dict := callargs_gen true.

Lemma callargs2_get s c p :
  NoDup (param_names s) -> NoDup (kws c) ->
  dget p (callargs2 s c) =
    if mem p (kws c) && negb (mem p (posonly s)) then Some (Kw p)
    else or_default (defaults s) p (dget p (positional s c)).
Proof.
  intros NA NK. unfold callargs2, callargs_gen.
  rewrite dget_dupdate.
  2:{ unfold kwsd. rewrite (keys_filter_map (fun k => negb (mem k (posonly s))) Kw). apply NoDup_filter. exact NK. }
  unfold kwsd. rewrite (dget_filter_map (fun k => negb (mem k (posonly s))) Kw).
  destruct (mem p (kws c) && negb (mem p (posonly s))); auto.
  rewrite dget_dupdate by (rewrite keys_positional; apply NoDup_firstn; exact NA).
  unfold or_default. destruct (dget p (positional s c)); auto.
  apply (dget_dupdate_const p Default []).
Qed.

Lemma positional_pos s c j p :
  names_ok s -> In (j, p) (indexed 0 (param_names s)) ->
  dget p (positional s c) = if j <? npos c then Some (Pos j) else None.
Proof. intros W H. apply (dget_combine_pos _ 0 (npos c) j p); auto. apply W. Qed.

Lemma callargs2_given s c j p :
  names_ok s -> NoDup (kws c) -> ~ multiple_values s c -> In (j, p) (indexed 0 (param_names s)) ->
  dget p (callargs2 s c) = or_default (defaults s) p (given s c j p).
Proof.
  intros W NK N1 H. rewrite callargs2_get by (auto; apply W).
  rewrite (negb_mem_posonly s j p W H), andb_comm, (positional_pos s c j p W H). unfold given.
  destruct (j <? npos c) eqn:Ej; [|destruct (_ && _); reflexivity].
  destruct (_ && _) eqn:Ek; [|reflexivity].
  apply andb_prop in Ek. destruct Ek as [E1 E2]. apply Nat.leb_le in E1. apply mem_In in E2. apply Nat.ltb_lt in Ej.
  exfalso. apply N1. exists j, p. auto.
Qed.

Lemma callargs2_kwo s c p :
  names_ok s -> NoDup (kws c) -> In p (kwonly s) ->
  dget p (callargs2 s c) = or_default (defaults s) p (given_kwo c p).
Proof.
  intros W NK H. rewrite callargs2_get by (auto; apply W).
  assert (~ In p (param_names s)) as HnA by (intros Hin; eapply nd_AK; eauto).
  rewrite (proj2 (mem_nIn p (posonly s))) by (intros Hin; apply HnA, In_posonly_A, Hin).
  rewrite andb_true_r. unfold given_kwo. destruct (mem p (kws c)); [reflexivity|].
  unfold positional. rewrite dget_combine_notin; auto.
Qed.

Lemma callargs2_missing_pos s c p :
  names_ok s -> NoDup (kws c) -> ~ multiple_values s c ->
  In p (param_names s) -> dget p (callargs2 s c) = None -> missing_positional s c.
Proof.
  intros W NK N1 HA H. destruct (In_A_indexed s p HA) as [j [Hjp _]]. exists j, p. split; [exact Hjp|].
  apply or_default_given_None. rewrite <- (callargs2_given s c j p W NK N1 Hjp). exact H.
Qed.

Lemma callargs2_missing_kwo s c p :
  names_ok s -> NoDup (kws c) -> In p (kwonly s) -> dget p (callargs2 s c) = None -> missing_kwonly s c.
Proof.
  intros W NK HK H. exists p. split; [exact HK|]. apply or_default_given_kwo_None. rewrite <- (callargs2_kwo s c p W NK HK). exact H.
Qed.

Lemma missing_callargs2 s c :
  names_ok s -> NoDup (kws c) -> ~ multiple_values s c -> missing_positional s c \/ missing_kwonly s c ->
  exists p, In p (filter (fun n => negb (mem n (defaults s))) (param_names s) ++ kwonly s)
            /\ dget p (callargs2 s c) = None.
Proof.
  intros W NK N1 [[j [p [Hjp H]]]|[p [HK H]]]; exists p; (split; [apply in_or_app|]).
  - left. apply filter_In. split; [apply (indexed_range _ _ _ _ Hjp)|apply negb_true_iff, mem_nIn, H].
  - rewrite (callargs2_given s c j p W NK N1 Hjp). apply or_default_given_None, H.
  - right. exact HK.
  - rewrite (callargs2_kwo s c p W NK HK). apply or_default_given_kwo_None, H.
Qed.

Lemma callargs2_ref_pos s c j p :
  names_ok s -> NoDup (kws c) -> ~ multiple_values s c -> ~ missing_positional s c ->
  In (j, p) (indexed 0 (param_names s)) -> dget p (callargs2 s c) = Some (ref_val_pos s c j p).
Proof. intros W NK N1 N4 H. rewrite (callargs2_given s c j p W NK N1 H). apply or_default_ref_pos; auto. Qed.

Lemma callargs2_ref_kwo s c p :
  names_ok s -> NoDup (kws c) -> ~ missing_kwonly s c ->
  In p (kwonly s) -> dget p (callargs2 s c) = Some (ref_val_kwo c p).
Proof. intros W NK N5 H. rewrite callargs2_kwo by auto. apply or_default_ref_kwo; auto. Qed.

(* the end of _map_args: *args, the arity check, **kwargs *)
Definition dset_opt (o : option name) (v : value) (d : dict) : dict :=
  match o with Some k => dset k v d | None => d end.

Lemma py_tail_eq (ova okn : option name) (b : bool) V K (ca : dict) (e : py_err) :
  match (match ova with Some va => Some (dset va V ca) | None => if b then None else Some ca end) with
  | None => Err e
  | Some callargs => match okn with Some kn => Ok (dset kn K callargs) | None => Ok callargs end
  end
  = if b && negb (is_some ova) then Err e else Ok (dset_opt okn K (dset_opt ova V ca)).
Proof. destruct ova, okn, b; reflexivity. Qed.

Lemma Err_else_Ok {E} (b : bool) (e : E) (r : result E) d : (if b then Err e else r) = Ok d -> r = Ok d.
Proof. destruct b; [discriminate|exact (fun H => H)]. Qed.

Lemma dget_dset_opt_other o v d p : o <> Some p -> dget p (dset_opt o v d) = dget p d.
Proof. destruct o as [k|]; simpl; [|reflexivity]. intros H. apply dget_dset_other. congruence. Qed.

Lemma py_tail_get s V K ca :
  names_ok s ->
  let d := dset_opt (kwargs s) K (dset_opt (varargs s) V ca) in
  (forall p, In p (param_names s ++ kwonly s) -> dget p d = dget p ca)
  /\ (forall va, varargs s = Some va -> dget va d = Some V)
  /\ (forall kn, kwargs s = Some kn -> dget kn d = Some K).
Proof.
  intros W. cbv zeta. split; [|split].
  - intros p Hp. apply in_app_or in Hp.
    rewrite !dget_dset_opt_other; auto; intros E; [destruct (nd_va s W p E)|destruct (nd_kn s W p E) as [? [? _]]]; tauto.
  - intros va E. rewrite dget_dset_opt_other, E; [apply dget_dset_same|].
    intros E2. destruct (nd_kn s W va E2) as [_ [_ H]]. auto.
  - intros kn E. rewrite E. apply dget_dset_same.
Qed.

Lemma bind_py_gen_unfold fixed s c :
  NoDup (param_names s) -> NoDup (kws c) ->
  bind_py_gen fixed s c =
  if nonempty (dup_kws s c) then Err (EDuplicateKeyword (dup_kws s c)) else
  if nonempty (extra_kws s c) && negb (is_some (kwargs s)) then Err (EWrongKeywordArgs (extra_kws s c)) else
  if nonempty (posonly_kws s c) && negb (is_some (kwargs s)) then Err (EWrongKeywordArgs (posonly_kws s c)) else
  match find (fun key => negb (dmem key (callargs_gen fixed s c)))
             (filter (fun n => negb (mem n (defaults s))) (param_names s) ++ kwonly s) with
  | Some key => Err (EMissingParameter key)
  | None =>
    if (length (param_names s) <? npos c) && negb (is_some (varargs s)) then Err EWrongArgCount else
    Ok (dset_opt (kwargs s) (if fixed then ref_starstar s c else KwArgs (extra_kws s c))
          (dset_opt (varargs s) (VarArgs (skipn (length (param_names s)) (seq 0 (npos c)))) (callargs_gen fixed s c)))
  end.
Proof.
  intros NA NK. unfold bind_py_gen.
  rewrite (dict_of_id (map (fun k => (k, Kw k)) (kws c))) by (apply (eq_ind_r (@NoDup name) NK (keys_kwsd c))).
  rewrite (dict_of_id (combine (param_names s) (map Pos (seq 0 (npos c)))))
    by (rewrite keys_combine_pos; apply NoDup_firstn; exact NA).
  rewrite keys_combine_pos. fold (kwsd c). rewrite keys_kwsd.
  rewrite map_length, seq_length, py_tail_eq.
  rewrite (filter_ext _ (fun key => negb (mem key (posonly s)) && mem key (kws c)))
    by (intros a; rewrite dmem_kwsd; reflexivity).
  destruct fixed; reflexivity.
Qed.

Theorem py_ref s c : wf_sig s -> wf_shape c -> follows_ref s c (bind_py_fixed s c).
Proof.
  intros [WN _] NK. pose proof (wf_names s WN) as W. unfold wf_shape in NK.
  unfold bind_py_fixed. rewrite bind_py_gen_unfold by (auto; apply W). fold callargs2. unfold follows_ref, RefErr.
  destruct (dup_kwsP s c W) as [H|N1]; [left; exact H|].
  pose proof (extra_kws_spec s c W) as N2.
  destruct (nonempty (extra_kws s c) && _); [right; left; exact N2|].
  destruct (nonempty (posonly_kws s c) && _); [right; left; exact N2|]. simpl in N2.
  destruct (find _ _) as [key|] eqn:E4.
  { apply find_some in E4. destruct E4 as [Hin Hm]. apply negb_true_iff in Hm. unfold dmem in Hm.
    destruct (dget key (callargs2 s c)) eqn:Hg; [discriminate|].
    apply in_app_or in Hin. destruct Hin as [HA|HK]; [apply filter_In in HA; destruct HA as [HA _]|].
    - right. right. right. left. eapply callargs2_missing_pos; eauto.
    - right. right. right. right. eapply callargs2_missing_kwo; eauto. }
  assert (N45 : ~ (missing_positional s c \/ missing_kwonly s c)).
  { intros H. destruct (missing_callargs2 s c W NK N1 H) as [p [Hin Hg]].
    apply (find_none _ _ E4) in Hin. unfold dmem in Hin. rewrite Hg in Hin. discriminate. }
  destruct (too_manyP s c) as [H|N3]; [right; right; left; exact H|].
  split; [intros [H|[H|[H|[H|H]]]]; [exact (N1 H)|exact (N2 H)|exact (N3 H)|apply N45; left; exact H|apply N45; right; exact H]|].
  destruct (py_tail_get s (VarArgs (skipn (length (param_names s)) (seq 0 (npos c)))) (ref_starstar s c)
                        (callargs2 s c) W) as [T1 [T2 T3]].
  apply ref_dict_ext; auto.
  - intros j p Hjp. rewrite T1 by (apply in_or_app; left; apply (indexed_range _ _ _ _ Hjp)).
    apply callargs2_ref_pos; auto.
  - intros p Hp. rewrite T1 by (apply in_or_app; right; exact Hp). apply callargs2_ref_kwo; auto.
  - intros va E. rewrite (T2 va E), skipn_seq. reflexivity.
Qed.

Definition slots_of (i : nat) (f : nat -> name -> option value) (N : list name) : list slot :=
  map (fun jp => mkSlot (fst jp) (snd jp) (f (fst jp) (snd jp))) (indexed i N).

Lemma slot_eta x : mkSlot (idx x) (nm x) (cur x) = x.
Proof. destruct x; reflexivity. Qed.

Lemma map_slots_of (g : slot -> slot) i f N :
  (forall x, idx (g x) = idx x /\ nm (g x) = nm x) ->
  map g (slots_of i f N) = slots_of i (fun j p => cur (g (mkSlot j p (f j p)))) N.
Proof.
  intros Hg. unfold slots_of. rewrite map_map. apply map_ext. intros [j p]. simpl.
  destruct (Hg (mkSlot j p (f j p))) as [H1 H2]. simpl in H1, H2.
  rewrite <- (slot_eta (g _)). rewrite H1, H2. reflexivity.
Qed.

Lemma In_slots_of i f N x :
  In x (slots_of i f N) <-> exists j p, x = mkSlot j p (f j p) /\ In (j, p) (indexed i N).
Proof.
  unfold slots_of. rewrite in_map_iff. split.
  - intros [[j p] [H1 H2]]. exists j, p. simpl in H1. auto.
  - intros [j [p [H1 H2]]]. exists (j, p). simpl. auto.
Qed.

Lemma existsb_slots_of (P : slot -> bool) i f N :
  existsb P (slots_of i f N) = true <-> exists j p, In (j, p) (indexed i N) /\ P (mkSlot j p (f j p)) = true.
Proof.
  rewrite existsb_exists. split.
  - intros [x [Hx HP]]. apply In_slots_of in Hx. destruct Hx as [j [p [-> H]]]. eauto.
  - intros [j [p [H HP]]]. exists (mkSlot j p (f j p)). split; [apply In_slots_of; eauto|exact HP].
Qed.

Lemma names_slots_of i f N : map nm (slots_of i f N) = N.
Proof.
  unfold slots_of. rewrite map_map. simpl. revert i. induction N; intros i; simpl; auto. rewrite IHN. reflexivity.
Qed.

Definition hit (np : nat) (k : name) (x : slot) : bool := (np <=? idx x) && (nm x =? k).
Definition upd1 (np : nat) (k : name) (v : value) (x : slot) : slot :=
  if hit np k x then mkSlot (idx x) (nm x) (Some v) else x.

Lemma assign_spec np k v sl :
  NoDup (map nm sl) ->
  assign np k v sl =
    if existsb (fun x => hit np k x && is_some (cur x)) sl then AlreadySet
    else if existsb (hit np k) sl then Assigned (map (upd1 np k v) sl)
    else NotFound.
Proof.
  induction sl as [|x t IH]; intros ND; simpl; auto.
  inversion ND as [|? ? Hn Hd]; subst.
  fold (hit np k x). destruct (hit np k x) eqn:Hx; simpl.
  - assert (Ht : forall y, In y t -> hit np k y = false).
    { intros y Hy. unfold hit in *. apply andb_prop in Hx. destruct Hx as [_ Hx]. apply Nat.eqb_eq in Hx.
      destruct (nm y =? k) eqn:E; [|apply andb_false_r]. apply Nat.eqb_eq in E. exfalso. apply Hn.
      rewrite Hx, <- E. apply in_map. exact Hy. }
    destruct (cur x) eqn:Ec; simpl; auto.
    assert (existsb (fun x0 => hit np k x0 && is_some (cur x0)) t = false) as ->.
    { apply existsb_false. intros y Hy. rewrite (Ht y Hy). reflexivity. }
    unfold upd1 at 1. rewrite Hx. f_equal. f_equal.
    rewrite <- (map_id t) at 1. apply map_ext_in. intros y Hy. unfold upd1. rewrite (Ht y Hy). reflexivity.
  - rewrite IH; auto.
    destruct (existsb (fun x0 => hit np k x0 && is_some (cur x0)) t); simpl; auto.
    destruct (existsb (hit np k) t); simpl; auto.
    unfold upd1 at 2. rewrite Hx. reflexivity.
Qed.

Lemma hit_upd1 np k k' v x : hit np k' (upd1 np k v x) = hit np k' x.
Proof. unfold upd1. destruct (hit np k x); reflexivity. Qed.

Lemma names_upd1 np k v sl : map nm (map (upd1 np k v) sl) = map nm sl.
Proof. rewrite map_map. apply map_ext. intros x. unfold upd1. destruct (hit np k x); reflexivity. Qed.

Definition upd (np : nat) (ks : list name) (x : slot) : slot :=
  if (np <=? idx x) && mem (nm x) ks then mkSlot (idx x) (nm x) (Some (Kw (nm x))) else x.

Definition loop_bad (s : sig) (sl : list slot) (k : name) : bool :=
  existsb (fun x => hit (length (posonly s)) k x && is_some (cur x)) sl
  || (negb (existsb (hit (length (posonly s)) k) sl) && negb (is_some (kwargs s))).

Lemma upd_nil np x : upd np [] x = x.
Proof. unfold upd. simpl. rewrite andb_false_r. reflexivity. Qed.

Lemma upd_cons np k rest x :
  upd np (k :: rest) x = if hit np k x then mkSlot (idx x) (nm x) (Some (Kw (nm x))) else upd np rest x.
Proof. unfold upd, hit. simpl. destruct (np <=? idx x); simpl; [|reflexivity]. destruct (nm x =? k); reflexivity. Qed.

Lemma upd_upd1 np k rest x : ~ In k rest -> upd np rest (upd1 np k (Kw k) x) = upd np (k :: rest) x.
Proof.
  intros Hk. rewrite upd_cons. unfold upd1. destruct (hit np k x) eqn:Hh; [|reflexivity].
  unfold hit in Hh. apply andb_prop in Hh. destruct Hh as [_ Hh]. apply Nat.eqb_eq in Hh. unfold upd. simpl.
  rewrite Hh, (proj2 (mem_nIn k rest) Hk), andb_false_r. reflexivity.
Qed.

Lemma loop_bad_upd1 s k k' v sl :
  k' <> k -> loop_bad s (map (upd1 (length (posonly s)) k v) sl) k' = loop_bad s sl k'.
Proof.
  intros Hne. unfold loop_bad. rewrite !existsb_map.
  f_equal; [|f_equal; f_equal]; apply existsb_ext_in; intros x _; rewrite hit_upd1; [|reflexivity].
  destruct (hit _ k' x) eqn:Hh'; [|reflexivity]. simpl. unfold upd1. destruct (hit _ k x) eqn:Hh; [|reflexivity].
  exfalso. unfold hit in Hh, Hh'. apply andb_prop in Hh, Hh'. destruct Hh as [_ Hh], Hh' as [_ Hh'].
  apply Nat.eqb_eq in Hh, Hh'. congruence.
Qed.

Lemma kw_loop_spec s all ks :
  forall sl kwd, NoDup (map nm sl) -> NoDup ks ->
  match kw_loop s all ks sl kwd with
  | inr _ => existsb (loop_bad s sl) ks = true
  | inl r => existsb (loop_bad s sl) ks = false
             /\ r = (map (upd (length (posonly s)) ks) sl,
                     kwd ++ filter (fun k => negb (existsb (hit (length (posonly s)) k) sl)) ks)
  end.
Proof.
  set (np := length (posonly s)).
  induction ks as [|k rest IH]; intros sl kwd NS NK.
  - simpl. split; [reflexivity|]. rewrite app_nil_r, (map_ext _ _ (upd_nil np)), map_id. reflexivity.
  - inversion NK as [|? ? Hk Hr]; subst. cbn [kw_loop existsb filter]. fold np.
    rewrite (assign_spec np k (Kw k) sl NS).
    change (loop_bad s sl k) with (existsb (fun x => hit np k x && is_some (cur x)) sl
                                   || negb (existsb (hit np k) sl) && negb (is_some (kwargs s))).
    destruct (existsb (fun x => hit np k x && is_some (cur x)) sl); [reflexivity|].
    destruct (existsb (hit np k) sl) eqn:Ef; cbn [orb andb negb].
    + (* the keyword finds an empty slot *)
      specialize (IH (map (upd1 np k (Kw k)) sl) kwd). rewrite names_upd1 in IH. specialize (IH NS Hr).
      rewrite (existsb_ext_in _ (loop_bad s sl)) in IH
        by (intros k' Hk'; apply loop_bad_upd1; intros ->; exact (Hk Hk')).
      destruct (kw_loop s all rest _ kwd) as [r|e]; [|exact IH]. destruct IH as [IHb ->]. split; [exact IHb|]. f_equal.
      * rewrite map_map. apply map_ext. intros x. apply upd_upd1, Hk.
      * f_equal. apply filter_ext. intros k'. rewrite existsb_map. f_equal. apply existsb_ext_in. intros x _. apply hit_upd1.
    + (* no slot takes the keyword *)
      destruct (kwargs s) eqn:Ekw; cbn [is_some negb].
      * specialize (IH sl (kwd ++ [k]) NS Hr). destruct (kw_loop s all rest sl (kwd ++ [k])) as [r|e]; [|exact IH].
        destruct IH as [IHb ->]. split; [exact IHb|]. f_equal.
        -- apply map_ext_in. intros x Hx. rewrite upd_cons, (proj1 (existsb_false _ _) Ef x Hx). reflexivity.
        -- rewrite <- app_assoc. reflexivity.
      * destruct (_ && _); reflexivity.
Qed.

Lemma defaults_suffix_split D l :
  defaults_suffix D l = true ->
  exists l1 l2, l = l1 ++ l2 /\ (forall p, In p l1 -> mem p D = false) /\ (forall p, In p l2 -> mem p D = true).
Proof.
  induction l as [|p t IH]; simpl; intros H.
  - exists [], []. simpl. repeat split; intros ? [].
  - destruct (mem p D) eqn:E.
    + exists [], (p :: t). simpl. repeat split; [intros ? []|]. intros q [Hq|Hq]; [subst; auto|].
      rewrite forallb_forall in H. auto.
    + destruct (IH H) as [l1 [l2 [H1 [H2 H3]]]]. exists (p :: l1), l2. subst t. simpl. repeat split; auto.
      intros q [Hq|Hq]; [subst; auto|auto].
Qed.

(* len(func.__defaults__) *)
Definition defcount (s : sig) : nat := length (filter (fun p => mem p (defaults s)) (param_names s)).

Lemma defaults_suffix_index s j p :
  defaults_suffix (defaults s) (param_names s) = true -> In (j, p) (indexed 0 (param_names s)) ->
  defcount s <= length (param_names s) /\ (j < length (param_names s) - defcount s <-> mem p (defaults s) = false).
Proof.
  unfold defcount. generalize (defaults s) (param_names s). intros D l H Hjp.
  destruct (defaults_suffix_split D l H) as [l1 [l2 [E [H1 H2]]]]. subst l.
  rewrite filter_app, (filter_none _ l1 H1), (filter_all _ l2 H2). simpl. rewrite app_length.
  split; [lia|]. replace (length l1 + length l2 - length l2) with (length l1) by lia.
  rewrite indexed_app in Hjp. apply in_app_or in Hjp. destruct Hjp as [Hjp|Hjp]; apply indexed_range in Hjp; simpl in Hjp.
  - split; intros _; [apply H1; tauto|lia].
  - split; intros Hc; [lia|]. rewrite H2 in Hc; [discriminate|tauto].
Qed.

Lemma filter_length_le {A} (f : A -> bool) l : length (filter f l) <= length l.
Proof. induction l as [|a l IH]; simpl; [lia|]. destruct (f a); simpl; lia. Qed.

Definition varnames (s : sig) : list name := posonly s ++ pos_or_kw s ++ kwonly s.

Lemma varnames_AK s : varnames s = param_names s ++ kwonly s.
Proof. apply app_assoc. Qed.

Lemma len_A s : length (param_names s) = length (posonly s) + length (pos_or_kw s).
Proof. apply app_length. Qed.

Lemma indexed_varnames s j p :
  In (j, p) (indexed 0 (varnames s)) <->
  In (j, p) (indexed 0 (param_names s)) \/ In (j, p) (indexed (length (param_names s)) (kwonly s)).
Proof. rewrite varnames_AK, indexed_app. apply in_app_iff. Qed.

Lemma notin_varnames s p : ~ In p (param_names s) -> ~ In p (kwonly s) -> ~ In p (varnames s).
Proof. intros H1 H2. rewrite varnames_AK. intros H. apply in_app_or in H. tauto. Qed.

Lemma nd_varnames s : names_ok s -> NoDup (varnames s).
Proof. intros W. rewrite varnames_AK. apply NoDup_app_iff. split; [|split]; apply W. Qed.

Lemma found_spec s f k :
  existsb (hit (length (posonly s)) k) (slots_of 0 f (varnames s)) = mem k (pos_or_kw s ++ kwonly s).
Proof.
  apply eq_true_iff_eq. rewrite existsb_slots_of, mem_In. unfold varnames, hit. simpl. split.
  - intros [j [p [Hjp Hh]]]. apply andb_prop in Hh. destruct Hh as [H1 H2]. apply Nat.leb_le in H1.
    apply Nat.eqb_eq in H2. subst k.
    rewrite indexed_app in Hjp. apply in_app_or in Hjp. destruct Hjp as [Hjp|Hjp]; apply indexed_range in Hjp; [simpl in Hjp; lia|tauto].
  - intros Hin. destruct (indexed_In (0 + length (posonly s)) _ _ Hin) as [j Hj]. exists j, k.
    split; [rewrite indexed_app; apply in_or_app; auto|]. apply indexed_range in Hj.
    rewrite Nat.eqb_refl, (proj2 (Nat.leb_le _ _)) by lia. reflexivity.
Qed.

Definition item (x : slot) : dict := match cur x with Some v => [(nm x, v)] | None => [] end.

Lemma dget_item p x : dget p (item x) = if p =? nm x then cur x else None.
Proof. unfold item. destruct (cur x); simpl; destruct (p =? nm x); reflexivity. Qed.

Lemma dget_flat_slots_notin i f N p : ~ In p N -> dget p (flat_map item (slots_of i f N)) = None.
Proof.
  unfold slots_of. revert i. induction N as [|a N IH]; intros i H; simpl; [reflexivity|].
  rewrite dget_app, dget_item. simpl. destruct (p =? a) eqn:E.
  - apply Nat.eqb_eq in E. subst. exfalso. apply H. left. reflexivity.
  - apply IH. intros Hin. apply H. right. exact Hin.
Qed.

Lemma dget_flat_slots i f N j p :
  NoDup N -> In (j, p) (indexed i N) -> dget p (flat_map item (slots_of i f N)) = f j p.
Proof.
  revert i. induction N as [|a N IH]; intros i ND H; simpl in H; [tauto|].
  inversion ND as [|? ? Hn Hd]; subst. unfold slots_of. simpl. rewrite dget_app, dget_item. simpl. destruct H as [H|H].
  - inversion H; subst. rewrite Nat.eqb_refl. destruct (f j p); [reflexivity|]. apply dget_flat_slots_notin, Hn.
  - rewrite (proj2 (Nat.eqb_neq p a)) by (intros ->; apply indexed_range in H; tauto). apply IH; auto.
Qed.

(* the slots after the positional arguments have been copied in, and after the keyword loop *)
Definition f0 (s : sig) (c : shape) (j : nat) (p : name) : option value :=
  if j <? min (npos c) (length (param_names s)) then Some (Pos j) else None.

Definition sl0 (s : sig) (c : shape) : list slot := slots_of 0 (f0 s c) (varnames s).

Lemma upd_keeps np ks x : idx (upd np ks x) = idx x /\ nm (upd np ks x) = nm x.
Proof. unfold upd. destruct ((np <=? idx x) && mem (nm x) ks); simpl; auto. Qed.

Definition f1 (s : sig) (c : shape) (j : nat) (p : name) : option value :=
  cur (upd (length (posonly s)) (kws c) (mkSlot j p (f0 s c j p))).

Lemma f1_eq s c j p :
  f1 s c j p = if (length (posonly s) <=? j) && mem p (kws c) then Some (Kw p) else f0 s c j p.
Proof. unfold f1, upd. simpl. destruct ((length (posonly s) <=? j) && mem p (kws c)); reflexivity. Qed.

Lemma f1_pos s c j p :
  ~ multiple_values s c -> In (j, p) (indexed 0 (param_names s)) -> f1 s c j p = given s c j p.
Proof.
  intros N1 H. rewrite f1_eq. unfold f0, given. apply indexed_range in H as R.
  assert (j <? min (npos c) (length (param_names s)) = (j <? npos c)) as ->
    by (apply eq_true_iff_eq; rewrite !Nat.ltb_lt; lia).
  destruct (_ && _) eqn:Ek; [|reflexivity]. destruct (j <? npos c) eqn:Ej; [|reflexivity].
  apply andb_prop in Ek. destruct Ek as [E1 E2]. apply Nat.leb_le in E1. apply mem_In in E2. apply Nat.ltb_lt in Ej.
  exfalso. apply N1. exists j, p. auto.
Qed.

Lemma f1_kwo s c j p : length (param_names s) <= j -> f1 s c j p = given_kwo c p.
Proof.
  intros H. rewrite f1_eq. unfold f0, given_kwo.
  rewrite (proj2 (Nat.leb_le _ j)), (proj2 (Nat.ltb_ge j _)) by (rewrite len_A in *; lia).
  destruct (mem p (kws c)); reflexivity.
Qed.

Lemma loop_badP s c :
  names_ok s -> reflect (multiple_values s c \/ unexpected_keyword s c) (existsb (loop_bad s (sl0 s c)) (kws c)).
Proof.
  intros W. apply iff_reflect. rewrite existsb_exists. unfold loop_bad, sl0. split.
  - intros [[j [p [Hjp [Hj [Hnp Hk]]]]]|[Hkw [k [Hk Hn]]]].
    + exists p. split; [exact Hk|]. apply orb_true_intro. left. apply existsb_slots_of. exists j, p.
      split; [apply indexed_varnames; auto|]. unfold hit, f0. simpl. apply indexed_range in Hjp.
      rewrite Nat.eqb_refl, (proj2 (Nat.leb_le _ _) Hnp), (proj2 (Nat.ltb_lt j _)) by lia. reflexivity.
    + exists k. split; [exact Hk|]. rewrite found_spec, Hkw, (proj2 (mem_nIn _ _) Hn). apply orb_true_r.
  - intros [k [Hk Hb]]. apply orb_prop in Hb. destruct Hb as [Hb|Hb].
    + left. apply existsb_slots_of in Hb. destruct Hb as [j [p [Hjp Hh]]]. unfold hit, f0 in Hh. simpl in Hh.
      destruct (j <? _) eqn:Ej; [|rewrite andb_false_r in Hh; discriminate]. apply Nat.ltb_lt in Ej.
      rewrite andb_true_r in Hh. apply andb_prop in Hh. destruct Hh as [H1 H2]. apply Nat.leb_le in H1.
      apply Nat.eqb_eq in H2. subst p.
      apply indexed_varnames in Hjp. destruct Hjp as [Hjp|Hjp]; [|apply indexed_range in Hjp; lia].
      exists j, k. repeat split; auto; lia.
    + right. rewrite found_spec in Hb. apply andb_prop in Hb. destruct Hb as [H1 H2]. split.
      * destruct (kwargs s); [discriminate|reflexivity].
      * exists k. split; [exact Hk|]. apply mem_nIn, negb_true_iff, H1.
Qed.

Lemma kw_loop_result s c :
  names_ok s -> NoDup (kws c) ->
  match kw_loop s (kws c) (kws c) (sl0 s c) [] with
  | inr _ => multiple_values s c \/ unexpected_keyword s c
  | inl (sl1, kwdict) =>
      sl1 = slots_of 0 (f1 s c) (varnames s)
      /\ KwArgs kwdict = ref_starstar s c
      /\ ~ (multiple_values s c \/ unexpected_keyword s c)
  end.
Proof.
  intros W NK.
  assert (NS : NoDup (map nm (sl0 s c))) by (unfold sl0; rewrite names_slots_of; apply nd_varnames; exact W).
  pose proof (kw_loop_spec s (kws c) (kws c) (sl0 s c) [] NS NK) as KL. revert KL.
  destruct (loop_badP s c W) as [H|N]; destruct (kw_loop _ _ _ _ _) as [[sl1 kwd]|e]; intros KL;
    [destruct KL; discriminate|exact H| |discriminate].
  destruct KL as [_ KL]. injection KL as -> ->. split; [|split; [|exact N]].
  - apply (map_slots_of _ 0 (f0 s c) (varnames s) (upd_keeps _ _)).
  - unfold ref_starstar. simpl. f_equal. apply filter_ext. intros k. unfold sl0. rewrite found_spec. reflexivity.
Qed.

(* the slots after the defaults of the positional parameters (fill_pos) and of the keyword-only ones (fill_kw) *)
Definition fill_pos (n m d : nat) (x : slot) : slot :=
  if (max n m <=? idx x) && (idx x <? m + d) && negb (is_some (cur x))
  then mkSlot (idx x) (nm x) (Some Default) else x.
Definition fill_kw (ca : nat) (x : slot) : slot :=
  if (ca <=? idx x) && negb (is_some (cur x)) then mkSlot (idx x) (nm x) (Some Default) else x.

Lemma fill_pos_keeps n m d x : idx (fill_pos n m d x) = idx x /\ nm (fill_pos n m d x) = nm x.
Proof. unfold fill_pos. destruct ((max n m <=? idx x) && (idx x <? m + d) && negb (is_some (cur x))); simpl; auto. Qed.
Lemma fill_kw_keeps ca x : idx (fill_kw ca x) = idx x /\ nm (fill_kw ca x) = nm x.
Proof. unfold fill_kw. destruct ((ca <=? idx x) && negb (is_some (cur x))); simpl; auto. Qed.

Lemma id_keeps (x : slot) : idx x = idx x /\ nm x = nm x.
Proof. auto. Qed.

Definition sl2 (s : sig) (c : shape) (sl1 : list slot) : list slot :=
  if npos c <? length (param_names s)
  then map (fill_pos (min (npos c) (length (param_names s))) (length (param_names s) - defcount s) (defcount s)) sl1
  else sl1.

Definition f2 (s : sig) (c : shape) (j : nat) (p : name) : option value :=
  if npos c <? length (param_names s)
  then cur (fill_pos (min (npos c) (length (param_names s))) (length (param_names s) - defcount s) (defcount s)
                     (mkSlot j p (f1 s c j p)))
  else f1 s c j p.

Lemma sl2_slots s c : sl2 s c (slots_of 0 (f1 s c) (varnames s)) = slots_of 0 (f2 s c) (varnames s).
Proof.
  unfold f2, sl2. destruct (npos c <? _); [|reflexivity]. apply map_slots_of. intros x. apply fill_pos_keeps.
Qed.

(* positional defaults are the suffix from index m on, so filling the empty slots from max(n, m) on is giving
   every positional parameter that got nothing its default, if it has one *)
Lemma f2_pos s c j p :
  defaults_suffix (defaults s) (param_names s) = true -> ~ multiple_values s c ->
  In (j, p) (indexed 0 (param_names s)) -> f2 s c j p = or_default (defaults s) p (given s c j p).
Proof.
  intros WD N1 H. unfold f2. rewrite (f1_pos s c j p N1 H).
  destruct (defaults_suffix_index s j p WD H) as [S1 S2].
  apply indexed_range in H as R. destruct (given s c j p) eqn:Eg.
  - destruct (npos c <? _); [|reflexivity]. unfold fill_pos. simpl. rewrite andb_false_r. reflexivity.
  - apply given_None in Eg. rewrite (proj2 (Nat.ltb_lt (npos c) _)) by lia. unfold fill_pos, or_default. simpl.
    rewrite andb_true_r. destruct (mem p (defaults s)) eqn:Ed.
    + assert (~ j < length (param_names s) - defcount s) by (rewrite S2; discriminate).
      rewrite (proj2 (Nat.leb_le _ j)), (proj2 (Nat.ltb_lt j _)) by lia. reflexivity.
    + rewrite (proj2 (Nat.leb_gt _ j)) by (pose proof (proj2 S2 eq_refl); lia). reflexivity.
Qed.

Lemma f2_kwo s c j p : length (param_names s) <= j -> f2 s c j p = given_kwo c p.
Proof.
  intros H. unfold f2. rewrite (f1_kwo s c j p H). destruct (npos c <? _); [|reflexivity].
  unfold fill_pos. simpl. pose proof (filter_length_le (fun p => mem p (defaults s)) (param_names s)).
  rewrite (proj2 (Nat.ltb_ge j _)) by (unfold defcount; lia). rewrite andb_false_r. reflexivity.
Qed.

Lemma c_missing_posP s c :
  defaults_suffix (defaults s) (param_names s) = true -> ~ multiple_values s c ->
  reflect (missing_positional s c)
    (nonempty (if npos c <? length (param_names s)
               then map nm (filter (fun x => (npos c <=? idx x) && (idx x <? length (param_names s) - defcount s)
                                             && negb (is_some (cur x)))
                                   (slots_of 0 (f1 s c) (varnames s)))
               else [])).
Proof.
  intros WD N1. apply iff_reflect. split.
  - intros [j [p [Hjp H]]]. apply indexed_range in Hjp as R.
    destruct (defaults_suffix_index s j p WD Hjp) as [_ S2].
    rewrite (proj2 (Nat.ltb_lt (npos c) _)), nonempty_map, nonempty_filter by lia.
    apply existsb_slots_of. exists j, p. split; [apply indexed_varnames; auto|]. simpl.
    destruct H as [H1 [H2 H3]]. rewrite (f1_pos s c j p N1 Hjp), (proj2 (given_None s c j p) (conj H1 H2)).
    rewrite (proj2 (Nat.leb_le _ j) H1), (proj2 (Nat.ltb_lt j _) (proj2 S2 (proj2 (mem_nIn _ _) H3))). reflexivity.
  - destruct (npos c <? _); [|discriminate]. rewrite nonempty_map, nonempty_filter, existsb_slots_of.
    intros [j [p [Hjp Hp]]]. simpl in Hp. apply andb_prop in Hp. destruct Hp as [Hp Hc].
    apply andb_prop in Hp. destruct Hp as [Hp1 Hp2]. apply Nat.leb_le in Hp1. apply Nat.ltb_lt in Hp2.
    apply negb_true_iff in Hc. apply indexed_varnames in Hjp.
    destruct Hjp as [Hjp|Hjp]; [|apply indexed_range in Hjp; lia].
    destruct (defaults_suffix_index s j p WD Hjp) as [_ S2].
    exists j, p. split; [exact Hjp|]. apply or_default_given_None.
    rewrite <- (f1_pos s c j p N1 Hjp). destruct (f1 s c j p); [discriminate|].
    unfold or_default. rewrite (proj1 S2 Hp2). reflexivity.
Qed.

Lemma c_missing_kwoP s c :
  reflect (missing_kwonly s c)
    (nonempty (map nm (filter (fun x => (length (param_names s) <=? idx x) && negb (is_some (cur x))
                                        && negb (mem (nm x) (defaults s)))
                              (slots_of 0 (f2 s c) (varnames s))))).
Proof.
  apply iff_reflect. rewrite nonempty_map, nonempty_filter, existsb_slots_of. split.
  - intros [p [HK H]]. destruct (indexed_In (length (param_names s)) _ _ HK) as [j Hjp]. exists j, p.
    split; [apply indexed_varnames; auto|]. simpl. apply indexed_range in Hjp.
    apply or_default_given_kwo_None in H. unfold or_default in H.
    rewrite (f2_kwo s c j p), (proj2 (Nat.leb_le _ j)) by lia.
    destruct (given_kwo c p); [discriminate|]. destruct (mem p (defaults s)); [discriminate|reflexivity].
  - intros [j [p [Hjp Hp]]]. simpl in Hp. apply andb_prop in Hp. destruct Hp as [Hp Hd].
    apply andb_prop in Hp. destruct Hp as [Hp1 Hp2]. apply Nat.leb_le in Hp1. apply negb_true_iff in Hp2, Hd.
    apply indexed_varnames in Hjp.
    destruct Hjp as [Hjp|Hjp]; apply indexed_range in Hjp; [lia|]. exists p. split; [tauto|].
    apply or_default_given_kwo_None. rewrite (f2_kwo s c j p Hp1) in Hp2. unfold or_default.
    destruct (given_kwo c p); [discriminate|]. rewrite Hd. reflexivity.
Qed.

Lemma bind_c_unfold s c :
  bind_c s c =
  match kw_loop s (kws c) (kws c) (sl0 s c) [] with
  | inr e => Err e
  | inl (sl1, kwdict) =>
    let ca := length (param_names s) in
    if (ca <? npos c) && negb (is_some (varargs s)) then Err CTooManyPositional else
    let missing :=
      if npos c <? ca
      then map nm (filter (fun x => (npos c <=? idx x) && (idx x <? ca - defcount s) && negb (is_some (cur x))) sl1)
      else [] in
    if nonempty missing then Err (CMissingPositional missing) else
    let missing_kw :=
      map nm (filter (fun x => (ca <=? idx x) && negb (is_some (cur x)) && negb (mem (nm x) (defaults s))) (sl2 s c sl1)) in
    if nonempty missing_kw then Err (CMissingKwonly missing_kw) else
    Ok (flat_map item (map (fill_kw ca) (sl2 s c sl1))
        ++ map (fun va => (va, VarArgs (seq (min (npos c) ca) (npos c - min (npos c) ca)))) (opt_list (varargs s))
        ++ map (fun kn => (kn, KwArgs kwdict)) (opt_list (kwargs s)))
  end.
Proof. unfold bind_c, sl0, f0, defcount, sl2. rewrite (len_A s). reflexivity. Qed.

Lemma seq_min n ca : seq (min n ca) (n - min n ca) = seq ca (n - ca).
Proof.
  destruct (Nat.le_gt_cases n ca) as [H|H].
  - rewrite Nat.min_l by lia. replace (n - n) with 0 by lia. replace (n - ca) with 0 by lia. reflexivity.
  - rewrite Nat.min_r by lia. reflexivity.
Qed.

Theorem c_ref s c : wf_sig s -> wf_shape c -> follows_ref s c (bind_c s c).
Proof.
  intros [WN WD] NK. unfold wf_shape in NK. pose proof (wf_names s WN) as W. unfold follows_ref, RefErr.
  rewrite bind_c_unfold. pose proof (kw_loop_result s c W NK) as KL.
  destruct (kw_loop s (kws c) (kws c) (sl0 s c) []) as [[sl1 kwdict]|e];
    [|destruct KL as [H|H]; [left; exact H|right; left; exact H]].
  destruct KL as [-> [-> N12]]. cbv zeta.
  assert (N1 : ~ multiple_values s c) by (intros H; apply N12; left; exact H).
  destruct (too_manyP s c) as [H|N3]; [right; right; left; exact H|].
  destruct (c_missing_posP s c WD N1) as [H|N4]; [right; right; right; left; exact H|].
  rewrite sl2_slots. destruct (c_missing_kwoP s c) as [H|N5]; [right; right; right; right; exact H|].
  split; [intros [H|[H|[H|[H|H]]]]; [exact (N1 H)|apply N12; right; exact H|exact (N3 H)|exact (N4 H)|exact (N5 H)]|].
  rewrite (map_slots_of (fill_kw _) 0 (f2 s c) (varnames s) (fill_kw_keeps _)).
  rewrite seq_min. pose proof (nd_varnames s W) as NV. apply ref_dict_ext; auto.
  - intros j p Hjp. rewrite dget_app, (dget_flat_slots _ _ _ j p NV) by (apply indexed_varnames; auto).
    apply indexed_range in Hjp as R. unfold fill_kw. simpl. rewrite (proj2 (Nat.leb_gt _ j)) by lia. simpl.
    rewrite (f2_pos s c j p WD N1 Hjp), (or_default_ref_pos s c j p N4 Hjp). reflexivity.
  - intros p Hp. destruct (indexed_In (length (param_names s)) _ _ Hp) as [j Hjp].
    rewrite dget_app, (dget_flat_slots _ _ _ j p NV) by (apply indexed_varnames; auto).
    apply indexed_range in Hjp. unfold fill_kw. simpl. rewrite (proj2 (Nat.leb_le _ j)), f2_kwo by lia.
    unfold given_kwo, ref_val_kwo. destruct (mem p (kws c)); reflexivity.
  - intros va E. destruct (nd_va s W va E) as [H1 H2].
    apply dget_va_tail; [exact E|]. apply dget_flat_slots_notin, notin_varnames; assumption.
  - intros kn E. destruct (nd_kn s W kn E) as [H1 [H2 _]].
    apply dget_kn_tail; [exact W|exact E|]. apply dget_flat_slots_notin, notin_varnames; assumption.
Qed.

Lemma bind_agree_fixed_lemma :
  forall s c, wf_sig s -> wf_shape c -> agree s (bind_py_fixed s c) (bind_c s c).
Proof.
  intros s c WS WC. apply (follows_ref_agree s c); [apply wf_names, WS|apply py_ref|apply c_ref]; assumption.
Qed.

(* where the mapper before fix 98ee907 coincides with the repaired one *)
Lemma bind_py_eq_fixed s c :
  NoDup (param_names s) -> wf_shape c ->
  (kwargs s = None \/ forall k, In k (kws c) -> ~ In k (posonly s)) ->
  bind_py s c = bind_py_fixed s c.
Proof.
  intros NA NK H. unfold bind_py, bind_py_fixed. rewrite !bind_py_gen_unfold by assumption.
  destruct (nonempty (dup_kws s c)); [reflexivity|]. destruct (nonempty (extra_kws s c) && _); [reflexivity|].
  destruct (nonempty (posonly_kws s c) && _) eqn:E3; [reflexivity|].
  (* no keyword names a positional-only parameter: otherwise there is no **kwargs, and both have raised *)
  assert (EP : forall k, In k (kws c) -> ~ In k (posonly s)).
  { destruct H as [H|H]; [|exact H]. rewrite H, andb_true_r in E3. unfold posonly_kws in E3.
    rewrite nonempty_filter, existsb_false in E3. intros k Hk. apply mem_nIn, E3, Hk. }
  assert (callargs_gen false s c = callargs_gen true s c) as ->.
  { unfold callargs_gen. f_equal. symmetry. apply filter_all. intros [k v] Hin. apply in_map_iff in Hin.
    destruct Hin as [k' [E Hk']]. inversion E; subst. apply negb_true_iff, mem_nIn, EP, Hk'. }
  rewrite (extra_kws_boundary s c EP). reflexivity.
Qed.

Lemma bind_agree_partial_lemma :
  forall s c, wf_sig s -> wf_shape c ->
  (kwargs s = None \/ forall k, In k (kws c) -> ~ In k (posonly s)) ->
  agree s (bind_py s c) (bind_c s c).
Proof.
  intros s c WS WC H. rewrite (bind_py_eq_fixed s c (nd_A s (wf_names s (proj1 WS))) WC H).
  apply bind_agree_fixed_lemma; auto.
Qed.

(* outside that boundary the mapper before the fix disagrees with CPython on every call it accepts *)
Lemma bind_py_ok_kwargs s c kn d :
  kwargs s = Some kn -> bind_py s c = Ok d ->
  dget kn d = Some (KwArgs (filter (fun k => negb (mem k (param_names s ++ kwonly s))) (kws c))).
Proof.
  intros Hkn H. unfold bind_py, bind_py_gen in H. do 3 apply Err_else_Ok in H.
  destruct (find _ _) in H; [discriminate|]. rewrite py_tail_eq, Hkn in H. apply Err_else_Ok in H.
  injection H as <-. apply dget_dset_same.
Qed.

(* a mapper that leaves the keywords naming positional-only parameters out of **kwargs binds it differently
   from CPython as soon as there is such a keyword *)
Lemma kwargs_differs {E} s c (r : result E) d kn :
  wf_sig s -> wf_shape c -> kwargs s = Some kn -> (exists k, In k (kws c) /\ In k (posonly s)) ->
  r = Ok d -> dget kn d = Some (KwArgs (extra_kws s c)) -> ~ agree s r (bind_c s c).
Proof.
  intros WS WC Ekn [k [Hk HkP]] -> Hd Hag. pose proof (wf_names s (proj1 WS)) as W.
  pose proof (c_ref s c WS WC) as HC. destruct (bind_c s c) as [d2|e2]; simpl in Hag; [|exact Hag].
  destruct HC as [_ HC].
  pose proof (kwargs_in_all_names s kn Ekn) as Hin.
  destruct (Hag kn Hin) as [Heq _]. rewrite (HC kn Hin), (ref_dict_kn s c kn W Ekn), Hd in Heq.
  unfold ref_starstar in Heq. injection Heq as Hf.
  assert (In k (extra_kws s c)) as Hr.
  { rewrite Hf. apply filter_In. split; [exact Hk|]. apply negb_true_iff, mem_nIn.
    intros Hi. apply (kw_target s k W) in Hi. apply Hi, HkP. }
  apply filter_In in Hr. destruct Hr as [_ Hr]. apply negb_true_iff, mem_nIn in Hr.
  apply Hr, in_or_app. left. apply In_posonly_A, HkP.
Qed.

Lemma bind_disagree_exact_lemma :
  forall s c d, wf_sig s -> wf_shape c ->
  kwargs s <> None -> (exists k, In k (kws c) /\ In k (posonly s)) ->
  bind_py s c = Ok d -> ~ agree s (bind_py s c) (bind_c s c).
Proof.
  intros s c d WS WC Hkw Hk Hok. destruct (kwargs s) as [kn|] eqn:Ekn; [|congruence].
  apply (kwargs_differs s c _ d kn); auto. apply bind_py_ok_kwargs; auto.
Qed.

(* agreement holds exactly inside the boundary or when the mapper raises, for any mapper that agrees inside,
   disagrees outside when it accepts, and raises only when CPython does *)
Lemma agree_boundary {E} s c (r : result E) :
  ((kwargs s = None \/ forall k, In k (kws c) -> ~ In k (posonly s)) -> agree s r (bind_c s c)) ->
  (forall d, kwargs s <> None -> (exists k, In k (kws c) /\ In k (posonly s)) -> r = Ok d -> ~ agree s r (bind_c s c)) ->
  (is_err r = true -> is_err (bind_c s c) = true) ->
  (agree s r (bind_c s c) <->
   (kwargs s = None \/ (forall k, In k (kws c) -> ~ In k (posonly s)) \/ is_err r = true)).
Proof.
  intros Hin Hout Herr. split.
  - intros Hag. destruct (kwargs s) as [kn|] eqn:Ekn; [|auto]. right.
    destruct (existsb (fun k => mem k (posonly s)) (kws c)) eqn:EP.
    + right. destruct r as [d|e] eqn:Eb; [|reflexivity]. exfalso.
      apply existsb_exists in EP. destruct EP as [k [Hk Hm]]. apply mem_In in Hm.
      apply (Hout d); try congruence; eauto.
    + left. rewrite existsb_false in EP. intros k Hk. apply mem_nIn. auto.
  - intros [H|[H|H]]; [auto|auto|]. pose proof (Herr H) as HC.
    destruct r; [discriminate|]. destruct (bind_c s c); [discriminate|]. exact I.
Qed.

(* def f(x, /, **kw) *)
Definition sig_posonly_kwargs : sig := mkSig [0] [] [] [] None (Some 1).

Lemma nodupb_NoDup l : nodupb l = true -> NoDup l.
Proof.
  induction l; simpl; intros H; [constructor|]. apply andb_prop in H. destruct H as [H1 H2].
  constructor; auto. apply negb_true_iff in H1. apply mem_nIn. exact H1.
Qed.

(* the boolean checks the harness monitors imply the hypotheses of the theorems *)
Lemma wf_sigb_sound s : wf_sigb s = true -> wf_sig s.
Proof. unfold wf_sigb, wf_sig. intros H. apply andb_prop in H. destruct H. split; auto. apply nodupb_NoDup; auto. Qed.

Lemma wf_shapeb_sound c : nodupb (kws c) = true -> wf_shape c.
Proof. apply nodupb_NoDup. Qed.

Lemma wf_sig_posonly_kwargs : wf_sig sig_posonly_kwargs.
Proof. apply wf_sigb_sound. reflexivity. Qed.

(* the mapper before the fix is the more lenient of the two: whenever it raises, so does the repaired one *)
Lemma bind_py_err_fixed_err s c :
  NoDup (param_names s) -> wf_shape c -> is_err (bind_py s c) = true -> is_err (bind_py_fixed s c) = true.
Proof.
  intros NA NK. unfold bind_py, bind_py_fixed. rewrite !bind_py_gen_unfold by assumption.
  destruct (nonempty (dup_kws s c)); [reflexivity|]. destruct (nonempty (extra_kws s c) && _); [reflexivity|].
  destruct (nonempty (posonly_kws s c) && _); [reflexivity|].
  (* a parameter missing from callargs with all keywords entered is missing with fewer of them entered *)
  assert (MONO : forall key, dmem key (callargs_gen true s c) = true -> dmem key (callargs_gen false s c) = true).
  { intros key. unfold dmem, callargs_gen. cbv iota. set (X := dupdate _ (positional s c)).
    rewrite (dget_dupdate key X (kwsd c)) by (rewrite keys_kwsd; exact NK).
    rewrite (dget_dupdate key X (filter _ _))
      by (unfold kwsd; rewrite (keys_filter_map (fun k => negb (mem k (posonly s))) Kw); apply NoDup_filter, NK).
    unfold kwsd. rewrite (dget_filter_map (fun k => negb (mem k (posonly s))) Kw), dget_map_self.
    destruct (mem key (kws c)); simpl; auto. }
  destruct (find _ _) as [key|] eqn:EU.
  - intros _. apply find_some in EU. destruct EU as [Hin Hm]. apply negb_true_iff in Hm.
    destruct (find _ _) as [key'|] eqn:EF; [reflexivity|].
    pose proof (find_none _ _ EF key Hin) as Hf. apply negb_false_iff, MONO in Hf. congruence.
  - clear EU. destruct (find _ _); [reflexivity|]. destruct (_ && _); [reflexivity|discriminate].
Qed.

(* every error the mapper before the fix reports is a CPython TypeError *)
Lemma bind_err_sound_lemma :
  forall s c, wf_sig s -> wf_shape c -> is_err (bind_py s c) = true -> is_err (bind_c s c) = true.
Proof.
  intros s c WS WC H. pose proof (bind_py_err_fixed_err s c (nd_A s (wf_names s (proj1 WS))) WC H) as HF.
  pose proof (bind_agree_fixed_lemma s c WS WC) as Hag.
  destruct (bind_py_fixed s c); [discriminate|]. destruct (bind_c s c); simpl in *; [contradiction|reflexivity].
Qed.
