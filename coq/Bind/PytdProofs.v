(* C13 lemmas about coq/Bind/PytdModel.v: the stub-function mapper against the same closed-form
   description (RefErr, ref_dict) the other two binders are characterised with in Proofs.v. *)
From Coq Require Import List Arith Bool Lia.
From PV Require Import Bind.Model Bind.Proofs Bind.PytdModel.
Import ListNotations.

Lemma dmem_dset k k' v d : dmem k (dset k' v d) = (k =? k') || dmem k d.
Proof. unfold dmem. rewrite dget_dset. destruct (k =? k'); reflexivity. Qed.

Lemma named_loop_spec P ks :
  forall d, NoDup ks ->
  match named_loop P ks d with
  | inr _ => exists k, In k ks /\ negb (mem k P) && dmem k d = true
  | inl d' => (forall k, In k ks -> negb (mem k P) && dmem k d = false)
              /\ forall p, dget p d' = if mem p ks && negb (mem p P) then Some (Kw p) else dget p d
  end.
Proof.
  induction ks as [|k rest IH]; intros d NK; simpl.
  - split; [intros k []|reflexivity].
  - inversion NK as [|? ? Hk Hr]; subst.
    assert (Hne : forall k', In k' rest -> k' =? k = false) by (intros k' Hk'; apply Nat.eqb_neq; intros ->; auto).
    destruct (mem k P) eqn:EP; [|destruct (dmem k d) eqn:Ed].
    + specialize (IH d Hr). destruct (named_loop P rest d) as [d'|k0].
      * destruct IH as [IH1 IH2]. split; [intros k' [<-|Hk']; [rewrite EP; reflexivity|auto]|].
        intros p. rewrite IH2. destruct (p =? k) eqn:Epk; [|reflexivity].
        apply Nat.eqb_eq in Epk. subst p. rewrite EP, !andb_false_r. reflexivity.
      * destruct IH as [k' [Hk' H]]. eauto.
    + exists k. rewrite EP, Ed. auto.
    + specialize (IH (dset k (Kw k) d) Hr). destruct (named_loop P rest (dset k (Kw k) d)) as [d'|k0].
      * destruct IH as [IH1 IH2]. split.
        -- intros k' [<-|Hk']; [rewrite Ed; apply andb_false_r|].
           rewrite <- (IH1 k' Hk'), dmem_dset, (Hne k' Hk'). reflexivity.
        -- intros p. rewrite IH2, dget_dset. destruct (p =? k) eqn:Epk; [|reflexivity].
           apply Nat.eqb_eq in Epk. subst p. rewrite EP, (proj2 (mem_nIn k rest) Hk). reflexivity.
      * destruct IH as [k' [Hk' H]]. rewrite dmem_dset, (Hne k' Hk') in H. eauto.
Qed.

(* arg_dict before the keyword loop *)
Definition arg_dict0 (b : bool) (an : nat -> name) (s : sig) (c : shape) : dict :=
  if is_some (varargs s) && b
  then dupdate (positional s c)
               (map (fun i => (an i, Pos i)) (skipn (length (param_names s)) (seq 0 (npos c))))
  else positional s c.

Lemma arg_dict0_get b an s c p :
  (forall i, p <> an i) -> dget p (arg_dict0 b an s c) = dget p (positional s c).
Proof.
  intros H. unfold arg_dict0. destruct (is_some (varargs s) && b); auto.
  apply dget_dupdate_notin. unfold keys. rewrite map_map. simpl. rewrite in_map_iff.
  intros [i [E _]]. apply (H i). auto.
Qed.

Lemma dmem_arg_dict0 b an s c k :
  (forall i, k <> an i) ->
  (dmem k (arg_dict0 b an s c) = true <-> In k (firstn (npos c) (param_names s))).
Proof. intros H. unfold dmem. rewrite (arg_dict0_get b an s c k H), <- keys_positional. apply dmem_In. Qed.

Lemma named_loop_arg_dict0 b an s c :
  names_ok s -> NoDup (kws c) -> argname_fresh an s c ->
  match named_loop (posonly s) (kws c) (arg_dict0 b an s c) with
  | inr _ => multiple_values s c
  | inl AD => ~ multiple_values s c /\
              forall p, In p (param_names s ++ kwonly s) ->
                        dget p (callargs2 s c) = or_default (defaults s) p (dget p AD)
  end.
Proof.
  intros W NK FR.
  assert (FK : forall k, In k (kws c) -> forall i, k <> an i) by (intros k Hk i ->; apply (proj1 (FR i)), Hk).
  pose proof (named_loop_spec (posonly s) (kws c) (arg_dict0 b an s c) NK) as NL.
  destruct (named_loop _ _ _) as [AD|k0].
  - destruct NL as [NL HAD]. split.
    + intros H. apply (multiple_values_names s c W) in H. destruct H as [p [Hf Hc]].
      apply andb_prop in Hc. destruct Hc as [Hc1 Hc2]. apply mem_In in Hc2. specialize (NL p Hc2). rewrite Hc1 in NL.
      apply (dmem_arg_dict0 b an) in Hf; auto. simpl in NL. congruence.
    + (* arg_dict is callargs2 without the defaults *)
      intros p Hp. rewrite HAD, callargs2_get by (auto; apply W). destruct (_ && _); [reflexivity|].
      rewrite (arg_dict0_get b an s c p); [reflexivity|]. intros i ->. apply (proj2 (FR i)), Hp.
  - destruct NL as [k [Hk Hc]]. apply andb_prop in Hc. destruct Hc as [Hc1 Hc2].
    apply (multiple_values_names s c W). exists k. split; [apply (dmem_arg_dict0 b an); auto|].
    rewrite Hc1. apply mem_In, Hk.
Qed.

Theorem pytd_ref b an s c :
  wf_sig s -> wf_shape c -> argname_fresh an s c ->
  match bind_pytd b an s c with
  | Err _ => RefErr s c
  | Ok d => ~ RefErr s c /\
            forall p, In p (all_names s) ->
              (kwargs s <> Some p -> dget p d = dget p (ref_dict s c)) /\
              (kwargs s = Some p -> dget p d = Some (KwArgs (extra_kws s c)))
  end.
Proof.
  intros [WN _] NK FR. unfold wf_shape in NK. pose proof (wf_names s WN) as W.
  unfold bind_pytd. cbv zeta. rewrite seq_length, skipn_seq.
  change (dupdate [] (combine (param_names s) (map Pos (seq 0 (npos c))))) with (dict_of (positional s c)).
  rewrite (dict_of_id (positional s c)) by (rewrite keys_positional; apply NoDup_firstn, W).
  rewrite <- skipn_seq. fold (arg_dict0 b an s c). rewrite skipn_seq.
  fold (extra_kws s c) (posonly_kws s c). unfold RefErr.
  destruct (too_manyP s c) as [H|N3]; [right; right; left; exact H|].
  pose proof (named_loop_arg_dict0 b an s c W NK FR) as NL.
  destruct (named_loop _ _ _) as [AD|k0]; [|left; exact NL]. destruct NL as [N1 R].
  pose proof (extra_kws_spec s c W) as N2.
  destruct (nonempty (extra_kws s c) && _); [right; left; exact N2|].
  destruct (nonempty (posonly_kws s c) && _); [right; left; exact N2|]. simpl in N2.
  destruct (find _ _) as [key|] eqn:E4.
  { apply find_some in E4. destruct E4 as [Hin Hm]. apply andb_prop in Hm. destruct Hm as [Hm HD].
    apply negb_true_iff in Hm, HD.
    assert (Hg : dget key (callargs2 s c) = None).
    { rewrite (R key Hin). unfold dmem in Hm. destruct (dget key AD); [discriminate|]. unfold or_default. rewrite HD. reflexivity. }
    apply in_app_or in Hin. destruct Hin as [HA|HK].
    - right. right. right. left. eapply callargs2_missing_pos; eauto.
    - right. right. right. right. eapply callargs2_missing_kwo; eauto. }
  assert (N45 : ~ (missing_positional s c \/ missing_kwonly s c)).
  { intros H. destruct (missing_callargs2 s c W NK N1 H) as [p [Hin Hg]].
    pose proof (incl_app_app (incl_filter _ _) (incl_refl _) p Hin) as Hin'.
    rewrite (R p Hin') in Hg. apply (find_none _ _ E4) in Hin'. unfold or_default, dmem in *.
    destruct (dget p AD); [discriminate|]. destruct (mem p (defaults s)); discriminate. }
  split; [intros [H|[H|[H|[H|H]]]]; [exact (N1 H)|exact (N2 H)|exact (N3 H)|apply N45; left; exact H|apply N45; right; exact H]|].
  (* the result lists the parameters with what arg_dict holds, else their default *)
  set (front := map _ (param_names s ++ kwonly s)).
  assert (F : forall p v, In p (param_names s ++ kwonly s) -> dget p (callargs2 s c) = Some v -> dget p front = Some v).
  { intros p v Hp Hg. unfold front. rewrite dget_map_self, (proj2 (mem_In _ _) Hp). rewrite (R p Hp) in Hg.
    unfold or_default in Hg. destruct (dget p AD); [exact Hg|]. destruct (mem p (defaults s)); [exact Hg|discriminate]. }
  assert (FN : forall p, ~ In p (param_names s) -> ~ In p (kwonly s) -> dget p front = None).
  { intros p H1 H2. unfold front. rewrite dget_map_self, (proj2 (mem_nIn p _)); [reflexivity|].
    intros Hin. apply in_app_or in Hin. destruct Hin as [Hin|Hin]; [exact (H1 Hin)|exact (H2 Hin)]. }
  intros p Hp. split.
  - intros Hne. rewrite !app_assoc, (dget_kwargs_irrelevant s _ _ (ref_starstar s c) p Hne), <- !app_assoc.
    clear Hne. revert p Hp. apply ref_dict_ext; auto.
    + intros j p Hjp. rewrite dget_app, (F p (ref_val_pos s c j p)); auto using callargs2_ref_pos.
      apply in_or_app. left. apply (indexed_range _ _ _ _ Hjp).
    + intros p Hp. rewrite dget_app, (F p (ref_val_kwo c p)); auto using callargs2_ref_kwo, in_or_app.
    + intros va E. destruct (nd_va s W va E). apply dget_va_tail; auto.
    + intros kn E. destruct (nd_kn s W kn E) as [? [? _]]. apply dget_kn_tail; auto.
  - intros E. destruct (nd_kn s W p E) as [? [? _]]. apply dget_kn_tail; auto.
Qed.

Lemma bind_pytd_agree_except_kwargs_lemma :
  forall b an s c, wf_sig s -> wf_shape c -> argname_fresh an s c ->
  agree_except_kwargs s (bind_pytd b an s c) (bind_c s c).
Proof.
  intros b an s c WS WC FR. pose proof (pytd_ref b an s c WS WC FR) as HP. pose proof (c_ref s c WS WC) as HC.
  pose proof (wf_names s (proj1 WS)) as W.
  destruct (bind_pytd b an s c) as [d1|e1], (bind_c s c) as [d2|e2]; simpl in *; try tauto.
  destruct HP as [_ HP], HC as [_ HC]. intros p Hp Hne. destruct (HP p Hp) as [H1 _].
  rewrite (H1 Hne), (HC p Hp). split; auto. apply ref_dict_total; auto.
Qed.

Lemma bind_pytd_err_agree_lemma :
  forall b an s c, wf_sig s -> wf_shape c -> argname_fresh an s c ->
  is_err (bind_pytd b an s c) = is_err (bind_c s c).
Proof.
  intros b an s c WS WC FR. pose proof (bind_pytd_agree_except_kwargs_lemma b an s c WS WC FR) as H.
  destruct (bind_pytd b an s c), (bind_c s c); simpl in *; auto; contradiction.
Qed.

Lemma bind_pytd_agree_partial_lemma :
  forall b an s c, wf_sig s -> wf_shape c -> argname_fresh an s c ->
  (kwargs s = None \/ forall k, In k (kws c) -> ~ In k (posonly s)) ->
  agree s (bind_pytd b an s c) (bind_c s c).
Proof.
  intros b an s c WS WC FR Hb. pose proof (wf_names s (proj1 WS)) as W.
  apply (follows_ref_agree s c); [exact W| |apply c_ref; assumption].
  pose proof (pytd_ref b an s c WS WC FR) as HP. destruct (bind_pytd b an s c) as [d|e]; [|exact HP].
  destruct HP as [HN HP]. split; [exact HN|]. intros p Hp. destruct (HP p Hp) as [H1 H2].
  destruct (kwargs s) as [kn|] eqn:Ekn; [|apply H1; discriminate].
  destruct (Nat.eq_dec kn p) as [->|Hne]; [|apply H1; congruence].
  rewrite (H2 eq_refl), (ref_dict_kn s c p W Ekn). unfold ref_starstar.
  destruct Hb as [Hb|Hb]; [discriminate|]. rewrite (extra_kws_boundary s c Hb). reflexivity.
Qed.

Lemma bind_pytd_disagree_exact_lemma :
  forall b an s c d, wf_sig s -> wf_shape c -> argname_fresh an s c ->
  kwargs s <> None -> (exists k, In k (kws c) /\ In k (posonly s)) ->
  bind_pytd b an s c = Ok d -> ~ agree s (bind_pytd b an s c) (bind_c s c).
Proof.
  intros b an s c d WS WC FR Hkw Hk Hok. destruct (kwargs s) as [kn|] eqn:Ekn; [|congruence].
  apply (kwargs_differs s c _ d kn); auto.
  pose proof (pytd_ref b an s c WS WC FR) as HP. rewrite Hok in HP.
  apply HP; [apply kwargs_in_all_names|]; exact Ekn.
Qed.

(* function.argname under the harness's numbering of names: "_<i>" is 14 + i *)
Definition argname14 (i : nat) : name := 14 + i.
