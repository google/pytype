(* C13, call sites with splats: the witnesses that refute "no false positives" for the repository's unpacker,
   and the facts about the call-depth rule.  (The general lemmas are in Bind/SplatProofs.v.) *)
From Coq Require Import List Arith Bool Lia.
From PV Require Import Bind.Model Bind.Proofs Bind.SplatModel.
Import ListNotations.

(* def f(d): ...   f( *xs, *(a,))  -- Args.starargs = (Splat xs, a) *)
Definition sig_one : sig := mkSig [] [3] [] [] None None.
Definition call_star_then_arg : xcall := mkX 0 [IStar; IArg] [] false.

(* def f(a, /, d, **kw): ...   f( *xs, a=k) *)
Definition sig_posonly_kw : sig := mkSig [0] [3] [] [] None (Some 10).
Definition call_star_posonly_kw : xcall := mkX 0 [IStar] [0] false.

(* the depth rule: the body is given up on exactly beyond the limit (never for __init__) *)
Lemma depth_unsolvable_iff_lemma :
  forall max_depth frames is_init s c,
  call_at_depth max_depth frames is_init s c = OUnsolvable <->
  (is_err (bind_px s c) = false /\ max_depth < frames /\ is_init = false).
Proof.
  intros. unfold call_at_depth. destruct (bind_px s c) as [d|e']; simpl.
  - destruct (max_depth <? frames) eqn:E; simpl.
    + apply Nat.ltb_lt in E. destruct is_init; simpl; split; try discriminate; intuition discriminate.
    + apply Nat.ltb_ge in E. split; [discriminate|]. intros [_ [H _]]. lia.
  - split; [discriminate|]. intros [H _]. discriminate.
Qed.

(* module-level code handing a function through n helpers calls it with 1 + n frames on the stack:
   with the limit 4 of the module-loading run, the callee's body is not analysed from 4 helpers on *)
Lemma depth_helpers_lemma :
  forall helpers s c, is_err (bind_px s c) = false ->
  (call_at_depth 4 (frames_at_call helpers) false s c = OUnsolvable <-> 4 <= helpers).
Proof.
  intros helpers s c H. rewrite depth_unsolvable_iff_lemma. unfold frames_at_call. split.
  - intros [_ [L _]]. lia.
  - intros L. repeat split; auto. lia.
Qed.
