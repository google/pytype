(* Proofs about coq/Bind/FormsModel.v: receiver insertion, constructors, overload selection. *)
From Coq Require Import List Arith Bool Lia.
From PV Require Import Bind.Model Bind.Proofs Bind.PytdModel Bind.PytdProofs Bind.FormsModel.
Import ListNotations.

Lemma wf_shape_insert c : wf_shape c -> wf_shape (insert c).
Proof. intro H; exact H. Qed.

Lemma form_insert_py_lemma :
  forall E (argcount : sig -> nat) (B : sig -> shape -> result E) f s c,
  receiver f = true -> 1 <= argcount s -> call_form_py argcount B f s c = B s (insert c).
Proof.
  intros E ac B f s c Hr Ha. unfold call_form_py, bound_call. rewrite Hr.
  destruct (1 <=? ac s) eqn:H; [reflexivity|]. apply Nat.leb_gt in H. lia.
Qed.

Lemma form_plain_py_lemma :
  forall E (argcount : sig -> nat) (B : sig -> shape -> result E) f s c,
  receiver f = false -> call_form_py argcount B f s c = B s c.
Proof. intros. unfold call_form_py. rewrite H. reflexivity. Qed.

Lemma form_insert_c_lemma :
  forall f s c, call_form_c f s c = bind_c s (if receiver f then insert c else c).
Proof. reflexivity. Qed.

Lemma argcount_src_pos s : param_names s <> [] -> 1 <= argcount_src s.
Proof. unfold argcount_src. destruct (param_names s); [congruence|simpl; lia]. Qed.

Lemma form_agree_gen :
  forall (B : sig -> shape -> result py_err) f s c,
  (forall c', kws c' = kws c -> agree s (B s c') (bind_c s c')) ->
  (receiver f = true -> param_names s <> []) ->
  agree s (call_form_py argcount_src B f s c) (call_form_c f s c).
Proof.
  intros B f s c HB Hp. unfold call_form_c. destruct (receiver f) eqn:Hr.
  - rewrite form_insert_py_lemma by (auto using argcount_src_pos). apply HB. reflexivity.
  - rewrite form_plain_py_lemma by assumption. apply HB. reflexivity.
Qed.

Definition fresh_for (s : sig) (c : shape) (i : nat) : name :=
  S (list_max (kws c ++ param_names s ++ kwonly s)) + i.

Lemma in_le_list_max x l : In x l -> x <= list_max l.
Proof.
  intro H. pose proof (proj1 (list_max_le l (list_max l)) (Nat.le_refl _)) as HF.
  rewrite Forall_forall in HF. apply HF. assumption.
Qed.

Lemma fresh_for_fresh s c : argname_fresh (fresh_for s c) s c.
Proof.
  intro i. unfold fresh_for. split; intro H; apply in_le_list_max in H.
  - assert (list_max (kws c) <= list_max (kws c ++ param_names s ++ kwonly s)).
    { rewrite list_max_app. lia. }
    lia.
  - assert (list_max (param_names s ++ kwonly s) <= list_max (kws c ++ param_names s ++ kwonly s)).
    { rewrite (list_max_app (kws c)). lia. }
    lia.
Qed.

Lemma bind_pytd_false_argname an an' s c : bind_pytd false an s c = bind_pytd false an' s c.
Proof. unfold bind_pytd. rewrite andb_false_r. reflexivity. Qed.

Lemma pytd_false_err_agree an s c :
  wf_sig s -> wf_shape c -> is_err (bind_pytd false an s c) = is_err (bind_c s c).
Proof.
  intros WS WC. rewrite (bind_pytd_false_argname an (fresh_for s c)).
  apply bind_pytd_err_agree_lemma; auto using fresh_for_fresh.
Qed.

Lemma wf_object_init : wf_sig OBJECT_INIT.
Proof. apply wf_sigb_sound. reflexivity. Qed.
Lemma wf_object_init_extra : wf_sig OBJECT_INIT_EXTRA.
Proof. apply wf_sigb_sound. reflexivity. Qed.

(* CPython binding  def __init__(self)  to (obj, written arguments): raises iff something was written *)
Lemma bind_c_object_init c : is_err (bind_c OBJECT_INIT (insert c)) = excess c.
Proof.
  destruct c as [n ks]. unfold excess, insert. cbn [npos kws].
  destruct ks as [|k rest].
  - destruct n as [|n]; reflexivity.
  - replace ((0 <? n) || nonempty (k :: rest)) with true by (cbn; rewrite orb_true_r; reflexivity).
    unfold bind_c. cbn [posonly pos_or_kw kwonly kws npos OBJECT_INIT length app Nat.add].
    replace (Nat.min (S n) 1) with 1 by lia.
    cbn [indexed map fst snd Nat.ltb Nat.leb]. cbn [kw_loop assign idx nm cur length posonly OBJECT_INIT Nat.leb andb].
    destruct (SELF =? k) eqn:Hk; cbn; reflexivity.
Qed.

Lemma kw_loop_extra all ks kd :
  ~ In SELF ks ->
  kw_loop OBJECT_INIT_EXTRA all ks [mkSlot 0 SELF (Some (Pos 0))] kd
  = inl ([mkSlot 0 SELF (Some (Pos 0))], kd ++ ks).
Proof.
  revert kd. induction ks as [|k ks IH]; intros kd Hn.
  - rewrite app_nil_r. reflexivity.
  - cbn [kw_loop assign idx nm cur length posonly OBJECT_INIT_EXTRA Nat.leb andb].
    destruct (SELF =? k) eqn:Hk.
    + apply Nat.eqb_eq in Hk. exfalso. apply Hn. left. symmetry. assumption.
    + cbn [lift kwargs OBJECT_INIT_EXTRA]. rewrite IH.
      * rewrite <- app_assoc. reflexivity.
      * intro H. apply Hn. right. assumption.
Qed.

(* CPython binding  def __init__extra_args(self, *args, **kwargs): accepts everything except self= *)
Lemma bind_c_object_init_extra c :
  ~ In SELF (kws c) -> is_err (bind_c OBJECT_INIT_EXTRA (insert c)) = false.
Proof.
  destruct c as [n ks]. unfold insert. cbn [npos kws]. intro Hn.
  unfold bind_c. cbn [posonly pos_or_kw kwonly kws npos OBJECT_INIT_EXTRA length app Nat.add].
  replace (Nat.min (S n) 1) with 1 by lia.
  cbn [indexed map fst snd Nat.ltb Nat.leb].
  rewrite kw_loop_extra by assumption.
  cbn [varargs OBJECT_INIT_EXTRA is_some negb andb]. rewrite andb_false_r.
  cbn [defaults filter mem existsb length Nat.sub].
  replace (S n <? 1) with false by (symmetry; apply Nat.ltb_ge; lia).
  cbn. reflexivity.
Qed.

Lemma object_init_py an c :
  wf_shape c ->
  is_err (bound_call argcount_pytd (bind_pytd false an) OBJECT_INIT c) = excess c.
Proof.
  intro WC. unfold bound_call. change (1 <=? argcount_pytd OBJECT_INIT) with true. cbv iota.
  rewrite pytd_false_err_agree by (auto using wf_object_init). apply bind_c_object_init.
Qed.

Lemma object_init_extra_py an c :
  wf_shape c -> ~ In SELF (kws c) ->
  is_err (bound_call argcount_pytd (bind_pytd false an) OBJECT_INIT_EXTRA c) = false.
Proof.
  intros WC Hn. unfold bound_call. change (1 <=? argcount_pytd OBJECT_INIT_EXTRA) with true. cbv iota.
  rewrite pytd_false_err_agree by (auto using wf_object_init_extra). apply bind_c_object_init_extra. assumption.
Qed.

Lemma ctor_agree_gen :
  forall (B : sig -> shape -> result py_err) an m c,
  (forall s c', kws c' = kws c -> wf_sig s -> agree s (B s c') (bind_c s c')) ->
  wf_mro m -> wf_shape c ->
  (lookup c_new m <> None -> lookup c_init m = None -> ~ In SELF (kws c)) ->
  ctor_agree m (ctor_py B an m c) (ctor_c m c).
Proof.
  intros B an m c HB [Wn Wi] WC Hself.
  unfold ctor_py, ctor_c, ctor_agree, init_py.
  destruct (lookup c_new m) as [sn|] eqn:En; destruct (lookup c_init m) as [si|] eqn:Ei.
  - (* the hierarchy defines __new__ and __init__ *)
    pose proof (HB sn (insert c) eq_refl (Wn sn eq_refl)) as An.
    destruct (Wi si eq_refl) as [WSi Pi].
    pose proof (HB si (insert c) eq_refl WSi) as Ai.
    unfold bound_call. replace (1 <=? argcount_src si) with true
      by (symmetry; apply Nat.leb_le; auto using argcount_src_pos).
    destruct (B sn (insert c)) as [dn|e1]; destruct (bind_c sn (insert c)) as [dn'|e1']; cbn in An; try contradiction; cbn; auto.
    destruct (B si (insert c)) as [di|e2]; destruct (bind_c si (insert c)) as [di'|e2']; cbn in Ai; try contradiction; cbn; auto.
  - (* __new__ and object's __init__ *)
    pose proof (HB sn (insert c) eq_refl (Wn sn eq_refl)) as An.
    assert (Hs : ~ In SELF (kws c)) by (apply Hself; congruence).
    pose proof (object_init_extra_py an c WC Hs) as Ho.
    unfold bound_call in Ho |- *. cbv beta iota in Ho |- *.
    change (1 <=? argcount_pytd OBJECT_INIT_EXTRA) with true in Ho |- *. cbv iota in Ho |- *.
    destruct (bind_pytd false an OBJECT_INIT_EXTRA (insert c)) as [d0|e0]; [|discriminate Ho].
    destruct (B sn (insert c)) as [dn|e1]; destruct (bind_c sn (insert c)) as [dn'|e1']; cbn in An; try contradiction; cbn; auto.
    rewrite andb_false_r. cbn. auto.
  - (* object's __new__ and a user __init__ *)
    destruct (Wi si eq_refl) as [WSi Pi].
    pose proof (HB si (insert c) eq_refl WSi) as Ai.
    unfold bound_call. replace (1 <=? argcount_src si) with true
      by (symmetry; apply Nat.leb_le; auto using argcount_src_pos).
    cbn. rewrite andb_false_r.
    destruct (B si (insert c)) as [di|e2]; destruct (bind_c si (insert c)) as [di'|e2']; cbn in Ai; try contradiction; cbn; auto.
  - (* neither is defined *)
    pose proof (object_init_py an c WC) as Ho.
    unfold bound_call in Ho |- *. cbv beta iota in Ho |- *.
    change (1 <=? argcount_pytd OBJECT_INIT) with true in Ho |- *. cbv iota in Ho |- *.
    cbn [is_some negb]. rewrite andb_true_r.
    destruct (bind_pytd false an OBJECT_INIT (insert c)) as [d0|e0]; cbn in Ho; rewrite <- Ho; cbn; auto.
Qed.

Lemma ctor_agree_fixed_lemma :
  forall an m c, wf_mro m -> wf_shape c ->
  (lookup c_new m <> None -> lookup c_init m = None -> ~ In SELF (kws c)) ->
  ctor_agree m (ctor_py bind_py_fixed an m c) (ctor_c m c).
Proof.
  intros an m c WM WC Hs. apply ctor_agree_gen; auto.
  intros s c' Hk WS. apply bind_agree_fixed_lemma; auto. unfold wf_shape in *. rewrite Hk. assumption.
Qed.

(* def __new__(cls, **kw) *)
Definition new_kw : sig := mkSig [] [13] [] [] None (Some 10).

Lemma lookup_app sel m1 m2 :
  lookup sel (m1 ++ m2) = match lookup sel m1 with Some s => Some s | None => lookup sel m2 end.
Proof. induction m1 as [|k t IH]; cbn; [reflexivity|]. destruct (sel k); auto. Qed.

Lemma lookup_none sel m : (forall k, In k m -> sel k = None) -> lookup sel m = None.
Proof.
  induction m as [|k t IH]; intro H; [reflexivity|]. cbn. rewrite (H k (or_introl eq_refl)).
  apply IH. intros k' Hk'. apply H. right. assumption.
Qed.

Lemma match_seq_spec E (B : sig -> shape -> result E) sigs c :
  forall error matched,
  match_seq B sigs c error matched
  = (match error with Some e => Some e | None => first_err B sigs c end, matched ++ oks B sigs c).
Proof.
  induction sigs as [|s rest IH]; intros error matched.
  - cbn. rewrite app_nil_r. destruct error; reflexivity.
  - cbn [match_seq first_err oks flat_map]. destruct (B s c) as [d|e].
    + rewrite IH. rewrite <- app_assoc. reflexivity.
    + rewrite IH. destruct error; reflexivity.
Qed.

Lemma oks_nil_iff E (B : sig -> shape -> result E) sigs c :
  oks B sigs c = [] <-> forallb (fun s => is_err (B s c)) sigs = true.
Proof.
  induction sigs as [|s rest IH]; cbn; [tauto|].
  fold (oks B rest c). destruct (B s c); cbn; [split; discriminate|exact IH].
Qed.

Lemma overload_err_iff_gen E (B : sig -> shape -> result E) sigs c :
  ov_is_err (call_overloaded B sigs c) = forallb (fun s => is_err (B s c)) sigs.
Proof.
  unfold call_overloaded. rewrite match_seq_spec. cbn [app].
  destruct (oks B sigs c) eqn:Ho.
  - apply oks_nil_iff in Ho. rewrite Ho. destruct (first_err B sigs c); reflexivity.
  - cbn. symmetry. apply not_true_is_false. intro H. apply oks_nil_iff in H. congruence.
Qed.

Lemma overload_single_lemma :
  forall E (B : sig -> shape -> result E) s c,
  call_overloaded B [s] c = match B s c with Err e => OvErr e | Ok d => OvOk [(s, d)] end.
Proof. intros. unfold call_overloaded. cbn. destruct (B s c); reflexivity. Qed.
