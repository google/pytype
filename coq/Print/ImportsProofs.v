(* The import block of coq/Print/Imports.v: every typing name a printed type shows is counted by the events recorded
   for it (cov_ty), every dotted name has an imported prefix with its line, the lines are sorted and without repeats. *)
From Coq Require Import List NArith ZArith Bool Arith Lia Sorted Permutation.
From PV Require Import Print.Model Print.Proofs Print.Decl Print.DeclProofs Print.Imports.
Import ListNotations.

Lemma net_app : forall k a b, net k (a ++ b) = (net k a + net k b)%Z.
Proof. induction a; intros; cbn [app net]; [reflexivity | rewrite IHa; lia]. Qed.

Lemma net_pos_added : forall k l, (0 < net k l)%Z -> In (EAdd k) l.
Proof.
  induction l as [|e r IH]; cbn [net]; intros H; [lia|].
  destruct e as [j|j]; cbn [net1] in H.
  - destruct (j =? k)%N eqn:E; [apply N.eqb_eq in E; subst; left; reflexivity | right; apply IH; lia].
  - right; apply IH. destruct (j =? k)%N; lia.
Qed.

(* the typing members the theorems speak about: every member except the two names that _FormatContainerContents
   decrements without ever having added them *)
Definition tk (k : N) : Prop := is_typing k = true /\ k <> id_Tuple /\ k <> id_Dict.

(* `e` covers the names `ns`: no count drops below where it was, and every listed name is counted *)
Definition cov (e : list ev) (ns : list N) : Prop :=
  forall k, tk k -> (0 <= net k e)%Z /\ (In k ns -> (0 < net k e)%Z).

Lemma cov_nil : cov [] [].
Proof. intros k _; cbn; split; [lia | intros []]. Qed.

Lemma cov_app : forall e1 e2 n1 n2, cov e1 n1 -> cov e2 n2 -> cov (e1 ++ e2) (n1 ++ n2).
Proof.
  intros e1 e2 n1 n2 H1 H2 k Hk. destruct (H1 k Hk) as [A1 B1], (H2 k Hk) as [A2 B2].
  rewrite net_app. split; [lia|]. intros Hin. apply in_app_or in Hin. destruct Hin as [Hin|Hin]; [specialize (B1 Hin) | specialize (B2 Hin)]; lia.
Qed.

Lemma cov_weaken : forall e n n', cov e n -> (forall k, In k n' -> In k n) -> cov e n'.
Proof. intros e n n' H Hs k Hk. destruct (H k Hk) as [A B]. split; [exact A | intros Hin; apply B, Hs, Hin]. Qed.

Lemma cov_flat_map : forall {A} (f : A -> list ev) (g : A -> list N) l,
  (forall x, In x l -> cov (f x) (g x)) -> cov (flat_map f l) (flat_map g l).
Proof.
  induction l as [|x r IH]; intros H; cbn [flat_map]; [apply cov_nil|].
  apply cov_app; [apply H; left; reflexivity | apply IH; intros y Hy; apply H; right; exact Hy].
Qed.

Lemma cov_add : forall k, cov [EAdd k] [k].
Proof.
  intros k j Hj. cbn [net net1]. destruct (k =? j)%N eqn:E; split; try lia.
  intros [H|[]]. subst. rewrite N.eqb_refl in E. discriminate.
Qed.

Definition tnames (ts : list token) : list N := filter is_typing (tok_names ts).

Lemma in_tok_names : forall k ts, In k (tok_names ts) <-> In (TName k) ts.
Proof.
  intros k ts. unfold tok_names. rewrite in_flat_map. split.
  - intros [t [Ht Hk]]. destruct t; try (destruct Hk; fail). destruct Hk as [<-|[]]. exact Ht.
  - intros H. exists (TName k). split; [exact H | left; reflexivity].
Qed.

Lemma in_sep : forall x l, In x (sep l) -> x = TComma \/ exists s, In s l /\ In x s.
Proof.
  induction l as [|a r IH]; cbn [sep]; intros H; [destruct H|].
  destruct r as [|b r'].
  - right. exists a. split; [left; reflexivity | exact H].
  - apply in_app_or in H. destruct H as [H|[H|H]].
    + right. exists a. split; [left; reflexivity | exact H].
    + left. symmetry. exact H.
    + destruct (IH H) as [E|[s [Hs Hx]]]; [left; exact E | right; exists s; split; [right; exact Hs | exact Hx]].
Qed.

Lemma in_sub_name : forall k b args, In (TName k) (sub b args) -> In (TName k) b \/ exists s, In s args /\ In (TName k) s.
Proof.
  intros k b args H. unfold sub in H. apply in_app_or in H. destruct H as [H|[H|H]]; [left; exact H | discriminate |].
  apply in_app_or in H. destruct H as [H|[H|[]]]; [|discriminate].
  destruct (in_sep _ _ H) as [E|E]; [discriminate | right; exact E].
Qed.

Lemma match_literal_some : forall s cnt, match_literal s = Some cnt -> s = TName id_Literal :: TLBr :: cnt ++ [TRBr].
Proof.
  intros s cnt H. unfold match_literal in H.
  destruct s as [|t0 s]; [discriminate|]. destruct t0 as [i| | | | | | | | | | | | | | | | |]; try discriminate.
  destruct s as [|t1 r]; [discriminate|]. destruct t1; try discriminate.
  destruct (i =? id_Literal)%N eqn:E; [|discriminate]. apply N.eqb_eq in E. subst i.
  destruct (rev r) as [|t2 cr] eqn:Er; [discriminate|]. destruct t2; try discriminate. injection H as <-.
  rewrite <- (rev_involutive r), Er. cbn [rev]. reflexivity.
Qed.

Lemma split_lits_in : forall l nl ls, split_lits l = (nl, ls) ->
  (forall s, In s nl -> In s l) /\
  (forall cnt, In cnt ls -> In (TName id_Literal :: TLBr :: cnt ++ [TRBr]) l).
Proof.
  induction l as [|s r IH]; cbn [split_lits]; intros nl ls H.
  - injection H as <- <-. split; intros ? [].
  - destruct (split_lits r) as [nl0 ls0]. destruct (IH nl0 ls0 eq_refl) as [A B].
    destruct (match_literal s) as [cnt|] eqn:M; injection H as <- <-.
    + split; [intros x Hx; right; apply A, Hx|]. intros c [<-|Hc]; [left; apply match_literal_some, M | right; apply B, Hc].
    + split; [intros x [<-|Hx]; [left; reflexivity | right; apply A, Hx] | intros c Hc; right; apply B, Hc].
Qed.

Lemma coalesce_names : forall l s k, In s (coalesce l) -> In (TName k) s -> exists s0, In s0 l /\ In (TName k) s0.
Proof.
  intros l s k Hs Hk. unfold coalesce in Hs. destruct (split_lits l) as [nl ls] eqn:E.
  destruct (split_lits_in _ _ _ E) as [A B].
  destruct ls as [|c0 lr].
  - exists s. split; [apply A, Hs | exact Hk].
  - apply in_app_or in Hs. destruct Hs as [Hs|[<-|[]]]; [exists s; split; [apply A, Hs | exact Hk]|].
    destruct (in_sub_name _ _ _ Hk) as [[H|[]]|[c [Hc Hkc]]].
    + injection H as <-. eexists. split; [apply (B c0); left; reflexivity | left; reflexivity].
    + eexists. split; [apply (B c), Hc|]. right. right. apply in_or_app. left. exact Hkc.
Qed.

Lemma sub_names : forall T l k, In (TName k) (sub [TName T] l) -> k = T \/ exists s, In s l /\ In (TName k) s.
Proof. intros T l k H. destruct (in_sub_name _ _ _ H) as [[E|[]]|E]; [left; congruence | right; exact E]. Qed.

Lemma build_union1_names : forall l k, In (TName k) (build_union1 l) ->
  (exists s, In s l /\ In (TName k) s) \/ In (EAdd k) (tev_union1 l).
Proof.
  intros l k H. unfold build_union1 in H. unfold tev_union1. pose proof (coalesce_names l) as Hc.
  destruct (coalesce l) as [|x [|y r]].
  - destruct (sub_names _ _ _ H) as [->|(s & [] & _)]. right. left. reflexivity.
  - left. apply (Hc x k); [left; reflexivity | exact H].
  - destruct (sub_names _ _ _ H) as [->|(s & Hs & Hk)]; [right; left; reflexivity | left; apply (Hc s k Hs Hk)].
Qed.

Lemma build_union_names : forall l k, In (TName k) (build_union l) ->
  (exists s, In s l /\ In (TName k) s) \/ In (EAdd k) (tev_union l).
Proof.
  intros l k H. unfold build_union in H. unfold tev_union. pose proof (coalesce_names l) as Hc.
  destruct (coalesce l) as [|x [|y r]].
  - destruct (sub_names _ _ _ H) as [->|(s & [] & _)]. right. left. reflexivity.
  - left. apply (Hc x k); [left; reflexivity | exact H].
  - destruct (existsb is_none_s (x :: y :: r)).
    + destruct (sub_names _ _ _ H) as [->|(s & [<-|[]] & Hk)]; [right; left; reflexivity|].
      destruct (build_union1_names _ _ Hk) as [(s & Hs & Hks)|Hadd]; [left | right; right; exact Hadd].
      apply filter_In in Hs. apply (Hc s k (proj1 Hs) Hks).
    + destruct (sub_names _ _ _ H) as [->|(s & Hs & Hk)]; [right; left; reflexivity | left; apply (Hc s k Hs Hk)].
Qed.

Lemma form_set_incl : forall c l x, In x (form_set c l) -> In x l.
Proof.
  intros c l x H. unfold form_set in H. destruct (in_param c); [apply fold_compat_sub in H|]; apply (dedup_incl tokens_eqb), H.
Qed.

Section Types.
Variable bev : N -> list ev.
Variable env : penv.
Hypothesis Hbev : forall i k, (0 <= net k (bev i))%Z.

Lemma tk_typing : forall k, tk k -> is_typing k = true. Proof. intros k H; apply H. Qed.

Lemma ord_not_typing : forall i, ord_id env i = true -> is_typing i = false.
Proof. intros i H. unfold ord_id in H. destruct (is_typing i); [discriminate | reflexivity]. Qed.

Lemma cov_name : forall n, wf_name env n = true -> cov (tev_name n) (tnames (print_name n)).
Proof.
  intros n Hwf k Hk. unfold print_name, tnames.
  destruct (name_id n =? id_NoneType)%N.
  - cbn. destruct n; cbn; [| destruct (i =? k)%N |]; split; try lia; intros [].
  - cbn [tok_names flat_map app filter]. destruct n as [i|i|i]; cbn [tev_name name_id wf_name] in *.
    + rewrite (ord_not_typing i Hwf). cbn. split; [lia | intros []].
    + apply andb_prop in Hwf. destruct Hwf as [Hwf _]. apply andb_prop in Hwf. destruct Hwf as [Ht _]. rewrite Ht.
      apply cov_add. exact Hk.
    + rewrite (ord_not_typing i Hwf). cbn. split; [lia | intros []].
Qed.

Lemma cov_tnames_intro : forall e ts,
  (forall k, tk k -> (0 <= net k e)%Z /\ (In (TName k) ts -> (0 < net k e)%Z)) -> cov e (tnames ts).
Proof.
  intros e ts H k Hk. destruct (H k Hk) as [A B]. split; [exact A|]. intros Hin. apply filter_In in Hin. apply B, in_tok_names, Hin.
Qed.

Lemma cov_tnames_elim : forall e ts k, cov e (tnames ts) -> tk k -> In (TName k) ts -> (0 < net k e)%Z.
Proof.
  intros e ts k H Hk Hin. apply (H k Hk). apply filter_In. split; [apply in_tok_names, Hin | apply Hk].
Qed.

Lemma cov_net : forall e e' ns, (forall k, net k e' = net k e) -> cov e ns -> cov e' ns.
Proof. intros e e' ns H C k Hk. rewrite H. apply C, Hk. Qed.

Lemma cov_nonneg : forall e, (forall k, (0 <= net k e)%Z) -> cov e [].
Proof. intros e H k _. split; [apply H | intros []]. Qed.

Lemma cov_adds : forall ks, cov (map EAdd ks) ks.
Proof. induction ks as [|a r IH]; [apply cov_nil | apply (cov_app [EAdd a] _ [a]); [apply cov_add | exact IH]]. Qed.

Lemma In_tnames : forall k ts, In k (tnames ts) <-> In (TName k) ts /\ is_typing k = true.
Proof. intros k ts. unfold tnames. rewrite filter_In, in_tok_names. reflexivity. Qed.

(* base[args]: the typing names come from the base or from an argument; the events may be recorded in any order *)
Lemma cov_sub : forall e eb ea b args,
  (forall k, net k e = (net k eb + net k ea)%Z) -> cov eb (tnames b) -> cov ea (flat_map tnames args) ->
  cov e (tnames (sub b args)).
Proof.
  intros e eb ea b args He Hb Ha. apply (cov_net (eb ++ ea)); [intros k; rewrite net_app; apply He|].
  apply (cov_weaken _ _ _ (cov_app _ _ _ _ Hb Ha)). intros k Hk. apply In_tnames in Hk. destruct Hk as [Hk Ht].
  apply in_or_app. destruct (in_sub_name _ _ _ Hk) as [H|[s [Hs H]]]; [left | right; apply in_flat_map; exists s; split; [exact Hs|]];
    apply In_tnames; auto.
Qed.

Definition ty_cov (t : ty) : Prop := forall c, wf env t = true -> cov (tev_ty bev c t) (tnames (print_ty c t)).

Lemma cov_members : forall c ps, Forall ty_cov ps -> forallb (wf env) ps = true ->
  cov (flat_map (tev_ty bev c) ps) (flat_map tnames (map (print_ty c) ps)).
Proof.
  intros c ps IH Hwf. rewrite flat_map_map. apply cov_flat_map. intros x Hx.
  rewrite Forall_forall in IH. rewrite forallb_forall in Hwf. apply (IH x Hx c (Hwf x Hx)).
Qed.

(* Callable[Any, R] is printed Callable[..., R] and the use of Any is taken back *)
Lemma cov_callable_args : forall c ps, Forall ty_cov ps -> forallb (wf env) ps = true ->
  cov (flat_map (tev_ty bev c) ps ++ match ps with AnyT :: _ => [EDec id_Any] | _ => [] end)
      (flat_map tnames ([TEllipsis] :: tl (map (print_ty c) ps))).
Proof.
  intros c [|p0 pr] IH Hwf; [apply cov_nil|].
  cbn [forallb] in Hwf. apply andb_prop in Hwf. destruct Hwf as [Hw0 Hwr]. inversion IH as [|? ? IH0 IHr]; subst.
  cbn [map tl flat_map]. rewrite <- app_assoc.
  apply (cov_net ((tev_ty bev c p0 ++ match p0 with AnyT => [EDec id_Any] | _ => [] end) ++ flat_map (tev_ty bev c) pr)).
  { intros k. rewrite !net_app. lia. }
  apply (cov_app _ _ [] _); [|apply (cov_members c pr IHr Hwr)].
  destruct p0; try (rewrite app_nil_r; apply (cov_weaken _ _ [] (IH0 c Hw0)); intros ? []).
  apply cov_nonneg. intros k. cbn [tev_ty app net net1]. destruct (id_Any =? k)%N; lia.
Qed.

Lemma tev_union_adds : forall l, exists ks, tev_union l = map EAdd ks.
Proof.
  intros l. unfold tev_union, tev_union1. destruct (coalesce l) as [|x [|y r]]; [exists [id_Union]; reflexivity | exists []; reflexivity |].
  destruct (existsb is_none_s (x :: y :: r)); [|exists [id_Union]; reflexivity].
  destruct (coalesce _) as [|x1 [|y1 r1]]; [exists [id_Optional; id_Union] | exists [id_Optional] | exists [id_Optional; id_Union]]; reflexivity.
Qed.

Theorem cov_ty : forall t, ty_cov t.
Proof.
  induction t using ty_ind'; intros c Hwf; cbn [tev_ty print_ty]; cbn [wf] in Hwf.
  - apply cov_name, Hwf.
  - apply (cov_add id_Any).
  - apply cov_nil.
  - (* TParam: not a member of typing *)
    apply andb_prop in Hwf. destruct Hwf as [Hwf _]. apply andb_prop in Hwf. destruct Hwf as [Hwf _].
    apply andb_prop in Hwf. destruct Hwf as [_ Ht]. apply negb_true_iff in Ht.
    unfold tnames. cbn [tok_names flat_map app filter]. rewrite Ht. apply cov_nonneg, Hbev.
  - (* Lit *)
    apply (cov_sub _ [EAdd id_Literal] []); [intros; cbn [net]; lia | apply (cov_add id_Literal) |].
    destruct v; try apply cov_nil. cbn [wf_lit] in Hwf. apply andb_prop in Hwf. destruct Hwf as [Hwf _].
    unfold tnames. cbn [print_lit flat_map tok_names app filter]. rewrite (ord_not_typing _ Hwf). apply cov_nil.
  - (* Generic *)
    apply andb_prop in Hwf. destruct Hwf as [Hwf _]. apply andb_prop in Hwf. destruct Hwf as [Hwf Hps].
    apply andb_prop in Hwf. destruct Hwf as [Hb _].
    destruct (tokens_eqb (print_name b) [TName id_tuple]); [|destruct (name_eqb b (NT id_Callable))];
      (eapply cov_sub; [intros; rewrite net_app; reflexivity | apply cov_name, Hb |]).
    + rewrite flat_map_app. apply cov_app; [apply (cov_members c ps H Hps) | apply cov_nil].
    + apply (cov_callable_args c ps H Hps).
    + rewrite app_nil_r. apply (cov_members c ps H Hps).
  - (* TupleT *)
    apply andb_prop in Hwf. destruct Hwf as [Hwf Hps]. apply andb_prop in Hwf. destruct Hwf as [_ Hb].
    destruct ps as [|p0 pr]; [|destruct (name_eqb b (NT id_Callable))];
      (eapply cov_sub; [intros; rewrite net_app; reflexivity | apply cov_name, Hb |]).
    + apply cov_nil.
    + apply (cov_callable_args c (p0 :: pr) H Hps).
    + rewrite app_nil_r. apply (cov_members c (p0 :: pr) H Hps).
  - (* CallableT *)
    apply andb_prop in Hwf. destruct Hwf as [Hwf _]. apply andb_prop in Hwf. destruct Hwf as [Hb Hps].
    apply name_eqb_eq in Hb. subst b.
    eapply cov_sub; [intros; rewrite net_app; reflexivity | apply (cov_add id_Callable) |].
    apply (cov_weaken _ _ _ (cov_members c ps H Hps)). intros k Hk.
    apply in_flat_map. cbn [flat_map] in Hk. rewrite app_nil_r in Hk. apply in_app_or in Hk. destruct Hk as [Hk|Hk].
    + apply In_tnames in Hk. destruct Hk as [[Hk|Hk] Ht]; [discriminate|]. apply in_app_or in Hk. destruct Hk as [Hk|[Hk|[]]]; [|discriminate].
      destruct (in_sep _ _ Hk) as [E|[s [Hs Hx]]]; [discriminate|]. exists s. split; [apply in_removelast, Hs | apply In_tnames; auto].
    + destruct ps as [|p0 pr]; [destruct Hk|]. eexists. split; [apply in_last; discriminate | exact Hk].
  - (* Union *)
    apply andb_prop in Hwf. destruct Hwf as [Hwf _]. apply andb_prop in Hwf. destruct Hwf as [Hts _].
    set (L := form_set c (map (print_ty c) ts)). destruct (tev_union_adds L) as [ks Eks].
    apply (cov_weaken _ (flat_map tnames (map (print_ty c) ts) ++ ks)).
    + apply cov_app; [apply (cov_members c ts H Hts) | rewrite Eks; apply cov_adds].
    + intros k Hk. apply In_tnames in Hk. destruct Hk as [Hk Ht]. apply in_or_app.
      destruct (build_union_names _ _ Hk) as [[s [Hs Hks]]|Hadd].
      * left. apply in_flat_map. exists s. split; [apply (form_set_incl c), Hs | apply In_tnames; auto].
      * right. rewrite Eks in Hadd. apply in_map_iff in Hadd. destruct Hadd as [k' [E Hk']]. injection E as <-. exact Hk'.
  - (* Annot *)
    apply andb_prop in Hwf. destruct Hwf as [Hwf _].
    apply (cov_sub _ [EAdd id_Annotated] (tev_ty bev c t)); [intros; rewrite net_app; lia | apply (cov_add id_Annotated) |].
    cbn [flat_map]. rewrite <- (app_nil_r (tev_ty bev c t)). apply cov_app; [apply (IHt c Hwf)|].
    rewrite flat_map_map. cbn. rewrite flat_map_none. apply cov_nil.
Qed.

End Types.

Section Mods.
Variable T : ntab.

Lemma guess_in : forall ch m, guess T ch = Some m -> In m ch.
Proof.
  induction ch as [|q r IH]; cbn [guess]; intros m H; [discriminate|].
  destruct r as [|q2 r2]; [injection H as <-; left; reflexivity|].
  destruct (nt_lowlast T q); [injection H as <-; left; reflexivity | right; apply IH, H].
Qed.

Lemma guess_some : forall ch, ch <> [] -> exists m, guess T ch = Some m.
Proof.
  induction ch as [|q r IH]; intros H; [contradiction|]. cbn [guess]. destruct r as [|q2 r2]; [eexists; reflexivity|].
  destruct (nt_lowlast T q); [eexists; reflexivity | apply IH; discriminate].
Qed.

Definition provided (mods : list N) (n : N) : Prop :=
  nt_chain T n = [] \/ exists q, In q (nt_chain T n) /\ In q mods.

Lemma visit_np_mono : forall mods n q, In q mods -> In q (visit_np T mods n).
Proof.
  intros mods n q H. unfold visit_np. destruct (nt_chain T n) as [|a r]; [exact H|].
  destruct (existsb _ _); [exact H|]. destruct (guess T (a :: r)); [apply in_or_app; left; exact H | exact H].
Qed.

Lemma visit_np_provides : forall mods n, provided (visit_np T mods n) n.
Proof.
  intros mods n. unfold provided, visit_np. destruct (nt_chain T n) as [|a r] eqn:E; [left; reflexivity|]. right.
  destruct (existsb (fun q => mem q mods) (a :: r)) eqn:Ex.
  - apply existsb_exists in Ex. destruct Ex as [q [Hq Hm]]. exists q. split; [exact Hq | apply mem_In, Hm].
  - destruct (guess_some (a :: r)) as [m Hm]; [discriminate|]. rewrite Hm. exists m.
    split; [apply guess_in, Hm | apply in_or_app; right; left; reflexivity].
Qed.

Lemma fold_np_mono : forall l mods q, In q mods -> In q (fold_left (visit_np T) l mods).
Proof. induction l as [|n r IH]; intros mods q H; cbn [fold_left]; [exact H | apply IH, visit_np_mono, H]. Qed.

Lemma fold_np_provides : forall l mods n, In n l -> provided (fold_left (visit_np T) l mods) n.
Proof.
  induction l as [|a r IH]; intros mods n Hin; [destruct Hin|]. destruct Hin as [<-|H]; cbn [fold_left].
  - destruct (visit_np_provides mods a) as [E|[q [Hq Hm]]]; [left; exact E | right; exists q; split; [exact Hq | apply fold_np_mono, Hm]].
  - apply IH, H.
Qed.

Theorem modules_complete : forall iu n, In n (np_unit T (iu_unit iu)) -> provided (import_mods T iu) n.
Proof. intros iu n H. unfold import_mods. apply fold_np_provides, H. Qed.

Lemma upd_get_same : forall {V} k (v : V) d, get k (upd k v d) = Some v.
Proof.
  intros V k v d. unfold get. induction d as [|[k' v'] r IH]; cbn [upd find fst snd].
  - rewrite N.eqb_refl. reflexivity.
  - destruct (k' =? k)%N eqn:E; cbn [find fst snd]; [rewrite N.eqb_refl; reflexivity | rewrite E; exact IH].
Qed.
Lemma upd_get_other : forall {V} k k' (v : V) d, k <> k' -> get k' (upd k v d) = get k' d.
Proof.
  intros V k k' v d Hne. unfold get. induction d as [|[k0 v0] r IH]; cbn [upd find fst snd].
  - destruct (k =? k')%N eqn:E; [apply N.eqb_eq in E; contradiction | reflexivity].
  - destruct (k0 =? k)%N eqn:E; cbn [find fst snd].
    + apply N.eqb_eq in E. subst k0. destruct (k =? k')%N eqn:E2; [apply N.eqb_eq in E2; contradiction | reflexivity].
    + destruct (k0 =? k')%N; [reflexivity | exact IH].
Qed.

Lemma fold_upd_mods : forall l d m, (In m l \/ get m d = Some m) -> get m (fold_left (fun d m => upd m m d) l d) = Some m.
Proof.
  induction l as [|a r IH]; intros d m H; cbn [fold_left].
  - destruct H as [[]|H]; exact H.
  - apply IH. destruct (N.eq_dec a m) as [->|Hne].
    + right. apply upd_get_same.
    + destruct H as [[E|H]|H]; [contradiction | left; exact H | right; rewrite upd_get_other; [exact H | exact Hne]].
Qed.

(* every module the traversal adds gets its `import m` line (alias = module) unless a later assignment to the same
   alias key replaces it: the key IS the module name, so only `import m` itself can *)
Theorem module_line_emitted : forall iu m, In m (import_mods T iu) -> get m (direct_imports T iu) = Some m.
Proof. intros iu m H. unfold direct_imports. apply fold_upd_mods. left. exact H. Qed.

Lemma insert_sorted : forall {A} (leb : A -> A -> bool), (forall a b, leb a b = true \/ leb b a = true) ->
  forall x l, Sorted (fun a b => leb a b = true) l -> Sorted (fun a b => leb a b = true) (insert leb x l).
Proof.
  intros A leb Htot x l Hs. induction Hs as [|a l Hs IH Hhd]; cbn [insert]; [repeat constructor|].
  destruct (leb x a) eqn:E.
  - constructor; [constructor; assumption | constructor; exact E].
  - constructor; [exact IH|]. destruct (Htot x a) as [H|H]; [congruence|].
    destruct l as [|b r]; cbn [insert]; [constructor; exact H|].
    destruct (leb x b); constructor; [exact H | inversion Hhd; assumption].
Qed.

Lemma isort_sorted : forall {A} (leb : A -> A -> bool), (forall a b, leb a b = true \/ leb b a = true) ->
  forall l, Sorted (fun a b => leb a b = true) (isort leb l).
Proof. intros A leb Htot l. induction l as [|x r IH]; cbn [isort fold_right]; [constructor | apply insert_sorted; assumption]. Qed.

Lemma pair_leb_total : forall a b, pair_leb a b = true \/ pair_leb b a = true.
Proof.
  intros [a1 a2] [b1 b2]. unfold pair_leb. cbn [fst snd].
  destruct (N.lt_total a1 b1) as [H|[H|H]].
  - left. apply orb_true_iff. left. apply N.ltb_lt, H.
  - subst. rewrite N.eqb_refl, N.ltb_irrefl. cbn. destruct (N.le_ge_cases a2 b2) as [H|H]; [left | right]; apply N.leb_le, H.
  - right. apply orb_true_iff. left. apply N.ltb_lt, H.
Qed.

Lemma line_leb_total : forall a b, line_leb T a b = true \/ line_leb T b a = true.
Proof.
  intros a b. unfold line_leb. destruct (fst (line_key T a)), (fst (line_key T b)); try (left; reflexivity); try (right; reflexivity); apply pair_leb_total.
Qed.

Lemma target_leb_total : forall a b, target_leb T a b = true \/ target_leb T b a = true.
Proof. intros a b. apply pair_leb_total. Qed.

Theorem lines_sorted : forall rich iu, Sorted (fun a b => line_leb T a b = true) (import_lines T rich iu).
Proof. intros rich iu. unfold import_lines. apply isort_sorted, line_leb_total. Qed.

Lemma insert_perm : forall {A} (leb : A -> A -> bool) x l, Permutation (insert leb x l) (x :: l).
Proof.
  intros A leb x. induction l as [|a r IH]; cbn [insert]; [reflexivity|].
  destruct (leb x a); [reflexivity | rewrite IH; apply perm_swap].
Qed.
Lemma isort_perm : forall {A} (leb : A -> A -> bool) l, Permutation (isort leb l) l.
Proof.
  intros A leb. induction l as [|a r IH]; cbn [isort fold_right]; [constructor|].
  fold (isort leb r). rewrite insert_perm. constructor. exact IH.
Qed.
Lemma isort_in : forall {A} (leb : A -> A -> bool) l y, In y (isort leb l) <-> In y l.
Proof. intros A leb l y. split; apply Permutation_in; [|symmetry]; apply isort_perm. Qed.
Lemma isort_nodup : forall {A} (leb : A -> A -> bool) l, NoDup l -> NoDup (isort leb l).
Proof. intros A leb l. apply Permutation_NoDup. symmetry. apply isort_perm. Qed.

Theorem typing_line_sorted_unique : forall evs,
  let tg := sort_targets T (map (fun k => (k, k)) (typing_targets evs)) in
  Sorted (fun a b => target_leb T a b = true) tg /\ NoDup tg.
Proof.
  intros evs. split; [apply isort_sorted, target_leb_total|].
  apply isort_nodup.
  assert (Hm : forall l : list N, NoDup l -> NoDup (map (fun k => (k, k)) l)).
  { induction 1 as [|a r Ha Hn IH]; cbn [map]; constructor; [|exact IH].
    intros Hin. apply in_map_iff in Hin. destruct Hin as [x [E Hx]]. injection E as -> _. contradiction. }
  apply Hm. unfold typing_targets. apply NoDup_filter, dedup_N_nodup.
Qed.

End Mods.

Lemma In_dedup_N : forall k l, In k (dedup N.eqb l) <-> In k l.
Proof.
  intros k. induction l as [|a r IH]; cbn [dedup In]; [reflexivity|]. split; (intros [H|H]; [left; exact H|]).
  - right. apply IH. apply filter_In in H. apply H.
  - destruct (N.eqb_spec a k) as [E|Hne]; [left; exact E|]. right. apply filter_In. split; [apply IH, H|].
    apply negb_true_iff, N.eqb_neq, Hne.
Qed.

Lemma In_members : forall k l, In k (members l) <-> In (EAdd k) l.
Proof.
  intros k l. unfold members. rewrite In_dedup_N, in_flat_map. split.
  - intros [[j|j] [He Hk]]; [destruct Hk as [<-|[]]; exact He | destruct Hk].
  - intros H. exists (EAdd k). split; [exact H | left; reflexivity].
Qed.

Lemma In_typing_imported : forall T rich iu k, In k (typing_targets (typing_events rich iu)) ->
  In k (typing_imported (import_lines T rich iu)).
Proof.
  intros T rich iu k H. unfold typing_imported, import_lines. apply in_flat_map.
  destruct (typing_targets (typing_events rich iu)) as [|t0 tr] eqn:Ett; [destruct H|].
  exists (LFrom id_typing (sort_targets T (map (fun k => (k, k)) (t0 :: tr)))). split.
  - apply isort_in. apply in_or_app. left. left. reflexivity.
  - rewrite N.eqb_refl. apply in_map_iff. exists (k, k). split; [reflexivity|]. apply isort_in, in_map_iff. exists k. split; [reflexivity | exact H].
Qed.
