(* The reader of coq/Print/Decl.v reads back what its printer prints, from one-line declarations up to whole units
   (parse_unit_print_lemma), through the expression view of Print/Proofs.v (print_to_expr, parse_flat_gen). *)
From Coq Require Import List NArith ZArith Bool Arith Lia.
From PV Require Import Print.Model Print.Proofs Print.Decl.
Import ListNotations.

Lemma flat_map_map : forall {A B C} (f : B -> list C) (g : A -> B) l, flat_map f (map g l) = flat_map (fun x => f (g x)) l.
Proof. intros. rewrite flat_map_concat_map, map_map, <- flat_map_concat_map. reflexivity. Qed.
Lemma flat_map_none : forall {A B} (l : list A), flat_map (fun _ => @nil B) l = [].
Proof. induction l; [reflexivity|assumption]. Qed.
Lemma flat_map_single : forall {A B} (h : A -> B) l, flat_map (fun x => [h x]) l = map h l.
Proof. induction l as [|x r IH]; [reflexivity|]. cbn. rewrite IH. reflexivity. Qed.

Lemma mem_In : forall q l, mem q l = true <-> In q l.
Proof.
  intros q l. unfold mem. rewrite existsb_exists. split.
  - intros [x [Hx E]]. apply N.eqb_eq in E. subst. exact Hx.
  - intros H. exists q. split; [exact H | apply N.eqb_refl].
Qed.

Lemma forallb_In : forall {A} {f : A -> bool} {l x}, forallb f l = true -> In x l -> f x = true.
Proof. intros A f l x H. apply (proj1 (forallb_forall f l) H). Qed.

Lemma parse_expr_print : forall env c t rest fuel, wf env t = true -> starts_ok rest ->
  length (print_ty c t) <= fuel ->
  parse_expr fuel (print_ty c t ++ rest) = Some (to_expr c t, rest).
Proof.
  intros env c t rest fuel Hw Hr Hf.
  destruct (print_to_expr env c t Hw) as [E W]. rewrite E in *.
  apply parse_flat_gen; assumption.
Qed.

Lemma parse_expr_print_S : forall env c t rest, wf env t = true -> starts_ok rest ->
  parse_expr (S (length (print_ty c t ++ rest))) (print_ty c t ++ rest) = Some (to_expr c t, rest).
Proof.
  intros. eapply parse_expr_print; eauto. rewrite app_length. lia.
Qed.

Lemma parse_expr_print_nil : forall env c t, wf env t = true ->
  parse_expr (S (length (print_ty c t))) (print_ty c t) = Some (to_expr c t, []).
Proof.
  intros env c t Hw. pose proof (parse_expr_print_S env c t [] Hw I) as H. rewrite app_nil_r in H. exact H.
Qed.

Lemma flat_not_call : forall e A (X : N -> N -> list token -> A) (Y : A),
  match flat e with TName f :: TLPar :: TStr lit :: r1 => X f lit r1 | _ => Y end = Y.
Proof. destruct e; reflexivity. Qed.

Lemma decl_name_parts : forall env i, decl_name env i = true ->
  reserved_word i = false /\ (i =? id_NoneType)%N = false.
Proof.
  intros env i H. unfold decl_name in H. apply andb_true_iff in H. destruct H as [H H2].
  apply andb_true_iff in H. destruct H as [_ H1]. apply negb_true_iff in H1, H2. auto.
Qed.

Lemma reserved_parts : forall i, reserved_word i = false ->
  (i =? id_def)%N = false /\ (i =? id_class)%N = false /\ (i =? id_raise)%N = false /\
  (i =? id_at)%N = false /\ (i =? id_slots)%N = false.
Proof.
  intros i H. unfold reserved_word in H. repeat (apply orb_false_iff in H; destruct H as [H ?]). auto.
Qed.

Lemma parse_simple_const : forall env c ic k, wf_const env k = true ->
  parse_simple env ic (print_const c k) = Some (DConst (norm_const c k)).
Proof.
  intros env c ic [n t v] H. unfold wf_const in H. cbn [k_name k_ty] in H.
  apply andb_true_iff in H. destruct H as [_ Hw].
  unfold print_const, parse_simple, norm_const. cbn [k_name k_ty k_val].
  destruct v.
  - rewrite (parse_expr_print_S env (ctx_plain c) t [TEq; TEllipsis] Hw I).
    rewrite (conv_to_expr env _ _ Hw). reflexivity.
  - rewrite app_nil_r. rewrite (parse_expr_print_nil env (ctx_plain c) t Hw).
    rewrite (conv_to_expr env _ _ Hw). reflexivity.
Qed.

Lemma wf_alias_parts : forall env a, wf_alias env a = true ->
  decl_name env (fst a) = true /\ wf env (snd a) = true /\ prints_none (snd a) = false.
Proof.
  intros env a H. destruct (andb4 _ _ _ _ H) as (Hn & Hw & Hnone & _). apply negb_true_iff in Hnone. auto.
Qed.

Lemma print_const_norm : forall env c k, wf_const env k = true -> stable_const c k = true ->
  print_const c (norm_const c k) = print_const c k.
Proof.
  intros env c k H Hs. unfold wf_const in H. apply andb_true_iff in H. destruct H as [_ Hw].
  unfold print_const, norm_const, stable_const in *. cbn [k_name k_ty k_val].
  change (ctx_plain (ctx_plain c)) with (ctx_plain c).
  rewrite (print_norm_lemma env (ctx_plain c) (k_ty k) Hw Hs). reflexivity.
Qed.

Lemma parse_simple_assign : forall env n e, wfe e = true -> (n =? id_slots)%N = false -> e <> ENone ->
  parse_simple env false (TName n :: TEq :: flat e) =
  match conv env e with Some t => Some (DAlias (n, t)) | None => None end.
Proof.
  intros env n e We Hn He. unfold parse_simple. rewrite flat_not_call, (parse_flat e We), Hn.
  destruct e; try reflexivity. congruence.
Qed.

Lemma parse_simple_alias : forall env a, wf_alias env a = true ->
  parse_simple env false (print_alias plain0 a) = Some (DAlias (norm_alias plain0 a)).
Proof.
  intros env [n t] H. destruct (wf_alias_parts env _ H) as (Hn & Hw & Hnone). cbn [fst snd] in *.
  destruct (decl_name_parts env n Hn) as [Hres _]. destruct (reserved_parts n Hres) as (_ & _ & _ & _ & Hsl).
  unfold print_alias, norm_alias, prints_none in *. cbn [fst snd]. change (ctx_plain plain0) with plain0.
  destruct (print_to_expr env plain0 t Hw) as [E We]. rewrite E in *.
  rewrite (parse_simple_assign env n _ We Hsl), (conv_to_expr env _ _ Hw); [reflexivity|].
  intros Heq. rewrite Heq in Hnone. discriminate.
Qed.

Definition no_eq_head (ts : list token) : Prop := match ts with TEq :: _ => False | _ => True end.

Lemma is_kwarg_flat : forall e rest, no_eq_head rest -> is_kwarg (flat e ++ rest) = None.
Proof.
  intros e rest H. destruct e; try reflexivity.
  cbn. destruct rest as [|[] ?]; try reflexivity. cbn in H. contradiction.
Qed.

Lemma is_kwarg_print : forall env c t rest, wf env t = true -> no_eq_head rest ->
  is_kwarg (print_ty c t ++ rest) = None.
Proof. intros. destruct (print_to_expr env c t H) as [E _]. rewrite E. apply is_kwarg_flat. assumption. Qed.

Definition tv_tail (c : ctx) (cons : list ty) (b : option ty) : list token :=
  flat_map (fun x => TComma :: print_ty (ctx_plain c) x) cons
  ++ (match b with Some b => TComma :: TName id_bound :: TEq :: print_ty (ctx_plain c) b | None => [] end)
  ++ [TRPar].

Lemma tv_tail_head : forall c cons b, exists t r, tv_tail c cons b = t :: r /\ (t = TComma \/ t = TRPar).
Proof.
  intros c cons b. unfold tv_tail. destruct cons as [|x r]; [destruct b|]; cbn; eauto.
Qed.

Lemma parse_tvar_args_print : forall env c b cons fuel,
  forallb (wf env) cons = true -> (match b with Some x => wf env x = true | None => True end) ->
  length (tv_tail c cons b) <= fuel ->
  parse_tvar_args env fuel (tv_tail c cons b) =
    Some (map (norm (ctx_plain c)) cons, option_map (norm (ctx_plain c)) b).
Proof.
  intros env c b. induction cons as [|x r IH]; intros fuel Hc Hb Hf.
  - unfold tv_tail in *. cbn [flat_map app] in *. destruct b as [x|].
    + destruct fuel as [|f]; [cbn in Hf; lia|]. cbn [app parse_tvar_args is_kwarg].
      change (id_bound =? id_bound)%N with true. cbv iota.
      rewrite (parse_expr_print_S env (ctx_plain c) x [TRPar] Hb I).
      rewrite (conv_to_expr env _ _ Hb). reflexivity.
    + destruct fuel as [|f]; [cbn in Hf; lia|]. reflexivity.
  - cbn [forallb] in Hc. apply andb_true_iff in Hc. destruct Hc as [Hx Hr].
    assert (E: tv_tail c (x :: r) b = TComma :: print_ty (ctx_plain c) x ++ tv_tail c r b).
    { unfold tv_tail. cbn [flat_map]. rewrite <- !app_assoc. reflexivity. }
    rewrite E in *. destruct fuel as [|f]; [cbn in Hf; lia|].
    cbn [parse_tvar_args].
    destruct (tv_tail_head c r b) as (t0 & r0 & Et & Ht).
    assert (Hne: no_eq_head (tv_tail c r b)) by (rewrite Et; destruct Ht; subst; exact I).
    assert (Hso: starts_ok (tv_tail c r b)) by (rewrite Et; destruct Ht; subst; exact I).
    rewrite (is_kwarg_print env _ x _ Hx Hne).
    rewrite (parse_expr_print_S env (ctx_plain c) x _ Hx Hso).
    rewrite (conv_to_expr env _ _ Hx).
    rewrite IH; [reflexivity | exact Hr | exact Hb |].
    cbn [length] in Hf. rewrite app_length in Hf. lia.
Qed.

Lemma wf_tparam_parts : forall env t, wf_tparam env t = true ->
  forallb (wf env) (tp_cons t) = true /\ match tp_bound t with Some b => wf env b = true | None => True end.
Proof.
  intros env t H. unfold wf_tparam in H.
  apply andb_true_iff in H. destruct H as [H Hb]. apply andb_true_iff in H. destruct H as [_ Hc].
  split; [exact Hc|]. destruct (tp_bound t); [exact Hb|exact I].
Qed.

Lemma parse_simple_tparam : forall env t, wf_tparam env t = true ->
  parse_simple env false (print_tparam plain0 t) = Some (DTvar (norm_tparam plain0 t)).
Proof.
  intros env t H. destruct (wf_tparam_parts env t H) as [Hc Hb].
  unfold print_tparam, parse_simple. change (ctx_plain plain0) with plain0.
  change (id_TypeVar =? id_TypeVar)%N with true. cbv iota.
  fold (tv_tail plain0 (tp_cons t) (tp_bound t)) .
  rewrite (parse_tvar_args_print env plain0 (tp_bound t) (tp_cons t)); [|exact Hc|exact Hb|].
  2:{ unfold tv_tail. change (ctx_plain plain0) with plain0. lia. }
  unfold norm_tparam. change (ctx_plain plain0) with plain0. destruct (tp_bound t); reflexivity.
Qed.

Lemma sig_head_items : forall env scope c s, wf_sig env scope c s = true ->
  sig_head c s = TLPar :: sep (map flat_item (items_of c s)) ++ TRPar :: TArrow :: flat (ret_expr c (s_ret s)) ++ [TColon]
  /\ forallb wfe_item (items_of c s) = true /\ wfe (ret_expr c (s_ret s)) = true /\
  conv env (ret_expr c (s_ret s)) = Some (norm_ret c (s_ret s)).
Proof.
  intros env scope c s Hwf.
  destruct (wf_sig_parts env scope c s Hwf) as (Hps & Hk & Hd & Hst & Hss & Hret & Hnev).
  destruct (ret_ok env c (s_ret s) Hret Hnev) as (Er & Wr & Cr).
  assert (Hstar: forall st, wf_container env false st = true \/ wf_container env true st = true ->
            print_container c st = flat_rparam (rp_star c st) /\ wfe_rparam (rp_star c st) = true).
  { intros st Hw. rewrite print_container_param. unfold rp_star.
    apply (print_param_flat env). destruct st as [nm t]. cbn [snd].
    unfold wf_container in Hw. cbn [snd] in Hw.
    destruct t; cbn [container_elem]; try reflexivity; destruct Hw as [Hw|Hw]; try discriminate;
      apply andb_true_iff in Hw; apply Hw. }
  set (star := option_map (rp_star c) (s_star s)).
  destruct (params_loop_items env c (s_params s) star Hps) as [EL WL].
  assert (Estar: match s_star s with Some st => Some (print_container c st) | None => None end = option_map flat_rparam star).
  { unfold star. destruct (s_star s) as [st|] eqn:E; [|reflexivity]. cbn. f_equal. apply Hstar. left. apply Hst. reflexivity. }
  split; [|split; [|split; assumption]].
  - unfold sig_head. rewrite Estar, EL, Er. unfold items_of. fold star. rewrite map_app.
    assert (Ess: match s_sstar s with Some st => [TDStar :: print_container c st] | None => [] end =
                 map flat_item (match s_sstar s with Some st => [IDStar (rp_star c st)] | None => [] end)).
    { destruct (s_sstar s) as [st|] eqn:E; [|reflexivity]. cbn. f_equal. f_equal. apply Hstar. right. apply Hss. reflexivity. }
    rewrite Ess. cbn [app]. reflexivity.
  - unfold items_of. fold star. rewrite forallb_app, WL.
    assert (W1: forallb wfe_item (match star with Some sp => [IStar (Some sp)] | None => [] end) = true).
    { unfold star. destruct (s_star s) as [st|] eqn:E; [|reflexivity]. cbn. rewrite andb_true_r. apply Hstar. left. apply Hst. reflexivity. }
    rewrite W1. destruct (s_sstar s) as [st|] eqn:E; [|reflexivity]. cbn. rewrite andb_true_r. apply Hstar. right. apply Hss. reflexivity.
Qed.

Definition parse_fbody_top (r2 : list token) : option (list bline) :=
  match r2 with
  | [TEllipsis] => Some []
  | [] => None
  | _ => parse_fbody (S (length r2)) r2
  end.

Lemma parse_fsig_tokens : forall env nm its re body,
  forallb wfe_item its = true -> wfe re = true ->
  parse_fsig env nm (TLPar :: sep (map flat_item its) ++ TRPar :: TArrow :: flat re ++ TColon :: body) =
  match parse_fbody_top body with Some b => sem_fsig env nm its re b | None => None end.
Proof.
  intros env nm its re body Hw Hre. unfold parse_fsig.
  rewrite (after_params_items its _ _ Hw eq_refl).
  rewrite (parse_flat_gen re Hre) by (rewrite ?app_length; cbn [length]; try lia; exact I).
  reflexivity.
Qed.

Definition mut_exprs (c : ctx) (ps : list param) : list bline :=
  flat_map (fun p => match p_mut p with Some m => [BMut (p_name p) (to_expr (ctx_plain c) m)] | None => [] end) ps.
Definition exc_exprs (c : ctx) (excs : list ty) : list bline := map (fun e => BRaise (to_expr (ctx_plain c) e)) excs.

Lemma is_kwarg_name_print : forall env c k t rest, wf env t = true -> is_kwarg (TName k :: print_ty c t ++ rest) = None.
Proof. intros env c k t rest H. destruct (print_to_expr env c t H) as [-> _]. destruct (to_expr c t); reflexivity. Qed.

Definition line_start (ts : list token) : Prop := match ts with [] => True | TNewline :: _ => True | _ => False end.
Lemma line_start_ok : forall ts, line_start ts -> starts_ok ts.
Proof. intros [|[] ?]; cbn; auto. Qed.

Lemma raise_lines_start : forall c excs, line_start (raise_lines c excs).
Proof. intros c [|e r]; cbn; exact I. Qed.

Lemma lines_start : forall c ps excs, line_start (mut_lines c ps ++ raise_lines c excs).
Proof.
  intros c ps excs. unfold mut_lines. induction ps as [|p r IH]; [apply raise_lines_start|].
  cbn [flat_map]. destruct (p_mut p); [exact I|exact IH].
Qed.

Lemma parse_fbody_raises : forall env c excs fuel,
  forallb (wf env) excs = true -> length (raise_lines c excs) < fuel ->
  parse_fbody fuel (raise_lines c excs) = Some (exc_exprs c excs).
Proof.
  intros env c. induction excs as [|e r IH]; intros fuel Hw Hf.
  - destruct fuel; [lia|]. reflexivity.
  - cbn [forallb] in Hw. apply andb_true_iff in Hw. destruct Hw as [He Hr].
    destruct fuel as [|f]; [lia|].
    assert (E: raise_lines c (e :: r) =
               TNewline :: TName id_raise :: print_ty (ctx_plain c) e ++ TLPar :: TRPar :: raise_lines c r).
    { unfold raise_lines. cbn [flat_map]. cbn [app]. rewrite <- app_assoc. reflexivity. }
    rewrite E in *. cbn [parse_fbody].
    rewrite (is_kwarg_name_print env _ _ _ _ He).
    change (id_raise =? id_raise)%N with true. cbv iota.
    rewrite (parse_expr_print_S env (ctx_plain c) e (TLPar :: TRPar :: raise_lines c r) He I).
    rewrite IH; [reflexivity | exact Hr |].
    cbn [length] in Hf. rewrite app_length in Hf. cbn [length] in Hf. lia.
Qed.

Lemma parse_fbody_print : forall env c excs ps fuel,
  (forall p m, In p ps -> p_mut p = Some m -> wf env m = true) ->
  forallb (wf env) excs = true ->
  length (mut_lines c ps ++ raise_lines c excs) < fuel ->
  parse_fbody fuel (mut_lines c ps ++ raise_lines c excs) = Some (mut_exprs c ps ++ exc_exprs c excs).
Proof.
  intros env c excs. induction ps as [|p r IH]; intros fuel Hm Hw Hf.
  - cbn [mut_lines flat_map app] in *. apply (parse_fbody_raises env); assumption.
  - unfold mut_lines, mut_exprs in *. cbn [flat_map] in *. destruct (p_mut p) as [m|] eqn:Em.
    + assert (Hwm: wf env m = true) by (apply (Hm p m); [left; reflexivity | exact Em]).
      fold (mut_lines c r) in *. fold (mut_exprs c r) in *.
      destruct fuel as [|f]; [lia|]. cbn [app]. rewrite <- app_assoc. cbn [parse_fbody is_kwarg].
      assert (Hs: starts_ok (mut_lines c r ++ raise_lines c excs))
        by (apply line_start_ok, lines_start).
      rewrite (parse_expr_print_S env (ctx_plain c) m (mut_lines c r ++ raise_lines c excs) Hwm Hs).
      rewrite IH; [reflexivity | | exact Hw |].
      * intros p' m' Hin. apply Hm. right. exact Hin.
      * cbn [app length] in Hf.
        rewrite <- app_assoc in Hf. rewrite app_length in Hf.
        fold (mut_lines c r). lia.
    + cbn [app] in *. apply IH; [|exact Hw|exact Hf].
      intros p' m' Hin. apply Hm. right. exact Hin.
Qed.

Definition clear_mut (p : param) : param := mkParam (p_name p) (p_ty p) (p_kind p) (p_opt p) None.
Definition with_mut (p : param) (m : option ty) : param := mkParam (p_name p) (p_ty p) (p_kind p) (p_opt p) m.
Definition muts_of (l : list param) : list (N * ty) :=
  flat_map (fun p => match p_mut p with Some m => [(p_name p, m)] | None => [] end) l.
Definition set_mut (nm : N) (t : ty) (l : list param) : list param :=
  map (fun p => if (p_name p =? nm)%N then with_mut p (Some t) else p) l.

Lemma nodup_by_NoDup : forall l, nodup_by N.eqb l = true -> NoDup l.
Proof.
  induction l as [|x r IH]; intros H; [constructor|].
  cbn in H. apply andb_true_iff in H. destruct H as [Hx Hr]. constructor; [|apply IH; exact Hr].
  intro Hin. apply negb_true_iff in Hx.
  assert (existsb (N.eqb x) r = true) by (apply existsb_exists; exists x; split; [exact Hin|apply N.eqb_refl]).
  congruence.
Qed.

Lemma NoDup_nodup_by : forall l, NoDup l -> nodup_by N.eqb l = true.
Proof.
  induction 1 as [|x r Hx _ IH]; [reflexivity|]. cbn [nodup_by]. rewrite IH, andb_true_r. apply negb_true_iff.
  destruct (mem x r) eqn:E; [apply mem_In in E; contradiction|exact E].
Qed.

Lemma dedup_N_nodup : forall l, NoDup (dedup N.eqb l).
Proof.
  induction l as [|a r IH]; cbn [dedup]; [constructor|]. constructor.
  - intros H. apply filter_In in H. destruct H as [_ H]. rewrite N.eqb_refl in H. discriminate.
  - apply NoDup_filter, IH.
Qed.

Lemma set_mut_notin : forall nm t l, ~ In nm (map p_name l) -> set_mut nm t l = l.
Proof.
  intros nm t. induction l as [|p r IH]; intros H; [reflexivity|].
  cbn [set_mut map] in *. fold (set_mut nm t r).
  destruct (p_name p =? nm)%N eqn:E.
  - apply N.eqb_eq in E. exfalso. apply H. left. exact E.
  - f_equal. apply IH. intro Hin. apply H. right. exact Hin.
Qed.

Lemma existsb_false_notin : forall (f : param -> bool) nm l,
  ~ In nm (map p_name l) -> existsb (fun p => (p_name p =? nm)%N && f p) l = false.
Proof.
  intros f nm. induction l as [|p r IH]; intros H; [reflexivity|].
  cbn [existsb map] in *. destruct (p_name p =? nm)%N eqn:E.
  - apply N.eqb_eq in E. exfalso. apply H. left. exact E.
  - cbn [andb orb]. apply IH. intro Hin. apply H. right. exact Hin.
Qed.

Lemma apply_mutator_hit : forall L1 p L2 st sst r t,
  ~ In (p_name p) (map p_name L1) -> ~ In (p_name p) (map p_name L2) ->
  p_opt p = false ->
  (forall x, st = Some x -> fst x <> p_name p) -> (forall x, sst = Some x -> fst x <> p_name p) ->
  apply_mutator (mkSig (L1 ++ p :: L2) st sst r) (p_name p, t) =
  Some (mkSig (L1 ++ with_mut p (Some t) :: L2) st sst r).
Proof.
  intros L1 p L2 st sst r t H1 H2 Ho Hst Hsst. unfold apply_mutator. cbn [fst snd s_params s_star s_sstar s_ret].
  assert (Eb: existsb (fun q => (p_name q =? p_name p)%N && p_opt q) (L1 ++ p :: L2) = false).
  { rewrite existsb_app. rewrite (existsb_false_notin _ _ _ H1). cbn [existsb orb].
    rewrite Ho, andb_false_r. cbn [orb]. apply (existsb_false_notin _ _ _ H2). }
  rewrite Eb. cbn [orb].
  assert (Es: match st with Some x => (fst x =? p_name p)%N | None => false end = false).
  { destruct st as [x|]; [|reflexivity]. apply N.eqb_neq. apply Hst. reflexivity. }
  assert (Ess: match sst with Some x => (fst x =? p_name p)%N | None => false end = false).
  { destruct sst as [x|]; [|reflexivity]. apply N.eqb_neq. apply Hsst. reflexivity. }
  rewrite Es, Ess. cbn [orb].
  assert (Ef: existsb (fun q => (p_name q =? p_name p)%N) (L1 ++ p :: L2) = true).
  { rewrite existsb_app. cbn [existsb]. rewrite N.eqb_refl. rewrite orb_true_r. reflexivity. }
  rewrite Ef. cbn [negb]. f_equal. f_equal.
  change (map (fun p0 => if (p_name p0 =? p_name p)%N
                         then mkParam (p_name p0) (p_ty p0) (p_kind p0) (p_opt p0) (Some t) else p0) (L1 ++ p :: L2))
    with (set_mut (p_name p) t (L1 ++ p :: L2)).
  unfold set_mut. rewrite map_app. cbn [map]. rewrite N.eqb_refl.
  fold (set_mut (p_name p) t L1). fold (set_mut (p_name p) t L2).
  rewrite (set_mut_notin _ _ _ H1), (set_mut_notin _ _ _ H2). reflexivity.
Qed.

Lemma with_mut_clear : forall p m, p_mut p = m -> with_mut (clear_mut p) m = p.
Proof. intros [a b c d e] m H. cbn in H. subst. reflexivity. Qed.
Lemma clear_mut_none : forall p, p_mut p = None -> clear_mut p = p.
Proof. intros [a b c d e] H. cbn in H. subst. reflexivity. Qed.

Lemma apply_mutators_all : forall st sst r L2 L1,
  NoDup (map p_name (L1 ++ L2)) ->
  (forall x, st = Some x -> ~ In (fst x) (map p_name (L1 ++ L2))) ->
  (forall x, sst = Some x -> ~ In (fst x) (map p_name (L1 ++ L2))) ->
  (forall p m, In p L2 -> p_mut p = Some m -> p_opt p = false) ->
  forall tail res,
  apply_mutators (mkSig (L1 ++ L2) st sst r) tail = res ->
  apply_mutators (mkSig (L1 ++ map clear_mut L2) st sst r) (muts_of L2 ++ tail) = res.
Proof.
  intros st sst r. induction L2 as [|p L2 IH]; intros L1 Hnd Hst Hsst Hopt tail res Hres.
  - cbn [map muts_of flat_map app]. exact Hres.
  - assert (Ecat: forall X, L1 ++ p :: X = (L1 ++ [p]) ++ X) by (intros; rewrite <- app_assoc; reflexivity).
    assert (IH': apply_mutators (mkSig ((L1 ++ [p]) ++ map clear_mut L2) st sst r) (muts_of L2 ++ tail) = res).
    { apply IH.
      - rewrite <- Ecat. exact Hnd.
      - intros x Hx. rewrite <- Ecat. apply Hst. exact Hx.
      - intros x Hx. rewrite <- Ecat. apply Hsst. exact Hx.
      - intros q m Hq. apply Hopt. right. exact Hq.
      - rewrite <- Ecat. exact Hres. }
    rewrite <- Ecat in IH'.
    destruct (p_mut p) as [m|] eqn:Em.
    + unfold muts_of. cbn [flat_map map]. rewrite Em. cbn [app apply_mutators].
      fold (muts_of L2).
      pose proof Hnd as Hnd0.
      rewrite map_app in Hnd0. cbn [map] in Hnd0. apply NoDup_remove in Hnd0. destruct Hnd0 as [_ Hnot].
      assert (H1: ~ In (p_name p) (map p_name L1)) by (intro; apply Hnot; apply in_or_app; left; assumption).
      assert (H2: ~ In (p_name p) (map p_name L2)) by (intro; apply Hnot; apply in_or_app; right; assumption).
      assert (H2': ~ In (p_name (clear_mut p)) (map p_name (map clear_mut L2))).
      { rewrite map_map. cbn [clear_mut p_name]. exact H2. }
      change (p_name p) with (p_name (clear_mut p)) at 1.
      rewrite (apply_mutator_hit L1 (clear_mut p) (map clear_mut L2) st sst r m H1 H2').
      * rewrite (with_mut_clear p (Some m) Em). exact IH'.
      * cbn [clear_mut p_opt]. apply (Hopt p m); [left; reflexivity | exact Em].
      * intros x Hx Heq. apply (Hst x Hx). rewrite Heq. rewrite map_app. apply in_or_app. right. left. reflexivity.
      * intros x Hx Heq. apply (Hsst x Hx). rewrite Heq. rewrite map_app. apply in_or_app. right. left. reflexivity.
    + unfold muts_of. cbn [flat_map map]. rewrite Em. cbn [app]. fold (muts_of L2).
      rewrite (clear_mut_none p Em). exact IH'.
Qed.

Lemma wf_sig_more : forall env scope c s, wf_sig env scope c s = true ->
  (forall p m, In p (s_params s) -> p_mut p = Some m -> p_opt p = false) /\
  nodup_by N.eqb (sig_names s) = true /\
  (self_mutated c s = true -> match s_params s with p :: _ => p_opt p = false | [] => True end).
Proof.
  intros env scope c s H. unfold wf_sig in H.
  repeat (apply andb_true_iff in H; destruct H as [H ?]).
  rename H0 into Hnever, H1 into Hvm, H2 into Hself, H3 into Hret, H4 into Hss, H5 into Hst, H6 into Hnd,
         H7 into Hdef, H8 into Hkinds.
  split; [|split].
  - intros p m Hp Em. rewrite forallb_forall in H. specialize (H p Hp). apply andb_true_iff in H.
    destruct H as [_ H]. rewrite Em in H. apply andb_true_iff in H. destruct H as [_ Ho].
    apply negb_true_iff in Ho. exact Ho.
  - exact Hnd.
  - intros Hs. rewrite Hs in Hself. destruct (s_params s) as [|p r]; [exact I|].
    cbn [andb] in Hself. apply negb_true_iff in Hself. exact Hself.
Qed.

Lemma conv_params_clear : forall env c k X,
  Forall (has_kind k) X -> (forall p, In p X -> wf env (p_ty p) = true) ->
  mapM (conv_param env k) (rps c X) = Some (map (fun p => clear_mut (norm_param c p)) X).
Proof.
  intros env c k X HX Hw. unfold rps. apply mapM_map. intros p Hp.
  rewrite Forall_forall in HX. specialize (HX p Hp). unfold has_kind in HX.
  unfold conv_param, rp_param. rewrite (conv_rp env c _ _ _ (Hw p Hp)). unfold norm_param, clear_mut.
  cbn [p_name p_ty p_kind p_opt]. rewrite HX. reflexivity.
Qed.

Lemma body_muts_split : forall c ps excs,
  body_muts (mut_exprs c ps ++ exc_exprs c excs) =
  flat_map (fun p => match p_mut p with Some m => [(p_name p, to_expr (ctx_plain c) m)] | None => [] end) ps.
Proof.
  intros c ps excs. unfold body_muts. rewrite flat_map_app.
  assert (E2: flat_map (fun x => match x with BMut n e => [(n, e)] | BRaise _ => [] end) (exc_exprs c excs) = []).
  { unfold exc_exprs. induction excs as [|e r IH]; [reflexivity|]. cbn. exact IH. }
  rewrite E2, app_nil_r. unfold mut_exprs. induction ps as [|p r IH]; [reflexivity|].
  cbn [flat_map]. rewrite flat_map_app, IH. destruct (p_mut p); reflexivity.
Qed.

Lemma body_excs_split : forall c ps excs,
  body_excs (mut_exprs c ps ++ exc_exprs c excs) = map (to_expr (ctx_plain c)) excs.
Proof.
  intros c ps excs. unfold body_excs. rewrite flat_map_app.
  assert (E1: flat_map (fun x => match x with BRaise e => [e] | BMut _ _ => [] end) (mut_exprs c ps) = []).
  { unfold mut_exprs. induction ps as [|p r IH]; [reflexivity|]. cbn [flat_map]. rewrite flat_map_app, IH.
    destruct (p_mut p); reflexivity. }
  rewrite E1. cbn [app]. unfold exc_exprs. induction excs as [|e r IH]; [reflexivity|]. cbn. f_equal. exact IH.
Qed.

Lemma conv_muts : forall env c ps,
  (forall p m, In p ps -> p_mut p = Some m -> wf env m = true) ->
  mapM (fun m : N * expr => match conv env (snd m) with Some t => Some (fst m, t) | None => None end)
       (flat_map (fun p => match p_mut p with Some m => [(p_name p, to_expr (ctx_plain c) m)] | None => [] end) ps)
  = Some (muts_of (map (norm_param c) ps)).
Proof.
  intros env c. induction ps as [|p r IH]; intros H; [reflexivity|].
  cbn [flat_map map]. unfold muts_of. cbn [flat_map]. fold (muts_of (map (norm_param c) r)).
  assert (IH': mapM (fun m : N * expr => match conv env (snd m) with Some t => Some (fst m, t) | None => None end)
       (flat_map (fun p => match p_mut p with Some m => [(p_name p, to_expr (ctx_plain c) m)] | None => [] end) r)
       = Some (muts_of (map (norm_param c) r))) by (apply IH; intros q m Hq; apply H; right; exact Hq).
  unfold norm_param at 1. cbn [p_mut p_name].
  destruct (p_mut p) as [m|] eqn:Em.
  - cbn [app mapM fst snd]. rewrite (conv_to_expr env (ctx_plain c) m (H p m (or_introl eq_refl) Em)).
    change (mapM ?f ?l) with (mapM f l). cbn [mapM] in IH' |- *. rewrite IH'. reflexivity.
  - cbn [app]. exact IH'.
Qed.

Lemma conv_excs : forall env c excs, forallb (wf env) excs = true ->
  mapM (conv env) (map (to_expr (ctx_plain c)) excs) = Some (map (norm (ctx_plain c)) excs).
Proof.
  intros env c excs H. apply mapM_map. intros x Hx. apply conv_to_expr.
  rewrite forallb_forall in H. apply H. exact Hx.
Qed.

Lemma NoDup_app_l : forall {A} (a b : list A), NoDup (a ++ b) -> NoDup a.
Proof.
  induction a as [|x r IH]; intros b H; [constructor|].
  cbn in H. inversion H as [|? ? Hx Hr]; subst. constructor.
  - intro Hin. apply Hx. apply in_or_app. left. exact Hin.
  - apply (IH b). exact Hr.
Qed.

Lemma norm_param_name_map : forall c ps, map p_name (map (norm_param c) ps) = map p_name ps.
Proof. intros. rewrite map_map. reflexivity. Qed.

Lemma norm_star_name : forall c st, fst (norm_star c st) = fst st.
Proof. intros. unfold norm_star. destruct (elided _ _ _ _); reflexivity. Qed.
Lemma norm_sstar_name : forall c st, fst (norm_sstar c st) = fst st.
Proof. intros. unfold norm_sstar. destruct (elided _ _ _ _); reflexivity. Qed.

(* the implicit mutation the reader adds for a generic self is the one the printer's self_mutated announces *)
Lemma self_mutator_read : forall env c s, (forall p, In p (s_params s) -> wf env (p_ty p) = true) ->
  match match map (rp_param c) (s_params s) with [] => None | p :: _ => Some p end,
        map clear_mut (map (norm_param c) (s_params s)) with
  | Some fp, q :: _ =>
      if (r_name fp =? id_self)%N && match r_ann fp with Some e => expr_is_generic e | None => false end
      then [(id_self, p_ty q)] else []
  | _, _ => []
  end = if self_mutated c s then match map (norm_param c) (s_params s) with q :: _ => [(id_self, p_ty q)] | [] => [] end else [].
Proof.
  intros env c s Hps. unfold self_mutated. destruct (s_params s) as [|p0 pr]; [reflexivity|]. cbn [map].
  unfold rp_param, rp_of. cbn [r_name r_ann clear_mut p_ty]. destruct (p_name p0 =? id_self)%N; [|reflexivity]. cbn [andb].
  destruct (elided c (p_name p0) (p_ty p0) (print_ty (ctx_param c) (p_ty p0))); [reflexivity|].
  destruct (print_to_expr env (ctx_param c) (p_ty p0) (Hps p0 (or_introl eq_refl))) as [-> _].
  rewrite prints_generic_flat. reflexivity.
Qed.

(* applying the mutations read from the body lines, and the implicit one of a generic self, to the parameters read
   without them gives the canonical signature *)
Lemma restore_mutators : forall env scope c s, wf_sig env scope c s = true ->
  let L := map (norm_param c) (s_params s) in
  apply_mutators (mkSig (map clear_mut L) (option_map (norm_star c) (s_star s)) (option_map (norm_sstar c) (s_sstar s))
                        (norm_ret c (s_ret s)))
                 (muts_of L ++ if self_mutated c s then match L with q :: _ => [(id_self, p_ty q)] | [] => [] end else []) =
  Some (norm_sig c s).
Proof.
  intros env scope c s Hwf L. destruct (wf_sig_more env scope c s Hwf) as (Hmut & Hnd & Hselfopt).
  pose proof (nodup_by_NoDup _ Hnd) as Hnd'. unfold sig_names in Hnd'.
  assert (HndL: NoDup (map p_name ([] ++ L))).
  { cbn [app]. unfold L. rewrite norm_param_name_map. apply (NoDup_app_l _ _ Hnd'). }
  assert (HstL: forall x, option_map (norm_star c) (s_star s) = Some x -> ~ In (fst x) (map p_name ([] ++ L))).
  { intros x Hx. cbn [app]. unfold L. rewrite norm_param_name_map. destruct (s_star s) as [st|] eqn:Es; [|discriminate].
    cbn [option_map] in Hx. injection Hx as <-. rewrite norm_star_name. intro Hin. cbn [app] in Hnd'.
    apply NoDup_remove_2 in Hnd'. apply Hnd'. apply in_or_app. left. exact Hin. }
  assert (HsstL: forall x, option_map (norm_sstar c) (s_sstar s) = Some x -> ~ In (fst x) (map p_name ([] ++ L))).
  { intros x Hx. cbn [app]. unfold L. rewrite norm_param_name_map. destruct (s_sstar s) as [st|] eqn:Es; [|discriminate].
    cbn [option_map] in Hx. injection Hx as <-. rewrite norm_sstar_name. intro Hin. rewrite app_assoc in Hnd'.
    apply NoDup_remove_2 in Hnd'. apply Hnd'. rewrite app_nil_r. apply in_or_app. left. exact Hin. }
  assert (HoptL: forall p m, In p L -> p_mut p = Some m -> p_opt p = false).
  { intros p m Hp Em. unfold L in Hp. apply in_map_iff in Hp. destruct Hp as (p0 & <- & Hp0).
    unfold norm_param in Em. cbn [p_mut] in Em. cbn [norm_param p_opt].
    destruct (p_mut p0) as [m0|] eqn:Em0; [|discriminate]. apply (Hmut p0 m0 Hp0 Em0). }
  change (map clear_mut L) with ([] ++ map clear_mut L).
  erewrite (apply_mutators_all _ _ _ L [] HndL HstL HsstL HoptL); [|reflexivity].
  cbn [app]. unfold norm_sig. fold L.
  destruct (self_mutated c s) eqn:Hself; [|destruct L; reflexivity].
  specialize (Hselfopt eq_refl).
  unfold self_mutated in Hself. unfold L in *. destruct (s_params s) as [|p0 pr] eqn:Epar; [discriminate|].
  cbn [map] in *.
  apply andb_true_iff in Hself. destruct Hself as [Hself _]. apply andb_true_iff in Hself. destruct Hself as [Hname _].
  apply N.eqb_eq in Hname. cbn [apply_mutators].
  assert (Ename: id_self = p_name (norm_param c p0)) by (cbn [norm_param p_name]; symmetry; exact Hname).
  rewrite Ename. cbn [app] in HndL. inversion HndL as [|? ? Hnot _]; subst.
  rewrite (apply_mutator_hit [] (norm_param c p0) (map (norm_param c) pr)).
  - reflexivity.
  - intros [].
  - exact Hnot.
  - cbn [norm_param p_opt]. exact Hselfopt.
  - intros x Hx Heq. apply (HstL x Hx). cbn [app map]. left. symmetry. exact Heq.
  - intros x Hx Heq. apply (HsstL x Hx). cbn [app map]. left. symmetry. exact Heq.
Qed.

Theorem sem_fsig_print : forall env scope c nm f, wf_fsig env scope c f = true ->
  sem_fsig env nm (items_of c (f_sig f)) (ret_expr c (s_ret (f_sig f)))
           (mut_exprs c (s_params (f_sig f)) ++ exc_exprs c (f_exc f)) = Some (norm_fsig c nm f).
Proof.
  intros env scope c nm [s excs] H. unfold wf_fsig in H. cbn [f_sig f_exc] in *.
  apply andb_true_iff in H. destruct H as [Hwf Hex].
  destruct (wf_sig_parts env scope c s Hwf) as (Hps & _).
  destruct (sig_head_items env scope c s Hwf) as (_ & _ & _ & Cr).
  destruct (read_items_of env scope c s Hwf) as (P & R & K & Eps & HP & HR & HK & Hbuild & Hdef & Cst & Csst).
  unfold sem_fsig. rewrite Hbuild. cbn [rs_pos rs_reg rs_star rs_kw rs_sstar]. rewrite Hdef.
  rewrite (conv_params_clear env c PosOnly P HP) by (intros p Hp; apply Hps; rewrite Eps; apply in_or_app; left; exact Hp).
  rewrite (conv_params_clear env c Regular R HR) by (intros p Hp; apply Hps; rewrite Eps; apply in_or_app; right; apply in_or_app; left; exact Hp).
  rewrite (conv_params_clear env c KwOnly K HK) by (intros p Hp; apply Hps; rewrite Eps; apply in_or_app; right; apply in_or_app; right; exact Hp).
  rewrite Cst, Csst, Cr, body_muts_split, body_excs_split.
  rewrite (conv_muts env c (s_params s)) by (intros p m Hp Em; apply (wf_sig_mut env scope c s p m Hwf Hp Em)).
  rewrite (conv_excs env c excs Hex).
  cbv beta iota zeta. unfold first_param, rps. cbn [rs_pos rs_reg rs_kw]. rewrite <- !map_app, <- Eps.
  rewrite <- (map_map (norm_param c) clear_mut).
  rewrite (self_mutator_read env c s Hps).
  rewrite (restore_mutators env scope c s Hwf). reflexivity.
Qed.

Lemma lines_nil : forall c ps excs, mut_lines c ps ++ raise_lines c excs = [] ->
  mut_exprs c ps ++ exc_exprs c excs = [].
Proof.
  intros c ps excs H. apply app_eq_nil in H. destruct H as [H1 H2].
  assert (E1: mut_exprs c ps = []).
  { unfold mut_lines, mut_exprs in *. induction ps as [|p r IH]; [reflexivity|].
    cbn [flat_map] in *. destruct (p_mut p); [discriminate|]. cbn [app] in *. apply IH. exact H1. }
  assert (E2: exc_exprs c excs = []).
  { destruct excs; [reflexivity|discriminate]. }
  rewrite E1, E2. reflexivity.
Qed.

Theorem parse_fsig_print_lemma : forall env scope c nm f, wf_fsig env scope c f = true ->
  parse_fsig env nm (print_fsig c f) = Some (norm_fsig c nm f).
Proof.
  intros env scope c nm f H. pose proof H as H0. unfold wf_fsig in H0.
  apply andb_true_iff in H0. destruct H0 as [Hwf Hex].
  destruct (sig_head_items env scope c (f_sig f) Hwf) as (Eh & Wi & Wr & _).
  unfold print_fsig. rewrite Eh. cbn [app]. repeat (rewrite <- app_assoc; cbn [app]).
  rewrite (parse_fsig_tokens env nm _ _ _ Wi Wr).
  pose proof (sem_fsig_print env scope c nm f H) as Hsem.
  unfold print_fbody.
  destruct (mut_lines c (s_params (f_sig f)) ++ raise_lines c (f_exc f)) as [|t0 r0] eqn:El.
  - cbn [parse_fbody_top]. rewrite (lines_nil _ _ _ El) in Hsem. exact Hsem.
  - pose proof (lines_start c (s_params (f_sig f)) (f_exc f)) as Hs. rewrite El in Hs.
    destruct t0; cbn in Hs; try contradiction.
    unfold parse_fbody_top. rewrite <- El.
    rewrite (parse_fbody_print env c (f_exc f) (s_params (f_sig f))); [exact Hsem | | exact Hex | lia].
    intros p m Hp Em. apply (wf_sig_mut env scope c (f_sig f) p m Hwf Hp Em).
Qed.

Section Suite.
Variable pl : list N -> list token -> option lres.
Variable pc : list N -> stmt -> option cls.

Lemma suite_app : forall ss1 pend l1 ss2 l2,
  suite_loop pl pc pend ss1 = Some l1 -> suite_loop pl pc [] ss2 = Some l2 ->
  suite_loop pl pc pend (ss1 ++ ss2) = Some (l1 ++ l2).
Proof.
  induction ss1 as [|s r IH]; intros pend l1 ss2 l2 H1 H2.
  - cbn in H1. destruct pend; [|discriminate]. injection H1 as <-. exact H2.
  - destruct s as [ts| |h b].
    + cbn [app suite_loop] in *. destruct (pl pend ts) as [[p|d]|]; [| |discriminate].
      * apply (IH p l1 ss2 l2 H1 H2).
      * destruct (suite_loop pl pc [] r) as [l|] eqn:El; [|discriminate]. injection H1 as <-.
        rewrite (IH [] l ss2 l2 El H2). reflexivity.
    + cbn [app suite_loop] in *. apply (IH pend l1 ss2 l2 H1 H2).
    + cbn [app suite_loop] in *. destruct (pc pend (SClass h b)) as [c|]; [|discriminate].
      destruct (suite_loop pl pc [] r) as [l|] eqn:El; [|discriminate]. injection H1 as <-.
      rewrite (IH [] l ss2 l2 El H2). reflexivity.
Qed.

Lemma suite_decos : forall ds pend X,
  (forall d p, pl p (deco_line d) = Some (LPend (p ++ [d]))) ->
  suite_loop pl pc pend (map (fun d => SLine (deco_line d)) ds ++ X) = suite_loop pl pc (pend ++ ds) X.
Proof.
  induction ds as [|d r IH]; intros pend X H.
  - rewrite app_nil_r. reflexivity.
  - cbn [map app suite_loop]. rewrite H. rewrite IH by exact H. rewrite <- app_assoc. reflexivity.
Qed.

Lemma suite_lines_map : forall {A} (pr : A -> list token) (it : A -> ditem) l,
  (forall x, In x l -> pl [] (pr x) = Some (LItem (it x))) ->
  suite_loop pl pc [] (map (fun x => SLine (pr x)) l) = Some (map it l).
Proof.
  intros A pr it. induction l as [|x r IH]; intros H; [reflexivity|].
  cbn [map suite_loop]. rewrite (H x (or_introl eq_refl)), IH by (intros y Hy; apply H; right; exact Hy). reflexivity.
Qed.

Lemma suite_join_blank : forall {A} (pr : A -> list stmt) (it : A -> ditem) l,
  (forall x, In x l -> suite_loop pl pc [] (pr x) = Some [it x]) ->
  suite_loop pl pc [] (join_blank (map pr l)) = Some (map it l).
Proof.
  intros A pr it. induction l as [|x [|y r] IH]; intros H; [reflexivity|cbn; apply H; left; reflexivity|].
  change (join_blank (map pr (x :: y :: r))) with (pr x ++ SBlank :: join_blank (map pr (y :: r))).
  apply (suite_app _ _ [it x]); [apply H; left; reflexivity|].
  apply IH. intros z Hz. apply H. right. exact Hz.
Qed.

Lemma suite_sections : forall secs ls,
  Forall2 (fun ss l => suite_loop pl pc [] ss = Some l) secs ls ->
  suite_loop pl pc [] (join_blank (filter (fun s => negb (is_nil s)) secs)) = Some (concat ls).
Proof.
  intros secs ls H. induction H as [|ss l secs ls Hs Hr IH]; [reflexivity|].
  destruct ss as [|s0 sr].
  - cbn in Hs. injection Hs as <-. cbn [filter is_nil negb concat app]. exact IH.
  - cbn [filter is_nil negb concat].
    destruct (filter (fun s => negb (is_nil s)) secs) as [|s2 r2] eqn:Ef.
    + cbn [join_blank] in *. injection IH as IH. rewrite <- IH, app_nil_r. exact Hs.
    + change (join_blank ((s0 :: sr) :: s2 :: r2)) with ((s0 :: sr) ++ SBlank :: join_blank (s2 :: r2)).
      apply suite_app; [exact Hs|exact IH].
Qed.
End Suite.

Section Fixed.
Variable fixed : bool.

Lemma print_fsig_head : forall c f, exists r, print_fsig c f = TLPar :: r.
Proof. intros. unfold print_fsig, sig_head. eexists. cbn [app]. reflexivity. Qed.

Definition rest_decos (f : func) : list N := filter (fun d => negb (is_flag_deco d)) ((printed_decos fixed) f).
Definition rdef_of (c : ctx) (f : func) (s : fsig) : rdef :=
  mkRD (fn_name f) (norm_fsig c (fn_name f) s) (rest_decos f)
       (mem id_abstractmethod ((printed_decos fixed) f)) (mem id_coroutine ((printed_decos fixed) f)) (mem id_final ((printed_decos fixed) f)).
Definition dfun_of (c : ctx) (f : func) : dfun :=
  mkDF (fn_name f) (map (norm_fsig c (fn_name f)) (fn_sigs f))
       (mem id_abstractmethod ((printed_decos fixed) f)) (mem id_coroutine ((printed_decos fixed) f)) (mem id_final ((printed_decos fixed) f))
       (rest_decos f) (mem id_property (rest_decos f)).

Lemma norm_func_dfun : forall c f, (norm_func fixed) c f = finish_df (dfun_of c f).
Proof. reflexivity. Qed.

Lemma wf_func_parts : forall env scope c f, (wf_func fixed) env scope c f = true ->
  decl_name env (fn_name f) = true /\ fn_sigs f <> [] /\ forallb (wf_fsig env scope c) (fn_sigs f) = true /\
  (decos_ok fixed) c f = true /\ verify_func scope ((norm_func fixed) c f) = true.
Proof.
  intros env scope c f H. unfold wf_func in H.
  apply andb_true_iff in H. destruct H as [H H5]. apply andb_true_iff in H. destruct H as [H H4].
  apply andb_true_iff in H. destruct H as [H H3]. apply andb_true_iff in H. destruct H as [H1 H2].
  repeat split; try assumption. destruct (fn_sigs f); [discriminate|discriminate].
Qed.

Lemma parse_line_def : forall env scope sc ic c f s,
  (wf_func fixed) env sc c f = true -> In s (fn_sigs f) ->
  parse_line env scope ic ((printed_decos fixed) f) (print_def c (fn_name f) s) = Some (LItem (DDef (rdef_of c f s))).
Proof.
  intros env scope sc ic c f s H Hs.
  destruct (wf_func_parts env sc c f H) as (Hn & _ & Hsig & Hd & _).
  destruct (decl_name_parts env _ Hn) as [Hres _]. destruct (reserved_parts _ Hres) as (Hdef & _).
  unfold print_def. destruct (print_fsig_head c s) as (r & Er).
  unfold parse_line. rewrite Er. change (id_def =? id_def)%N with true. cbv iota. rewrite <- Er.
  rewrite (parse_fsig_print_lemma env sc c (fn_name f) s (forallb_In Hsig Hs)).
  unfold mk_rdef. fold (rest_decos f).
  unfold decos_ok in Hd. fold (rest_decos f) in Hd. apply andb_true_iff in Hd. destruct Hd as [Hc _].
  assert (E: (1 <? count_distinct_kinds (rest_decos f))%nat = false).
  { apply Nat.ltb_ge. apply Nat.leb_le in Hc. exact Hc. }
  rewrite E. reflexivity.
Qed.

Lemma suite_func : forall env scope sc ic pc c f X l,
  (wf_func fixed) env sc c f = true ->
  suite_loop (parse_line env scope ic) pc [] X = Some l ->
  suite_loop (parse_line env scope ic) pc [] (map SLine ((print_func fixed) c f) ++ X) =
    Some (map DDef (map (rdef_of c f) (fn_sigs f)) ++ l).
Proof.
  intros env scope sc ic pc c f X l H HX. unfold print_func.
  assert (G: forall sigs, (forall s, In s sigs -> In s (fn_sigs f)) ->
    suite_loop (parse_line env scope ic) pc []
      (map SLine (flat_map (fun s => map deco_line ((printed_decos fixed) f) ++ [print_def c (fn_name f) s]) sigs) ++ X) =
    Some (map DDef (map (rdef_of c f) sigs) ++ l)).
  { induction sigs as [|s r IH]; intros Hin; [exact HX|].
    cbn [flat_map]. rewrite !map_app. rewrite map_map. cbn [map]. rewrite <- !app_assoc.
    rewrite suite_decos by reflexivity.
    cbn [map app suite_loop].
    rewrite (parse_line_def env scope sc ic c f s H (Hin s (or_introl eq_refl))).
    rewrite IH by (intros s' Hs'; apply Hin; right; exact Hs'). reflexivity. }
  apply G. auto.
Qed.

Lemma add_def_new : forall d acc,
  (forall a, In a acc -> (df_name a =? rd_name d)%N = false) ->
  add_def acc d = match make_df d with Some x => Some (acc ++ [x]) | None => None end.
Proof.
  intros d. induction acc as [|a r IH]; intros H; [reflexivity|].
  cbn [add_def]. rewrite (H a (or_introl eq_refl)). rewrite IH by (intros x Hx; apply H; right; exact Hx).
  destruct (make_df d); reflexivity.
Qed.

Lemma add_def_last : forall d a acc,
  (forall x, In x acc -> (df_name x =? rd_name d)%N = false) -> (df_name a =? rd_name d)%N = true ->
  add_def (acc ++ [a]) d = match add_overload a d with Some a' => Some (acc ++ [a']) | None => None end.
Proof.
  intros d a. induction acc as [|x r IH]; intros H Ha.
  - cbn [app add_def]. rewrite Ha. destruct (add_overload a d); reflexivity.
  - cbn [app add_def]. rewrite (H x (or_introl eq_refl)). rewrite IH; [|intros y Hy; apply H; right; exact Hy|exact Ha].
    destruct (add_overload a d); reflexivity.
Qed.

Lemma existsb_filter_nil : forall (f : N -> bool) l, existsb f l = negb (is_nil (filter f l)).
Proof. induction l as [|x r IH]; [reflexivity|]. cbn. destruct (f x); [reflexivity|exact IH]. Qed.

Lemma merge_overloads : forall c f tail acc rs sigs0,
  (forall x, In x acc -> (df_name x =? fn_name f)%N = false) ->
  merge_defs (acc ++ [mkDF (fn_name f) sigs0 (mem id_abstractmethod ((printed_decos fixed) f)) (mem id_coroutine ((printed_decos fixed) f))
                           (mem id_final ((printed_decos fixed) f)) (rest_decos f) false])
             (map (rdef_of c f) rs ++ tail) =
  merge_defs (acc ++ [mkDF (fn_name f) (sigs0 ++ map (norm_fsig c (fn_name f)) rs) (mem id_abstractmethod ((printed_decos fixed) f))
                           (mem id_coroutine ((printed_decos fixed) f)) (mem id_final ((printed_decos fixed) f)) (rest_decos f) false])
             tail.
Proof.
  intros c f tail acc. induction rs as [|s r IH]; intros sigs0 Hacc.
  - cbn [map app]. rewrite app_nil_r. reflexivity.
  - cbn [map app merge_defs]. set (R := map (rdef_of c f) r).
    rewrite add_def_last; [|exact Hacc|cbn; apply N.eqb_refl].
    unfold add_overload, rdef_of. cbn [df_prop df_cor df_fin df_abs df_decos rd_cor rd_fin rd_abs rd_decos df_name df_sigs rd_fsig].
    rewrite !Bool.eqb_reflx. cbn [andb]. subst R.
    rewrite (IH (sigs0 ++ [norm_fsig c (fn_name f) s]) Hacc). rewrite <- app_assoc. reflexivity.
Qed.

Lemma merge_func : forall c f tail acc,
  (decos_ok fixed) c f = true -> fn_sigs f <> [] ->
  (forall x, In x acc -> (df_name x =? fn_name f)%N = false) ->
  merge_defs acc (map (rdef_of c f) (fn_sigs f) ++ tail) = merge_defs (acc ++ [dfun_of c f]) tail.
Proof.
  intros c f tail acc Hd Hne Hacc. unfold dfun_of.
  unfold decos_ok in Hd. fold (rest_decos f) in Hd. apply andb_true_iff in Hd. destruct Hd as [_ Hp].
  destruct (fn_sigs f) as [|s1 rs] eqn:Es; [congruence|].
  cbn [map app merge_defs].
  rewrite add_def_new by exact Hacc.
  unfold make_df. cbn [rdef_of rd_decos rd_name rd_fsig rd_abs rd_cor rd_fin].
  assert (Emem: mem id_property (rest_decos f) = negb (is_nil (filter (N.eqb id_property) (rest_decos f)))) by apply existsb_filter_nil.
  rewrite Emem.
  destruct (filter (N.eqb id_property) (rest_decos f)) as [|x [|y z]] eqn:Ef.
  - cbn [is_nil negb]. rewrite (merge_overloads c f tail acc rs [norm_fsig c (fn_name f) s1] Hacc). reflexivity.
  - destruct rs as [|s2 rs']; [|discriminate]. rewrite Hp. cbn [map app is_nil negb]. reflexivity.
  - discriminate.
Qed.

Definition func_defs (c : ctx) (fs : list func) : list rdef := flat_map (fun f => map (rdef_of c f) (fn_sigs f)) fs.

Lemma merge_all : forall c fs acc,
  (forall f, In f fs -> (decos_ok fixed) c f = true /\ fn_sigs f <> []) ->
  NoDup (map df_name acc ++ map fn_name fs) ->
  merge_defs acc (func_defs c fs) = Some (acc ++ map (dfun_of c) fs).
Proof.
  intros c. induction fs as [|f r IH]; intros acc H Hnd.
  - cbn. rewrite app_nil_r. reflexivity.
  - unfold func_defs. cbn [flat_map]. fold (func_defs c r).
    destruct (H f (or_introl eq_refl)) as [Hd Hne].
    rewrite merge_func; [|exact Hd|exact Hne|].
    + rewrite IH.
      * cbn [map]. rewrite <- app_assoc. reflexivity.
      * intros g Hg. apply H. right. exact Hg.
      * rewrite map_app. cbn [map dfun_of df_name]. rewrite <- app_assoc. exact Hnd.
    + intros x Hx. apply N.eqb_neq. intro Heq. cbn [map] in Hnd. apply NoDup_remove_2 in Hnd. apply Hnd.
      apply in_or_app. left. rewrite <- Heq. apply in_map. exact Hx.
Qed.

Lemma merge_funcs_print : forall c fs,
  (forall f, In f fs -> (decos_ok fixed) c f = true /\ fn_sigs f <> []) -> NoDup (map fn_name fs) ->
  merge_funcs (func_defs c fs) = Some (map ((norm_func fixed) c) fs).
Proof.
  intros c fs H Hnd. unfold merge_funcs. rewrite (merge_all c fs [] H Hnd). cbn [app]. rewrite map_map. reflexivity.
Qed.

Lemma item_end_starts : forall ts, item_end ts -> starts_ok ts /\ no_eq_head ts.
Proof. intros [|[] ?]; cbn; auto. Qed.

Lemma sep_length : forall (l : list (list token)), length l <= S (length (sep l)).
Proof.
  induction l as [|x [|y r] IH]; cbn [length]; [lia|cbn; lia|].
  rewrite sep_cons2. rewrite app_length. cbn [length] in *. lia.
Qed.

Lemma parse_cargs_sep : forall (l : list (list token * carg)) tail,
  l <> [] ->
  (forall ts a, In (ts, a) l -> forall rest, item_end rest -> parse_carg (ts ++ rest) = Some (a, rest)) ->
  forall fuel, length l <= fuel ->
  parse_cargs fuel (sep (map fst l) ++ TRPar :: tail) = Some (map snd l, TRPar :: tail).
Proof.
  induction l as [|[ts a] r IH]; intros tail Hne H fuel Hf; [congruence|].
  destruct fuel as [|f]; [cbn in Hf; lia|]. cbn [parse_cargs].
  destruct r as [|[ts2 a2] r2].
  - cbn [map fst snd]. rewrite sep_single. rewrite (H ts a (or_introl eq_refl)); [reflexivity|exact I].
  - cbn [map fst snd]. rewrite sep_cons2. rewrite <- app_assoc. cbn [app].
    rewrite (H ts a (or_introl eq_refl)); [|exact I].
    change (ts2 :: map fst r2) with (map fst ((ts2, a2) :: r2)).
    rewrite (IH tail); [reflexivity | discriminate | | cbn [length] in *; lia].
    intros ts' a' Hin. apply H. right. exact Hin.
Qed.

Definition kept_bases (c : ctx) (bases : list ty) : list ty :=
  match bases with
  | [b] => if tokens_eqb (print_ty (ctx_plain c) b) [TName id_object] then [] else [b]
  | l => l
  end.
Definition kw_expr (c : ctx) (kv : N * ty) : expr :=
  match snd kv with Lit (LBool _ b) => EBool b | t => to_expr (ctx_plain c) t end.
Definition header_args (c : ctx) (cl : cls) : list (list token * carg) :=
  map (fun t => (print_ty (ctx_plain c) t, CBase (to_expr (ctx_plain c) t))) (kept_bases c (c_bases cl))
  ++ map (fun kv => (print_kw c kv, CKw (fst kv) (kw_expr c kv))) (c_kws cl).

Lemma parse_carg_base : forall env c t rest, wf env t = true -> item_end rest ->
  parse_carg (print_ty c t ++ rest) = Some (CBase (to_expr c t), rest).
Proof.
  intros env c t rest Hw He. destruct (item_end_starts rest He) as [Hs Hn]. unfold parse_carg.
  rewrite (is_kwarg_print env c t rest Hw Hn). rewrite (parse_expr_print_S env c t rest Hw Hs). reflexivity.
Qed.

Lemma parse_carg_kw : forall env c kv rest, wf_kw env kv = true -> item_end rest ->
  parse_carg (print_kw c kv ++ rest) = Some (CKw (fst kv) (kw_expr c kv), rest) /\
  conv_kw env (fst kv) (kw_expr c kv) = Some (norm_kw c kv).
Proof.
  intros env c [k t] rest Hw He. destruct (item_end_starts rest He) as [Hs Hn].
  unfold wf_kw in Hw. cbn [fst snd] in *. unfold print_kw, kw_expr, norm_kw, parse_carg. cbn [fst snd].
  destruct t as [n| | | |v| | | | |]; try discriminate.
  - apply andb_true_iff in Hw. destruct Hw as [Hw Hnn]. apply andb_true_iff in Hw. destruct Hw as [Hk Hwn].
    apply N.eqb_eq in Hk. subst k. apply negb_true_iff in Hnn.
    cbn [print_ty]. unfold print_name. rewrite Hnn. cbn [match_literal app is_kwarg].
    assert (Hwt: wf env (Named n) = true) by exact Hwn.
    pose proof (parse_expr_print_S env (ctx_plain c) (Named n) rest Hwt Hs) as HP.
    cbn [print_ty] in HP. unfold print_name in HP. rewrite Hnn in HP. cbn [app] in HP. rewrite HP.
    split; [reflexivity|]. unfold conv_kw. change (id_metaclass =? id_metaclass)%N with true. cbv iota.
    rewrite (conv_to_expr env (ctx_plain c) (Named n) Hwt). reflexivity.
  - destruct v as [|ic b| |]; try discriminate. apply N.eqb_eq in Hw. subst k.
    split.
    + change (print_kw c (id_total, Lit (LBool ic b))) with (TName id_total :: TEq :: flat (EBool b)).
      cbn [app is_kwarg fst snd]. rewrite (parse_flat_gen (EBool b)); [reflexivity | reflexivity | cbn [flat app length]; lia | exact Hs].
    + reflexivity.
Qed.

Lemma kept_bases_print : forall c bases,
  match map (print_ty (ctx_plain c)) bases with
  | [b] => if tokens_eqb b [TName id_object] then [] else map (print_ty (ctx_plain c)) bases
  | _ => map (print_ty (ctx_plain c)) bases
  end = map (print_ty (ctx_plain c)) (kept_bases c bases).
Proof.
  intros c [|b [|b2 r]]; cbn [map kept_bases]; try reflexivity.
  destruct (tokens_eqb (print_ty (ctx_plain c) b) [TName id_object]); reflexivity.
Qed.

Lemma kept_bases_cases : forall c bases,
  kept_bases c bases = bases \/
  kept_bases c bases = [] /\ exists b, bases = [b] /\ print_ty (ctx_plain c) b = [TName id_object].
Proof.
  intros c [|b [|b2 r]]; cbn [kept_bases]; auto.
  destruct (tokens_eqb _ _) eqn:E; [right|left; reflexivity]. apply tokens_eqb_true in E. eauto.
Qed.

Lemma kept_bases_incl : forall c bases t, In t (kept_bases c bases) -> In t bases.
Proof. intros c bases t H. destruct (kept_bases_cases c bases) as [E|[E _]]; rewrite E in H; [exact H|destruct H]. Qed.

Lemma norm_bases_kept : forall c nm bases,
  norm_bases c nm bases = final_bases nm (map (norm (ctx_plain c)) (kept_bases c bases)).
Proof.
  intros c nm [|b [|b2 r]]; unfold norm_bases; cbn [map kept_bases]; reflexivity.
Qed.

Lemma cargs_split : forall {A B} (h : A -> expr) (f : B -> N) (g : B -> expr) L1 L2,
  cargs_bases (map (fun x => CBase (h x)) L1 ++ map (fun x => CKw (f x) (g x)) L2) = map h L1 /\
  cargs_kws (map (fun x => CBase (h x)) L1 ++ map (fun x => CKw (f x) (g x)) L2) = map (fun x => (f x, g x)) L2.
Proof.
  intros A B h f g L1 L2. unfold cargs_bases, cargs_kws. rewrite !flat_map_app, !flat_map_map. cbv beta iota.
  rewrite !flat_map_none, !flat_map_single, app_nil_r. split; reflexivity.
Qed.

Lemma parse_class_args : forall (l : list (list token * carg)) tail,
  (forall ts a, In (ts, a) l -> forall rest, item_end rest -> parse_carg (ts ++ rest) = Some (a, rest)) ->
  forall r, r = match map fst l with [] => [] | _ => TLPar :: sep (map fst l) ++ [TRPar] end ++ TColon :: tail ->
  match r with
  | TLPar :: r1 => match parse_cargs (S (length r1)) r1 with Some (l, TRPar :: r2) => Some (l, r2) | _ => None end
  | _ => Some ([], r)
  end = Some (map snd l, TColon :: tail).
Proof.
  intros l tail H r ->. destruct l as [|a0 ar]; [reflexivity|].
  cbn [map app]. rewrite <- app_assoc. cbn [app]. change (fst a0 :: map fst ar) with (map fst (a0 :: ar)).
  rewrite (parse_cargs_sep (a0 :: ar) (TColon :: tail)); [reflexivity | discriminate | exact H |].
  pose proof (sep_length (map fst (a0 :: ar))) as HL. rewrite map_length in HL. rewrite app_length. cbn [length] in *. lia.
Qed.

Lemma class_header_parse : forall env c cl hb,
  forallb (wf_base env) (c_bases cl) = true -> forallb (wf_kw env) (c_kws cl) = true ->
  parse_class_header env (class_header c cl hb) =
    Some (c_name cl, map (norm (ctx_plain c)) (kept_bases c (c_bases cl)), map (norm_kw c) (c_kws cl), negb hb).
Proof.
  intros env c cl hb Hb Hk. unfold class_header. rewrite kept_bases_print.
  rewrite forallb_forall in Hb, Hk.
  assert (HKB: forall t, In t (kept_bases c (c_bases cl)) -> wf env t = true).
  { intros t Ht. specialize (Hb t (kept_bases_incl _ _ _ Ht)). unfold wf_base in Hb. apply andb_true_iff in Hb. apply Hb. }
  assert (Hargs: forall ts a, In (ts, a) (header_args c cl) -> forall rest, item_end rest -> parse_carg (ts ++ rest) = Some (a, rest)).
  { intros ts a Hin rest Hr. unfold header_args in Hin. apply in_app_or in Hin. destruct Hin as [Hin|Hin].
    - apply in_map_iff in Hin. destruct Hin as (t & Et & Ht). injection Et as <- <-.
      apply (parse_carg_base env); [apply HKB; exact Ht|exact Hr].
    - apply in_map_iff in Hin. destruct Hin as (kv & Et & Hkv). injection Et as <- <-.
      apply (parse_carg_kw env c kv rest (Hk kv Hkv) Hr). }
  assert (Eargs: map (print_ty (ctx_plain c)) (kept_bases c (c_bases cl)) ++ map (print_kw c) (c_kws cl) = map fst (header_args c cl)).
  { unfold header_args. rewrite map_app, !map_map. reflexivity. }
  rewrite Eargs. unfold parse_class_header. change (id_class =? id_class)%N with true. cbv iota.
  rewrite (parse_class_args (header_args c cl) (if hb then [] else [TEllipsis]) Hargs _ eq_refl).
  unfold header_args. rewrite map_app, !map_map. cbn [snd].
  destruct (cargs_split (to_expr (ctx_plain c)) fst (kw_expr c) (kept_bases c (c_bases cl)) (c_kws cl)) as [-> ->].
  rewrite (mapM_map (conv env) _ (norm (ctx_plain c))) by (intros t Ht; apply conv_to_expr, HKB, Ht).
  rewrite (mapM_map _ _ (norm_kw c)) by (intros kv Hkv; apply (parse_carg_kw env c kv [TRPar] (Hk kv Hkv) I)).
  destruct hb; reflexivity.
Qed.

Section ClsInd.
  Variable P : cls -> Prop.
  Hypothesis H : forall n b k d s cs ks ms, Forall P cs -> P (mkCls n b k d s cs ks ms).
  Fixpoint cls_ind' (c : cls) : P c :=
    match c with
    | mkCls n b k d s cs ks ms =>
        H n b k d s cs ks ms
          ((fix go (l : list cls) : Forall P l :=
              match l with [] => Forall_nil P | x :: r => Forall_cons x (cls_ind' x) (go r) end) cs)
    end.
End ClsInd.

(* The selectors item_* keep one constructor of ditem each: on a list grouped by constructor a selector passes over
   the groups of the other constructors and takes the whole of its own. *)
Lemma select_skip : forall {A B} (sel : ditem -> list B) (D : A -> ditem) L rest, (forall x, sel (D x) = []) ->
  flat_map sel (map D L ++ rest) = flat_map sel rest.
Proof. intros A B sel D L rest H. induction L as [|x r IH]; [reflexivity|]. cbn [map app flat_map]. rewrite H. exact IH. Qed.
Lemma select_take : forall {A} (sel : ditem -> list A) (D : A -> ditem) L rest, (forall x, sel (D x) = [x]) ->
  flat_map sel (map D L ++ rest) = L ++ flat_map sel rest.
Proof. intros A sel D L rest H. induction L as [|x r IH]; [reflexivity|]. cbn [map app flat_map]. rewrite H, IH. reflexivity. Qed.

Lemma class_items_select : forall (S : list (list N)) C K D,
  let l := map DSlots S ++ map DCls C ++ map DConst K ++ map DDef D in
  item_consts l = K /\ item_slots l = S /\ item_defs l = D /\ item_classes l = C.
Proof.
  intros S C K D l. unfold l, item_consts, item_slots, item_defs, item_classes. rewrite <- (app_nil_r (map DDef D)).
  repeat split; rewrite ?select_skip, ?select_take, ?select_skip by reflexivity; apply app_nil_r.
Qed.

Lemma unit_items_select : forall T A K C D,
  let l := map DTvar T ++ map DAlias A ++ map DConst K ++ map DCls C ++ map DDef D in
  item_tvars l = T /\ item_aliases l = A /\ item_consts l = K /\ item_slots l = [] /\ item_classes l = C /\ item_defs l = D.
Proof.
  intros T A K C D l. unfold l, item_tvars, item_aliases, item_consts, item_slots, item_classes, item_defs.
  rewrite <- (app_nil_r (map DDef D)).
  repeat split; rewrite ?select_skip, ?select_take, ?select_skip by reflexivity; reflexivity || apply app_nil_r.
Qed.

Definition class_items (cl : cls) : list ditem :=
  let c := mkCtx false (Some (c_name cl)) in
  map DSlots (match c_slots cl with Some sl => [sl] | None => [] end)
  ++ map DCls (map (norm_cls fixed) (c_classes cl))
  ++ map DConst (map (norm_const c) (c_consts cl))
  ++ map DDef (func_defs c (c_methods cl)).

Lemma forallb_dedup : forall (P : N -> bool) l, forallb P l = true -> forallb P (dedup N.eqb l) = true.
Proof.
  intros P. induction l as [|x r IH]; intros H; [reflexivity|].
  cbn in H. apply andb_true_iff in H. destruct H as [Hx Hr]. cbn [dedup forallb]. rewrite Hx. cbn [andb].
  specialize (IH Hr). rewrite forallb_forall in *. intros y Hy. apply filter_In in Hy. apply IH. apply Hy.
Qed.

Lemma wf_cls_unfold : forall env scope nested nm bases kws decos slots classes consts methods,
  (wf_cls fixed) env scope nested (mkCls nm bases kws decos slots classes consts methods) = true ->
  let c := mkCtx false (Some nm) in
  let sc := scope ++ flat_map tparams (norm_bases c nm bases) in
  decl_name env nm = true /\ forallb (wf_base env) bases = true /\ forallb (wf_kw env) kws = true /\
  forallb (fun d => negb (nonclass_deco d) && negb (reserved_word d)) decos = true /\
  forallb (wf_const env) consts = true /\ forallb (fun k => negb (k_name k =? id_slots)%N) consts = true /\
  forallb ((wf_func fixed) env sc c) methods = true /\
  nodup_by N.eqb (map k_name consts ++ map fn_name methods) = true /\
  forallb ((wf_cls fixed) env sc true) classes = true.
Proof.
  intros env scope nested nm bases kws decos slots classes consts methods H. cbn zeta. cbn [wf_cls] in H.
  apply andb_true_iff in H; destruct H as [H H10]. apply andb_true_iff in H; destruct H as [H H9].
  apply andb_true_iff in H; destruct H as [H H8]. apply andb_true_iff in H; destruct H as [H H7].
  apply andb_true_iff in H; destruct H as [H H6]. apply andb_true_iff in H; destruct H as [H H5].
  apply andb_true_iff in H; destruct H as [H H4]. apply andb_true_iff in H; destruct H as [H H3].
  apply andb_true_iff in H; destruct H as [H1 H2].
  repeat split; assumption.
Qed.

Lemma existsb_forallb_neg : forall {A} (P : A -> bool) l, forallb (fun x => negb (P x)) l = true -> existsb P l = false.
Proof. induction l as [|x r IH]; intros H; [reflexivity|]. cbn in *. apply andb_true_iff in H. destruct H as [Hx Hr].
  apply negb_true_iff in Hx. rewrite Hx. apply IH. exact Hr. Qed.

Lemma func_defs_names : forall c fs d, In d (func_defs c fs) -> In (rd_name d) (map fn_name fs).
Proof.
  intros c fs d H. unfold func_defs in H. apply in_flat_map in H. destruct H as (f & Hf & Hd).
  apply in_map_iff in Hd. destruct Hd as (s & <- & _). cbn [rdef_of rd_name]. apply in_map. exact Hf.
Qed.

Lemma NoDup_app_r : forall {A} (a b : list A), NoDup (a ++ b) -> NoDup b.
Proof. induction a as [|x r IH]; intros b H; [exact H|]. cbn in H. inversion H; subst. apply IH. assumption. Qed.

Lemma NoDup_app_disj : forall {A} (a b : list A) x, NoDup (a ++ b) -> In x a -> In x b -> False.
Proof.
  induction a as [|y r IH]; intros b x H Ha Hb; [destruct Ha|].
  cbn in H. inversion H as [|? ? Hy Hr]; subst. destruct Ha as [->|Ha].
  - apply Hy. apply in_or_app. right. exact Hb.
  - apply (IH b x Hr Ha Hb).
Qed.

Lemma build_class_ok : forall scope nm bases kws decos items slots consts methods,
  existsb nonclass_deco decos = false ->
  item_slots items = match slots with Some sl => [sl] | None => [] end ->
  filter (fun k => negb (k_name k =? id_slots)%N) (item_consts items) = consts ->
  nodup_by N.eqb (map k_name consts) = true ->
  existsb (fun k => mem (k_name k) (map rd_name (item_defs items))) consts = false ->
  merge_funcs (item_defs items) = Some methods ->
  forallb (verify_func (scope ++ flat_map tparams (final_bases nm bases)))
          (filter (fun f => negb (const_property f)) methods) = true ->
  build_class scope nm bases kws decos items =
  Some (mkCls nm (final_bases nm bases) kws decos slots (item_classes items)
              (consts ++ map prop_const (filter const_property methods)) (filter (fun f => negb (const_property f)) methods)).
Proof.
  intros scope nm bases kws decos items slots consts methods H1 H2 H3 H4 H5 H6 H7. unfold build_class.
  rewrite H1, H2, H3, H4, H5, H6. destruct slots; cbn [negb orb]; rewrite H7; reflexivity.
Qed.

Lemma build_class_items : forall env scope nested cl, (wf_cls fixed) env scope nested cl = true ->
  let c := mkCtx false (Some (c_name cl)) in
  build_class scope (c_name cl) (map (norm (ctx_plain c)) (kept_bases c (c_bases cl))) (map (norm_kw c) (c_kws cl))
              (dedup N.eqb (c_decos cl)) (class_items cl) = Some ((norm_cls fixed) cl).
Proof.
  intros env scope nested [nm bases kws decos slots classes consts methods] Hwf. cbn zeta.
  destruct (wf_cls_unfold _ _ _ _ _ _ _ _ _ _ _ Hwf) as (Hn & Hb & Hk & Hdec & Hco & Hsl & Hm & Hnd & Hcl).
  unfold class_items. cbn [c_name c_bases c_kws c_decos c_slots c_classes c_consts c_methods] in *.
  set (c := mkCtx false (Some nm)) in *.
  destruct (class_items_select (match slots with Some sl => [sl] | None => [] end) (map (norm_cls fixed) classes)
              (map (norm_const c) consts) (func_defs c methods)) as (Ic & Is & Id & Icl). cbn zeta in Ic, Is, Id, Icl.
  destruct (nodup_by_app _ _ _ Hnd) as [Hnd1 _]. pose proof (nodup_by_NoDup _ Hnd) as HND.
  rewrite forallb_forall in Hm.
  rewrite (build_class_ok scope nm _ _ _ _ slots (map (norm_const c) consts) (map ((norm_func fixed) c) methods)).
  - rewrite Icl, <- norm_bases_kept. reflexivity.
  - apply existsb_forallb_neg. apply forallb_dedup. rewrite forallb_forall in Hdec |- *. intros d Hd.
    specialize (Hdec d Hd). apply andb_true_iff in Hdec. apply Hdec.
  - exact Is.
  - rewrite Ic. apply filter_all. intros k Hk'. apply in_map_iff in Hk'.
    destruct Hk' as (k0 & <- & Hk0). apply (forallb_In Hsl Hk0).
  - rewrite map_map. exact Hnd1.
  - rewrite Id. destruct (existsb _ _) eqn:Ex; [exfalso|reflexivity].
    apply existsb_exists in Ex. destruct Ex as (k & Hk' & Hmem). apply in_map_iff in Hk'. destruct Hk' as (k0 & <- & Hk0).
    apply mem_In, in_map_iff in Hmem. destruct Hmem as (d & Ed & Hd). pose proof (func_defs_names c methods d Hd) as Hin.
    rewrite Ed in Hin. apply (NoDup_app_disj _ _ (k_name k0) HND); [apply in_map; exact Hk0 | exact Hin].
  - rewrite Id. apply merge_funcs_print; [|apply (NoDup_app_r _ _ HND)].
    intros f Hf. destruct (wf_func_parts _ _ _ _ (Hm f Hf)) as (_ & Hne & _ & Hd & _). auto.
  - rewrite <- norm_bases_kept, forallb_forall. intros f Hf. apply filter_In in Hf. destruct Hf as [Hf _].
    apply in_map_iff in Hf. destruct Hf as (f0 & <- & Hf0). apply (wf_func_parts _ _ _ _ (Hm f0 Hf0)).
Qed.

Lemma parse_line_simple : forall env scope ic n t r, t = TColon \/ t = TEq ->
  parse_line env scope ic [] (TName n :: t :: r) =
  match parse_simple env ic (TName n :: t :: r) with Some d => Some (LItem d) | None => None end.
Proof. intros env scope ic n t r [->| ->]; reflexivity. Qed.

Lemma parse_line_const : forall env scope ic c k, wf_const env k = true ->
  parse_line env scope ic [] (print_const c k) = Some (LItem (DConst (norm_const c k))).
Proof.
  intros env scope ic c k H. pose proof (parse_simple_const env c ic k H) as P.
  unfold print_const in *. rewrite parse_line_simple by (left; reflexivity). rewrite P. reflexivity.
Qed.

Lemma parse_line_alias : forall env scope a, wf_alias env a = true ->
  parse_line env scope false [] (print_alias plain0 a) = Some (LItem (DAlias (norm_alias plain0 a))).
Proof.
  intros env scope a H. pose proof (parse_simple_alias env a H) as P.
  unfold print_alias in *. rewrite parse_line_simple by (right; reflexivity). rewrite P. reflexivity.
Qed.

Lemma parse_line_tparam : forall env scope t, wf_tparam env t = true ->
  parse_line env scope false [] (print_tparam plain0 t) = Some (LItem (DTvar (norm_tparam plain0 t))).
Proof.
  intros env scope t H. pose proof (parse_simple_tparam env t H) as P.
  unfold print_tparam in *. rewrite parse_line_simple by (right; reflexivity). rewrite P. reflexivity.
Qed.

Lemma str_args_map : forall sl, str_args (map EStr sl) = Some sl.
Proof. unfold str_args. induction sl as [|x r IH]; [reflexivity|]. cbn [map mapM] in *. rewrite IH. reflexivity. Qed.

Lemma parse_line_slots : forall env scope sl,
  parse_line env scope true [] (slots_line sl) = Some (LItem (DSlots sl)).
Proof.
  intros env scope sl. unfold slots_line. rewrite parse_line_simple by (right; reflexivity).
  assert (E: TLBr :: sep (map (fun s => [TStr s]) sl) ++ [TRBr] = flat (EList (map EStr sl))).
  { cbn [flat]. rewrite map_map. reflexivity. }
  unfold parse_simple. rewrite E.
  assert (W: wfe (EList (map EStr sl)) = true) by (cbn [wfe]; clear E; induction sl as [|x r IH]; [reflexivity|exact IH]).
  rewrite (parse_flat _ W).
  change (id_slots =? id_slots)%N with true. cbv iota. rewrite str_args_map. reflexivity.
Qed.

Lemma class_header_shape : forall c cl hb, exists t r,
  class_header c cl hb = TName id_class :: TName (c_name cl) :: t :: r.
Proof.
  intros c cl hb. unfold class_header.
  destruct (match map (print_ty (ctx_plain c)) (c_bases cl) with
            | [b] => if tokens_eqb b [TName id_object] then [] else map (print_ty (ctx_plain c)) (c_bases cl)
            | _ => map (print_ty (ctx_plain c)) (c_bases cl) end ++ map (print_kw c) (c_kws cl)); cbn [app]; eauto.
Qed.

Lemma has_body_false : forall cl, has_body cl = false -> class_items cl = [].
Proof.
  intros [nm bases kws decos slots classes consts methods] H. unfold has_body in H.
  cbn [c_classes c_methods c_consts c_slots] in H.
  repeat (apply orb_false_iff in H; destruct H as [H ?]).
  destruct classes; [|discriminate]. destruct methods; [|discriminate]. destruct consts; [|discriminate].
  destruct slots; [discriminate|]. reflexivity.
Qed.

Lemma parse_line_class1 : forall env scope ic pend ts t r nm, ts = TName id_class :: TName nm :: t :: r ->
  parse_line env scope ic pend ts =
  match parse_class_header env ts with
  | Some (cn, bs, kws, true) =>
      match build_class scope cn bs kws pend [] with Some c0 => Some (LItem (DCls c0)) | None => None end
  | _ => None
  end.
Proof. intros; subst; reflexivity. Qed.

Lemma print_cls_unfold : forall cl, let c := mkCtx false (Some (c_name cl)) in
  (print_cls fixed) cl =
  map (fun d => SLine (deco_line d)) (dedup N.eqb (c_decos cl))
  ++ [if has_body cl
      then SClass (class_header c cl true)
             ((match c_slots cl with Some sl => [SLine (slots_line sl)] | None => [] end)
              ++ flat_map (print_cls fixed) (c_classes cl) ++ map (fun k => SLine (print_const c k)) (c_consts cl)
              ++ map SLine (flat_map ((print_func fixed) c) (c_methods cl)))
      else SLine (class_header c cl false)].
Proof. intros []; reflexivity. Qed.

(* a printed class (decorator lines, header, suite) inside any suite that is read with the same scope *)
Definition class_reads (cl : cls) : Prop :=
  forall env scope nested ic X l, (wf_cls fixed) env scope nested cl = true ->
  suite_loop (parse_line env scope ic) (parse_class env scope) [] X = Some l ->
  suite_loop (parse_line env scope ic) (parse_class env scope) [] ((print_cls fixed) cl ++ X) = Some (DCls ((norm_cls fixed) cl) :: l).

Lemma suite_classes : forall env scope ic classes X l,
  Forall class_reads classes -> forallb ((wf_cls fixed) env scope true) classes = true ->
  suite_loop (parse_line env scope ic) (parse_class env scope) [] X = Some l ->
  suite_loop (parse_line env scope ic) (parse_class env scope) [] (flat_map (print_cls fixed) classes ++ X) =
    Some (map DCls (map (norm_cls fixed) classes) ++ l).
Proof.
  intros env scope ic classes X l HF. induction HF as [|x r Hx _ IH]; intros Hw HX; [exact HX|].
  cbn [forallb] in Hw. apply andb_true_iff in Hw. destruct Hw as [Hwx Hwr].
  cbn [flat_map map]. rewrite <- app_assoc. cbn [app].
  apply (Hx env scope true ic _ _ Hwx). apply IH; assumption.
Qed.

Lemma suite_funcs : forall env scope ic pc c fs,
  forallb ((wf_func fixed) env scope c) fs = true ->
  suite_loop (parse_line env scope ic) pc [] (map SLine (flat_map ((print_func fixed) c) fs)) = Some (map DDef (func_defs c fs)).
Proof.
  intros env scope ic pc c. induction fs as [|f r IH]; intros H; [reflexivity|].
  cbn [forallb] in H. apply andb_true_iff in H. destruct H as [Hf Hr].
  unfold func_defs. cbn [flat_map]. rewrite !map_app. apply (suite_func env scope scope ic pc c f _ _ Hf). apply IH. exact Hr.
Qed.

Lemma class_items_nonempty : forall env scope nested cl, (wf_cls fixed) env scope nested cl = true ->
  has_body cl = true -> class_items cl <> [].
Proof.
  intros env scope nested [nm bases kws decos slots classes consts methods] Hwf H E.
  destruct (wf_cls_unfold _ _ _ _ _ _ _ _ _ _ _ Hwf) as (_ & _ & _ & _ & _ & _ & Hm & _ & _).
  unfold class_items in E. cbn [c_slots c_classes c_consts c_methods c_name] in E.
  apply app_eq_nil in E. destruct E as [E1 E]. apply app_eq_nil in E. destruct E as [E2 E].
  apply app_eq_nil in E. destruct E as [E3 E4]. apply map_eq_nil in E1, E2, E3, E4. apply map_eq_nil in E2, E3.
  subst classes consts. destruct slots; [discriminate E1|]. destruct methods as [|f r]; [discriminate H|].
  cbn [forallb] in Hm. apply andb_true_iff in Hm. destruct Hm as [Hf _].
  destruct (wf_func_parts _ _ _ _ Hf) as (_ & Hne & _).
  apply app_eq_nil in E4. destruct E4 as [E4 _]. apply map_eq_nil in E4. contradiction.
Qed.

Theorem class_reads_all : forall cl, class_reads cl.
Proof.
  induction cl using cls_ind'. rename H into IHcs.
  unfold class_reads. intros env scope nested ic X l Hwf HX.
  set (cl := mkCls n b k d s cs ks ms) in *.
  pose proof (build_class_items env scope nested cl Hwf) as HB. cbn zeta in HB.
  destruct (wf_cls_unfold _ _ _ _ _ _ _ _ _ _ _ Hwf) as (Hn & Hb & Hk & Hdec & Hco & Hsl & Hm & Hnd & Hcl).
  cbn zeta in *.
  set (c := mkCtx false (Some n)) in *.
  set (sc := scope ++ flat_map tparams (norm_bases c n b)) in *.
  destruct (decl_name_parts env n Hn) as [Hres _]. destruct (reserved_parts n Hres) as (Hdef & _).
  rewrite print_cls_unfold. unfold cl. cbn [c_name c_decos c_slots c_classes c_consts c_methods]. fold cl c. rewrite <- app_assoc.
  rewrite suite_decos by reflexivity. cbn [app].
  pose proof (class_header_parse env c cl) as HH. cbn [c_bases c_kws c_name] in HH.
  destruct (has_body cl) eqn:Ehb.
  - (* header line and suite *)
    cbn [suite_loop parse_class].
    rewrite (HH true Hb Hk). cbn [negb].
    change (c_name cl) with n. change (c_bases cl) with b. change (c_kws cl) with k.
    rewrite <- (norm_bases_kept c n b). fold sc.
    assert (Hinner: suite_loop (parse_line env sc true) (parse_class env sc) []
              ((match s with Some sl => [SLine (slots_line sl)] | None => [] end)
               ++ flat_map (print_cls fixed) cs ++ map (fun k => SLine (print_const c k)) ks
               ++ map SLine (flat_map ((print_func fixed) c) ms)) = Some (class_items cl)).
    { unfold class_items. cbn [c_slots c_classes c_consts c_methods c_name]. fold c.
      apply suite_app.
      - destruct s as [sl|]; [|reflexivity]. cbn [suite_loop]. rewrite parse_line_slots. reflexivity.
      - apply suite_classes; [exact IHcs | exact Hcl |].
        apply suite_app.
        + rewrite map_map. apply suite_lines_map. rewrite forallb_forall in Hco.
          intros k0 Hk0. apply parse_line_const. apply Hco. exact Hk0.
        + apply suite_funcs. exact Hm. }
    rewrite Hinner.
    pose proof (class_items_nonempty env scope nested cl Hwf Ehb) as Hne.
    change (c_name cl) with n in HB; change (c_bases cl) with b in HB; change (c_kws cl) with k in HB;
      change (c_decos cl) with d in HB. fold c in HB.
    destruct (class_items cl) as [|i0 ir] eqn:Eit; [congruence|].
    rewrite HB. rewrite HX. reflexivity.
  - (* class NAME(...): ... *)
    destruct (class_header_shape c cl false) as (t0 & r0 & Esh).
    cbn [suite_loop]. rewrite (parse_line_class1 env scope ic _ _ t0 r0 (c_name cl) Esh).
    rewrite (HH false Hb Hk). cbn [negb].
    rewrite (has_body_false cl Ehb) in HB.
    change (c_name cl) with n in *; change (c_bases cl) with b in *; change (c_kws cl) with k in *;
      change (c_decos cl) with d in *. fold c in HB. rewrite HB.
    rewrite HX. reflexivity.
Qed.

Lemma tvar_names_app : forall a b, tvar_names (a ++ b) = tvar_names a ++ tvar_names b.
Proof. intros. unfold tvar_names. apply flat_map_app. Qed.

Lemma tvar_names_join : forall secs, tvar_names (join_blank secs) = flat_map tvar_names secs.
Proof.
  induction secs as [|s [|s2 r] IH]; [reflexivity|cbn; rewrite app_nil_r; reflexivity|].
  change (join_blank (s :: s2 :: r)) with (s ++ SBlank :: join_blank (s2 :: r)).
  rewrite tvar_names_app. cbn [flat_map]. f_equal. exact IH.
Qed.

Lemma tvar_names_filter : forall secs,
  flat_map tvar_names (filter (fun s => negb (is_nil s)) secs) = flat_map tvar_names secs.
Proof. induction secs as [|s r IH]; [reflexivity|]. destruct s; cbn [filter is_nil negb flat_map]; [exact IH|]. f_equal. exact IH. Qed.

Definition not_tvar_line (ts : list token) : Prop :=
  match ts with TName _ :: TEq :: TName _ :: TLPar :: _ => False | _ => True end.
Lemma tvar_names_lines : forall {A} (pr : A -> list token) l, (forall x, In x l -> not_tvar_line (pr x)) ->
  tvar_names (map (fun x => SLine (pr x)) l) = [].
Proof.
  intros A pr. induction l as [|x r IH]; intros H; [reflexivity|].
  cbn [map]. change (tvar_names (SLine (pr x) :: ?X)) with
    ((match pr x with TName n :: TEq :: TName f :: TLPar :: _ => if (f =? id_TypeVar)%N then [n] else [] | _ => [] end) ++ tvar_names X).
  rewrite IH, app_nil_r by (intros y Hy; apply H; right; exact Hy).
  pose proof (H x (or_introl eq_refl)) as Hx. unfold not_tvar_line in Hx.
  (* one token at a time: only the TName/TEq/TName/TLPar prefix survives each step *)
  destruct (pr x) as [|[] ts]; try reflexivity. do 3 (destruct ts as [|[] ts]; try reflexivity). contradiction.
Qed.

Lemma flat_not_call2 : forall e, match flat e with TName _ :: TLPar :: _ => False | _ => True end.
Proof. destruct e; exact I. Qed.

Lemma alias_not_tvar : forall env a, wf_alias env a = true -> not_tvar_line (print_alias plain0 a).
Proof.
  intros env [n t] H. destruct (wf_alias_parts env _ H) as (_ & Hw & _). cbn [snd] in Hw.
  unfold print_alias, not_tvar_line. cbn [fst snd]. change (ctx_plain plain0) with plain0.
  destruct (print_to_expr env plain0 t Hw) as [E _]. rewrite E.
  exact (flat_not_call2 _).
Qed.

Lemma func_not_tvar : forall c f ts, In ts ((print_func fixed) c f) -> not_tvar_line ts.
Proof.
  intros c f ts Hts. unfold print_func in Hts. apply in_flat_map in Hts.
  destruct Hts as (s & _ & Hin). apply in_app_or in Hin. destruct Hin as [Hin|[<-|[]]]; [|exact I].
  apply in_map_iff in Hin. destruct Hin as (d & <- & _). exact I.
Qed.

Lemma tvar_names_cls : forall cl, tvar_names ((print_cls fixed) cl) = [].
Proof.
  intros cl. rewrite print_cls_unfold, tvar_names_app, (tvar_names_lines deco_line) by (intros; exact I).
  cbn [app]. destruct (has_body cl); [reflexivity|].
  destruct (class_header_shape (mkCtx false (Some (c_name cl))) cl false) as (t0 & r0 & ->). reflexivity.
Qed.

Lemma In_insert_tp : forall x t l, In x (insert_tp t l) -> x = t \/ In x l.
Proof.
  intros x t. induction l as [|y r IH]; cbn; intros H; [destruct H as [<-|[]]; auto|].
  destruct (tp_name t <=? tp_name y)%N; cbn in H.
  - destruct H as [<-|H]; auto.
  - destruct H as [<-|H]; [auto|]. destruct (IH H); auto.
Qed.
Lemma In_sort_tps : forall x l, In x (sort_tps l) -> In x l.
Proof.
  intros x. induction l as [|y r IH]; cbn; intros H; [exact H|].
  apply In_insert_tp in H. destruct H as [->|H]; auto.
Qed.

Lemma wf_unit_parts : forall u, (wf_unit fixed) u = true ->
  let env := map tp_name (sort_tps (u_tparams u)) in
  forallb (wf_tparam env) (u_tparams u) = true /\ forallb (wf_alias env) (u_aliases u) = true /\
  forallb (wf_const env) (u_consts u) = true /\ forallb ((wf_cls fixed) env [] false) (u_classes u) = true /\
  forallb ((wf_func fixed) env [] plain0) (u_funcs u) = true /\
  forallb (fun f => negb (mkind_eqb (fn_kind ((norm_func fixed) plain0 f)) KProp) &&
                    negb ((fn_name f =? id_getattr)%N && (1 <? length (fn_sigs f))%nat)) (u_funcs u) = true /\
  nodup_by N.eqb (unit_names u) = true.
Proof.
  intros u H. cbn zeta. unfold wf_unit in H.
  apply andb_true_iff in H; destruct H as [H H7]. apply andb_true_iff in H; destruct H as [H H6].
  apply andb_true_iff in H; destruct H as [H H5]. apply andb_true_iff in H; destruct H as [H H4].
  apply andb_true_iff in H; destruct H as [H H3]. apply andb_true_iff in H; destruct H as [H1 H2].
  repeat split; assumption.
Qed.

Lemma wf_aliases_filter : forall env l, forallb (wf_alias env) l = true ->
  filter (fun a => negb (prints_none (snd a))) l = l /\ filter (fun a => prints_none (snd a)) l = [].
Proof.
  intros env l H. rewrite forallb_forall in H.
  split; [apply filter_all | apply filter_none]; intros a Ha; destruct (wf_alias_parts env a (H a Ha)) as (_ & _ & ->); reflexivity.
Qed.

Lemma tvar_names_print_unit : forall env u, forallb (wf_alias env) (u_aliases u) = true ->
  tvar_names ((print_unit fixed) u) = map tp_name (sort_tps (u_tparams u)).
Proof.
  intros env u Hal. unfold print_unit. rewrite tvar_names_join, tvar_names_filter. cbn [flat_map].
  rewrite (tvar_names_lines (print_alias plain0)), (tvar_names_lines (print_const plain0)), (tvar_names_lines (fun ts => ts)).
  - rewrite tvar_names_join, flat_map_map, (flat_map_ext _ (fun _ => []) tvar_names_cls), flat_map_none, !app_nil_r.
    induction (sort_tps (u_tparams u)) as [|t r IH]; [reflexivity|]. cbn [map].
    change (tvar_names (SLine (print_tparam plain0 t) :: ?X)) with (tp_name t :: tvar_names X). f_equal. exact IH.
  - intros ts Hts. apply in_flat_map in Hts. destruct Hts as (f & _ & Hin). apply (func_not_tvar plain0 f ts Hin).
  - intros; exact I.
  - intros a Ha. apply (alias_not_tvar env a (forallb_In Hal Ha)).
Qed.

Definition unit_items (u : unit_) : list ditem :=
  map DTvar (map (norm_tparam plain0) (sort_tps (u_tparams u))) ++ map DAlias (map (norm_alias plain0) (u_aliases u)) ++
  map DConst (map (norm_const plain0) (u_consts u)) ++ map DCls (map (norm_cls fixed) (u_classes u)) ++
  map DDef (func_defs plain0 (u_funcs u)).

Lemma parse_stmts_print_unit : forall u, (wf_unit fixed) u = true ->
  parse_stmts (map tp_name (sort_tps (u_tparams u))) ((print_unit fixed) u) = Some (unit_items u).
Proof.
  intros u Hwf. destruct (wf_unit_parts u Hwf) as (Htp & Hal & Hco & Hcl & Hfn & _ & _). cbn zeta in *.
  set (env := map tp_name (sort_tps (u_tparams u))) in *.
  unfold parse_stmts, print_unit, unit_items. rewrite <- (app_nil_r (map DDef _)).
  apply (suite_sections _ _ _ [_; _; _; _; _]). repeat constructor.
  - rewrite (map_map (norm_tparam plain0) DTvar). apply suite_lines_map.
    intros t Ht. apply parse_line_tparam. rewrite forallb_forall in Htp. apply Htp. apply In_sort_tps. exact Ht.
  - rewrite (map_map (norm_alias plain0) DAlias). apply suite_lines_map.
    intros a Ha. rewrite forallb_forall in Hal. apply parse_line_alias. apply Hal. exact Ha.
  - rewrite (map_map (norm_const plain0) DConst). apply suite_lines_map.
    intros k Hk. rewrite forallb_forall in Hco. apply parse_line_const. apply Hco. exact Hk.
  - rewrite map_map. apply suite_join_blank. intros x Hx.
    pose proof (class_reads_all x env [] false false [] [] (forallb_In Hcl Hx) eq_refl) as R.
    rewrite app_nil_r in R. exact R.
  - apply suite_funcs. exact Hfn.
Qed.

Lemma parse_unit_ok : forall ss items funcs,
  parse_stmts (tvar_names ss) ss = Some items -> item_slots items = [] -> merge_funcs (item_defs items) = Some funcs ->
  nodup_by N.eqb (map tp_name (item_tvars items) ++ map fst (item_aliases items) ++ map k_name (item_consts items)
                  ++ map c_name (item_classes items) ++ map fn_name funcs) = true ->
  existsb (fun f => mkind_eqb (fn_kind f) KProp) funcs = false ->
  existsb (fun f => (fn_name f =? id_getattr)%N && (1 <? length (fn_sigs f))%nat) funcs = false ->
  forallb (verify_func []) funcs = true ->
  parse_unit ss = Some (mkU (item_tvars items) (item_aliases items) (item_consts items) (item_classes items) funcs).
Proof. intros ss items funcs H1 H2 H3 H4 H5 H6 H7. unfold parse_unit. rewrite H1, H2, H3, H4, H5, H6, H7. reflexivity. Qed.

Theorem parse_unit_print_lemma : forall u, (wf_unit fixed) u = true -> parse_unit ((print_unit fixed) u) = Some ((norm_unit fixed) u).
Proof.
  intros u Hwf. destruct (wf_unit_parts u Hwf) as (_ & Hal & _ & _ & Hfn & Hmod & Hnd). cbn zeta in *.
  destruct (unit_items_select (map (norm_tparam plain0) (sort_tps (u_tparams u))) (map (norm_alias plain0) (u_aliases u))
              (map (norm_const plain0) (u_consts u)) (map (norm_cls fixed) (u_classes u)) (func_defs plain0 (u_funcs u)))
    as (Et & Ea & Ek & Es & Ec & Ed).
  cbn zeta in *. fold (unit_items u) in *. rewrite forallb_forall in Hfn, Hmod.
  rewrite (parse_unit_ok _ (unit_items u) (map ((norm_func fixed) plain0) (u_funcs u))).
  - rewrite Et, Ea, Ek, Ec. unfold norm_unit. destruct (wf_aliases_filter _ _ Hal) as [-> ->]. reflexivity.
  - rewrite (tvar_names_print_unit _ u Hal). apply (parse_stmts_print_unit u Hwf).
  - exact Es.
  - rewrite Ed. apply merge_funcs_print.
    + intros f Hf. destruct (wf_func_parts _ _ _ _ (Hfn f Hf)) as (_ & Hne & _ & Hd & _). auto.
    + pose proof (nodup_by_NoDup _ Hnd) as HND. unfold unit_names in HND. do 4 apply NoDup_app_r in HND. exact HND.
  - rewrite Et, Ea, Ek, Ec, !map_map, <- Hnd. unfold unit_names.
    rewrite (map_ext (fun x => c_name ((norm_cls fixed) x)) c_name) by (intros [n b k d s cs ks ms]; reflexivity). reflexivity.
  - apply existsb_forallb_neg. rewrite forallb_forall. intros f Hf. apply in_map_iff in Hf. destruct Hf as (f0 & <- & Hf0).
    specialize (Hmod f0 Hf0). apply andb_true_iff in Hmod. apply Hmod.
  - apply existsb_forallb_neg. rewrite forallb_forall. intros f Hf. apply in_map_iff in Hf. destruct Hf as (f0 & <- & Hf0).
    specialize (Hmod f0 Hf0). apply andb_true_iff in Hmod. destruct Hmod as [_ Hg].
    change (fn_name ((norm_func fixed) plain0 f0)) with (fn_name f0).
    change (fn_sigs ((norm_func fixed) plain0 f0)) with (map (norm_fsig plain0 (fn_name f0)) (fn_sigs f0)). rewrite map_length. exact Hg.
  - rewrite forallb_forall. intros f Hf. apply in_map_iff in Hf. destruct Hf as (f0 & <- & Hf0).
    apply (wf_func_parts _ _ _ _ (Hfn f0 Hf0)).
Qed.

End Fixed.
