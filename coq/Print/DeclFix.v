(* C05, declarations: re-printing the re-read declaration reproduces the text (fixed point) and the re-read
   declarations are structurally equal to the printed ones, under the decidable conditions stable_* / eq_stable_*. *)
From Coq Require Import List NArith ZArith Bool Arith Lia.
From PV Require Import Print.Model Print.Proofs Print.Decl Print.DeclProofs.
Import ListNotations.

Lemma mut_lines_norm : forall env c ps,
  (forall p m, In p ps -> p_mut p = Some m -> wf env m = true /\ stable (ctx_plain c) m = true) ->
  mut_lines c (map (norm_param c) ps) = mut_lines c ps.
Proof.
  intros env c. induction ps as [|p r IH]; intros H; [reflexivity|].
  unfold mut_lines in *. cbn [map flat_map]. rewrite IH by (intros q m Hq; apply H; right; exact Hq).
  unfold norm_param at 1. cbn [p_mut p_name]. destruct (p_mut p) as [m|] eqn:Em; [|reflexivity].
  destruct (H p m (or_introl eq_refl) Em) as [Hw Hs].
  change (ctx_plain (ctx_plain c)) with (ctx_plain c).
  rewrite (print_norm_lemma env (ctx_plain c) m Hw Hs). reflexivity.
Qed.

Lemma raise_lines_norm : forall env c excs,
  forallb (wf env) excs = true -> forallb (stable (ctx_plain c)) excs = true ->
  raise_lines c (map (norm (ctx_plain c)) excs) = raise_lines c excs.
Proof.
  intros env c. induction excs as [|e r IH]; intros Hw Hs; [reflexivity|].
  cbn [forallb] in *. apply andb_true_iff in Hw. apply andb_true_iff in Hs. destruct Hw as [We Wr]. destruct Hs as [Se Sr].
  unfold raise_lines in *. cbn [map flat_map]. rewrite IH by assumption.
  change (ctx_plain (ctx_plain c)) with (ctx_plain c).
  rewrite (print_norm_lemma env (ctx_plain c) e We Se). reflexivity.
Qed.

Lemma print_sig_head : forall c s, print_sig c s = sig_head c s ++ print_body c (s_params s).
Proof. intros. unfold print_sig, sig_head. cbv zeta. cbn [app]. rewrite <- app_assoc. cbn [app]. rewrite <- app_assoc. reflexivity. Qed.

Lemma stable_sig_muts : forall env scope c s, wf_sig env scope c s = true -> stable_sig c s = true ->
  self_mutated c s = false /\
  forall p m, In p (s_params s) -> p_mut p = Some m -> wf env m = true /\ stable (ctx_plain c) m = true.
Proof.
  intros env scope c s Hwf H. unfold stable_sig in H.
  apply andb_true_iff in H; destruct H as [H H5]. do 3 (apply andb_true_iff in H; destruct H as [H _]).
  split; [apply negb_true_iff, H5|]. intros p m Hp Em. split; [exact (wf_sig_mut env scope c s p m Hwf Hp Em)|].
  rewrite forallb_forall in H. specialize (H p Hp). rewrite Em in H. apply andb_true_iff in H. apply H.
Qed.

(* the header is what print_sig puts in front of its own body lines *)
Lemma sig_head_norm : forall env scope c s, wf_sig env scope c s = true -> stable_sig c s = true ->
  sig_head c (norm_sig c s) = sig_head c s.
Proof.
  intros env scope c s Hwf Hss. destruct (stable_sig_muts env scope c s Hwf Hss) as [Hself Hmut].
  pose proof (print_sig_norm_general env scope c s Hwf Hss) as E. rewrite !print_sig_head in E.
  assert (Ep: s_params (norm_sig c s) = map (norm_param c) (s_params s)) by (rewrite (norm_sig_simple c s Hself); reflexivity).
  rewrite Ep, (print_body_norm env c (s_params s) Hmut) in E. apply app_inv_tail in E. exact E.
Qed.

Theorem print_fsig_norm_lemma : forall env scope c nm f,
  wf_fsig env scope c f = true -> stable_fsig c nm f = true ->
  print_fsig c (norm_fsig c nm f) = print_fsig c f.
Proof.
  intros env scope c nm [s excs] Hwf Hst. unfold wf_fsig, stable_fsig in *. cbn [f_sig f_exc] in *.
  apply andb_true_iff in Hwf. destruct Hwf as [Hwf Hex]. apply andb_true_iff in Hst. destruct Hst as [Hss Hse].
  destruct (stable_sig_muts env scope c s Hwf Hss) as [Hself Hmut].
  unfold print_fsig, norm_fsig, print_fbody. cbn [f_sig f_exc].
  rewrite (sig_head_norm env scope c s Hwf Hss), (norm_sig_simple c s Hself). cbn [s_params].
  rewrite (mut_lines_norm env c (s_params s) Hmut), (raise_lines_norm env c excs Hex Hse). reflexivity.
Qed.

Lemma mem_app : forall a X L, mem a (X ++ L) = mem a X || mem a L.
Proof. intros. unfold mem. apply existsb_app. Qed.

Lemma dedup_idem : forall l, dedup N.eqb (dedup N.eqb l) = dedup N.eqb l.
Proof. intros. apply dedup_nodup, NoDup_nodup_by, dedup_N_nodup. Qed.

Lemma dedup_snoc : forall X p, nodup_by N.eqb X = true -> mem p X = false -> dedup N.eqb (X ++ [p]) = X ++ [p].
Proof.
  intros X p Hn Hm. apply dedup_nodup, NoDup_nodup_by, NoDup_snoc; [apply nodup_by_NoDup, Hn|].
  intros Hin. apply mem_In in Hin. congruence.
Qed.

Definition interp_free (X : list N) : bool :=
  forallb (fun d => negb (is_flag_deco d) && negb (d =? id_staticmethod)%N && negb (d =? id_classmethod)%N &&
                    negb (d =? id_property)%N) X.

Lemma interp_free_mem : forall X a, interp_free X = true ->
  (is_flag_deco a || (a =? id_staticmethod)%N || (a =? id_classmethod)%N || (a =? id_property)%N) = true -> mem a X = false.
Proof.
  intros X a H Ha. destruct (mem a X) eqn:E; [|reflexivity]. apply mem_In in E.
  unfold interp_free in H. rewrite forallb_forall in H. specialize (H a E).
  rewrite <- !negb_orb, Ha in H. discriminate.
Qed.

Lemma interp_free_filter : forall X (P : N -> bool), interp_free X = true ->
  (forall d, P d = false -> (is_flag_deco d || (d =? id_staticmethod)%N || (d =? id_classmethod)%N || (d =? id_property)%N) = true) ->
  filter P X = X.
Proof.
  intros X P H HP. apply filter_all. intros d Hd.
  destruct (P d) eqn:E; [reflexivity|]. apply mem_In in Hd. rewrite (interp_free_mem X d H (HP d E)) in Hd. discriminate.
Qed.

Lemma mem_opt : forall a (b : bool) x, mem a (if b then [x] else []) = (a =? x)%N && b.
Proof. intros a [] x; cbn; [rewrite orb_false_r, andb_true_r|rewrite andb_false_r]; reflexivity. Qed.

Lemma filter_opt : forall (P : N -> bool) (b : bool) x, P x = false -> filter P (if b then [x] else []) = [].
Proof. intros P [] x H; cbn; [rewrite H|]; reflexivity. Qed.

Lemma scan_decos : forall X K (fi ab co ov : bool),
  interp_free X = true -> forallb (fun d => negb (is_flag_deco d)) K = true ->
  let ds := X ++ (if fi then [id_final] else []) ++ K ++ (if ab then [id_abstractmethod] else []) ++
            (if co then [id_coroutine] else []) ++ (if ov then [id_overload] else []) in
  filter (fun d => negb (is_flag_deco d)) ds = X ++ K /\
  mem id_abstractmethod ds = ab /\ mem id_coroutine ds = co /\ mem id_final ds = fi.
Proof.
  intros X K fi ab co ov HX HK ds.
  assert (Hmem : forall a, is_flag_deco a = true -> mem a X = false /\ mem a K = false).
  { intros a Ha. split; [apply (interp_free_mem X a HX); rewrite Ha; reflexivity|].
    apply existsb_forallb_neg. rewrite forallb_forall in *. intros d Hd.
    destruct (N.eqb_spec a d) as [<-|]; [|reflexivity]. specialize (HK a Hd). rewrite Ha in HK. discriminate. }
  subst ds. repeat split.
  - rewrite !filter_app, !filter_opt, (filter_all _ _ (proj1 (forallb_forall _ _) HK)) by reflexivity. cbn [app]. rewrite app_nil_r. f_equal.
    apply interp_free_filter; [exact HX|]. intros d Hd. apply negb_false_iff in Hd. rewrite Hd. reflexivity.
  - rewrite !mem_app, !mem_opt. destruct (Hmem id_abstractmethod eq_refl) as [-> ->]. cbn. apply orb_false_r.
  - rewrite !mem_app, !mem_opt. destruct (Hmem id_coroutine eq_refl) as [-> ->]. cbn. apply orb_false_r.
  - rewrite !mem_app, !mem_opt. destruct (Hmem id_final eq_refl) as [-> ->]. cbn. apply orb_false_r.
Qed.

Section FixedFuncs.
Variable fixed : bool.

Lemma flags_consistent_parts : forall f, flags_consistent f = true ->
  interp_free (fn_decos f) = true /\ nodup_by N.eqb (fn_decos f) = true /\
  match fn_kind f with
  | KProp => negb (fn_name f =? id_new)%N && negb (fn_name f =? id_init_subclass)%N
  | KStatic => negb (fn_name f =? id_init_subclass)%N
  | KClass => negb (fn_name f =? id_new)%N
  | KMethod => negb (fn_name f =? id_new)%N && negb (fn_name f =? id_init_subclass)%N
  end = true.
Proof.
  intros f H. apply (andb3 _ _ _ H).
Qed.

Lemma norm_func_consistent : forall c f, flags_consistent f = true ->
  norm_func fixed c f =
  mkFn (fn_name f) (map (norm_fsig c (fn_name f)) (fn_sigs f)) (fn_kind f) (fn_abs f) (fn_cor f) (fn_fin f)
       (fn_decos f ++ match fn_kind f with KProp => [id_property] | _ => [] end).
Proof.
  intros c [nm sigs kind ab co fi X] H. destruct (flags_consistent_parts _ H) as (Hi & Hn & Hk).
  cbn [fn_name fn_sigs fn_kind fn_abs fn_cor fn_fin fn_decos] in *.
  unfold norm_func, printed_decos. cbn [fn_name fn_sigs fn_kind fn_abs fn_cor fn_fin fn_decos].
  rewrite (dedup_nodup _ _ Hn), (interp_free_mem X id_property Hi eq_refl), andb_false_r.
  set (K := match kind with KMethod => [] | KStatic => if (nm =? id_new)%N then [] else [id_staticmethod]
                 | KClass => if (nm =? id_init_subclass)%N then [] else [id_classmethod] | KProp => [id_property] end).
  assert (HK : forallb (fun d => negb (is_flag_deco d)) K = true)
    by (unfold K; destruct kind, (nm =? id_new)%N, (nm =? id_init_subclass)%N; reflexivity).
  destruct (scan_decos X K fi ab co (1 <? length sigs)%nat Hi HK) as (-> & -> & -> & ->).
  unfold finish_df. cbn [df_name df_sigs df_abs df_cor df_fin df_decos df_prop].
  rewrite !mem_app, filter_app, !(interp_free_mem X _ Hi) by reflexivity.
  rewrite (interp_free_filter X _ Hi).
  2:{ intros d Hd. apply negb_false_iff in Hd. apply orb_true_iff in Hd.
      destruct Hd as [Hd|Hd]; rewrite Hd, ?orb_true_r; reflexivity. }
  cbn [orb]. unfold K.
  destruct kind; cbn [negb] in Hk.
  - apply andb_true_iff in Hk. destruct Hk as [H1 H2]. apply negb_true_iff in H1, H2. rewrite H1, H2. reflexivity.
  - apply negb_true_iff in Hk. rewrite Hk. destruct (nm =? id_new)%N; reflexivity.
  - apply negb_true_iff in Hk. rewrite Hk. destruct (nm =? id_init_subclass)%N; reflexivity.
  - apply andb_true_iff in Hk. destruct Hk as [H1 H2]. apply negb_true_iff in H1, H2. rewrite H1, H2. reflexivity.
Qed.

Lemma printed_decos_norm : forall c f, flags_consistent f = true ->
  match fn_kind f with KProp => fixed && negb (fn_fin f) | _ => true end = true ->
  printed_decos fixed (norm_func fixed c f) = printed_decos fixed f.
Proof.
  intros c f Hfc Hk. rewrite (norm_func_consistent c f Hfc). destruct (flags_consistent_parts f Hfc) as (Hi & Hn & _).
  unfold printed_decos. cbn [fn_name fn_sigs fn_kind fn_abs fn_cor fn_fin fn_decos]. rewrite map_length.
  destruct (fn_kind f); rewrite ?app_nil_r; try reflexivity.
  (* a property: the reader lists `property` among the explicit decorators, in front of the flags *)
  apply andb_true_iff in Hk. destruct Hk as [-> Hfi]. apply negb_true_iff in Hfi. rewrite Hfi.
  pose proof (interp_free_mem _ id_property Hi eq_refl) as Hp.
  rewrite (dedup_snoc _ _ Hn Hp), (dedup_nodup _ _ Hn), mem_app, Hp.
  cbn [andb orb app mem existsb]. rewrite N.eqb_refl. cbn [orb app]. rewrite <- app_assoc. reflexivity.
Qed.
End FixedFuncs.

Lemma flat_map_ext_in : forall {A B} (f g : A -> list B) l, (forall a, In a l -> f a = g a) -> flat_map f l = flat_map g l.
Proof.
  induction l as [|x r IH]; intros H; [reflexivity|]. cbn [flat_map]. rewrite (H x (or_introl eq_refl)).
  rewrite IH by (intros a Ha; apply H; right; exact Ha). reflexivity.
Qed.

Section FixedPoint.
Variable fixed : bool.

Lemma stable_func_parts : forall c f, stable_func fixed c f = true ->
  forallb (stable_fsig c (fn_name f)) (fn_sigs f) = true /\ flags_consistent f = true /\
  const_property (norm_func fixed c f) = false /\
  match fn_kind f with KProp => fixed && negb (fn_fin f) | _ => true end = true.
Proof.
  intros c f H. destruct (andb4 _ _ _ _ H) as (H1 & H2 & H3 & H4). apply negb_true_iff in H3. auto.
Qed.

Lemma print_func_norm : forall env scope c f, wf_func fixed env scope c f = true -> stable_func fixed c f = true ->
  print_func fixed c (norm_func fixed c f) = print_func fixed c f.
Proof.
  intros env scope c f Hwf Hst.
  destruct (wf_func_parts fixed env scope c f Hwf) as (_ & _ & Hsigs & _ & _).
  destruct (stable_func_parts c f Hst) as (Hss & Hfc & _ & Hk).
  unfold print_func. rewrite (printed_decos_norm fixed c f Hfc Hk).
  change (fn_name (norm_func fixed c f)) with (fn_name f).
  change (fn_sigs (norm_func fixed c f)) with (map (norm_fsig c (fn_name f)) (fn_sigs f)).
  rewrite flat_map_map.
  apply flat_map_ext_in. intros s Hs. f_equal. f_equal. unfold print_def. f_equal. f_equal.
  apply (print_fsig_norm_lemma env scope c (fn_name f) s (forallb_In Hsigs Hs) (forallb_In Hss Hs)).
Qed.

Lemma print_kw_norm : forall env c kv, wf_kw env kv = true -> print_kw c (norm_kw c kv) = print_kw c kv.
Proof.
  intros env c [k t] H. unfold wf_kw in H. cbn [fst snd] in H. unfold print_kw, norm_kw. cbn [fst snd].
  destruct t as [n| | | |v| | | | |]; try discriminate.
  - cbn [norm print_ty]. unfold print_name. destruct n; reflexivity.
  - destruct v as [|ic b| |]; try discriminate. reflexivity.
Qed.

Lemma is_nil_map : forall {A B} (f : A -> B) l, is_nil (map f l) = is_nil l.
Proof. destruct l; reflexivity. Qed.

Lemma stable_base : forall env c t, wf_base env t = true -> negb (is_nothing t) && stable c t = true ->
  wf env t = true /\ stable c t = true /\ is_nothing (norm c t) = false.
Proof.
  intros env c t Hw Hs. unfold wf_base in Hw. apply andb_true_iff in Hw. destruct Hw as [Hw Hsh].
  apply andb_true_iff in Hs. destruct Hs as [Hn Hs]. repeat split; try assumption.
  destruct t; try discriminate; try reflexivity.
  cbn [norm]. destruct (tokens_eqb _ _); [reflexivity|]. destruct (name_eqb _ _); reflexivity.
Qed.

Lemma norm_bases_stable : forall env c nm bases,
  forallb (wf_base env) bases = true ->
  forallb (fun t => negb (is_nothing t) && stable (ctx_plain c) t) bases = true ->
  norm_bases c nm bases =
  match kept_bases c bases with
  | [] => if (nm =? id_object)%N then [] else [Named (NP id_object)]
  | kb => map (norm (ctx_plain c)) kb
  end.
Proof.
  intros env c nm bases Hw Hs. rewrite norm_bases_kept. unfold final_bases. rewrite filter_all.
  - destruct (kept_bases c bases); reflexivity.
  - intros t Ht. apply in_map_iff in Ht. destruct Ht as (t0 & <- & Ht0). apply kept_bases_incl in Ht0.
    destruct (stable_base env _ t0 (forallb_In Hw Ht0) (forallb_In Hs Ht0)) as (_ & _ & ->). reflexivity.
Qed.

Lemma header_bases_norm : forall env c nm bases,
  forallb (wf_base env) bases = true ->
  forallb (fun t => negb (is_nothing t) && stable (ctx_plain c) t) bases = true ->
  map (print_ty (ctx_plain c)) (kept_bases c (norm_bases c nm bases)) = map (print_ty (ctx_plain c)) (kept_bases c bases).
Proof.
  intros env c nm bases Hw Hs. rewrite (norm_bases_stable env c nm bases Hw Hs).
  destruct (kept_bases c bases) as [|k0 kr] eqn:EKB; [destruct (nm =? id_object)%N; reflexivity|].
  assert (Ep: map (print_ty (ctx_plain c)) (map (norm (ctx_plain c)) (k0 :: kr)) = map (print_ty (ctx_plain c)) (k0 :: kr)).
  { rewrite map_map. apply map_ext_in. intros t Ht. rewrite <- EKB in Ht. apply kept_bases_incl in Ht.
    destruct (stable_base env _ t (forallb_In Hw Ht) (forallb_In Hs Ht)) as (Hwt & Hst & _).
    change (ctx_plain (ctx_plain c)) with (ctx_plain c). apply (print_norm_lemma env _ t Hwt Hst). }
  destruct kr as [|k1 kr']; [|exact Ep].
  (* a single kept base does not print as `object` *)
  cbn [map kept_bases] in Ep |- *. injection Ep as Ep. rewrite Ep.
  destruct (kept_bases_cases c bases) as [E|[E _]]; rewrite E in EKB; [subst bases|discriminate].
  cbn [kept_bases] in E. destruct (tokens_eqb (print_ty (ctx_plain c) k0) [TName id_object]); [discriminate|].
  cbn [map]. rewrite Ep. reflexivity.
Qed.

Lemma class_header_norm : forall env c n b k d s cs ks ms d' s' cs' ks' ms' hb,
  forallb (wf_base env) b = true -> forallb (wf_kw env) k = true ->
  forallb (fun t => negb (is_nothing t) && stable (ctx_plain c) t) b = true ->
  class_header c (mkCls n (norm_bases c n b) (map (norm_kw c) k) d' s' cs' ks' ms') hb = class_header c (mkCls n b k d s cs ks ms) hb.
Proof.
  intros env c n b k d s cs ks ms d' s' cs' ks' ms' hb Hb Hk Hs. unfold class_header.
  cbn [c_name c_bases c_kws]. rewrite !kept_bases_print, (header_bases_norm env c n b Hb Hs), map_map.
  rewrite (map_ext_in _ (print_kw c)); [reflexivity|].
  intros kv Hkv. apply (print_kw_norm env c kv (forallb_In Hk Hkv)).
Qed.

(* a stable class keeps its methods: the reader turns none of them into a constant *)
Lemma norm_cls_stable : forall n b k d s cs ks ms, forallb (stable_func fixed (mkCtx false (Some n))) ms = true ->
  norm_cls fixed (mkCls n b k d s cs ks ms) =
  mkCls n (norm_bases (mkCtx false (Some n)) n b) (map (norm_kw (mkCtx false (Some n))) k) (dedup N.eqb d) s
        (map (norm_cls fixed) cs) (map (norm_const (mkCtx false (Some n))) ks) (map (norm_func fixed (mkCtx false (Some n))) ms).
Proof.
  intros n b k d s cs ks ms Sm. cbn [norm_cls c_name c_bases c_kws c_decos c_slots c_classes c_consts c_methods].
  assert (E: forall g, In g (map (norm_func fixed (mkCtx false (Some n))) ms) -> const_property g = false).
  { intros g Hg. apply in_map_iff in Hg. destruct Hg as (f & <- & Hf).
    apply (stable_func_parts _ f (forallb_In Sm Hf)). }
  rewrite (filter_none _ _ E), filter_all by (intros g Hg; rewrite (E g Hg); reflexivity).
  cbn [map]. rewrite app_nil_r. reflexivity.
Qed.

Definition cls_fixed (cl : cls) : Prop :=
  forall env scope nested, wf_cls fixed env scope nested cl = true -> stable_cls fixed cl = true ->
  print_cls fixed (norm_cls fixed cl) = print_cls fixed cl.

Theorem print_cls_norm : forall cl, cls_fixed cl.
Proof.
  induction cl using cls_ind'. rename H into IH. unfold cls_fixed. intros env scope nested Hwf Hst.
  destruct (wf_cls_unfold fixed _ _ _ _ _ _ _ _ _ _ _ Hwf) as (Hn & Hb & Hk & Hdec & Hco & Hsl & Hm & Hnd & Hcl).
  cbn zeta in *. set (c := mkCtx false (Some n)) in *.
  set (sc := scope ++ flat_map tparams (norm_bases c n b)) in *.
  cbn [stable_cls] in Hst. fold c in Hst.
  apply andb_true_iff in Hst; destruct Hst as [Hst Scl]. apply andb_true_iff in Hst; destruct Hst as [Hst Sm].
  apply andb_true_iff in Hst; destruct Hst as [Sb Sk].
  rewrite (norm_cls_stable n b k d s cs ks ms Sm), !print_cls_unfold.
  cbn [c_name c_decos c_slots c_classes c_consts c_methods]. fold c.
  rewrite dedup_idem, !(class_header_norm env c n b k d s cs ks ms) by assumption.
  assert (Ehb: has_body (mkCls n (norm_bases c n b) (map (norm_kw c) k) (dedup N.eqb d) s (map (norm_cls fixed) cs) (map (norm_const c) ks)
                           (map (norm_func fixed c) ms)) = has_body (mkCls n b k d s cs ks ms)).
  { unfold has_body. cbn [c_classes c_methods c_consts c_slots]. rewrite !is_nil_map. reflexivity. }
  assert (Ecs: flat_map (print_cls fixed) (map (norm_cls fixed) cs) = flat_map (print_cls fixed) cs).
  { rewrite flat_map_map. apply flat_map_ext_in. intros x Hx. rewrite Forall_forall in IH.
    apply (IH x Hx env sc true (forallb_In Hcl Hx) (forallb_In Scl Hx)). }
  assert (Eks: map (fun k0 => SLine (print_const c k0)) (map (norm_const c) ks) = map (fun k0 => SLine (print_const c k0)) ks).
  { rewrite map_map. apply map_ext_in. intros k0 Hk0.
    rewrite (print_const_norm env c k0 (forallb_In Hco Hk0) (forallb_In Sk Hk0)). reflexivity. }
  assert (Ems: flat_map (print_func fixed c) (map (norm_func fixed c) ms) = flat_map (print_func fixed c) ms).
  { rewrite flat_map_map. apply flat_map_ext_in. intros f Hf.
    apply (print_func_norm env sc c f (forallb_In Hm Hf) (forallb_In Sm Hf)). }
  rewrite Ehb, Ecs, Eks, Ems. reflexivity.
Qed.
End FixedPoint.

Lemma insert_tp_sorted : forall t l, sorted_tps l = true -> sorted_tps (insert_tp t l) = true.
Proof.
  intros t. induction l as [|x r IH]; intros H; [reflexivity|].
  cbn [insert_tp]. destruct (tp_name t <=? tp_name x)%N eqn:E.
  - cbn [sorted_tps]. rewrite E. exact H.
  - assert (Hxt: (tp_name x <=? tp_name t)%N = true) by (apply N.leb_le; apply N.leb_gt in E; lia).
    destruct r as [|y r'].
    + cbn. rewrite Hxt. reflexivity.
    + cbn [sorted_tps] in H. apply andb_true_iff in H. destruct H as [Hxy Hr].
      specialize (IH Hr). cbn [insert_tp] in *. destruct (tp_name t <=? tp_name y)%N eqn:E2.
      * cbn [sorted_tps] in *. rewrite Hxt, E2. exact Hr.
      * cbn [sorted_tps] in *. rewrite Hxy. exact IH.
Qed.

Lemma sort_tps_sorted : forall l, sorted_tps (sort_tps l) = true.
Proof. induction l as [|x r IH]; [reflexivity|]. cbn [sort_tps fold_right]. apply insert_tp_sorted. exact IH. Qed.

Lemma sort_tps_id : forall l, sorted_tps l = true -> sort_tps l = l.
Proof.
  induction l as [|x r IH]; intros H; [reflexivity|].
  change (sort_tps (x :: r)) with (insert_tp x (sort_tps r)).
  destruct r as [|y r']; [reflexivity|].
  cbn [sorted_tps] in H. apply andb_true_iff in H. destruct H as [Hxy Hr]. rewrite (IH Hr).
  cbn [insert_tp]. rewrite Hxy. reflexivity.
Qed.

Lemma sorted_tp_map : forall (g : tparam -> tparam) l, (forall t, tp_name (g t) = tp_name t) ->
  sorted_tps l = true -> sorted_tps (map g l) = true.
Proof.
  intros g l Hg. induction l as [|x [|y r] IH]; intros H; [reflexivity|reflexivity|].
  cbn [sorted_tps] in H. apply andb_true_iff in H. destruct H as [Hxy Hr].
  change (sorted_tps (map g (x :: y :: r))) with ((tp_name (g x) <=? tp_name (g y))%N && sorted_tps (map g (y :: r))).
  rewrite (Hg x), (Hg y), Hxy. apply IH. exact Hr.
Qed.

Lemma print_tparam_norm : forall env t, wf_tparam env t = true -> stable_tparam t = true ->
  print_tparam plain0 (norm_tparam plain0 t) = print_tparam plain0 t.
Proof.
  intros env t Hw Hs. destruct (wf_tparam_parts env t Hw) as [Hc Hb].
  unfold stable_tparam in Hs. apply andb_true_iff in Hs. destruct Hs as [Sc Sb].
  unfold print_tparam, norm_tparam. cbn [tp_name tp_lit tp_cons tp_bound]. change (ctx_plain plain0) with plain0.
  assert (Ec: flat_map (fun x => TComma :: print_ty plain0 x) (map (norm plain0) (tp_cons t)) =
              flat_map (fun x => TComma :: print_ty plain0 x) (tp_cons t)).
  { rewrite flat_map_map. apply flat_map_ext_in. intros x Hx.
    rewrite (print_norm_lemma env plain0 x (forallb_In Hc Hx) (forallb_In Sc Hx)). reflexivity. }
  rewrite Ec. destruct (tp_bound t) as [b|]; [|reflexivity].
  rewrite (print_norm_lemma env plain0 b Hb Sb). reflexivity.
Qed.

Section FixedUnit.
Variable fixed : bool.

Theorem print_unit_fixed_point_lemma : forall u, wf_unit fixed u = true -> stable_unit fixed u = true ->
  print_unit fixed (norm_unit fixed u) = print_unit fixed u.
Proof.
  intros u Hwf Hst. destruct (wf_unit_parts fixed u Hwf) as (Htp & Hal & Hco & Hcl & Hfn & _ & _). cbn zeta in *.
  set (env := map tp_name (sort_tps (u_tparams u))) in *.
  unfold stable_unit in Hst.
  apply andb_true_iff in Hst; destruct Hst as [Hst Sfn]. apply andb_true_iff in Hst; destruct Hst as [Hst Scl].
  apply andb_true_iff in Hst; destruct Hst as [Hst Sco]. apply andb_true_iff in Hst; destruct Hst as [Stp Sal].
  destruct (wf_aliases_filter env (u_aliases u) Hal) as [Ea1 Ea2].
  unfold norm_unit. rewrite Ea1, Ea2. cbn [map app].
  unfold print_unit. cbn [u_tparams u_aliases u_consts u_classes u_funcs].
  set (T := sort_tps (u_tparams u)).
  assert (E1: sort_tps (map (norm_tparam plain0) T) = map (norm_tparam plain0) T).
  { apply sort_tps_id. apply sorted_tp_map; [reflexivity|apply sort_tps_sorted]. }
  rewrite E1.
  assert (E1': map (fun t => SLine (print_tparam plain0 t)) (map (norm_tparam plain0) T) = map (fun t => SLine (print_tparam plain0 t)) T).
  { rewrite map_map. apply map_ext_in. intros t Ht.
    pose proof (In_sort_tps t _ Ht) as Hin. rewrite (print_tparam_norm env t (forallb_In Htp Hin) (forallb_In Stp Hin)). reflexivity. }
  assert (E2: map (fun a => SLine (print_alias plain0 a)) (map (norm_alias plain0) (u_aliases u)) = map (fun a => SLine (print_alias plain0 a)) (u_aliases u)).
  { rewrite map_map. apply map_ext_in. intros a Ha.
    destruct (wf_alias_parts env a (forallb_In Hal Ha)) as (_ & Hw & _).
    unfold print_alias, norm_alias. cbn [fst snd]. change (ctx_plain plain0) with plain0.
    rewrite (print_norm_lemma env plain0 (snd a) Hw (forallb_In Sal Ha)). reflexivity. }
  assert (E3: map (fun k => SLine (print_const plain0 k)) (map (norm_const plain0) (u_consts u)) = map (fun k => SLine (print_const plain0 k)) (u_consts u)).
  { rewrite map_map. apply map_ext_in. intros k Hk.
    rewrite (print_const_norm env plain0 k (forallb_In Hco Hk) (forallb_In Sco Hk)). reflexivity. }
  assert (E4: map (print_cls fixed) (map (norm_cls fixed) (u_classes u)) = map (print_cls fixed) (u_classes u)).
  { rewrite map_map. apply map_ext_in. intros x Hx.
    apply (print_cls_norm fixed x env [] false (forallb_In Hcl Hx) (forallb_In Scl Hx)). }
  assert (E5: flat_map (print_func fixed plain0) (map (norm_func fixed plain0) (u_funcs u)) = flat_map (print_func fixed plain0) (u_funcs u)).
  { rewrite flat_map_map. apply flat_map_ext_in. intros f Hf.
    apply (print_func_norm fixed env [] plain0 f (forallb_In Hfn Hf) (forallb_In Sfn Hf)). }
  rewrite E1', E2, E3, E4, E5. reflexivity.
Qed.

End FixedUnit.

Lemma fsig_reparse_equal : forall env scope c nm f,
  wf_fsig env scope c f = true -> stable_fsig c nm f = true -> eq_stable_fsig c f = true ->
  fsig_eq (norm_fsig c nm f) (unqual_fsig f) = true.
Proof.
  intros env scope c nm [s excs] Hwf Hst Heq. unfold wf_fsig, stable_fsig, eq_stable_fsig in *. cbn [f_sig f_exc] in *.
  apply andb_true_iff in Hwf; destruct Hwf as [Hwf Hex]. apply andb_true_iff in Hst; destruct Hst as [Hss Hse].
  apply andb_true_iff in Heq; destruct Heq as [Heq Hee]. apply andb_true_iff in Heq; destruct Heq as [Hes Hem].
  unfold fsig_eq, norm_fsig, unqual_fsig. cbn [f_sig f_exc].
  rewrite (sig_reparse_equal_general env scope c s Hwf Hss Hes Hem). cbn [andb].
  apply list_eqb_map. intros e He. rewrite forallb_forall in Hex, Hse, Hee.
  apply (reparse_equal_lemma env); auto.
Qed.

Lemma list_eqb_N_refl' : forall l, list_eqb N.eqb l l = true. Proof. exact list_eqb_N_refl. Qed.

Section FixedEq.
Variable fixed : bool.

Lemma func_reparse_equal : forall env scope c f,
  wf_func fixed env scope c f = true -> stable_func fixed c f = true -> eq_stable_func c f = true ->
  func_eq (norm_func fixed c f) (unqual_func f) = true.
Proof.
  intros env scope c f Hwf Hst Heq.
  destruct (wf_func_parts fixed env scope c f Hwf) as (_ & _ & Hsigs & _ & _).
  destruct (stable_func_parts fixed c f Hst) as (Hss & Hfc & _ & Hk).
  unfold eq_stable_func in Heq. apply andb_true_iff in Heq. destruct Heq as [Hes Hnp]. apply negb_true_iff in Hnp.
  assert (Esigs: list_eqb fsig_eq (map (norm_fsig c (fn_name f)) (fn_sigs f)) (map unqual_fsig (fn_sigs f)) = true).
  { apply list_eqb_map. intros s Hs. rewrite forallb_forall in Hsigs, Hss, Hes.
    apply (fsig_reparse_equal env scope c (fn_name f) s); auto. }
  rewrite (norm_func_consistent fixed c f Hfc).
  unfold func_eq, unqual_func. cbn [fn_name fn_sigs fn_kind fn_abs fn_cor fn_fin fn_decos].
  rewrite N.eqb_refl, Esigs, !Bool.eqb_reflx.
  destruct (fn_kind f); try discriminate; rewrite app_nil_r, list_eqb_N_refl; reflexivity.
Qed.

Lemma const_reparse_equal : forall env c k, wf_const env k = true -> stable_const c k = true ->
  eq_stable (ctx_plain c) (k_ty k) = true -> const_eq (norm_const c k) (unqual_const k) = true.
Proof.
  intros env c k Hw Hs He. unfold wf_const in Hw. apply andb_true_iff in Hw. destruct Hw as [_ Hw].
  unfold const_eq, norm_const, unqual_const, stable_const in *. cbn [k_name k_ty k_val].
  rewrite N.eqb_refl, Bool.eqb_reflx, (reparse_equal_lemma env (ctx_plain c) (k_ty k) Hw Hs He). reflexivity.
Qed.

Lemma kw_reparse_equal : forall env c kv, wf_kw env kv = true -> alias_eq (norm_kw c kv) (unqual_alias kv) = true.
Proof.
  intros env c [k t] H. unfold wf_kw in H. cbn [fst snd] in H. unfold alias_eq, norm_kw, unqual_alias. cbn [fst snd].
  rewrite N.eqb_refl. cbn [andb].
  destruct t as [n| | | |v| | | | |]; try discriminate.
  - cbn [norm unqual ty_eq]. apply name_eqb_refl.
  - destruct v as [|ic b| |]; try discriminate. cbn [norm unqual ty_eq pv]. apply lit_eqb_refl.
Qed.

Lemma bases_reparse_equal : forall env c n b,
  forallb (wf_base env) b = true -> forallb (fun t => negb (is_nothing t) && stable (ctx_plain c) t) b = true ->
  forallb (eq_stable (ctx_plain c)) b = true -> b <> [] -> (n =? id_object)%N = false ->
  list_eqb ty_eq (norm_bases c n b) (map unqual b) = true.
Proof.
  intros env c n b Hb Sb Eb Hne Enobj. rewrite (norm_bases_stable env c n b Hb Sb). rewrite forallb_forall in Hb, Sb, Eb.
  destruct (kept_bases_cases c b) as [E|(E & b0 & -> & Eo)]; rewrite E.
  - destruct b as [|b0 br]; [congruence|]. apply list_eqb_map. intros t Ht.
    destruct (stable_base env _ t (Hb t Ht) (Sb t Ht)) as (Hw & Hs & _). apply (reparse_equal_lemma env); auto.
  - (* the single base prints as `object`: the reader puts object back *)
    rewrite Enobj. specialize (Hb b0 (or_introl eq_refl)). unfold wf_base in Hb. apply andb_true_iff in Hb. destruct Hb as [Hw0 Hsh].
    destruct b0 as [nn| | | | |bb ps| | | |]; try discriminate.
    + cbn [print_ty] in Eo. unfold print_name in Eo. destruct (name_id nn =? id_NoneType)%N; [discriminate|].
      injection Eo as Eo. cbn [wf] in Hw0. destruct nn as [i|i|i]; cbn [name_id] in Eo; subst i; [reflexivity| |reflexivity].
      cbn [wf_name] in Hw0. change (is_typing id_object) with false in Hw0. discriminate.
    + exfalso. cbn [print_ty] in Eo. destruct (tokens_eqb (print_name bb) [TName id_tuple]); [|destruct (name_eqb bb (NT id_Callable))];
        unfold sub in Eo; apply (f_equal (@length token)) in Eo; rewrite app_length in Eo; cbn [length] in Eo;
        rewrite app_length in Eo; cbn [length] in Eo; unfold print_name in Eo; destruct (name_id bb =? id_NoneType)%N; cbn [length] in Eo; lia.
Qed.

Definition cls_equal (cl : cls) : Prop :=
  forall env scope nested, wf_cls fixed env scope nested cl = true -> stable_cls fixed cl = true -> eq_stable_cls cl = true ->
  cls_eq (norm_cls fixed cl) (unqual_cls cl) = true.

Theorem cls_reparse_equal : forall cl, cls_equal cl.
Proof.
  induction cl using cls_ind'. rename H into IH. unfold cls_equal. intros env scope nested Hwf Hst Heq.
  destruct (wf_cls_unfold fixed _ _ _ _ _ _ _ _ _ _ _ Hwf) as (Hn & Hb & Hk & Hdec & Hco & Hsl & Hm & Hnd & Hcl).
  cbn zeta in *. set (c := mkCtx false (Some n)) in *.
  set (sc := scope ++ flat_map tparams (norm_bases c n b)) in *.
  cbn [stable_cls] in Hst. fold c in Hst.
  apply andb_true_iff in Hst; destruct Hst as [Hst Scl]. apply andb_true_iff in Hst; destruct Hst as [Hst Sm].
  apply andb_true_iff in Hst; destruct Hst as [Sb Sk].
  cbn [eq_stable_cls] in Heq. fold c in Heq.
  apply andb_true_iff in Heq; destruct Heq as [Heq Ecl]. apply andb_true_iff in Heq; destruct Heq as [Heq Em].
  apply andb_true_iff in Heq; destruct Heq as [Heq Ek]. apply andb_true_iff in Heq; destruct Heq as [Heq Ed].
  apply andb_true_iff in Heq; destruct Heq as [Heq Enobj]. apply andb_true_iff in Heq; destruct Heq as [Eb Ebne].
  apply negb_true_iff in Enobj.
  rewrite (norm_cls_stable fixed n b k d s cs ks ms Sm). fold c. cbn [unqual_cls cls_eq].
  rewrite N.eqb_refl, (dedup_nodup _ _ Ed), list_eqb_N_refl.
  rewrite (bases_reparse_equal env c n b Hb Sb Eb) by (assumption || (destruct b; [discriminate Ebne|discriminate])).
  assert (Ekws: list_eqb alias_eq (map (norm_kw c) k) (map unqual_alias k) = true).
  { apply list_eqb_map. intros kv Hkv. apply (kw_reparse_equal env c kv (forallb_In Hk Hkv)). }
  assert (Eslots: opt_eq (list_eqb N.eqb) s s = true) by (destruct s; [apply list_eqb_N_refl|reflexivity]).
  assert (Ecs: list_eqb cls_eq (map (norm_cls fixed) cs) (map unqual_cls cs) = true).
  { apply list_eqb_map. intros x Hx. rewrite Forall_forall in IH.
    apply (IH x Hx env sc true (forallb_In Hcl Hx) (forallb_In Scl Hx) (forallb_In Ecl Hx)). }
  assert (Eks: list_eqb const_eq (map (norm_const c) ks) (map unqual_const ks) = true).
  { apply list_eqb_map. intros k0 Hk0.
    apply (const_reparse_equal env c k0 (forallb_In Hco Hk0) (forallb_In Sk Hk0) (forallb_In Ek Hk0)). }
  assert (Ems: list_eqb func_eq (map (norm_func fixed c) ms) (map unqual_func ms) = true).
  { apply list_eqb_map. intros f Hf.
    apply (func_reparse_equal env sc c f (forallb_In Hm Hf) (forallb_In Sm Hf) (forallb_In Em Hf)). }
  rewrite Ekws, Eslots, Ecs, Eks, Ems. reflexivity.
Qed.
End FixedEq.

Section FixedEqUnit.
Variable fixed : bool.

Theorem unit_reparse_equal_lemma : forall u,
  wf_unit fixed u = true -> stable_unit fixed u = true -> eq_stable_unit u = true ->
  unit_eq (norm_unit fixed u) (unqual_unit u) = true.
Proof.
  intros u Hwf Hst Heq. destruct (wf_unit_parts fixed u Hwf) as (Htp & Hal & Hco & Hcl & Hfn & _ & _). cbn zeta in *.
  set (env := map tp_name (sort_tps (u_tparams u))) in *.
  unfold stable_unit in Hst.
  apply andb_true_iff in Hst; destruct Hst as [Hst Sfn]. apply andb_true_iff in Hst; destruct Hst as [Hst Scl].
  apply andb_true_iff in Hst; destruct Hst as [Hst Sco]. apply andb_true_iff in Hst; destruct Hst as [Stp Sal].
  unfold eq_stable_unit in Heq.
  apply andb_true_iff in Heq; destruct Heq as [Heq Efn]. apply andb_true_iff in Heq; destruct Heq as [Heq Ecl].
  apply andb_true_iff in Heq; destruct Heq as [Heq Eco]. apply andb_true_iff in Heq; destruct Heq as [Heq Eal].
  apply andb_true_iff in Heq; destruct Heq as [Esort Etp].
  destruct (wf_aliases_filter env (u_aliases u) Hal) as [Ea1 Ea2].
  unfold norm_unit, unqual_unit, unit_eq. rewrite Ea1, Ea2. cbn [map app u_tparams u_aliases u_consts u_classes u_funcs].
  rewrite (sort_tps_id _ Esort).
  assert (E1: list_eqb tparam_eq (map (norm_tparam plain0) (u_tparams u)) (map unqual_tparam (u_tparams u)) = true).
  { apply list_eqb_map. intros t Ht. rewrite forallb_forall in Htp, Stp, Etp.
    destruct (wf_tparam_parts env t (Htp t Ht)) as [Hc Hb].
    specialize (Stp t Ht). unfold stable_tparam in Stp. apply andb_true_iff in Stp. destruct Stp as [Sc Sb].
    specialize (Etp t Ht). unfold eq_stable_tparam in Etp. apply andb_true_iff in Etp. destruct Etp as [Ec Eb].
    unfold tparam_eq, norm_tparam, unqual_tparam. cbn [tp_name tp_lit tp_cons tp_bound]. change (ctx_plain plain0) with plain0.
    rewrite !N.eqb_refl. cbn [andb].
    assert (Econs: list_eqb ty_eq (map (norm plain0) (tp_cons t)) (map unqual (tp_cons t)) = true).
    { apply list_eqb_map. intros x Hx. rewrite forallb_forall in Hc, Sc, Ec. apply (reparse_equal_lemma env); auto. }
    rewrite Econs. cbn [andb]. destruct (tp_bound t) as [b|]; [|reflexivity]. cbn [opt_eq].
    apply (reparse_equal_lemma env); auto. }
  assert (E2: list_eqb alias_eq (map (norm_alias plain0) (u_aliases u)) (map unqual_alias (u_aliases u)) = true).
  { apply list_eqb_map. intros a Ha. rewrite forallb_forall in Hal, Sal, Eal.
    destruct (wf_alias_parts env a (Hal a Ha)) as (_ & Hw & _).
    unfold alias_eq, norm_alias, unqual_alias. cbn [fst snd]. change (ctx_plain plain0) with plain0. rewrite N.eqb_refl. cbn [andb].
    apply (reparse_equal_lemma env); auto. }
  assert (E3: list_eqb const_eq (map (norm_const plain0) (u_consts u)) (map unqual_const (u_consts u)) = true).
  { apply list_eqb_map. intros k Hk. rewrite forallb_forall in Hco, Sco, Eco.
    apply (const_reparse_equal env plain0 k (Hco k Hk) (Sco k Hk)). change (ctx_plain plain0) with plain0. apply Eco. exact Hk. }
  assert (E4: list_eqb cls_eq (map (norm_cls fixed) (u_classes u)) (map unqual_cls (u_classes u)) = true).
  { apply list_eqb_map. intros x Hx.
    apply (cls_reparse_equal fixed x env [] false (forallb_In Hcl Hx) (forallb_In Scl Hx) (forallb_In Ecl Hx)). }
  assert (E5: list_eqb func_eq (map (norm_func fixed plain0) (u_funcs u)) (map unqual_func (u_funcs u)) = true).
  { apply list_eqb_map. intros f Hf.
    apply (func_reparse_equal fixed env [] plain0 f (forallb_In Hfn Hf) (forallb_In Sfn Hf) (forallb_In Efn Hf)). }
  rewrite E1, E2, E3, E4, E5. reflexivity.
Qed.
End FixedEqUnit.
