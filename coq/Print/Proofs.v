(* C05: the round trip through the printer and the reader of Print/Model.v.  The printer is factored through
   expressions: on the emitted dialect print_ty = flat o to_expr (print_to_expr), parse_expr inverts flat
   (parse_flat) and conv o to_expr = norm (conv_to_expr), so that parse_ty (print_ty t) = norm t.  Printing
   norm t gives the tokens of t again when t is stable.  Signatures follow the same plan, with parameter items
   in place of expressions. *)
From Coq Require Import List NArith ZArith Bool Arith Lia.
From PV Require Import Print.Model.
Import ListNotations.

Section TyInd.
  Variable P : ty -> Prop.
  Hypothesis HNamed : forall n, P (Named n).
  Hypothesis HAny : P AnyT.
  Hypothesis HNothing : P NothingT.
  Hypothesis HTParam : forall i, P (TParam i).
  Hypothesis HLit : forall v, P (Lit v).
  Hypothesis HGeneric : forall b ps, Forall P ps -> P (Generic b ps).
  Hypothesis HTuple : forall b ps, Forall P ps -> P (TupleT b ps).
  Hypothesis HCallable : forall b ps, Forall P ps -> P (CallableT b ps).
  Hypothesis HUnion : forall ts, Forall P ts -> P (Union ts).
  Hypothesis HAnnot : forall t a, P t -> P (Annot t a).
  Fixpoint ty_ind' (t : ty) : P t :=
    let go := fix go (l : list ty) : Forall P l :=
                match l with [] => Forall_nil _ | x :: r => Forall_cons _ (ty_ind' x) (go r) end in
    match t with
    | Named n => HNamed n
    | AnyT => HAny
    | NothingT => HNothing
    | TParam i => HTParam i
    | Lit v => HLit v
    | Generic b ps => HGeneric b ps (go ps)
    | TupleT b ps => HTuple b ps (go ps)
    | CallableT b ps => HCallable b ps (go ps)
    | Union ts => HUnion ts (go ts)
    | Annot t a => HAnnot t a (ty_ind' t)
    end.
End TyInd.

Section ExprInd.
  Variable P : expr -> Prop.
  Hypothesis HName : forall i, P (EName i).
  Hypothesis HNone : P ENone.
  Hypothesis HEll : P EEllipsis.
  Hypothesis HInt : forall z, P (EInt z).
  Hypothesis HStr : forall i, P (EStr i).
  Hypothesis HBool : forall b, P (EBool b).
  Hypothesis HList : forall es, Forall P es -> P (EList es).
  Hypothesis HTup : P ETuple0.
  Hypothesis HSub : forall b es, Forall P es -> P (ESub b es).
  Fixpoint expr_ind' (e : expr) : P e :=
    let go := fix go (l : list expr) : Forall P l :=
                match l with [] => Forall_nil _ | x :: r => Forall_cons _ (expr_ind' x) (go r) end in
    match e with
    | EName i => HName i
    | ENone => HNone
    | EEllipsis => HEll
    | EInt z => HInt z
    | EStr i => HStr i
    | EBool b => HBool b
    | EList es => HList es (go es)
    | ETuple0 => HTup
    | ESub b es => HSub b es (go es)
    end.
End ExprInd.

Lemma tokens_eqb_true : forall a b, tokens_eqb a b = true <-> a = b.
Proof. intros. unfold tokens_eqb. destruct (list_eq_dec token_eq_dec a b); split; congruence. Qed.
Lemma tokens_eqb_false : forall a b, tokens_eqb a b = false <-> a <> b.
Proof. intros. unfold tokens_eqb. destruct (list_eq_dec token_eq_dec a b); split; congruence. Qed.
Lemma tokens_eqb_refl : forall a, tokens_eqb a a = true.
Proof. intros. apply tokens_eqb_true. reflexivity. Qed.

Lemma prints_tuple_id : forall b, prints_tuple b = true -> name_id b = id_tuple.
Proof.
  intros b H. apply tokens_eqb_true in H. unfold print_name in H.
  destruct (name_id b =? id_NoneType)%N; [discriminate|]. injection H as H. exact H.
Qed.

Lemma name_eqb_eq : forall a b, name_eqb a b = true -> a = b.
Proof. destruct a, b; cbn; intros H; try discriminate; apply N.eqb_eq in H; congruence. Qed.
Lemma name_eqb_refl : forall a, name_eqb a a = true.
Proof. destruct a; cbn; apply N.eqb_refl. Qed.

Lemma andb3 : forall a b c, a && b && c = true -> a = true /\ b = true /\ c = true.
Proof. intros [] [] []; auto. Qed.
Lemma andb4 : forall a b c d, a && b && c && d = true -> a = true /\ b = true /\ c = true /\ d = true.
Proof. intros [] [] [] []; auto. Qed.

Lemma any_callable_shape : forall ps, match ps with [AnyT; _] => true | _ => false end = true -> exists r, ps = [AnyT; r].
Proof. intros [|[] [|r [|? ?]]] H; try discriminate. exists r. reflexivity. Qed.

(* Induction over the emitted dialect: one case per shape that `wf` allows, with what `wf` says about
   that shape as hypotheses.  Generic splits three ways, as print_ty, norm and conv do. *)
Section WfInd.
  Variables (env : penv) (P : ty -> Prop).
  Let members (ps : list ty) : Prop := forall p, In p ps -> wf env p = true /\ P p.
  Hypothesis HNamed : forall n, wf_name env n = true -> P (Named n).
  Hypothesis HAny : P AnyT.
  Hypothesis HNothing : P NothingT.
  Hypothesis HTParam : forall i, is_tvar env i = true -> is_special i = false -> P (TParam i).
  Hypothesis HLit : forall v, P (Lit v).
  Hypothesis HHomTuple : forall b p, wf_name env b = true -> prints_tuple b = true ->
    wf env p = true -> P p -> P (Generic b [p]).
  Hypothesis HAnyCallable : forall r, wf env r = true -> P r -> P (Generic (NT id_Callable) [AnyT; r]).
  Hypothesis HGeneric : forall b ps, wf_name env b = true -> (name_id b =? id_NoneType)%N = false ->
    prints_tuple b = false -> name_eqb b (NT id_Callable) = false -> ps <> [] -> members ps -> P (Generic b ps).
  Hypothesis HTuple : forall b ps, wf_name env b = true -> prints_tuple b = true -> members ps -> P (TupleT b ps).
  Hypothesis HCallable : forall ps, ps <> [] -> members ps -> P (CallableT (NT id_Callable) ps).
  Hypothesis HUnion : forall ts, ts <> [] -> members ts -> (forall t, In t ts -> is_union t = false) -> P (Union ts).
  Hypothesis HAnnot : forall t a, a <> [] -> wf env t = true -> P t -> P (Annot t a).

  Lemma wf_ind : forall t, wf env t = true -> P t.
  Proof.
    assert (Hm: forall ps, Forall (fun p => wf env p = true -> P p) ps -> forallb (wf env) ps = true -> members ps).
    { intros ps HF Hb p Hp. rewrite Forall_forall in HF. rewrite forallb_forall in Hb. auto. }
    induction t using ty_ind'; cbn [wf]; intros Hwf.
    - apply HNamed, Hwf.
    - exact HAny.
    - exact HNothing.
    - destruct (andb4 _ _ _ _ Hwf) as (Hv & _ & Hs & _). apply HTParam; [exact Hv | apply negb_true_iff, Hs].
    - apply HLit.
    - destruct (andb4 _ _ _ _ Hwf) as (Hb & Hnn & Hps & Hshape). apply negb_true_iff in Hnn.
      pose proof (Hm ps H Hps) as Hps'.
      destruct (prints_tuple b) eqn:Et; [|destruct (name_eqb b (NT id_Callable)) eqn:Ec].
      + destruct ps as [|p [|? ?]]; try discriminate. apply HHomTuple; try assumption; apply Hps'; left; reflexivity.
      + apply name_eqb_eq in Ec. subst b. destruct (any_callable_shape ps Hshape) as (r & ->).
        apply HAnyCallable; apply Hps'; right; left; reflexivity.
      + apply HGeneric; try assumption. intros ->. discriminate.
    - destruct (andb3 _ _ _ Hwf) as (Ht & Hb & Hps). apply HTuple; auto.
    - destruct (andb3 _ _ _ Hwf) as (Hb & Hps & Hne). apply name_eqb_eq in Hb. subst b.
      apply HCallable; [intros ->; discriminate | auto].
    - destruct (andb3 _ _ _ Hwf) as (Hts & Hnu & Hne). apply HUnion; [intros ->; discriminate | auto |].
      intros t Ht. rewrite forallb_forall in Hnu. apply negb_true_iff. auto.
    - apply andb_true_iff in Hwf. destruct Hwf as [Ht Ha]. apply HAnnot; [intros ->; discriminate | exact Ht | auto].
  Qed.
End WfInd.

Fixpoint flat (e : expr) : list token :=
  match e with
  | EName i => [TName i]
  | ENone => [TNone]
  | EEllipsis => [TEllipsis]
  | EInt z => [TInt z]
  | EStr i => [TStr i]
  | EBool b => [TBool b]
  | EList es => TLBr :: sep (map flat es) ++ [TRBr]
  | ETuple0 => [TLPar; TRPar]
  | ESub b es => TName b :: TLBr :: sep (map flat es) ++ [TRBr]
  end.

(* subscripts have at least one argument *)
Fixpoint wfe (e : expr) : bool :=
  match e with
  | EList es => forallb wfe es
  | ESub _ es => match es with [] => false | _ => forallb wfe es end
  | _ => true
  end.

Definition starts_ok (ts : list token) : Prop :=
  match ts with TLBr :: _ => False | _ => True end.

Lemma flat_nonempty : forall e, exists t r, flat e = t :: r /\ t <> TRBr.
Proof. destruct e; simpl; eexists; eexists; (split; [reflexivity | discriminate]). Qed.

Lemma sep_cons2 : forall x y r, sep (x :: y :: r) = x ++ TComma :: sep (y :: r).
Proof. reflexivity. Qed.

Lemma sep_single : forall x, sep [x] = x.
Proof. reflexivity. Qed.

(* the induction hypothesis of parse_flat_gen, named so that parse_args_flat can assume it of the arguments *)
Definition reads_back (e : expr) : Prop :=
  wfe e = true ->
  forall fuel rest, length (flat e) <= fuel -> starts_ok rest ->
  parse_expr fuel (flat e ++ rest) = Some (e, rest).

Lemma parse_args_unfold : forall f ts,
  parse_args (S f) ts =
  match parse_expr f ts with
  | Some (e, TComma :: r) =>
      match parse_args f r with Some (es, r') => Some (e :: es, r') | None => None end
  | Some (e, r) => Some ([e], r)
  | None => None
  end.
Proof. reflexivity. Qed.

Lemma token_not_rbr : forall {X} (t : token) (a b : X), t <> TRBr -> match t with TRBr => a | _ => b end = b.
Proof. intros X t a b H. destruct t; congruence. Qed.
Lemma token_not_rpar : forall {X} (t : token) (a b : X), t <> TRPar -> match t with TRPar => a | _ => b end = b.
Proof. intros X t a b H. destruct t; congruence. Qed.

Lemma parse_args_flat : forall es,
  Forall reads_back es -> forallb wfe es = true -> es <> [] ->
  forall fuel r, length (sep (map flat es)) + 1 <= fuel ->
  parse_args fuel (sep (map flat es) ++ TRBr :: r) = Some (es, TRBr :: r).
Proof.
  induction es as [|a es IH]; intros HF Hw Hne fuel r Hfu; [congruence|].
  inversion HF as [|? ? Ha HF']; subst.
  cbn [forallb] in Hw. apply andb_true_iff in Hw. destruct Hw as [Hwa Hwes].
  destruct fuel as [|f]; [lia|].
  rewrite parse_args_unfold.
  destruct es as [|b es].
  - cbn [map] in *. rewrite sep_single in *.
    rewrite (Ha Hwa f (TRBr :: r)); [reflexivity | lia | exact I].
  - cbn [map] in *. rewrite sep_cons2 in *. rewrite <- app_assoc.
    rewrite app_length in Hfu. cbn [length] in Hfu.
    rewrite (Ha Hwa f); [| lia | exact I].
    cbn [app].
    change (flat b :: map flat es) with (map flat (b :: es)) in *.
    rewrite (IH HF' Hwes ltac:(discriminate) f r); [reflexivity | lia].
Qed.

(* the parser reads back a flattened expression; the rest of the input must not start with "[" *)
Lemma parse_flat_gen : forall e, reads_back e.
Proof.
  induction e using expr_ind'; unfold reads_back; intros Hwf fuel rest Hf Hr;
    (destruct fuel as [|f]; [cbn in Hf; lia|]).
  - cbn. destruct rest as [|[] ?]; cbn in Hr; try contradiction; reflexivity.
  - reflexivity.
  - reflexivity.
  - reflexivity.
  - reflexivity.
  - reflexivity.
  - destruct es as [|e1 es'].
    + reflexivity.
    + cbn [wfe] in Hwf.
      cbn [flat app]. rewrite <- app_assoc. cbn [app].
      destruct (flat_nonempty e1) as (t & r1 & He1 & Hne1).
      assert (Hsep: exists r2, sep (map flat (e1 :: es')) = t :: r2).
      { destruct es'; cbn [map]; [rewrite sep_single | rewrite sep_cons2]; rewrite He1; cbn [app]; eauto. }
      destruct Hsep as (r2 & Hsep).
      assert (Hpa := parse_args_flat (e1 :: es') H Hwf ltac:(discriminate) f rest).
      cbn [flat length] in Hf. rewrite app_length in Hf. cbn [length] in Hf.
      rewrite Hsep in *. cbn [app] in *.
      cbn [parse_expr]. rewrite (token_not_rbr t _ _ Hne1), Hpa; [reflexivity | lia].
  - reflexivity.
  - destruct es as [|e1 es']; [cbn in Hwf; discriminate|].
    cbn [wfe] in Hwf.
    cbn [flat app]. rewrite <- app_assoc. cbn [app].
    cbn [flat length] in Hf. rewrite app_length in Hf. cbn [length] in Hf.
    cbn [parse_expr].
    rewrite (parse_args_flat (e1 :: es') H Hwf ltac:(discriminate) f rest); [reflexivity | lia].
Qed.

Lemma parse_flat : forall e, wfe e = true ->
  parse_expr (S (length (flat e))) (flat e) = Some (e, []).
Proof.
  intros e Hw. rewrite <- (app_nil_r (flat e)) at 2.
  apply parse_flat_gen; [exact Hw | lia | exact I].
Qed.

Lemma flat_inj : forall a b, wfe a = true -> wfe b = true -> flat a = flat b -> a = b.
Proof.
  intros a b Ha Hb E. pose proof (parse_flat a Ha) as Pa. pose proof (parse_flat b Hb) as Pb.
  rewrite E in Pa. rewrite Pa in Pb. congruence.
Qed.

Lemma map_filter_comm : forall {A B} (f : A -> B) (P : B -> bool) l,
  map f (filter (fun x => P (f x)) l) = filter P (map f l).
Proof. induction l as [|x r IH]; cbn; [reflexivity|]. destruct (P (f x)); cbn; rewrite IH; reflexivity. Qed.

Lemma filter_all : forall {A} (P : A -> bool) l, (forall x, In x l -> P x = true) -> filter P l = l.
Proof.
  induction l as [|x r IH]; intros H; [reflexivity|]. cbn. rewrite (H x (or_introl eq_refl)). f_equal.
  apply IH. intros y Hy. apply H. right. exact Hy.
Qed.

Lemma filter_none : forall {A} (P : A -> bool) l, (forall x, In x l -> P x = false) -> filter P l = [].
Proof.
  induction l as [|x r IH]; intros H; [reflexivity|]. cbn. rewrite (H x (or_introl eq_refl)).
  apply IH. intros y Hy. apply H. right. exact Hy.
Qed.

Lemma NoDup_app_intro : forall {A} (l1 l2 : list A),
  NoDup l1 -> NoDup l2 -> (forall x, In x l1 -> ~ In x l2) -> NoDup (l1 ++ l2).
Proof.
  induction l1 as [|x r IH]; intros l2 H1 H2 Hd; [exact H2|]. cbn.
  inversion H1 as [|? ? Hx Hr]; subst. constructor.
  - intro Hin. apply in_app_or in Hin. destruct Hin as [Hin|Hin]; [exact (Hx Hin)|].
    exact (Hd x (or_introl eq_refl) Hin).
  - apply IH; [exact Hr | exact H2 |]. intros y Hy. apply Hd. right. exact Hy.
Qed.

Lemma match_len2 : forall {A B} (l : list A) (f : A -> B) (g : list A -> B),
  2 <= length l -> match l with [x] => f x | l' => g l' end = g l.
Proof. intros A B l f g H. destruct l as [|a [|b r]]; cbn in H; try lia; reflexivity. Qed.

Lemma filter_negb_existsb : forall {A} (P : A -> bool) l,
  existsb P l = false -> filter (fun x => negb (P x)) l = l.
Proof.
  induction l as [|x r IH]; cbn; intros H; [reflexivity|].
  apply orb_false_iff in H. destruct H as [-> Hr]. cbn. f_equal. exact (IH Hr).
Qed.

Lemma filter_map_ext : forall {A B} (f : A -> B) (P : B -> bool) (Q : A -> bool) l,
  (forall x, In x l -> P (f x) = Q x) -> filter P (map f l) = map f (filter Q l).
Proof.
  intros A B f P Q l H. rewrite <- (map_filter_comm f P). f_equal. apply filter_ext_in. exact H.
Qed.

Lemma existsb_map_ext : forall {A B} (f : A -> B) (P : B -> bool) (Q : A -> bool) l,
  (forall x, In x l -> P (f x) = Q x) -> existsb P (map f l) = existsb Q l.
Proof.
  induction l as [|x r IH]; intros H; [reflexivity|]. cbn. rewrite (H x (or_introl eq_refl)). f_equal.
  apply IH. intros y Hy. apply H. right. exact Hy.
Qed.

Lemma fold_left_ind : forall {A B} (P : A -> Prop) (f : A -> B -> A) l a,
  P a -> (forall a b, In b l -> P a -> P (f a b)) -> P (fold_left f l a).
Proof.
  induction l as [|b r IH]; cbn; intros a Ha Hf; [exact Ha|].
  apply IH; [apply Hf; auto | intros a' b' Hb'; apply Hf; auto].
Qed.

Lemma fold_left_rel : forall {A A' B} (R : A -> A' -> Prop) (f : A -> B -> A) (f' : A' -> B -> A') l a a',
  R a a' -> (forall a a' b, R a a' -> R (f a b) (f' a' b)) -> R (fold_left f l a) (fold_left f' l a').
Proof. induction l as [|b r IH]; cbn; intros a a' H Hf; [exact H|]. apply IH; auto. Qed.

Lemma map_dedup_on : forall {A K} (key : A -> K) (eqb : K -> K -> bool) l,
  map key (dedup_on key eqb l) = dedup eqb (map key l).
Proof.
  induction l as [|x r IH]; cbn; [reflexivity|]. f_equal.
  rewrite <- IH. apply (map_filter_comm key (fun k => negb (eqb (key x) k))).
Qed.

Lemma map_compat_step_on : forall {A} (key : A -> list token) l p,
  map key (compat_step_on key l p) = compat_step (map key l) p.
Proof.
  intros. unfold compat_step_on, compat_step.
  destruct (mem_s [TName (fst p)] (map key l) && mem_s [TName (snd p)] (map key l)); [|reflexivity].
  apply (map_filter_comm key (fun s => negb (tokens_eqb s [TName (fst p)]))).
Qed.

Lemma map_form_set_on : forall {A} c (key : A -> list token) l,
  map key (form_set_on c key l) = form_set c (map key l).
Proof.
  intros. unfold form_set_on, form_set. destruct (in_param c); [|apply map_dedup_on].
  apply (fold_left_rel (fun a a' => map key a = a')); [apply map_dedup_on|].
  intros a a' p <-. apply map_compat_step_on.
Qed.

Lemma dedup_on_incl : forall {A K} (key : A -> K) eqb l x, In x (dedup_on key eqb l) -> In x l.
Proof.
  induction l as [|y r IH]; cbn; intros x H; [exact H|].
  destruct H as [H|H]; [left; exact H|]. right. apply filter_In in H. apply IH. apply H.
Qed.

Lemma compat_step_on_incl : forall {A} (key : A -> list token) l p x, In x (compat_step_on key l p) -> In x l.
Proof.
  intros A key l p x. unfold compat_step_on.
  destruct (mem_s _ _ && mem_s _ _); [|exact (fun H => H)]. intros H. apply filter_In in H. apply H.
Qed.

Lemma form_set_on_incl : forall {A} c (key : A -> list token) l x, In x (form_set_on c key l) -> In x l.
Proof.
  intros A c key l. unfold form_set_on.
  assert (Hd: forall x, In x (dedup_on key tokens_eqb l) -> In x l) by apply dedup_on_incl.
  destruct (in_param c); [|exact Hd].
  apply (fold_left_ind (fun a => forall x, In x a -> In x l)); [exact Hd|].
  intros a p _ Ha x Hx. apply Ha. eapply compat_step_on_incl, Hx.
Qed.

Lemma dedup_on_map : forall {A B K} (f : A -> B) (k : B -> K) (k' : A -> K) eqb l,
  (forall x, In x l -> k (f x) = k' x) -> dedup_on k eqb (map f l) = map f (dedup_on k' eqb l).
Proof.
  induction l as [|x r IH]; intros H; cbn; [reflexivity|]. f_equal.
  rewrite IH by (intros y Hy; apply H; right; exact Hy).
  apply filter_map_ext. intros y Hy. apply dedup_on_incl in Hy.
  rewrite (H x (or_introl eq_refl)), (H y (or_intror Hy)). reflexivity.
Qed.

Lemma compat_step_on_map : forall {A B} (f : A -> B) (k : B -> list token) (k' : A -> list token) l p,
  (forall x, In x l -> k (f x) = k' x) -> compat_step_on k (map f l) p = map f (compat_step_on k' l p).
Proof.
  intros A B f k k' l p H. unfold compat_step_on. rewrite map_map, (map_ext_in _ k' l H).
  destruct (mem_s _ _ && mem_s _ _); [|reflexivity].
  apply filter_map_ext. intros y Hy. rewrite (H y Hy). reflexivity.
Qed.

Lemma form_set_on_map : forall {A B} c (f : A -> B) (k : B -> list token) (k' : A -> list token) l,
  (forall x, In x l -> k (f x) = k' x) -> form_set_on c k (map f l) = map f (form_set_on c k' l).
Proof.
  intros A B c f k k' l H. unfold form_set_on. rewrite (dedup_on_map f k k' tokens_eqb l H).
  destruct (in_param c); [|reflexivity].
  refine (proj1 (fold_left_rel (fun a a' => a = map f a' /\ forall x, In x a' -> In x l) _ _ _ _ _ _ _)).
  - split; [reflexivity|apply dedup_on_incl].
  - intros a a' p [-> Ha]. split.
    + apply compat_step_on_map. intros x Hx. apply H, Ha, Hx.
    + intros x Hx. apply Ha. eapply compat_step_on_incl, Hx.
Qed.

(* _BuildUnion on expressions: coalesce_e, union1_e and union_e are coalesce, build_union1 and build_union of
   the model on the expressions whose tokens those take (coalesce_flat, build_union1_flat, build_union_flat) *)

Definition is_litsub (e : expr) : bool := match e with ESub b _ => (b =? id_Literal)%N | _ => false end.
Definition lit_args (e : expr) : list expr :=
  match e with ESub b a => if (b =? id_Literal)%N then a else [] | _ => [] end.
Definition is_enone (e : expr) : bool := match e with ENone => true | _ => false end.

Definition coalesce_e (es : list expr) : list expr :=
  let nl := filter (fun e => negb (is_litsub e)) es in
  match filter is_litsub es with
  | [] => nl
  | lits => nl ++ [ESub id_Literal (flat_map lit_args lits)]
  end.
Definition union1_e (l : list expr) : expr :=
  match coalesce_e l with [x] => x | l' => ESub id_Union l' end.
Definition union_e (l : list expr) : expr :=
  match coalesce_e l with
  | [x] => x
  | l' => if existsb is_enone l'
          then ESub id_Optional [union1_e (filter (fun e => negb (is_enone e)) l')]
          else ESub id_Union l'
  end.

Definition lit_grp (lits : list expr) : list expr :=
  match lits with [] => [] | _ => [ESub id_Literal (flat_map lit_args lits)] end.

Lemma coalesce_e_eq : forall es,
  coalesce_e es = filter (fun e => negb (is_litsub e)) es ++ lit_grp (filter is_litsub es).
Proof. intros es. unfold coalesce_e, lit_grp. destruct (filter is_litsub es); [symmetry; apply app_nil_r|reflexivity]. Qed.

Lemma sep_app : forall l1 l2, l1 <> [] -> l2 <> [] -> sep (l1 ++ l2) = sep l1 ++ TComma :: sep l2.
Proof.
  induction l1 as [|x r IH]; intros l2 H1 H2; [congruence|].
  destruct r as [|y r'].
  - cbn [app]. destruct l2 as [|z l2']; [congruence|]. rewrite sep_cons2, sep_single. reflexivity.
  - cbn [app]. rewrite !sep_cons2. rewrite <- app_assoc. cbn [app]. f_equal. f_equal.
    change (y :: r' ++ l2) with ((y :: r') ++ l2). apply IH; [discriminate | exact H2].
Qed.

Lemma match_literal_flat : forall e,
  match_literal (flat e) = if is_litsub e then Some (sep (map flat (lit_args e))) else None.
Proof.
  destruct e; cbn; try reflexivity.
  destruct (base =? id_Literal)%N; [|reflexivity].
  rewrite rev_app_distr. cbn. rewrite rev_involutive. reflexivity.
Qed.

Lemma split_lits_flat : forall es,
  split_lits (map flat es) =
  (map flat (filter (fun e => negb (is_litsub e)) es),
   map (fun e => sep (map flat (lit_args e))) (filter is_litsub es)).
Proof.
  induction es as [|e r IH]; [reflexivity|].
  cbn [map split_lits filter]. rewrite IH. rewrite match_literal_flat.
  destruct (is_litsub e); reflexivity.
Qed.

Lemma wfe_lit_args : forall e, wfe e = true -> is_litsub e = true -> lit_args e <> [].
Proof.
  destruct e; cbn; try discriminate. intros Hw Hl. rewrite Hl. destruct args; [discriminate|discriminate].
Qed.

Lemma sep_lit_args : forall lits, (forall e, In e lits -> lit_args e <> []) ->
  sep (map (fun e => sep (map flat (lit_args e))) lits) = sep (map flat (flat_map lit_args lits)).
Proof.
  induction lits as [|e [|e' r] IH]; intros H; [reflexivity | cbn; rewrite app_nil_r; reflexivity |].
  assert (He: lit_args e <> []) by (apply H; left; reflexivity).
  assert (He': lit_args e' <> []) by (apply H; right; left; reflexivity).
  cbn [map] in *. rewrite sep_cons2, IH by (intros x Hx; apply H; right; exact Hx).
  change (flat_map lit_args (e :: e' :: r)) with (lit_args e ++ flat_map lit_args (e' :: r)).
  rewrite map_app, sep_app; [reflexivity | |]; intros E; apply map_eq_nil in E; [auto|].
  cbn [flat_map] in E. apply app_eq_nil in E. destruct E. auto.
Qed.

Lemma coalesce_flat : forall es, forallb wfe es = true ->
  coalesce (map flat es) = map flat (coalesce_e es).
Proof.
  intros es Hw. unfold coalesce. rewrite split_lits_flat, coalesce_e_eq, map_app. unfold lit_grp.
  assert (Hl: forall e, In e (filter is_litsub es) -> lit_args e <> []).
  { intros e He. apply filter_In in He. destruct He as [Hi Hs]. rewrite forallb_forall in Hw.
    apply wfe_lit_args; [apply Hw, Hi|exact Hs]. }
  destruct (filter is_litsub es) as [|l0 lr]; [symmetry; apply app_nil_r|].
  f_equal. unfold sub. rewrite (sep_lit_args _ Hl). reflexivity.
Qed.

Lemma is_none_flat : forall e, is_none_s (flat e) = is_enone e.
Proof.
  intros e. unfold is_none_s.
  destruct e; cbn; try reflexivity; try (apply tokens_eqb_false; discriminate).
Qed.

Lemma sub_flat : forall b l, sub [TName b] (map flat l) = flat (ESub b l).
Proof. reflexivity. Qed.

Lemma wfe_coalesce_e : forall es, forallb wfe es = true -> forallb wfe (coalesce_e es) = true.
Proof.
  intros es Hw. rewrite coalesce_e_eq, forallb_app. rewrite forallb_forall in Hw. apply andb_true_iff. split.
  - apply forallb_forall. intros x Hx. apply filter_In in Hx. apply Hw, Hx.
  - unfold lit_grp. destruct (filter is_litsub es) as [|l0 lr] eqn:El; [reflexivity|].
    cbn [forallb wfe]. rewrite andb_true_r.
    assert (Hl: forall e, In e (l0 :: lr) -> lit_args e <> [] /\ forallb wfe (lit_args e) = true).
    { intros e He. rewrite <- El in He. apply filter_In in He. destruct He as [Hi Hs]. specialize (Hw e Hi).
      split; [apply wfe_lit_args; assumption|].
      destruct e; try discriminate. cbn in Hs |- *. rewrite Hs. cbn in Hw. destruct args; [discriminate|exact Hw]. }
    destruct (flat_map lit_args (l0 :: lr)) as [|fa fr] eqn:Ef.
    + cbn [flat_map] in Ef. apply app_eq_nil in Ef. destruct Ef as [Ef _].
      destruct (Hl l0 (or_introl eq_refl)). contradiction.
    + rewrite <- Ef. apply forallb_forall. intros x Hx. apply in_flat_map in Hx. destruct Hx as (e & He & Hx).
      destruct (Hl e He) as [_ Hw']. rewrite forallb_forall in Hw'. apply Hw', Hx.
Qed.

Lemma build_union1_flat : forall l, forallb wfe l = true ->
  build_union1 (map flat l) = flat (union1_e l).
Proof.
  intros l Hw. unfold build_union1, union1_e. rewrite coalesce_flat by exact Hw.
  destruct (coalesce_e l) as [|a [|b r]]; reflexivity.
Qed.

Lemma build_union_flat : forall l, forallb wfe l = true ->
  build_union (map flat l) = flat (union_e l).
Proof.
  intros l Hw. unfold build_union, union_e. rewrite coalesce_flat by exact Hw.
  pose proof (wfe_coalesce_e l Hw) as Hc.
  generalize dependent (coalesce_e l). intros l' Hc.
  assert (He: existsb is_none_s (map flat l') = existsb is_enone l').
  { clear. induction l' as [|x r IH]; cbn; [reflexivity|]. rewrite is_none_flat, IH. reflexivity. }
  assert (Hf: filter (fun s => negb (is_none_s s)) (map flat l') = map flat (filter (fun e => negb (is_enone e)) l')).
  { rewrite <- (map_filter_comm flat (fun s => negb (is_none_s s))).
    f_equal. apply filter_ext_in. intros x _. rewrite is_none_flat. reflexivity. }
  destruct l' as [|a [|b r]]; [reflexivity | reflexivity |].
  cbn [map]. change (flat a :: flat b :: map flat r) with (map flat (a :: b :: r)).
  rewrite He, Hf. destruct (existsb is_enone (a :: b :: r)); [|reflexivity].
  rewrite build_union1_flat; [reflexivity|].
  rewrite forallb_forall in *. intros x Hx. apply filter_In in Hx. apply Hc. apply Hx.
Qed.

Lemma NoDup_map_filter : forall {A B} (f : A -> B) (P : A -> bool) l,
  NoDup (map f l) -> NoDup (map f (filter P l)).
Proof.
  induction l as [|x r IH]; cbn; intros H; [constructor|].
  inversion H as [|? ? Hn Hr]; subst. destruct (P x); cbn; [|apply IH; exact Hr].
  constructor; [|apply IH; exact Hr].
  intro Hin. apply Hn. apply in_map_iff in Hin. destruct Hin as (y & Hy & Hin).
  apply filter_In in Hin. apply in_map_iff. exists y. split; [exact Hy | apply Hin].
Qed.

Lemma NoDup_dedup_on : forall {A} (key : A -> list token) l,
  NoDup (map key (dedup_on key tokens_eqb l)).
Proof.
  induction l as [|x r IH]; cbn; [constructor|].
  constructor.
  - intro Hin. apply in_map_iff in Hin. destruct Hin as (y & Hy & Hin).
    apply filter_In in Hin. destruct Hin as [_ Hneg]. rewrite <- Hy in Hneg.
    rewrite tokens_eqb_refl in Hneg. discriminate.
  - apply NoDup_map_filter. exact IH.
Qed.

Lemma NoDup_form_set_on : forall {A} c (key : A -> list token) l, NoDup (map key (form_set_on c key l)).
Proof.
  intros. unfold form_set_on. destruct (in_param c); [|apply NoDup_dedup_on].
  apply (fold_left_ind (fun a => NoDup (map key a))); [apply NoDup_dedup_on|].
  intros a p _ Ha. unfold compat_step_on. destruct (_ && _); [apply NoDup_map_filter|]; exact Ha.
Qed.

Lemma compat_step_on_nonempty : forall {A} (key : A -> list token) l p,
  fst p <> snd p -> l <> [] -> compat_step_on key l p <> [].
Proof.
  intros A key l p Hp Hl. unfold compat_step_on.
  destruct (mem_s [TName (fst p)] (map key l)); cbn [andb]; [|exact Hl].
  destruct (mem_s [TName (snd p)] (map key l)) eqn:E2; [|exact Hl].
  (* the member printed as snd p stays *)
  apply existsb_exists in E2. destruct E2 as (k & Hk & Ek). apply tokens_eqb_true in Ek.
  apply in_map_iff in Hk. destruct Hk as (x & Ex & Hx). intros Hf.
  assert (Hin: In x (filter (fun y => negb (tokens_eqb (key y) [TName (fst p)])) l)); [|rewrite Hf in Hin; exact Hin].
  apply filter_In. split; [exact Hx|]. apply negb_true_iff, tokens_eqb_false.
  rewrite Ex, <- Ek. intros E. injection E as E. congruence.
Qed.

Lemma compat_items_distinct : Forall (fun p : N * N => fst p <> snd p) compat_items.
Proof. repeat constructor; cbn; discriminate. Qed.

Lemma form_set_on_nonempty : forall {A} c (key : A -> list token) l, l <> [] -> form_set_on c key l <> [].
Proof.
  intros A c key l Hl. unfold form_set_on.
  assert (Hd: dedup_on key tokens_eqb l <> []) by (destruct l; [congruence|cbn; discriminate]).
  destruct (in_param c); [|exact Hd].
  apply (fold_left_ind (fun a => a <> [])); [exact Hd|].
  intros a p Hp Ha. apply compat_step_on_nonempty; [|exact Ha].
  exact (proj1 (Forall_forall _ _) compat_items_distinct p Hp).
Qed.

Lemma coalesce_e_nonempty : forall l, l <> [] -> coalesce_e l <> [].
Proof.
  intros [|x l] Hl; [congruence|]. rewrite coalesce_e_eq. cbn [filter lit_grp].
  destruct (is_litsub x); cbn [negb]; [|discriminate]. intros E. apply app_eq_nil in E. destruct E. discriminate.
Qed.

Lemma NoDup_filter : forall {A} (P : A -> bool) l, NoDup l -> NoDup (filter P l).
Proof.
  intros A P l H. rewrite <- (map_id (filter P l)). apply NoDup_map_filter. rewrite map_id. exact H.
Qed.

Lemma NoDup_snoc : forall {A} (l : list A) x, NoDup l -> ~ In x l -> NoDup (l ++ [x]).
Proof.
  induction l as [|y r IH]; cbn; intros x H Hn; [constructor; [exact (fun f => f)|constructor]|].
  inversion H as [|? ? Hy Hr]; subst. constructor.
  - intro Hin. apply in_app_or in Hin. destruct Hin as [Hin|[Hin|[]]]; [exact (Hy Hin)|]. apply Hn. left. symmetry. exact Hin.
  - apply IH; [exact Hr|]. intro Hin. apply Hn. right. exact Hin.
Qed.

Lemma NoDup_coalesce_e : forall l, NoDup l -> NoDup (coalesce_e l).
Proof.
  intros l H. rewrite coalesce_e_eq. unfold lit_grp.
  destruct (filter is_litsub l); [rewrite app_nil_r; apply NoDup_filter, H|].
  apply NoDup_snoc; [apply NoDup_filter, H|].
  intro Hin. apply filter_In in Hin. destruct Hin as [_ Hl]. discriminate.
Qed.

Lemma filter_enone_nonempty : forall l, NoDup l -> 2 <= length l ->
  filter (fun e => negb (is_enone e)) l <> [].
Proof.
  intros [|a [|b r]] Hn Hl Hf; cbn in Hl; try lia. cbn [filter] in Hf.
  destruct (is_enone a) eqn:Ea; [|discriminate]. destruct (is_enone b) eqn:Eb; [|discriminate].
  destruct a; try discriminate. destruct b; try discriminate.
  inversion Hn as [|? ? Hna _]. apply Hna. left. reflexivity.
Qed.

Lemma wfe_union1_e : forall l, forallb wfe l = true -> l <> [] -> wfe (union1_e l) = true.
Proof.
  intros l Hw Hl. unfold union1_e. pose proof (wfe_coalesce_e l Hw) as Hc.
  pose proof (coalesce_e_nonempty l Hl) as Hne.
  destruct (coalesce_e l) as [|a [|b r]]; [congruence| cbn in Hc; rewrite andb_true_r in Hc; exact Hc | exact Hc].
Qed.

Lemma wfe_union_e : forall l, forallb wfe l = true -> l <> [] -> NoDup l -> wfe (union_e l) = true.
Proof.
  intros l Hw Hl Hn. unfold union_e. pose proof (wfe_coalesce_e l Hw) as Hc.
  pose proof (coalesce_e_nonempty l Hl) as Hne. pose proof (NoDup_coalesce_e l Hn) as Hnc.
  destruct (coalesce_e l) as [|a [|b r]] eqn:E; [congruence| cbn in Hc; rewrite andb_true_r in Hc; exact Hc |].
  destruct (existsb is_enone (a :: b :: r)); [|exact Hc].
  cbn [wfe forallb]. rewrite andb_true_r. apply wfe_union1_e.
  - rewrite forallb_forall in *. intros x Hx. apply filter_In in Hx. apply Hc. apply Hx.
  - apply filter_enone_nonempty; [exact Hnc | cbn; lia].
Qed.

(* a union that is printed, read and printed again: the reader returns the members in another order
   (the non-literal members other than None, the literals, None), and _BuildUnion does not mind *)

Definition opt_or_union (l : list expr) : expr :=
  if existsb is_enone l then ESub id_Optional [union1_e (filter (fun e => negb (is_enone e)) l)] else ESub id_Union l.

Definition union_items (l : list expr) : expr := match l with [x] => x | _ => opt_or_union l end.

Lemma union_e_eq : forall l, union_e l = union_items (coalesce_e l).
Proof. intros l. unfold union_e. destruct (coalesce_e l) as [|? [|? ?]]; reflexivity. Qed.

Lemma union_items_many : forall l, 2 <= length l -> union_items l = opt_or_union l.
Proof. intros l H. destruct l as [|? [|? ?]]; cbn in H; try lia; reflexivity. Qed.

(* the printed members es in the order in which the reader returns them *)
Definition reread_order (es : list expr) : list expr :=
  let nl := filter (fun e => negb (is_litsub e)) es in
  filter (fun e => negb (is_enone e)) nl ++ filter is_litsub es ++ (if existsb is_enone nl then [ENone] else []).

Lemma existsb_enone_In : forall l, existsb is_enone l = true <-> In ENone l.
Proof.
  intros l. rewrite existsb_exists. split; [|intros H; exists ENone; split; [exact H|reflexivity]].
  intros (x & Hx & Ex). destruct x; try discriminate. exact Hx.
Qed.

Lemma filter_enone_notin : forall l, ~ In ENone l -> filter (fun e => negb (is_enone e)) l = l.
Proof.
  intros l H. apply filter_negb_existsb. destruct (existsb is_enone l) eqn:E; [|reflexivity].
  apply existsb_enone_In in E. contradiction.
Qed.

Lemma reread_incl : forall es x, In x (reread_order es) -> In x es.
Proof.
  intros es x H. unfold reread_order in H. rewrite !in_app_iff in H. destruct H as [H|[H|H]].
  - apply filter_In in H. destruct H as [H _]. apply filter_In in H. apply H.
  - apply filter_In in H. apply H.
  - destruct (existsb is_enone _) eqn:E; [|contradiction]. destruct H as [<-|[]].
    apply existsb_enone_In, filter_In in E. apply E.
Qed.

Lemma NoDup_reread : forall es, NoDup es -> NoDup (reread_order es).
Proof.
  intros es H. unfold reread_order. apply NoDup_app_intro; [| apply NoDup_app_intro |].
  - apply NoDup_filter, NoDup_filter, H.
  - apply NoDup_filter, H.
  - destruct (existsb is_enone _); repeat constructor. exact (fun f => f).
  - intros x Hx Hn. apply filter_In in Hx. destruct (existsb is_enone _); [|contradiction].
    destruct Hn as [<-|[]]. destruct Hx; discriminate.
  - intros x Hx Hn. apply filter_In in Hx. destruct Hx as [Hx Hnn]. apply filter_In in Hx. destruct Hx as [_ Hnl].
    apply in_app_or in Hn. destruct Hn as [Hn|Hn].
    + apply filter_In in Hn. destruct Hn as [_ Hl]. rewrite Hl in Hnl. discriminate.
    + destruct (existsb is_enone _); [|contradiction]. destruct Hn as [<-|[]]. discriminate.
Qed.

Lemma union_items_none_last : forall a b G, ~ In ENone (a ++ b) -> existsb is_enone G = false ->
  union_items (((a ++ b) ++ [ENone]) ++ G) = union_items ((a ++ ENone :: b) ++ G).
Proof.
  intros a b G Hn HG.
  pose proof (filter_enone_notin _ Hn) as Hf.
  assert (HO: opt_or_union (((a ++ b) ++ [ENone]) ++ G) = opt_or_union ((a ++ ENone :: b) ++ G)).
  { unfold opt_or_union.
    rewrite !(proj2 (existsb_enone_In _)) by (rewrite !in_app_iff; cbn; tauto).
    rewrite filter_app, (filter_app _ (a ++ b)), Hf. rewrite filter_app in Hf.
    rewrite (filter_app _ (a ++ ENone :: b)), (filter_app _ a). cbn [filter is_enone negb]. rewrite Hf, app_nil_r. reflexivity. }
  destruct (a ++ b ++ G) as [|y r] eqn:E.
  - apply app_eq_nil in E. destruct E as [-> E]. apply app_eq_nil in E. destruct E as [-> ->]. reflexivity.
  - apply (f_equal (@length _)) in E. rewrite !app_length in E. cbn [length] in E.
    rewrite !union_items_many, HO; [reflexivity| |]; rewrite !app_length; cbn [length]; lia.
Qed.

Lemma union_e_reread : forall es, NoDup es -> union_e (reread_order es) = union_e es.
Proof.
  intros es Hnd. rewrite !union_e_eq, !coalesce_e_eq. unfold reread_order.
  set (nl := filter (fun e => negb (is_litsub e)) es). set (lits := filter is_litsub es).
  set (A := filter (fun e => negb (is_enone e)) nl). set (N := if existsb is_enone nl then [ENone] else []).
  assert (HA: forall x, In x A -> is_litsub x = false).
  { intros x Hx. apply filter_In in Hx. destruct Hx as [Hx _]. apply filter_In in Hx. apply negb_true_iff, Hx. }
  assert (HB: forall x, In x lits -> is_litsub x = true) by (intros x Hx; apply filter_In in Hx; apply Hx).
  assert (HN: forall x, In x N -> is_litsub x = false).
  { intros x Hx. unfold N in Hx. destruct (existsb _ _); [destruct Hx as [<-|[]]; reflexivity | destruct Hx]. }
  rewrite !filter_app.
  rewrite (filter_all _ A) by (intros x Hx; rewrite (HA x Hx); reflexivity).
  rewrite (filter_none _ lits) by (intros x Hx; rewrite (HB x Hx); reflexivity).
  rewrite (filter_all _ N) by (intros x Hx; rewrite (HN x Hx); reflexivity).
  rewrite (filter_none _ A HA), (filter_all _ lits HB), (filter_none _ N HN), app_nil_r. cbn [app].
  assert (HG: existsb is_enone (lit_grp lits) = false) by (unfold lit_grp; destruct lits; reflexivity).
  unfold A, N. destruct (existsb is_enone nl) eqn:EN.
  - apply existsb_enone_In in EN. destruct (in_split _ _ EN) as (a & b & Enl).
    assert (Hnd': NoDup nl) by (apply NoDup_filter, Hnd).
    rewrite Enl in Hnd' |- *. apply NoDup_remove_2 in Hnd'.
    rewrite filter_app. cbn [filter is_enone negb]. rewrite <- filter_app, (filter_enone_notin _ Hnd').
    apply union_items_none_last; assumption.
  - rewrite (filter_negb_existsb _ _ EN), app_nil_r. reflexivity.
Qed.

Lemma union_e_single : forall e, union_e [e] = e.
Proof.
  intros e. unfold union_e, coalesce_e. cbn [filter]. destruct (is_litsub e) eqn:El; cbn [negb app]; [|reflexivity].
  destruct e; try discriminate. cbn in El. apply N.eqb_eq in El. subst base.
  cbn. rewrite app_nil_r. reflexivity.
Qed.

Lemma NoDup_map_flat : forall l, forallb wfe l = true -> NoDup l -> NoDup (map flat l).
Proof.
  induction l as [|e r IH]; cbn; intros Hw Hn; [constructor|].
  apply andb_true_iff in Hw. destruct Hw as [He Hr]. inversion Hn as [|? ? Hne Hnr]; subst.
  constructor; [|apply IH; assumption].
  intros Hin. apply in_map_iff in Hin. destruct Hin as (y & Ey & Hy).
  rewrite forallb_forall in Hr. apply flat_inj in Ey; [subst; contradiction | apply Hr, Hy | exact He].
Qed.

(* to_expr c t is the expression whose tokens print_ty c t emits (print_to_expr) *)

Definition name_expr (n : name) : expr :=
  if (name_id n =? id_NoneType)%N then ENone else EName (name_id n).
Definition lit_expr (v : lit) : expr :=
  match v with LInt z => EInt z | LBool _ b => EBool b | LStr i => EStr i | LEnum i => EName i end.

Fixpoint to_expr (c : ctx) (t : ty) : expr :=
  match t with
  | Named n => name_expr n
  | AnyT => EName id_Any
  | NothingT => EName id_nothing
  | TParam i => EName i
  | Lit v => ESub id_Literal [lit_expr v]
  | Generic b ps =>
      let args := map (to_expr c) ps in
      if prints_tuple b then ESub (name_id b) (args ++ [EEllipsis])
      else if name_eqb b (NT id_Callable) then ESub (name_id b) (EEllipsis :: tl args)
      else ESub (name_id b) args
  | TupleT b ps =>
      let args := map (to_expr c) ps in
      match ps with
      | [] => ESub (name_id b) [ETuple0]
      | _ => if name_eqb b (NT id_Callable) then ESub (name_id b) (EEllipsis :: tl args)
             else ESub (name_id b) args
      end
  | CallableT b ps =>
      let args := map (to_expr c) ps in
      ESub (name_id b) [EList (removelast args); last args ENone]
  | Union ts => union_e (form_set_on c flat (map (to_expr c) ts))
  | Annot t a => ESub id_Annotated (to_expr c t :: map EStr a)
  end.

Lemma print_lit_flat : forall v, [print_lit v] = flat (lit_expr v).
Proof. destruct v; reflexivity. Qed.

Lemma print_name_flat : forall n, print_name n = flat (name_expr n).
Proof. intros n. unfold print_name, name_expr. destruct (name_id n =? id_NoneType)%N; reflexivity. Qed.

Lemma print_name_base : forall n, (name_id n =? id_NoneType)%N = false -> print_name n = [TName (name_id n)].
Proof. intros n H. unfold print_name. rewrite H. reflexivity. Qed.

Lemma removelast_map : forall {A B} (f : A -> B) l, removelast (map f l) = map f (removelast l).
Proof. induction l as [|x [|y r] IH]; cbn in *; [reflexivity|reflexivity|]. f_equal. exact IH. Qed.
Lemma last_map : forall {A B} (f : A -> B) l d d', l <> [] -> last (map f l) d = f (last l d').
Proof. induction l as [|x [|y r] IH]; intros d d' H; [congruence|reflexivity|]. cbn [map]. cbn [map] in IH. apply (IH d d'). discriminate. Qed.

Lemma in_removelast : forall {A} (l : list A) x, In x (removelast l) -> In x l.
Proof.
  induction l as [|a [|b r] IH]; cbn; intros x H; [contradiction|contradiction|].
  destruct H as [H|H]; [left; exact H|right; apply IH; exact H].
Qed.

Lemma in_last : forall {A} (l : list A) d, l <> [] -> In (last l d) l.
Proof.
  induction l as [|a [|b r] IH]; intros d H; [congruence|left; reflexivity|].
  right. apply IH. discriminate.
Qed.

Lemma prints_tuple_callable : forall b, prints_tuple b = true -> name_eqb b (NT id_Callable) = false.
Proof.
  intros b H. destruct (name_eqb b (NT id_Callable)) eqn:E; [|reflexivity]. apply name_eqb_eq in E. subst b. discriminate.
Qed.

Lemma print_to_expr : forall env c t, wf env t = true ->
  print_ty c t = flat (to_expr c t) /\ wfe (to_expr c t) = true.
Proof.
  intros env c.
  assert (Hm: forall ps,
            (forall p, In p ps -> wf env p = true /\ print_ty c p = flat (to_expr c p) /\ wfe (to_expr c p) = true) ->
            map (print_ty c) ps = map flat (map (to_expr c) ps) /\ forallb wfe (map (to_expr c) ps) = true).
  { intros ps H. split.
    - rewrite map_map. apply map_ext_in. intros x Hx. apply H, Hx.
    - rewrite forallb_forall. intros e He. apply in_map_iff in He. destruct He as (x & <- & Hx). apply H, Hx. }
  apply wf_ind.
  - intros n _. cbn. split; [apply print_name_flat|]. unfold name_expr. destruct (_ =? _)%N; reflexivity.
  - split; reflexivity.
  - split; reflexivity.
  - split; reflexivity.
  - intros v. cbn [print_ty to_expr flat map]. unfold sub. rewrite <- print_lit_flat. split; [reflexivity|]. destruct v; reflexivity.
  - intros b p _ Et _ [E W]. cbn [print_ty to_expr map]. fold (prints_tuple b).
    rewrite Et, (proj1 (tokens_eqb_true _ _) Et), (prints_tuple_id b Et), E.
    split; [reflexivity|]. cbn. rewrite W. reflexivity.
  - intros r _ [E W]. cbn [print_ty to_expr map]. rewrite E. split; [reflexivity|]. cbn. rewrite W. reflexivity.
  - intros b ps _ Hnn Et Ec Hne H. destruct (Hm ps H) as [Hmap Hw].
    cbn [print_ty to_expr]. fold (prints_tuple b). rewrite Et, Ec, (print_name_base b Hnn), Hmap.
    split; [reflexivity|]. cbn [wfe]. destruct ps; [congruence|exact Hw].
  - intros b ps _ Et H. destruct (Hm ps H) as [Hmap Hw].
    cbn [print_ty to_expr]. rewrite (prints_tuple_callable b Et), (proj1 (tokens_eqb_true _ _) Et), (prints_tuple_id b Et), Hmap.
    destruct ps; split; [reflexivity | reflexivity | reflexivity | exact Hw].
  - intros ps Hne H. destruct (Hm ps H) as [Hmap Hw].
    assert (Hnz: map (to_expr c) ps <> []) by (intros E; apply map_eq_nil in E; auto).
    cbn [print_ty to_expr]. rewrite Hmap, removelast_map, (last_map flat _ [] ENone Hnz).
    split; [reflexivity|]. rewrite forallb_forall in Hw.
    cbn [wfe forallb]. rewrite andb_true_r, (Hw _ (in_last _ ENone Hnz)), andb_true_r.
    apply forallb_forall. intros e He. apply Hw, in_removelast, He.
  - intros ts Hne H _. destruct (Hm ts H) as [Hmap Hw].
    cbn [print_ty to_expr]. rewrite Hmap, <- map_form_set_on.
    assert (Hw': forallb wfe (form_set_on c flat (map (to_expr c) ts)) = true).
    { rewrite forallb_forall in *. intros e He. apply Hw. eapply form_set_on_incl. exact He. }
    split; [apply build_union_flat; exact Hw'|].
    apply wfe_union_e; [exact Hw' | |].
    + apply form_set_on_nonempty. intros E. apply map_eq_nil in E. auto.
    + eapply NoDup_map_inv. apply NoDup_form_set_on.
  - intros t a Ha _ [E W]. cbn [print_ty to_expr]. rewrite E. split.
    + unfold sub. cbn [flat map app]. rewrite map_map. reflexivity.
    + cbn [wfe forallb]. rewrite W. clear. induction a; [reflexivity|exact IHa].
Qed.

Lemma is_special_false : forall i, is_special i = false ->
  (i =? id_Any)%N = false /\ (i =? id_Optional)%N = false /\ (i =? id_Union)%N = false /\
  (i =? id_Literal)%N = false /\ (i =? id_nothing)%N = false /\ (i =? id_Annotated)%N = false /\
  (i =? id_Type)%N = false.
Proof.
  intros i H. unfold is_special in H. repeat (apply orb_false_iff in H; destruct H as [H ?]). tauto.
Qed.

Lemma ord_id_facts : forall env i, ord_id env i = true ->
  is_typing i = false /\ is_special i = false /\ is_tvar env i = false.
Proof.
  intros env i H. destruct (andb3 _ _ _ H) as (H1 & H2 & H3). rewrite negb_true_iff in *. tauto.
Qed.

Lemma conv_name_ord : forall env i, ord_id env i = true -> conv_name env i = Some (Named (NP i)).
Proof.
  intros env i H. destruct (ord_id_facts env i H) as (Ht & Hs & Hv).
  destruct (is_special_false i Hs) as (E1 & E2 & E3 & E4 & E5 & E6 & E7).
  unfold conv_name. rewrite E5, E1, E2, E3, E7, Hv, Ht. reflexivity.
Qed.

Lemma conv_name_typing : forall env i, is_typing i = true -> is_special i = false -> is_tvar env i = false ->
  conv_name env i = Some (Named (NT i)).
Proof.
  intros env i Ht Hs Hv. destruct (is_special_false i Hs) as (E1 & E2 & E3 & E4 & E5 & E6 & E7).
  unfold conv_name. rewrite E5, E1, E2, E3, E7, Hv, Ht. reflexivity.
Qed.

Lemma wf_name_conv : forall env n, wf_name env n = true -> (name_id n =? id_NoneType)%N = false ->
  conv_name env (name_id n) = Some (Named (norm_name n)).
Proof.
  intros env n H Hn. destruct n as [i|i|i]; cbn in *.
  - apply conv_name_ord. exact H.
  - destruct (andb3 _ _ _ H) as (Ht & Hs & Hv). rewrite negb_true_iff in *. apply conv_name_typing; assumption.
  - apply conv_name_ord. exact H.
Qed.

Lemma wf_name_none : forall env n, wf_name env n = true -> (name_id n =? id_NoneType)%N = true ->
  norm_name n = NP id_NoneType.
Proof.
  intros env n H Hn. apply N.eqb_eq in Hn. destruct n as [i|i|i]; cbn in *; subst; try reflexivity.
  cbn in H. discriminate.
Qed.

(* the shape of what the printer produces for a type *)
Definition type_like (e : expr) : Prop :=
  match e with EName _ | ENone | ESub _ _ => True | _ => False end.

Lemma coalesce_e_like : forall l, Forall type_like l -> Forall type_like (coalesce_e l).
Proof.
  intros l H. rewrite coalesce_e_eq. apply Forall_app. split.
  - rewrite Forall_forall in *. intros x Hx. apply filter_In in Hx. apply H, Hx.
  - unfold lit_grp. destruct (filter _ l); repeat constructor.
Qed.

Lemma union1_e_like : forall l, Forall type_like l -> l <> [] -> type_like (union1_e l).
Proof.
  intros l H Hl. unfold union1_e. pose proof (coalesce_e_nonempty l Hl) as Hne.
  pose proof (coalesce_e_like l H) as Hc.
  destruct (coalesce_e l) as [|a [|b r]]; [congruence | exact (Forall_inv Hc) | exact I].
Qed.

Lemma union_e_like : forall l, Forall type_like l -> l <> [] -> type_like (union_e l).
Proof.
  intros l H Hl. unfold union_e. pose proof (coalesce_e_nonempty l Hl) as Hne.
  pose proof (coalesce_e_like l H) as Hc.
  destruct (coalesce_e l) as [|a [|b r]]; [congruence | exact (Forall_inv Hc) | destruct (existsb _ _); exact I].
Qed.

Lemma to_expr_like : forall env c t, wf env t = true -> type_like (to_expr c t).
Proof.
  intros env c. apply wf_ind; try (intros; exact I).
  - intros n _. cbn. unfold name_expr. destruct (_ =? _)%N; exact I.
  - intros b p _ Et _ _. cbn [to_expr]. rewrite Et. exact I.
  - intros b ps _ _ Et Ec _ _. cbn [to_expr]. rewrite Et, Ec. exact I.
  - intros b ps _ _ _. cbn [to_expr]. destruct ps; [exact I|]. destruct (name_eqb _ _); exact I.
  - intros ts Hne H _. apply union_e_like.
    + rewrite Forall_forall. intros e He. apply form_set_on_incl in He. apply in_map_iff in He.
      destruct He as (x & <- & Hx). apply H, Hx.
    + apply form_set_on_nonempty. intros E. apply map_eq_nil in E. auto.
Qed.

Lemma mapM_map : forall {A B C} (f : B -> option C) (g : A -> B) (h : A -> C) l,
  (forall x, In x l -> f (g x) = Some (h x)) -> mapM f (map g l) = Some (map h l).
Proof.
  induction l as [|x r IH]; intros H; cbn; [reflexivity|].
  rewrite (H x (or_introl eq_refl)). cbn in IH. rewrite IH; [reflexivity|].
  intros y Hy. apply H. right. exact Hy.
Qed.

Lemma mapM_app : forall {A B} (f : A -> option B) l1 l2 r1 r2,
  mapM f l1 = Some r1 -> mapM f l2 = Some r2 -> mapM f (l1 ++ l2) = Some (r1 ++ r2).
Proof.
  induction l1 as [|x r IH]; intros l2 r1 r2 H1 H2; cbn in *.
  - injection H1 as <-. exact H2.
  - destruct (f x); [|discriminate].
    destruct (mapM f r) eqn:E; [|discriminate]. injection H1 as <-.
    cbn in IH. rewrite (IH l2 l r2 eq_refl H2). reflexivity.
Qed.

Lemma wf_name_special : forall env b, wf_name env b = true -> is_special (name_id b) = false.
Proof.
  intros env b H. destruct b as [i|i|i]; cbn in *.
  - apply ord_id_facts in H. tauto.
  - destruct (andb3 _ _ _ H) as (_ & Hs & _). apply negb_true_iff, Hs.
  - apply ord_id_facts in H. tauto.
Qed.

Lemma is_litsub_to_expr : forall env c t, wf env t = true -> is_union t = false ->
  is_litsub (to_expr c t) = is_lit t.
Proof.
  intros env c.
  apply (wf_ind env (fun t => is_union t = false -> is_litsub (to_expr c t) = is_lit t)); try (intros; reflexivity).
  - intros n _ _. cbn. unfold name_expr. destruct (_ =? _)%N; reflexivity.
  - intros b p _ Et _ _ _. cbn [to_expr]. rewrite Et. cbn. rewrite (prints_tuple_id b Et). reflexivity.
  - intros b ps Hb _ Et Ec _ _ _. cbn [to_expr]. rewrite Et, Ec. apply wf_name_special, is_special_false in Hb. apply Hb.
  - intros b ps _ Et _ _. cbn. rewrite (prints_tuple_id b Et). destruct ps; [|destruct (name_eqb _ _)]; reflexivity.
  - discriminate.
Qed.

(* A union is handled as the list of its members paired with their canonical forms (the `pairs` of
   norm_union).  fe: the printed expression of a member.  lge ls / lgt ls: what the literal members ls
   contribute to the printed items and to the items the reader builds: nothing, or one Literal[...] group
   (lit_group, of the values lit_of) and its join_types. *)
Definition fe (c : ctx) (p : ty * ty) : expr := to_expr c (fst p).
Definition lit_of (t : ty) : expr := match t with Lit v => lit_expr v | _ => ENone end.
Definition lit_group (ls : list (ty * ty)) : expr := ESub id_Literal (map (fun p => lit_of (fst p)) ls).
Definition lge (ls : list (ty * ty)) : list expr := match ls with [] => [] | _ => [lit_group ls] end.
Definition lgt (ls : list (ty * ty)) : list ty := match ls with [] => [] | _ => [join_types (map snd ls)] end.

(* what is known about a member of a union and its canonical form *)
Definition member_ok (env : penv) (c : ctx) (p : ty * ty) : Prop :=
  wf env (fst p) = true /\ is_union (fst p) = false /\ conv env (fe c p) = Some (snd p) /\
  (is_lit (fst p) = true -> exists v, fst p = Lit v /\ snd p = Lit (pv v)).

Lemma conv_lit_arg_expr : forall v, conv_lit_arg (lit_expr v) = Some (Lit (pv v)).
Proof. destruct v; reflexivity. Qed.

Lemma u_key_flat : forall env c p, member_ok env c p -> u_key c p = flat (fe c p).
Proof. intros env c p (Hw & _). unfold u_key, fe. apply (print_to_expr env c _ Hw). Qed.

Lemma wfe_fe : forall env c p, member_ok env c p -> wfe (fe c p) = true.
Proof. intros env c p (Hw & _). unfold fe. apply (print_to_expr env c _ Hw). Qed.

Lemma map_u_key_flat : forall env c X, (forall p, In p X -> member_ok env c p) ->
  map (u_key c) X = map flat (map (fe c) X) /\ forallb wfe (map (fe c) X) = true.
Proof.
  intros env c X H. split.
  - rewrite map_map. apply map_ext_in. intros p Hp. apply (u_key_flat env). apply H. exact Hp.
  - rewrite forallb_forall. intros e He. apply in_map_iff in He. destruct He as (p & <- & Hp).
    apply (wfe_fe env). apply H. exact Hp.
Qed.

Lemma is_litsub_fe : forall env c p, member_ok env c p -> is_litsub (fe c p) = u_lit p.
Proof. intros env c p (Hw & Hu & _). apply (is_litsub_to_expr env c _ Hw Hu). Qed.

Lemma is_enone_fe : forall env c p, member_ok env c p -> is_enone (fe c p) = u_none c p.
Proof. intros env c p H. unfold u_none. rewrite (u_key_flat env c p H). symmetry. apply is_none_flat. Qed.

Lemma flat_map_lit_args : forall c l,
  (forall p, In p l -> lit_args (fe c p) = [lit_of (fst p)]) ->
  flat_map lit_args (map (fe c) l) = map (fun p => lit_of (fst p)) l.
Proof.
  induction l as [|p r IH]; intros Hls; [reflexivity|].
  cbn [map flat_map]. rewrite (Hls p (or_introl eq_refl)). cbn [app]. f_equal.
  apply IH. intros x Hx. apply Hls. right. exact Hx.
Qed.

Lemma coalesce_e_members : forall env c ks,
  (forall p, In p ks -> member_ok env c p) ->
  coalesce_e (map (fe c) ks) =
  map (fe c) (filter (fun p => negb (u_lit p)) ks) ++ lge (filter u_lit ks).
Proof.
  intros env c ks H. rewrite coalesce_e_eq.
  rewrite (filter_map_ext (fe c) _ (fun p => negb (u_lit p)))
    by (intros p Hp; rewrite (is_litsub_fe env c p (H p Hp)); reflexivity).
  rewrite (filter_map_ext (fe c) _ u_lit) by (intros p Hp; apply (is_litsub_fe env c p (H p Hp))).
  f_equal.
  assert (Hls: forall p, In p (filter u_lit ks) -> lit_args (fe c p) = [lit_of (fst p)]).
  { intros p Hp. apply filter_In in Hp. destruct Hp as [Hp Hl]. destruct (H p Hp) as (_ & _ & _ & Hv).
    destruct (Hv Hl) as (v & Ev & _). unfold fe. rewrite Ev. reflexivity. }
  unfold lit_grp, lge, lit_group. rewrite <- (flat_map_lit_args c _ Hls).
  destruct (filter u_lit ks); reflexivity.
Qed.

(* conv on a subscript, unfolded once.  The equations for the single heads are instances of it, taken by
   transitivity: a rewrite would search their right-hand sides for further subscripts. *)
Lemma conv_sub : forall env b args,
  conv env (ESub b args) =
  let convs := mapM (conv env) in
  if (b =? id_Literal)%N then
    match args, mapM conv_lit_arg args with
    | _ :: _, Some ls => Some (join_types ls)
    | _, _ => None
    end
  else if (b =? id_Annotated)%N then
    match args with
    | t :: (_ :: _) as anns =>
        match conv env t, mapM ann_arg anns with
        | Some t', Some a => Some (Annot t' a)
        | _, _ => None
        end
    | _ => None
    end
  else if (b =? id_tuple)%N then
    match args with
    | [ETuple0] => Some (TupleT (NP id_tuple) [])
    | [x; EEllipsis] =>
        match conv env x with Some x' => Some (Generic (NP id_tuple) [x']) | None => None end
    | _ => match convs args with Some ps => Some (TupleT (NP id_tuple) ps) | None => None end
    end
  else if (b =? id_Callable)%N then
    match args with
    | [EEllipsis; r] =>
        match conv env r with Some r' => Some (Generic (NT id_Callable) [AnyT; r']) | None => None end
    | [EList a; r] =>
        match convs a, conv env r with
        | Some a', Some r' =>
            match a' with
            | [] | [NothingT] => Some (CallableT (NT id_Callable) [r'])
            | _ => Some (CallableT (NT id_Callable) (a' ++ [r']))
            end
        | _, _ => None
        end
    | [x; r] =>
        match conv env x, conv env r with
        | Some AnyT, Some r' => Some (Generic (NT id_Callable) [AnyT; r'])
        | _, _ => None
        end
    | _ => None
    end
  else if (b =? id_Any)%N then Some AnyT
  else if (b =? id_Optional)%N then
    match args with
    | [x] => match conv env x with
             | Some x' => Some (mk_union [x'; Named (NP id_NoneType)])
             | None => None
             end
    | _ => None
    end
  else if (b =? id_Union)%N then
    match args, convs args with
    | _ :: _, Some ps => Some (mk_union ps)
    | _, _ => None
    end
  else
    match args, conv_base env b, convs args with
    | _ :: _, Some n, Some ps => Some (Generic n ps)
    | _, _, _ => None
    end.
Proof. intros. cbn [conv]. reflexivity. Qed.

Lemma conv_literal : forall env args,
  conv env (ESub id_Literal args) =
  match args, mapM conv_lit_arg args with
  | _ :: _, Some ls => Some (join_types ls)
  | _, _ => None
  end.
Proof. intros. etransitivity; [apply conv_sub|reflexivity]. Qed.

Lemma conv_union_sub : forall env args,
  conv env (ESub id_Union args) =
  match args, mapM (conv env) args with
  | _ :: _, Some ps => Some (mk_union ps)
  | _, _ => None
  end.
Proof. intros. etransitivity; [apply conv_sub|reflexivity]. Qed.

Lemma conv_optional_sub : forall env x,
  conv env (ESub id_Optional [x]) =
  match conv env x with
  | Some x' => Some (mk_union [x'; Named (NP id_NoneType)])
  | None => None
  end.
Proof. intros. etransitivity; [apply conv_sub|reflexivity]. Qed.

Lemma conv_lit_group : forall env c ls,
  (forall p, In p ls -> member_ok env c p /\ u_lit p = true) -> ls <> [] ->
  conv env (lit_group ls) = Some (join_types (map snd ls)).
Proof.
  intros env c ls H Hne. unfold lit_group. rewrite conv_literal.
  assert (E: mapM conv_lit_arg (map (fun p => lit_of (fst p)) ls) = Some (map snd ls)).
  { apply mapM_map. intros p Hp. destruct (H p Hp) as [(_ & _ & _ & Hv) Hl].
    destruct (Hv Hl) as (v & Ev & En). rewrite Ev, En. cbn. apply conv_lit_arg_expr. }
  destruct ls as [|q qs]; [congruence|].
  cbn [map] in *. rewrite E. reflexivity.
Qed.

Lemma conv_items : forall env c X ls,
  (forall p, In p X -> member_ok env c p) ->
  (forall p, In p ls -> member_ok env c p /\ u_lit p = true) ->
  mapM (conv env) (map (fe c) X ++ lge ls) = Some (map snd X ++ lgt ls).
Proof.
  intros env c X ls HX Hls. apply mapM_app.
  - apply mapM_map. intros p Hp. apply (HX p Hp).
  - destruct ls as [|q qs]; [reflexivity|]. unfold lge, lgt. cbn [mapM].
    rewrite (conv_lit_group env c (q :: qs) Hls ltac:(discriminate)). reflexivity.
Qed.

Lemma coalesce_e_again : forall env c X ls,
  (forall p, In p X -> member_ok env c p /\ u_lit p = false) ->
  coalesce_e (map (fe c) X ++ lge ls) = map (fe c) X ++ lge ls.
Proof.
  intros env c X ls HX.
  assert (HXl: forall e, In e (map (fe c) X) -> is_litsub e = false).
  { intros e He. apply in_map_iff in He. destruct He as (p & <- & Hp). destruct (HX p Hp) as [Hm Hl].
    rewrite (is_litsub_fe env c p Hm). exact Hl. }
  rewrite coalesce_e_eq, !filter_app, (filter_none _ _ HXl).
  rewrite (filter_all _ (map (fe c) X)) by (intros e He; rewrite (HXl e He); reflexivity).
  destruct ls as [|q qs]; cbn [lge]; [cbn; rewrite !app_nil_r; reflexivity|].
  cbn [filter lit_group is_litsub lit_grp]. rewrite N.eqb_refl. cbn [negb app lit_grp].
  rewrite app_nil_r. unfold lit_group. cbn [flat_map lit_args]. rewrite N.eqb_refl, app_nil_r. reflexivity.
Qed.

Lemma mapM_length : forall {A B} (f : A -> option B) l r, mapM f l = Some r -> length l = length r.
Proof.
  induction l as [|x l IH]; intros r H; cbn in H.
  - injection H as <-. reflexivity.
  - destruct (f x); [|discriminate]. destruct (mapM f l) eqn:E; [|discriminate].
    injection H as <-. cbn. f_equal. apply IH. reflexivity.
Qed.

Lemma existsb_enone_items : forall env c nl ls,
  (forall p, In p nl -> member_ok env c p) ->
  existsb is_enone (map (fe c) nl ++ lge ls) = existsb (u_none c) nl.
Proof.
  intros env c nl ls H. rewrite existsb_app, (existsb_map_ext (fe c) _ (u_none c)) by (intros p Hp; apply (is_enone_fe env c p (H p Hp))).
  destruct ls; apply orb_false_r.
Qed.

Lemma filter_enone_items : forall env c nl ls,
  (forall p, In p nl -> member_ok env c p) ->
  filter (fun e => negb (is_enone e)) (map (fe c) nl ++ lge ls) =
  map (fe c) (filter (fun p => negb (u_none c p)) nl) ++ lge ls.
Proof.
  intros env c nl ls H. rewrite filter_app, (filter_map_ext (fe c) _ (fun p => negb (u_none c p)))
    by (intros p Hp; rewrite (is_enone_fe env c p (H p Hp)); reflexivity).
  destruct ls; reflexivity.
Qed.

(* the Union case of conv_to_expr, on the printed members split into the non-literal ones nl and the literals ls;
   the right-hand side is the body of norm_union *)
Lemma conv_union_core : forall env c nl ls,
  (forall p, In p nl -> member_ok env c p /\ u_lit p = false) ->
  (forall p, In p ls -> member_ok env c p /\ u_lit p = true) ->
  nl ++ ls <> [] -> NoDup (map (fe c) nl ++ lge ls) ->
  conv env (union_items (map (fe c) nl ++ lge ls)) =
  Some (match map snd nl ++ lgt ls with
        | [] => Union []
        | [x] => x
        | _ => if existsb (u_none c) nl
               then mk_union [match map snd (filter (fun p => negb (u_none c p)) nl) ++ lgt ls with
                              | [x] => x | l => mk_union l end; Named (NP id_NoneType)]
               else mk_union (map snd nl ++ lgt ls)
        end).
Proof.
  intros env c nl ls Hnl Hls Hne Hnd.
  assert (Hnl1: forall p, In p nl -> member_ok env c p) by (intros p Hp; apply (Hnl p Hp)).
  pose proof (conv_items env c nl ls Hnl1 Hls) as HM.
  pose proof (existsb_enone_items env c nl ls Hnl1) as HE.
  pose proof (filter_enone_items env c nl ls Hnl1) as HF.
  set (nl' := filter (fun p => negb (u_none c p)) nl) in *.
  assert (Hnl': forall p, In p nl' -> member_ok env c p /\ u_lit p = false).
  { intros p Hp. apply filter_In in Hp. apply Hnl. apply Hp. }
  assert (Hnl'1: forall p, In p nl' -> member_ok env c p) by (intros p Hp; apply (Hnl' p Hp)).
  pose proof (conv_items env c nl' ls Hnl'1 Hls) as HM'.
  pose proof (coalesce_e_again env c nl' ls Hnl') as HC.
  assert (Hlen: length (map (fe c) nl ++ lge ls) = length (map snd nl ++ lgt ls)) by (apply (mapM_length _ _ _ HM)).
  assert (Hlen': length (map (fe c) nl' ++ lge ls) = length (map snd nl' ++ lgt ls)) by (apply (mapM_length _ _ _ HM')).
  assert (Hnz: map (fe c) nl ++ lge ls <> []).
  { destruct nl; [destruct ls; [cbn in Hne; congruence|discriminate]|discriminate]. }
  destruct (map (fe c) nl ++ lge ls) as [|a [|b r]] eqn:EI; [congruence| |].
  - destruct (map snd nl ++ lgt ls) as [|a' [|b' r']]; cbn in Hlen; try lia.
    cbn [union_items]. cbn in HM. destruct (conv env a); [|discriminate]. injection HM as <-. reflexivity.
  - destruct (map snd nl ++ lgt ls) as [|a' [|b' r']] eqn:ET; cbn in Hlen; try lia.
    unfold union_items, opt_or_union. rewrite HE. destruct (existsb (u_none c) nl) eqn:EN.
    + rewrite HF. unfold union1_e. rewrite HC.
      assert (Hnz': map (fe c) nl' ++ lge ls <> []).
      { rewrite <- HF. apply filter_enone_nonempty; [exact Hnd | cbn; lia]. }
      rewrite conv_optional_sub.
      destruct (map (fe c) nl' ++ lge ls) as [|x [|y s]] eqn:EI'; [congruence| |].
      * destruct (map snd nl' ++ lgt ls) as [|x' [|y' s']]; cbn in Hlen'; try lia.
        cbn in HM'. destruct (conv env x); [|discriminate]. injection HM' as <-. reflexivity.
      * destruct (map snd nl' ++ lgt ls) as [|x' [|y' s']] eqn:ET'; cbn in Hlen'; try lia.
        rewrite conv_union_sub. rewrite HM'. reflexivity.
    + rewrite conv_union_sub. rewrite HM. reflexivity.
Qed.

(* the seven tests of conv_sub fail together; rewriting them one by one re-types its right-hand side each time *)
Lemma if_false7 : forall {A} (b1 b2 b3 b4 b5 b6 b7 : bool) (x1 x2 x3 x4 x5 x6 x7 z : A),
  b1 = false -> b2 = false -> b3 = false -> b4 = false -> b5 = false -> b6 = false -> b7 = false ->
  (if b1 then x1 else if b2 then x2 else if b3 then x3 else if b4 then x4 else if b5 then x5
   else if b6 then x6 else if b7 then x7 else z) = z.
Proof. intros; subst; reflexivity. Qed.

Lemma conv_generic_sub : forall env i args,
  (i =? id_Literal)%N = false -> (i =? id_Annotated)%N = false -> (i =? id_tuple)%N = false ->
  (i =? id_Callable)%N = false -> (i =? id_Any)%N = false -> (i =? id_Optional)%N = false ->
  (i =? id_Union)%N = false ->
  conv env (ESub i args) =
  match args, conv_base env i, mapM (conv env) args with
  | _ :: _, Some n, Some ps => Some (Generic n ps)
  | _, _, _ => None
  end.
Proof.
  intros env i args H1 H2 H3 H4 H5 H6 H7. etransitivity; [apply conv_sub|].
  apply if_false7; assumption.
Qed.

Lemma conv_tuple_sub : forall env args,
  conv env (ESub id_tuple args) =
  match args with
  | [ETuple0] => Some (TupleT (NP id_tuple) [])
  | [x; EEllipsis] =>
      match conv env x with Some x' => Some (Generic (NP id_tuple) [x']) | None => None end
  | _ => match mapM (conv env) args with Some ps => Some (TupleT (NP id_tuple) ps) | None => None end
  end.
Proof. intros. etransitivity; [apply conv_sub|reflexivity]. Qed.

Lemma conv_tuple_hom : forall env x,
  conv env (ESub id_tuple [x; EEllipsis]) =
  match conv env x with Some x' => Some (Generic (NP id_tuple) [x']) | None => None end.
Proof. intros env x. rewrite conv_tuple_sub. destruct x; reflexivity. Qed.

(* among printed types there is neither `()` nor `...`, so tuple[...] is read as a heterogeneous tuple *)
Lemma conv_tuple_like : forall env args, Forall type_like args ->
  conv env (ESub id_tuple args) =
  match mapM (conv env) args with Some ps => Some (TupleT (NP id_tuple) ps) | None => None end.
Proof.
  intros env args H. rewrite conv_tuple_sub.
  generalize (match mapM (conv env) args with Some ps => Some (TupleT (NP id_tuple) ps) | None => None end).
  intros C. destruct H as [|a r Ha [|b r' Hb Hr]]; [reflexivity | destruct a; try contradiction; reflexivity |].
  destruct a; try contradiction; destruct b; try contradiction; reflexivity.
Qed.

Lemma conv_callable_list : forall env a r,
  conv env (ESub id_Callable [EList a; r]) =
  match mapM (conv env) a, conv env r with
  | Some a', Some r' =>
      match a' with
      | [] | [NothingT] => Some (CallableT (NT id_Callable) [r'])
      | _ => Some (CallableT (NT id_Callable) (a' ++ [r']))
      end
  | _, _ => None
  end.
Proof. intros. etransitivity; [apply conv_sub|reflexivity]. Qed.

Lemma conv_callable_ell : forall env r,
  conv env (ESub id_Callable [EEllipsis; r]) =
  match conv env r with Some r' => Some (Generic (NT id_Callable) [AnyT; r']) | None => None end.
Proof. intros. etransitivity; [apply conv_sub|reflexivity]. Qed.

Lemma conv_annot_sub : forall env t a0 a,
  conv env (ESub id_Annotated (t :: a0 :: a)) =
  match conv env t, mapM ann_arg (a0 :: a) with
  | Some t', Some x => Some (Annot t' x)
  | _, _ => None
  end.
Proof. intros. etransitivity; [apply conv_sub|reflexivity]. Qed.

Lemma pairs_member_ok : forall env c ts,
  (forall t, In t ts -> wf env t = true /\ conv env (to_expr c t) = Some (norm c t)) ->
  (forall t, In t ts -> is_union t = false) ->
  forall p, In p (map (fun t => (t, norm c t)) ts) -> member_ok env c p.
Proof.
  intros env c ts Hts Hnu p Hp. apply in_map_iff in Hp. destruct Hp as (t & <- & Ht).
  unfold member_ok, fe. cbn [fst snd].
  repeat split; [apply Hts, Ht | apply Hnu, Ht | apply Hts, Ht |].
  intros Hl. destruct t; try discriminate. exists v. split; reflexivity.
Qed.

Lemma conv_to_expr : forall env c t, wf env t = true -> conv env (to_expr c t) = Some (norm c t).
Proof.
  intros env c.
  assert (Hm: forall ps, (forall p, In p ps -> wf env p = true /\ conv env (to_expr c p) = Some (norm c p)) ->
            mapM (conv env) (map (to_expr c) ps) = Some (map (norm c) ps)).
  { intros ps H. apply mapM_map. intros p Hp. apply H, Hp. }
  apply wf_ind.
  - intros n Hn. cbn [to_expr norm]. unfold name_expr.
    destruct (name_id n =? id_NoneType)%N eqn:En.
    + cbn. rewrite (wf_name_none env n Hn En). reflexivity.
    + apply wf_name_conv; assumption.
  - reflexivity.
  - reflexivity.
  - intros i Hv Hs. destruct (is_special_false i Hs) as (E1 & E2 & E3 & E4 & E5 & E6 & E7).
    cbn [to_expr conv norm]. unfold conv_name. rewrite E5, E1, E2, E3, E7, Hv. reflexivity.
  - intros v. cbn [to_expr norm]. rewrite conv_literal. cbn [mapM]. rewrite conv_lit_arg_expr. reflexivity.
  - intros b p _ Et _ IH. cbn [to_expr norm map app]. fold (prints_tuple b).
    rewrite Et, (prints_tuple_id b Et), conv_tuple_hom, IH. reflexivity.
  - intros r _ IH.
    change (conv env (ESub id_Callable [EEllipsis; to_expr c r]) = Some (Generic (NT id_Callable) [AnyT; norm c r])).
    rewrite conv_callable_ell, IH. reflexivity.
  - intros b ps Hb Hnn Et Ec Hne H. cbn [to_expr norm]. fold (prints_tuple b). rewrite Et, Ec.
    pose proof (is_special_false _ (wf_name_special env b Hb)) as (E1 & E2 & E3 & E4 & E5 & E6 & E7).
    assert (Etu: (name_id b =? id_tuple)%N = false).
    { destruct (name_id b =? id_tuple)%N eqn:E; [|reflexivity]. apply N.eqb_eq in E.
      unfold prints_tuple, print_name in Et. rewrite Hnn, E, tokens_eqb_refl in Et. discriminate. }
    assert (Eca: (name_id b =? id_Callable)%N = false).
    { destruct (name_id b =? id_Callable)%N eqn:E; [|reflexivity]. apply N.eqb_eq in E.
      destruct b as [i|i|i]; cbn in E; subst i; discriminate. }
    rewrite (conv_generic_sub env _ _ E4 E6 Etu Eca E1 E2 E3).
    unfold conv_base. rewrite (wf_name_conv env b Hb Hnn). pose proof (Hm ps H) as HM.
    destruct ps; [congruence|]. cbn [map] in *. rewrite HM. reflexivity.
  - intros b ps _ Et H. cbn [to_expr norm]. rewrite (prints_tuple_callable b Et), (prints_tuple_id b Et).
    destruct ps as [|p0 ps0]; [reflexivity|].
    rewrite conv_tuple_like, (Hm _ H); [reflexivity|].
    apply Forall_map, Forall_forall. intros p Hp. apply (to_expr_like env), H, Hp.
  - intros ps Hnz H. cbn [to_expr norm name_id]. rewrite conv_callable_list.
    rewrite removelast_map, (last_map (to_expr c) ps ENone AnyT Hnz).
    rewrite Hm by (intros x Hx; apply H, in_removelast, Hx).
    rewrite (proj2 (H _ (in_last ps AnyT Hnz))).
    rewrite <- (removelast_map (norm c)), <- (last_map (norm c) ps AnyT AnyT Hnz).
    assert (Hnz': map (norm c) ps <> []) by (intros E; apply map_eq_nil in E; auto).
    pose proof (app_removelast_last AnyT Hnz') as Hall.
    set (r' := last (map (norm c) ps) AnyT) in *.
    destruct (removelast (map (norm c) ps)) as [|a0 [|a1 ar]]; [| destruct a0 |]; rewrite ?Hall; try reflexivity.
    destruct a0; reflexivity.
  - intros ts Hne H Hnu. cbn [to_expr norm].
    set (pairs := map (fun t => (t, norm c t)) ts).
    pose proof (pairs_member_ok env c ts H Hnu) as Hpairs. fold pairs in Hpairs.
    assert (Ees: map (to_expr c) ts = map (fe c) pairs).
    { unfold pairs. rewrite map_map. reflexivity. }
    rewrite Ees, (form_set_on_map c (fe c) flat (u_key c) pairs)
      by (intros p Hp; symmetry; apply (u_key_flat env c p (Hpairs p Hp))).
    fold (u_ks c pairs).
    assert (Hks: forall p, In p (u_ks c pairs) -> member_ok env c p).
    { intros p Hp. apply Hpairs. eapply form_set_on_incl. exact Hp. }
    rewrite union_e_eq, (coalesce_e_members env c _ Hks).
    fold (u_nl c pairs). fold (u_ls c pairs).
    unfold norm_union.
    change (match u_ls c pairs with [] => [] | _ :: _ => [join_types (map snd (u_ls c pairs))] end) with (lgt (u_ls c pairs)).
    apply conv_union_core.
    + intros p Hp. unfold u_nl in Hp. apply filter_In in Hp. destruct Hp as [Hp Hl]. apply negb_true_iff in Hl.
      split; [apply Hks; exact Hp | exact Hl].
    + intros p Hp. unfold u_ls in Hp. apply filter_In in Hp. destruct Hp as [Hp Hl].
      split; [apply Hks; exact Hp | exact Hl].
    + assert (Hk: u_ks c pairs <> []).
      { apply form_set_on_nonempty. unfold pairs. intros E. apply map_eq_nil in E. auto. }
      unfold u_nl, u_ls. destruct (u_ks c pairs) as [|k0 kr]; [congruence|]. cbn [filter].
      destruct (u_lit k0); cbn; [|discriminate]. intro E. apply app_eq_nil in E. destruct E; discriminate.
    + unfold u_nl, u_ls. rewrite <- (coalesce_e_members env c _ Hks). apply NoDup_coalesce_e.
      eapply NoDup_map_inv. rewrite <- (proj1 (map_u_key_flat env c _ Hks)). apply NoDup_form_set_on.
  - intros t a Ha _ IH. cbn [to_expr norm]. destruct a as [|a0 ar]; [congruence|]. cbn [map].
    rewrite conv_annot_sub, IH.
    change (EStr a0 :: map EStr ar) with (map EStr (a0 :: ar)).
    rewrite (mapM_map ann_arg EStr (fun x => x)) by reflexivity. rewrite map_id. reflexivity.
Qed.

Theorem parse_print_lemma : forall env c t, wf env t = true ->
  parse_ty env (print_ty c t) = Some (norm c t).
Proof.
  intros env c t H. destruct (print_to_expr env c t H) as [E W].
  unfold parse_ty. rewrite E. rewrite (parse_flat _ W). apply conv_to_expr. exact H.
Qed.

Lemma dedup_nodup : forall {A} (eqb : A -> A -> bool) l, nodup_by eqb l = true -> dedup eqb l = l.
Proof.
  induction l as [|x r IH]; intros H; [reflexivity|]. cbn in *. apply andb_true_iff in H. destruct H as [Hx Hr].
  rewrite (IH Hr). f_equal. apply negb_true_iff in Hx.
  clear -Hx. induction r as [|y s IHs]; [reflexivity|]. cbn in *. apply orb_false_iff in Hx. destruct Hx as [H1 H2].
  rewrite H1. cbn. f_equal. apply IHs. exact H2.
Qed.

Lemma nodup_by_app : forall {A} (eqb : A -> A -> bool) a b,
  nodup_by eqb (a ++ b) = true -> nodup_by eqb a = true /\ nodup_by eqb b = true.
Proof.
  induction a as [|x r IH]; intros b H; [split; [reflexivity|exact H]|].
  cbn in *. apply andb_true_iff in H. destruct H as [Hx Hr]. destruct (IH b Hr) as [I1 I2].
  split; [|exact I2]. rewrite I1, andb_true_r. rewrite existsb_app in Hx. apply negb_true_iff in Hx.
  apply orb_false_iff in Hx. apply negb_true_iff. apply Hx.
Qed.

Lemma flatten_nonunion : forall l, (forall t, In t l -> is_union t = false) -> flatten l = l.
Proof.
  induction l as [|t r IH]; intros H; [reflexivity|]. unfold flatten in *. cbn [flat_map].
  rewrite IH by (intros x Hx; apply H; right; exact Hx).
  specialize (H t (or_introl eq_refl)). destruct t; try reflexivity. discriminate.
Qed.

Lemma flatten_app : forall a b, flatten (a ++ b) = flatten a ++ flatten b.
Proof. intros. unfold flatten. apply flat_map_app. Qed.

Lemma is_lit_not_union : forall t, is_lit t = true -> is_union t = false.
Proof. destruct t; cbn; congruence. Qed.

Lemma join_types_lits : forall l, (forall t, In t l -> is_lit t = true) -> nodup_by ty_eqb l = true -> l <> [] ->
  flatten [join_types l] = l /\ join_types l = match l with [x] => x | _ => Union l end.
Proof.
  intros l Hl Hn Hne.
  assert (Hf: flatten l = l) by (apply flatten_nonunion; intros t Ht; apply is_lit_not_union, Hl, Ht).
  assert (Hnn: filter (fun t => negb (is_nothing t)) l = l).
  { apply filter_all. intros t Ht. specialize (Hl t Ht). destruct t; try discriminate. reflexivity. }
  assert (Hna: existsb is_any l = false).
  { destruct (existsb is_any l) eqn:E; [|reflexivity]. apply existsb_exists in E. destruct E as (t & Ht & Ea).
    specialize (Hl t Ht). destruct t; discriminate. }
  unfold join_types. rewrite Hf, Hnn, (dedup_nodup _ _ Hn).
  destruct l as [|a [|b r]]; [congruence| |].
  - split; [|reflexivity]. apply flatten_nonunion. intros t [<-|[]]. apply is_lit_not_union, Hl. left. reflexivity.
  - rewrite Hna. unfold mk_union. rewrite Hf, (dedup_nodup _ _ Hn). split; [|reflexivity].
    unfold flatten. cbn. rewrite app_nil_r. reflexivity.
Qed.

(* what is known about a member and its canonical form when printing the canonical form *)
Definition member_ok2 (env : penv) (c : ctx) (p : ty * ty) : Prop :=
  member_ok env c p /\ print_ty c (snd p) = u_key c p /\ is_union (snd p) = false.

Lemma norm_union_single : forall c pairs p,
  u_nl c pairs ++ u_ls c pairs = [p] -> (is_lit (fst p) = true -> is_lit (snd p) = true) ->
  norm_union c pairs = snd p.
Proof.
  intros c pairs p H Hl. unfold norm_union.
  destruct (u_nl c pairs) as [|a [|b r]]; cbn in H.
  - rewrite H. cbn. assert (Hp: In p (u_ls c pairs)) by (rewrite H; left; reflexivity).
    unfold u_ls in Hp. apply filter_In in Hp. destruct Hp as [_ Hp]. unfold u_lit in Hp. specialize (Hl Hp).
    destruct (snd p); try discriminate. reflexivity.
  - injection H as -> H. rewrite H. reflexivity.
  - destruct r; discriminate.
Qed.

Lemma flatten_pair : forall a b, flatten [a; b] = flatten [a] ++ flatten [b].
Proof. intros. apply (flatten_app [a] [b]). Qed.

Lemma mk_union_inner : forall T' X N,
  flatten T' = X -> is_union N = false -> nodup_by ty_eqb (X ++ [N]) = true ->
  mk_union [match T' with [] => mk_union [] | [x] => x | x :: y :: r => mk_union (x :: y :: r) end; N] = Union (X ++ [N]).
Proof.
  intros T' X N HX HN Hn. destruct (nodup_by_app _ _ _ Hn) as [HnX _].
  assert (EN: flatten [N] = [N]) by (apply flatten_nonunion; intros t [<-|[]]; exact HN).
  unfold mk_union at 1. rewrite flatten_pair, EN.
  destruct T' as [|a [|b r]].
  - cbn in HX. subst X. reflexivity.
  - rewrite HX. rewrite (dedup_nodup _ _ Hn). reflexivity.
  - unfold mk_union. rewrite HX, (dedup_nodup _ _ HnX).
    assert (E: flatten [Union X] = X) by (unfold flatten; cbn; apply app_nil_r).
    rewrite E, (dedup_nodup _ _ Hn). reflexivity.
Qed.

Lemma items_shape : forall nl ls : list (ty * ty), 2 <= length (nl ++ ls) ->
  2 <= length (map snd nl ++ lgt ls) \/ nl = [] /\ 2 <= length ls.
Proof.
  intros nl ls H. rewrite app_length in H. destruct nl as [|p [|p2 pr]], ls as [|q [|q2 qs]]; cbn in *; auto; lia.
Qed.

Lemma norm_union_multi : forall env c pairs,
  (forall p, In p (u_ks c pairs) -> member_ok2 env c p) ->
  2 <= length (u_nl c pairs ++ u_ls c pairs) ->
  nodup_by ty_eqb (union_F c pairs) = true ->
  norm_union c pairs = Union (union_F c pairs).
Proof.
  intros env c pairs Hks Hlen Hnd. unfold norm_union, union_F in *.
  change (match u_ls c pairs with [] => [] | _ => [join_types (map snd (u_ls c pairs))] end) with (lgt (u_ls c pairs)).
  assert (Inl: incl (u_nl c pairs) (u_ks c pairs)) by apply incl_filter.
  assert (Inl': incl (u_nl' c pairs) (u_ks c pairs)) by (eapply incl_tran; [apply incl_filter|exact Inl]).
  unfold u_nl' in *. set (nl := u_nl c pairs) in *. set (ls := u_ls c pairs) in *.
  assert (Hls: forall t, In t (map snd ls) -> is_lit t = true).
  { intros t Ht. apply in_map_iff in Ht. destruct Ht as (p & <- & Hp). apply filter_In in Hp. destruct Hp as [Hp Hl].
    destruct (Hks p Hp) as ((_ & _ & _ & Hv) & _). destruct (Hv Hl) as (v & _ & ->). reflexivity. }
  destruct (nodup_by_app _ _ _ Hnd) as [_ Hnd2]. destruct (nodup_by_app _ _ _ Hnd2) as [Hndl _].
  (* flattening the items gives back the members: no member is a union, the literal group is one of literals *)
  assert (Hfl: forall X, incl X (u_ks c pairs) -> flatten (map snd X ++ lgt ls) = map snd X ++ map snd ls).
  { intros X HX. rewrite flatten_app. f_equal.
    - apply flatten_nonunion. intros t Ht. apply in_map_iff in Ht. destruct Ht as (p & <- & Hp). apply (Hks p (HX p Hp)).
    - unfold lgt. destruct ls as [|q qs] eqn:El; [reflexivity|].
      rewrite <- El in *. apply join_types_lits; [exact Hls | exact Hndl |]. rewrite El. discriminate. }
  (* either two items, or one item that is the group of two literals *)
  destruct (items_shape nl ls Hlen) as [H2|[Enl H2]].
  - destruct (map snd nl ++ lgt ls) as [|a [|b r]] eqn:ET; cbn in H2; try lia. rewrite <- ET.
    destruct (existsb (u_none c) nl) eqn:EN.
    + rewrite (mk_union_inner _ (map snd (filter (fun p => negb (u_none c p)) nl) ++ map snd ls) (Named (NP id_NoneType)) (Hfl _ Inl') eq_refl);
        rewrite <- app_assoc; [reflexivity|exact Hnd].
    + rewrite (filter_negb_existsb _ _ EN), app_nil_r in *.
      unfold mk_union. rewrite (Hfl nl Inl), (dedup_nodup _ _ Hnd). reflexivity.
  - rewrite Enl. cbn [map app existsb filter]. rewrite app_nil_r.
    destruct (join_types_lits (map snd ls) Hls Hndl) as [_ HJ]; [destruct ls; [cbn in H2; lia|discriminate]|].
    unfold lgt. destruct ls as [|q [|q2 qs]]; cbn in H2; try lia. exact HJ.
Qed.

(* the compat rule for p does not fire on L; then _FormSetTypeList leaves a duplicate-free L as it is
   (form_set_fix), and what it returns is such a list (form_set_pair_free) *)
Definition pair_free (L : list (list token)) (p : N * N) : Prop :=
  mem_s [TName (fst p)] L && mem_s [TName (snd p)] L = false.

Lemma mem_s_In : forall s L, mem_s s L = true <-> In s L.
Proof.
  intros. unfold mem_s. rewrite existsb_exists. split.
  - intros (x & Hx & E). apply tokens_eqb_true in E. subst. exact Hx.
  - intros H. exists s. split; [exact H|apply tokens_eqb_refl].
Qed.

Lemma compat_step_sub : forall L q s, In s (compat_step L q) -> In s L.
Proof.
  intros L q s H. rewrite <- (map_id L), <- map_compat_step_on, map_id in H. exact (compat_step_on_incl _ _ _ _ H).
Qed.

Lemma fold_compat_sub : forall items L s, In s (fold_left compat_step items L) -> In s L.
Proof.
  intros items L. apply (fold_left_ind (fun a => forall s, In s a -> In s L)); [auto|].
  intros a q _ Ha s Hs. exact (Ha s (compat_step_sub a q s Hs)).
Qed.

Lemma pair_free_sub : forall L L' p, (forall s, In s L' -> In s L) -> pair_free L p -> pair_free L' p.
Proof.
  intros L L' p Hsub H. unfold pair_free in *.
  destruct (mem_s [TName (fst p)] L') eqn:E1; [|reflexivity].
  destruct (mem_s [TName (snd p)] L') eqn:E2; [|reflexivity].
  apply mem_s_In in E1. apply mem_s_In in E2. apply Hsub in E1. apply Hsub in E2.
  apply mem_s_In in E1. apply mem_s_In in E2. rewrite E1, E2 in H. discriminate.
Qed.

Lemma compat_step_establish : forall L q, pair_free (compat_step L q) q.
Proof.
  intros L q. unfold compat_step, pair_free.
  destruct (mem_s [TName (fst q)] L && mem_s [TName (snd q)] L) eqn:E; [|exact E].
  assert (Hf: mem_s [TName (fst q)] (filter (fun s => negb (tokens_eqb s [TName (fst q)])) L) = false).
  { destruct (mem_s [TName (fst q)] (filter (fun s => negb (tokens_eqb s [TName (fst q)])) L)) eqn:E1; [|reflexivity].
    apply mem_s_In in E1. apply filter_In in E1.
    destruct E1 as [_ E1]. rewrite tokens_eqb_refl in E1. discriminate. }
  rewrite Hf. reflexivity.
Qed.

Lemma fold_compat_establish : forall items L p, In p items -> pair_free (fold_left compat_step items L) p.
Proof.
  induction items as [|q r IH]; intros L p Hp; [contradiction|]. cbn.
  destruct Hp as [->|Hp]; [|apply IH; exact Hp].
  eapply pair_free_sub; [|apply compat_step_establish]. intros s Hs. eapply fold_compat_sub. exact Hs.
Qed.

Lemma fold_compat_free : forall items L, (forall p, In p items -> pair_free L p) -> fold_left compat_step items L = L.
Proof.
  induction items as [|q r IH]; intros L H; [reflexivity|]. cbn.
  assert (E: compat_step L q = L).
  { unfold compat_step. specialize (H q (or_introl eq_refl)). unfold pair_free in H. rewrite H. reflexivity. }
  rewrite E. apply IH. intros p Hp. apply H. right. exact Hp.
Qed.

Lemma dedup_NoDup_tok : forall l, NoDup l -> dedup tokens_eqb l = l.
Proof.
  intros l H. apply dedup_nodup. induction H as [|x r Hx Hr IH]; [reflexivity|]. cbn. rewrite IH, andb_true_r.
  apply negb_true_iff. destruct (existsb (tokens_eqb x) r) eqn:E; [|reflexivity].
  apply existsb_exists in E. destruct E as (y & Hy & Ey). apply tokens_eqb_true in Ey. subst y. contradiction.
Qed.

Lemma form_set_fix : forall c L',
  NoDup L' -> (in_param c = true -> forall p, In p compat_items -> pair_free L' p) -> form_set c L' = L'.
Proof.
  intros c L' Hn Hp. unfold form_set. rewrite (dedup_NoDup_tok _ Hn).
  destruct (in_param c); [|reflexivity]. apply fold_compat_free. apply Hp. reflexivity.
Qed.

Lemma form_set_pair_free : forall c L, in_param c = true -> forall p, In p compat_items -> pair_free (form_set c L) p.
Proof.
  intros c L Hc p Hp. unfold form_set. rewrite Hc. apply fold_compat_establish. exact Hp.
Qed.

Lemma filter_partition_length : forall {A} (P : A -> bool) l,
  length (filter (fun x => negb (P x)) l ++ filter P l) = length l.
Proof.
  intros A P l. rewrite app_length. induction l as [|x r IH]; [reflexivity|]. cbn.
  destruct (P x); cbn; lia.
Qed.

Lemma print_union_F : forall env c pairs,
  (forall p, In p (u_ks c pairs) -> member_ok2 env c p) ->
  print_ty c (Union (union_F c pairs)) = build_union (map (u_key c) (u_ks c pairs)).
Proof.
  intros env c pairs Hks.
  assert (Hks1: forall p, In p (u_ks c pairs) -> member_ok env c p) by (intros p Hp; apply (Hks p Hp)).
  assert (Hnl: forall p, In p (u_nl c pairs) -> In p (u_ks c pairs)) by apply incl_filter.
  assert (Hpr: forall p, In p (u_ks c pairs) -> print_ty c (snd p) = flat (fe c p)).
  { intros p Hp. destruct (Hks p Hp) as (Hm & -> & _). apply (u_key_flat env c p Hm). }
  destruct (map_u_key_flat env c _ Hks1) as [EK WK]. set (E := map (fe c) (u_ks c pairs)) in *.
  assert (HndE: NoDup E).
  { eapply NoDup_map_inv. rewrite <- EK. apply NoDup_form_set_on. }
  (* the members of union_F print as the expressions of E, in the order of the reader *)
  assert (E1: map (print_ty c) (union_F c pairs) = map flat (reread_order E)).
  { unfold union_F, reread_order, E.
    rewrite (filter_map_ext (fe c) _ (fun p => negb (u_lit p)))
      by (intros p Hp; rewrite (is_litsub_fe env c p (Hks1 p Hp)); reflexivity).
    fold (u_nl c pairs).
    rewrite (filter_map_ext (fe c) _ (fun p => negb (u_none c p)))
      by (intros p Hp; rewrite (is_enone_fe env c p (Hks1 p (Hnl p Hp))); reflexivity).
    fold (u_nl' c pairs).
    rewrite (filter_map_ext (fe c) _ u_lit) by (intros p Hp; apply (is_litsub_fe env c p (Hks1 p Hp))).
    fold (u_ls c pairs).
    rewrite (existsb_map_ext (fe c) _ (u_none c)) by (intros p Hp; apply (is_enone_fe env c p (Hks1 p (Hnl p Hp)))).
    rewrite !map_app, !map_map. f_equal; [|f_equal].
    - apply map_ext_in. intros p Hp. apply Hpr, Hnl. revert Hp. apply incl_filter.
    - apply map_ext_in. intros p Hp. apply Hpr. revert Hp. apply incl_filter.
    - destruct (existsb _ _); reflexivity. }
  assert (Hw: forallb wfe (reread_order E) = true).
  { rewrite forallb_forall in *. intros x Hx. apply WK, reread_incl, Hx. }
  cbn [print_ty]. rewrite E1, form_set_fix.
  - rewrite (build_union_flat _ Hw), EK, (build_union_flat _ WK), (union_e_reread E HndE). reflexivity.
  - apply NoDup_map_flat, NoDup_reread; assumption.
  - (* _FormSetTypeList has already been applied to a superset of these members *)
    intros Hc q Hq. eapply pair_free_sub; [| apply (form_set_pair_free c (map (u_key c) pairs) Hc q Hq)].
    intros s Hs. rewrite <- map_form_set_on. fold (u_ks c pairs). rewrite EK.
    apply in_map_iff in Hs. destruct Hs as (x & <- & Hx). apply in_map, reread_incl, Hx.
Qed.

(* pytd_callable's special case is the one place where norm changes the shape of a callable *)
Lemma norm_callable : forall c b ps,
  norm c (CallableT b ps) = CallableT b (map (norm c) ps) /\ removelast (map (norm c) ps) <> [NothingT] \/
  norm c (CallableT b ps) = CallableT b [last (map (norm c) ps) AnyT] /\ removelast (map (norm c) ps) = [NothingT].
Proof.
  intros c b ps. cbn [norm]. destruct (removelast (map (norm c) ps)) as [|a [|a' l]].
  - left. split; [reflexivity|discriminate].
  - destruct a; try (left; split; [reflexivity|discriminate]). right. split; reflexivity.
  - destruct a; left; split; (reflexivity || discriminate).
Qed.

Lemma norm_not_union : forall c t, is_union t = false -> is_union (norm c t) = false.
Proof.
  intros c t H. destruct t; try discriminate; try reflexivity.
  - cbn [norm]. destruct (tokens_eqb _ _); [reflexivity|]. destruct (name_eqb _ _); reflexivity.
  - destruct (norm_callable c b ps) as [[-> _]|[-> _]]; reflexivity.
Qed.

Lemma pairs_member_ok2 : forall env c ts,
  (forall t, In t ts -> wf env t = true) -> (forall t, In t ts -> is_union t = false) ->
  (forall t, In t ts -> print_ty c (norm c t) = print_ty c t) ->
  forall p, In p (map (fun t => (t, norm c t)) ts) -> member_ok2 env c p.
Proof.
  intros env c ts Hts Hnu Hpr p Hp. split.
  - apply (pairs_member_ok env c ts); [|exact Hnu|exact Hp]. intros t Ht. split; [|apply conv_to_expr]; apply Hts, Ht.
  - apply in_map_iff in Hp. destruct Hp as (t & <- & Ht). split; [apply Hpr, Ht | apply norm_not_union, Hnu, Ht].
Qed.

Lemma print_norm_generic : forall c b ps,
  map (print_ty c) (map (norm c) ps) = map (print_ty c) ps ->
  print_ty c (norm c (Generic b ps)) = print_ty c (Generic b ps).
Proof.
  intros c b ps Hmap. cbn [norm]. fold (prints_tuple b). destruct (prints_tuple b) eqn:Et.
  - cbn [print_ty]. fold (prints_tuple b). rewrite Et, Hmap, (proj1 (tokens_eqb_true _ _) Et). reflexivity.
  - destruct (name_eqb b (NT id_Callable)) eqn:Ec.
    + cbn [print_ty]. fold (prints_tuple b). rewrite Et, Ec, <- Hmap. destruct ps; reflexivity.
    + cbn [print_ty].
      assert (Ep: print_name (norm_name b) = print_name b) by (destruct b; reflexivity).
      assert (Ec': name_eqb (norm_name b) (NT id_Callable) = false) by (destruct b; cbn in *; congruence).
      fold (prints_tuple b). rewrite Ep. fold (prints_tuple b). rewrite Et, Ec, Ec', Hmap. reflexivity.
Qed.

Theorem print_norm_lemma : forall env c t, wf env t = true -> stable c t = true ->
  print_ty c (norm c t) = print_ty c t.
Proof.
  intros env c.
  assert (Hm: forall ps,
            (forall p, In p ps -> wf env p = true /\ (stable c p = true -> print_ty c (norm c p) = print_ty c p)) ->
            forallb (stable c) ps = true -> map (print_ty c) (map (norm c) ps) = map (print_ty c) ps).
  { intros ps H Hst. rewrite forallb_forall in Hst. rewrite map_map. apply map_ext_in. intros x Hx. apply H; auto. }
  apply (wf_ind env (fun t => stable c t = true -> print_ty c (norm c t) = print_ty c t)).
  - intros n _ _. cbn. unfold print_name. destruct n; reflexivity.
  - reflexivity.
  - reflexivity.
  - reflexivity.
  - intros v _. cbn. destruct v; reflexivity.
  - intros b p _ _ Hp IH Hst. apply print_norm_generic, Hm; [|exact Hst]. intros x [<-|[]]. auto.
  - intros r Hr IH Hst. apply print_norm_generic, Hm; [|exact Hst]. intros x [<-|[<-|[]]]; auto.
  - intros b ps _ _ _ _ _ H Hst. apply print_norm_generic, Hm; assumption.
  - intros b ps _ Et H Hst. cbn [norm print_ty].
    rewrite (Hm ps H Hst), (prints_tuple_callable b Et), (proj1 (tokens_eqb_true _ _) Et). destruct ps; reflexivity.
  - intros ps _ H Hst. cbn [stable] in Hst. apply andb_true_iff in Hst. destruct Hst as [Hst Hno].
    destruct (norm_callable c (NT id_Callable) ps) as [[-> _]|[_ E]]; [|rewrite E in Hno; discriminate].
    cbn [print_ty]. rewrite (Hm ps H Hst). reflexivity.
  - intros ts Hne H Hnu Hst. cbn [stable] in Hst. apply andb_true_iff in Hst. destruct Hst as [Hst HndF].
    rewrite forallb_forall in Hst. cbn [norm print_ty].
    set (pairs := map (fun t => (t, norm c t)) ts) in *.
    assert (Hp2: forall p, In p pairs -> member_ok2 env c p).
    { apply (pairs_member_ok2 env c ts); [| exact Hnu |]; intros t Ht; apply H; auto. }
    assert (EK: map (print_ty c) ts = map (u_key c) pairs).
    { unfold pairs. rewrite map_map. reflexivity. }
    rewrite EK. rewrite <- map_form_set_on. fold (u_ks c pairs).
    assert (Hks: forall p, In p (u_ks c pairs) -> member_ok2 env c p).
    { intros p Hp. apply Hp2. eapply form_set_on_incl. exact Hp. }
    assert (Hk: u_ks c pairs <> []).
    { apply form_set_on_nonempty. unfold pairs. intros E. apply map_eq_nil in E. auto. }
    pose proof (filter_partition_length u_lit (u_ks c pairs)) as Hlen. fold (u_nl c pairs) (u_ls c pairs) in Hlen.
    destruct (le_lt_dec 2 (length (u_ks c pairs))) as [H2|H2].
    + rewrite (norm_union_multi env c pairs Hks) by (rewrite ?Hlen; assumption). apply (print_union_F env), Hks.
    + (* a single member is printed as itself *)
      destruct (u_ks c pairs) as [|p [|q r]] eqn:Eks; cbn in H2; try lia; [congruence|].
      destruct (Hks p (or_introl eq_refl)) as (Hp & Hpr & _).
      rewrite (norm_union_single c pairs p).
      * rewrite Hpr. cbn [map]. rewrite (u_key_flat env c p Hp).
        change [flat (fe c p)] with (map flat [fe c p]). rewrite build_union_flat, union_e_single; [reflexivity|].
        cbn. rewrite (wfe_fe env c p Hp). reflexivity.
      * unfold u_nl, u_ls. rewrite Eks. cbn. destruct (u_lit p); reflexivity.
      * intros Hl. destruct Hp as (_ & _ & _ & Hv). destruct (Hv Hl) as (v & _ & ->). reflexivity.
  - intros t a _ _ IH Hst. cbn [stable] in Hst. cbn [norm print_ty]. rewrite (IH Hst). reflexivity.
Qed.

Lemma dedup_incl : forall {A} (eqb : A -> A -> bool) l x, In x (dedup eqb l) -> In x l.
Proof.
  induction l as [|y r IH]; cbn; intros x H; [exact H|].
  destruct H as [H|H]; [left; exact H|]. right. apply filter_In in H. apply IH. apply H.
Qed.

Lemma verify_flatten : forall l, forallb verify_ty l = true -> forallb verify_ty (flatten l) = true.
Proof.
  induction l as [|t r IH]; intros H; [reflexivity|]. cbn in H. apply andb_true_iff in H. destruct H as [Ht Hr].
  unfold flatten in *. cbn [flat_map]. rewrite forallb_app, (IH Hr), andb_true_r.
  destruct t; try (cbn [forallb]; rewrite Ht; reflexivity). exact Ht.
Qed.

Lemma verify_mk_union : forall l, forallb verify_ty l = true -> verify_ty (mk_union l) = true.
Proof.
  intros l H. unfold mk_union. cbn [verify_ty]. apply verify_flatten in H.
  rewrite forallb_forall in *. intros x Hx. apply H. eapply dedup_incl. exact Hx.
Qed.

Lemma verify_join_types : forall l, forallb verify_ty l = true -> verify_ty (join_types l) = true.
Proof.
  intros l H. unfold join_types.
  set (l2 := dedup ty_eqb (filter (fun t => negb (is_nothing t)) (flatten l))).
  assert (H2: forallb verify_ty l2 = true).
  { apply verify_flatten in H. rewrite forallb_forall in *. intros x Hx. apply H.
    unfold l2 in Hx. apply dedup_incl in Hx. apply filter_In in Hx. apply Hx. }
  destruct l2 as [|a [|b r]] eqn:E.
  - reflexivity.
  - cbn in H2. rewrite andb_true_r in H2. exact H2.
  - destruct (existsb is_any (a :: b :: r)).
    + destruct (existsb is_nonetype (a :: b :: r)); reflexivity.
    + apply verify_mk_union. exact H2.
Qed.

Lemma verify_norm_union : forall c pairs, (forall p, In p pairs -> verify_ty (snd p) = true) ->
  verify_ty (norm_union c pairs) = true.
Proof.
  intros c pairs Hp.
  assert (Hks: forall X, incl X (u_ks c pairs) -> forallb verify_ty (map snd X) = true).
  { intros X HX. apply forallb_forall. intros x Hx. apply in_map_iff in Hx. destruct Hx as (p & <- & Hpx).
    apply Hp. eapply form_set_on_incl, HX, Hpx. }
  assert (HT: forall X, incl X (u_ks c pairs) -> forallb verify_ty (map snd X ++ lgt (u_ls c pairs)) = true).
  { intros X HX. rewrite forallb_app, (Hks X HX). unfold lgt.
    pose proof (verify_join_types _ (Hks (u_ls c pairs) (incl_filter _ _))) as HJ.
    destruct (u_ls c pairs); [reflexivity|]. cbn [forallb andb]. rewrite HJ. reflexivity. }
  pose proof (HT (u_nl c pairs) (incl_filter _ _)) as HT1.
  pose proof (HT (u_nl' c pairs) (incl_tran (incl_filter _ _) (incl_filter _ _))) as HT2.
  unfold norm_union.
  change (match u_ls c pairs with [] => [] | _ => [join_types (map snd (u_ls c pairs))] end) with (lgt (u_ls c pairs)).
  destruct (map snd (u_nl c pairs) ++ lgt (u_ls c pairs)) as [|a [|b r]]; [reflexivity | |].
  - cbn in HT1. rewrite andb_true_r in HT1. exact HT1.
  - destruct (existsb _ _); apply verify_mk_union; [|exact HT1]. cbn [forallb]. rewrite andb_true_r.
    destruct (map snd (u_nl' c pairs) ++ lgt (u_ls c pairs)) as [|a' [|b' r']]; [reflexivity | |].
    + cbn in HT2. rewrite andb_true_r in HT2. rewrite HT2. reflexivity.
    + rewrite (verify_mk_union _ HT2). reflexivity.
Qed.

Lemma verify_norm_generic : forall c b ps, ps <> [] ->
  forallb verify_ty (map (norm c) ps) = true -> verify_ty (norm c (Generic b ps)) = true.
Proof.
  intros c b ps Hne Hv. destruct ps as [|p ps']; [congruence|]. cbn [norm map] in *.
  destruct (tokens_eqb _ _); [exact Hv|]. destruct (name_eqb _ _); [|exact Hv].
  cbn [forallb] in Hv. apply andb_true_iff in Hv. apply Hv.
Qed.

Theorem verify_ok_lemma : forall env c t, wf env t = true -> verify_ty (norm c t) = true.
Proof.
  intros env c.
  assert (Hm: forall ps, (forall p, In p ps -> wf env p = true /\ verify_ty (norm c p) = true) ->
            forallb verify_ty (map (norm c) ps) = true).
  { intros ps H. rewrite forallb_forall. intros x Hx. apply in_map_iff in Hx. destruct Hx as (t & <- & Ht). apply H, Ht. }
  apply wf_ind; try reflexivity.
  - intros b p _ _ _ IH. apply verify_norm_generic; [discriminate|]. cbn. rewrite IH. reflexivity.
  - intros r _ IH. apply verify_norm_generic; [discriminate|]. cbn. rewrite IH. reflexivity.
  - intros b ps _ _ _ _ Hne H. apply verify_norm_generic; auto.
  - intros b ps _ _ H. apply (Hm ps H).
  - intros ps Hne H. pose proof (Hm ps H) as Hv.
    assert (Hnz: map (norm c) ps <> []) by (intros E; apply map_eq_nil in E; auto).
    assert (Hlast: verify_ty (last (map (norm c) ps) AnyT) = true).
    { rewrite forallb_forall in Hv. apply Hv. apply in_last. exact Hnz. }
    assert (Hall: verify_ty (CallableT (NT id_Callable) (map (norm c) ps)) = true).
    { cbn [verify_ty]. destruct (map (norm c) ps); [congruence|exact Hv]. }
    destruct (norm_callable c (NT id_Callable) ps) as [[-> _]|[-> _]]; [exact Hall|]. cbn. rewrite Hlast. reflexivity.
  - intros ts _ H _. apply verify_norm_union.
    intros p Hp. apply in_map_iff in Hp. destruct Hp as (t & <- & Ht). apply H, Ht.
  - intros t a _ _ IH. exact IH.
Qed.

Lemma lit_eqb_refl : forall v, lit_eqb v v = true.
Proof.
  destruct v; cbn; try apply N.eqb_refl; try apply Z.eqb_refl.
  destruct is_const, b; reflexivity.
Qed.

Lemma list_eqb_map : forall {A B} (f : B -> B -> bool) (g h : A -> B) l,
  (forall x, In x l -> f (g x) (h x) = true) -> list_eqb f (map g l) (map h l) = true.
Proof.
  induction l as [|x r IH]; intros H; [reflexivity|]. cbn. rewrite (H x (or_introl eq_refl)). cbn.
  apply IH. intros y Hy. apply H. right. exact Hy.
Qed.

Lemma list_eqb_N_refl : forall a, list_eqb N.eqb a a = true.
Proof. induction a; cbn; [reflexivity|]. rewrite N.eqb_refl. exact IHa. Qed.

Lemma filter_length_le : forall {A} (P : A -> bool) l, length (filter P l) <= length l.
Proof. induction l as [|x r IH]; cbn; [lia|]. destruct (P x); cbn; lia. Qed.

(* a selection that drops nothing when it keeps the length *)
Definition shrinks {A} (g : list A -> list A) : Prop :=
  forall l, length (g l) <= length l /\ (length (g l) = length l -> g l = l).

Lemma shrinks_filter : forall {A} (P : A -> bool), shrinks (filter P).
Proof.
  intros A P l. split; [apply filter_length_le|].
  induction l as [|x r IH]; cbn; intros H; [reflexivity|]. destruct (P x); cbn in *.
  - f_equal. apply IH. lia.
  - pose proof (filter_length_le P r). lia.
Qed.

Lemma shrinks_comp : forall {A} (g h : list A -> list A), shrinks g -> shrinks h -> shrinks (fun l => h (g l)).
Proof.
  intros A g h Hg Hh l. destruct (Hg l) as [G1 G2]. destruct (Hh (g l)) as [H1 H2]. split; [lia|].
  intros E. rewrite H2 by lia. apply G2. lia.
Qed.

Lemma shrinks_dedup_on : forall {A K} (key : A -> K) eqb, shrinks (dedup_on key eqb).
Proof.
  intros A K key eqb l. induction l as [|x r [I1 I2]]; cbn; [split; [lia|reflexivity]|].
  destruct (shrinks_filter (fun y => negb (eqb (key x) (key y))) (dedup_on key eqb r)) as [F1 F2].
  split; [lia|]. intros E. rewrite F2 by lia. f_equal. apply I2. lia.
Qed.

Lemma shrinks_form_set_on : forall {A} c (key : A -> list token), shrinks (form_set_on c key).
Proof.
  intros A c key. unfold form_set_on. destruct (in_param c); [|apply shrinks_dedup_on].
  apply (shrinks_comp (dedup_on key tokens_eqb)); [apply shrinks_dedup_on|].
  induction compat_items as [|p r IH]; cbn; [intros l; split; [lia|reflexivity]|].
  apply (shrinks_comp (fun l => compat_step_on key l p)); [|exact IH].
  intros l. unfold compat_step_on. destruct (_ && _); [apply shrinks_filter|split; [lia|reflexivity]].
Qed.

Lemma form_set_on_length_eq : forall {A} c (key : A -> list token) l,
  length (form_set_on c key l) = length l -> form_set_on c key l = l.
Proof. intros A c key l. apply shrinks_form_set_on. Qed.

Lemma to_expr_none : forall c t, is_union t = false -> to_expr c t = ENone ->
  exists n, t = Named n /\ (name_id n =? id_NoneType)%N = true.
Proof.
  intros c t Hu H. destruct t; cbn [to_expr] in H; try discriminate.
  - exists n. split; [reflexivity|]. unfold name_expr in H. destruct (_ =? _)%N; [reflexivity|discriminate].
  - destruct (prints_tuple b); [|destruct (name_eqb _ _)]; discriminate.
  - destruct ps; [|destruct (name_eqb _ _)]; discriminate.
Qed.

Lemma prints_none_shape : forall env c t, wf env t = true -> is_union t = false ->
  print_ty c t = [TNone] -> exists n, t = Named n /\ (name_id n =? id_NoneType)%N = true.
Proof.
  intros env c t Hw Hu Hp. destruct (print_to_expr env c t Hw) as [E W]. rewrite E in Hp.
  apply (flat_inj _ ENone W eq_refl) in Hp. exact (to_expr_none c t Hu Hp).
Qed.

Lemma norm_name_tuple : forall env b, wf_name env b = true -> prints_tuple b = true -> norm_name b = NP id_tuple.
Proof.
  intros env b Hw Hp. apply prints_tuple_id in Hp. destruct b as [i|i|i]; cbn in *; subst; try reflexivity.
  discriminate.
Qed.

(* what the reader returns for a printed member: None for every member printed as None *)
Definition reread (c : ctx) (p : ty * ty) : ty :=
  if negb (u_lit p) && u_none c p then Named (NP id_NoneType) else snd p.

Lemma In_union_F : forall c pairs x, In x (union_F c pairs) <-> In x (map (reread c) (u_ks c pairs)).
Proof.
  intros c pairs x. unfold union_F, u_nl', u_ls, u_nl, reread. rewrite !in_app_iff, !in_map_iff. split.
  - intros [(p & <- & Hp)|[(p & <- & Hp)|Hn]].
    + apply filter_In in Hp. destruct Hp as [Hp Hn]. apply filter_In in Hp. destruct Hp as [Hp Hl].
      exists p. split; [|exact Hp]. apply negb_true_iff in Hn. rewrite Hn, andb_false_r. reflexivity.
    + apply filter_In in Hp. destruct Hp as [Hp Hl]. exists p. split; [|exact Hp]. rewrite Hl. reflexivity.
    + destruct (existsb _ _) eqn:EN; [|contradiction]. destruct Hn as [<-|[]].
      apply existsb_exists in EN. destruct EN as (p & Hp & Hn). apply filter_In in Hp. destruct Hp as [Hp Hl].
      exists p. split; [|exact Hp]. rewrite Hl, Hn. reflexivity.
  - intros (p & <- & Hp). destruct (u_lit p) eqn:El; cbn [negb andb].
    + right. left. exists p. split; [reflexivity|]. apply filter_In. auto.
    + assert (Hnl: In p (filter (fun p => negb (u_lit p)) (u_ks c pairs))) by (apply filter_In; rewrite El; auto).
      destruct (u_none c p) eqn:En.
      * right. right. rewrite (proj2 (existsb_exists _ _)) by eauto. left. reflexivity.
      * left. exists p. split; [reflexivity|]. apply filter_In. rewrite En. auto.
Qed.

Lemma ty_eq_union_map : forall {T} (A : list ty) (r u : T -> ty) ts,
  (forall x, In x A <-> In x (map r ts)) -> (forall t, In t ts -> ty_eq (r t) (u t) = true) ->
  ty_eq (Union A) (Union (map u ts)) = true.
Proof.
  intros T A r u ts HA H. cbn [ty_eq]. apply andb_true_iff. split; apply forallb_forall.
  - intros x Hx. apply HA, in_map_iff in Hx. destruct Hx as (t & <- & Ht).
    apply existsb_exists. exists (u t). split; [apply in_map, Ht | apply H, Ht].
  - intros y Hy. apply in_map_iff in Hy. destruct Hy as (t & <- & Ht).
    apply existsb_exists. exists (r t). split; [apply HA, in_map, Ht | apply H, Ht].
Qed.

Theorem reparse_equal_lemma : forall env c t,
  wf env t = true -> stable c t = true -> eq_stable c t = true ->
  ty_eq (norm c t) (unqual t) = true.
Proof.
  intros env c.
  assert (Hm: forall ps,
            (forall p, In p ps -> wf env p = true /\
               (stable c p = true -> eq_stable c p = true -> ty_eq (norm c p) (unqual p) = true)) ->
            forallb (stable c) ps = true -> forallb (eq_stable c) ps = true ->
            forall x, In x ps -> ty_eq (norm c x) (unqual x) = true).
  { intros ps H Hst Heq x Hx. rewrite forallb_forall in Hst, Heq. apply H; auto. }
  apply (wf_ind env (fun t => stable c t = true -> eq_stable c t = true -> ty_eq (norm c t) (unqual t) = true)).
  - intros n _ _ _. cbn. apply name_eqb_refl.
  - reflexivity.
  - reflexivity.
  - intros i _ _ _ _. cbn. apply N.eqb_refl.
  - intros v _ _. cbn. apply lit_eqb_refl.
  - intros b p Hb Et _ IH Hst Heq. cbn [stable eq_stable forallb] in Hst, Heq. rewrite andb_true_r in Hst, Heq.
    cbn [norm unqual map]. fold (prints_tuple b). rewrite Et. cbn [ty_eq list_eqb].
    rewrite (norm_name_tuple env b Hb Et), (IH Hst Heq). reflexivity.
  - intros r _ IH Hst Heq. cbn [stable eq_stable forallb] in Hst, Heq. rewrite andb_true_r in Hst, Heq.
    change (ty_eq (Generic (NT id_Callable) [AnyT; norm c r]) (Generic (NT id_Callable) [AnyT; unqual r]) = true).
    cbn. rewrite (IH Hst Heq). reflexivity.
  - intros b ps _ _ Et Ec _ H Hst Heq. cbn [norm unqual]. fold (prints_tuple b). rewrite Et, Ec.
    cbn [ty_eq]. rewrite name_eqb_refl. apply list_eqb_map, (Hm ps H Hst Heq).
  - intros b ps Hb Et H Hst Heq. cbn [norm unqual ty_eq]. rewrite (norm_name_tuple env b Hb Et).
    cbn [name_eqb]. rewrite N.eqb_refl. apply list_eqb_map, (Hm ps H); assumption.
  - intros ps _ H Hst Heq. cbn [stable] in Hst. apply andb_true_iff in Hst. destruct Hst as [Hst Hno].
    assert (Hall: ty_eq (CallableT (NT id_Callable) (map (norm c) ps)) (unqual (CallableT (NT id_Callable) ps)) = true).
    { cbn [unqual ty_eq norm_name name_eqb]. rewrite N.eqb_refl. apply list_eqb_map, (Hm ps H); assumption. }
    destruct (norm_callable c (NT id_Callable) ps) as [[-> _]|[_ E]]; [exact Hall|rewrite E in Hno; discriminate].
  - intros ts _ H Hnu Hst Heq.
    cbn [stable] in Hst. apply andb_true_iff in Hst. destruct Hst as [Hst HndF].
    cbn [eq_stable] in Heq. apply andb_true_iff in Heq. destruct Heq as [Heq Hlen].
    apply andb_true_iff in Heq. destruct Heq as [Heq H2]. apply Nat.leb_le in H2. apply Nat.eqb_eq in Hlen.
    pose proof (Hm ts H Hst Heq) as IH.
    assert (Hts: forall t, In t ts -> wf env t = true) by (intros t Ht; apply H, Ht).
    rewrite forallb_forall in Hst.
    cbn [norm unqual].
    set (g := fun t => (t, norm c t)). set (pairs := map g ts) in *.
    assert (Hp2: forall p, In p pairs -> member_ok2 env c p).
    { apply (pairs_member_ok2 env c ts Hts Hnu). intros t Ht. apply (print_norm_lemma env); auto. }
    (* nothing was dropped by the printer *)
    assert (Eks: u_ks c pairs = pairs).
    { unfold u_ks, pairs. rewrite (form_set_on_map c g (u_key c) (print_ty c) ts) by reflexivity.
      rewrite (form_set_on_length_eq c (print_ty c) ts Hlen). reflexivity. }
    assert (Hks: forall p, In p (u_ks c pairs) -> member_ok2 env c p) by (rewrite Eks; exact Hp2).
    pose proof (filter_partition_length u_lit (u_ks c pairs)) as Hl2. fold (u_nl c pairs) (u_ls c pairs) in Hl2.
    rewrite Eks in Hl2. unfold pairs in Hl2 at 3. rewrite map_length in Hl2.
    rewrite (norm_union_multi env c pairs Hks ltac:(lia) HndF).
    apply (ty_eq_union_map _ (fun t => reread c (g t)) unqual ts).
    + intros x. rewrite In_union_F, Eks. unfold pairs. rewrite map_map. reflexivity.
    + intros t Ht. unfold reread. destruct (negb (u_lit (g t)) && u_none c (g t)) eqn:E; [|apply IH, Ht].
      (* a member printed as None is NoneType under one of its names *)
      apply andb_true_iff in E. destruct E as [_ En].
      unfold u_none, is_none_s, u_key in En. apply tokens_eqb_true in En. cbn [fst g] in En.
      pose proof (Hts t Ht) as Hw.
      destruct (prints_none_shape env c t Hw (Hnu t Ht) En) as (n & -> & Hid).
      cbn [unqual]. cbn [wf] in Hw. rewrite (wf_name_none env n Hw Hid). reflexivity.
  - intros t a _ _ IH Hst Heq. cbn [stable] in Hst. cbn [eq_stable] in Heq. cbn [norm unqual ty_eq].
    rewrite (IH Hst Heq). apply list_eqb_N_refl.
Qed.

Definition flat_rparam (p : rparam) : list token :=
  TName (r_name p) :: (match r_ann p with Some e => TColon :: flat e | None => [] end)
  ++ (if r_def p then [TEq; TEllipsis] else []).
Definition flat_item (it : item) : list token :=
  match it with
  | ISlash => [TSlash]
  | IStar None => [TStar]
  | IStar (Some p) => TStar :: flat_rparam p
  | IDStar p => TDStar :: flat_rparam p
  | IParam p => flat_rparam p
  end.

Definition wfe_rparam (p : rparam) : bool := match r_ann p with Some e => wfe e | None => true end.
Definition wfe_item (it : item) : bool :=
  match it with
  | ISlash | IStar None => true
  | IStar (Some p) | IDStar p | IParam p => wfe_rparam p
  end.

(* what follows an item in a parameter list *)
Definition item_end (ts : list token) : Prop :=
  match ts with TComma :: _ | TRPar :: _ => True | _ => False end.

Lemma item_end_inv : forall ts, item_end ts -> exists r, ts = TComma :: r \/ ts = TRPar :: r.
Proof. intros [|[] r] H; try contradiction; exists r; auto. Qed.

Lemma parse_rparam_flat : forall p rest, wfe_rparam p = true -> item_end rest ->
  parse_rparam (flat_rparam p ++ rest) = Some (p, rest).
Proof.
  intros [nm ann def] rest Hw Hr. unfold flat_rparam, wfe_rparam in *. cbn [r_name r_ann r_def] in *.
  destruct (item_end_inv rest Hr) as (r & [-> | ->]); (destruct ann as [e|]; [|destruct def; reflexivity]);
    cbn [app]; rewrite <- app_assoc; cbn [parse_rparam];
    (rewrite (parse_flat_gen e Hw); [destruct def; reflexivity | rewrite app_length; lia | destruct def; exact I]).
Qed.

Lemma parse_item_flat : forall it rest, wfe_item it = true -> item_end rest ->
  parse_item (flat_item it ++ rest) = Some (it, rest).
Proof.
  intros it rest Hw Hr. destruct it as [|[p|]|p|p]; cbn [flat_item wfe_item] in *.
  - reflexivity.
  - cbn [app parse_item]. unfold flat_rparam at 1. cbn [app].
    change (TName (r_name p) :: ((match r_ann p with Some e => TColon :: flat e | None => [] end ++ (if r_def p then [TEq; TEllipsis] else [])) ++ rest))
      with (flat_rparam p ++ rest).
    rewrite (parse_rparam_flat p rest Hw Hr). reflexivity.
  - destruct (item_end_inv rest Hr) as (r & [-> | ->]); reflexivity.
  - cbn [app parse_item]. rewrite (parse_rparam_flat p rest Hw Hr). reflexivity.
  - unfold flat_rparam at 1. cbn [app parse_item].
    change (TName (r_name p) :: ((match r_ann p with Some e => TColon :: flat e | None => [] end ++ (if r_def p then [TEq; TEllipsis] else [])) ++ rest))
      with (flat_rparam p ++ rest).
    rewrite (parse_rparam_flat p rest Hw Hr). reflexivity.
Qed.

Lemma parse_items_flat : forall its rest fuel,
  forallb wfe_item its = true -> its <> [] -> length its <= fuel ->
  parse_items fuel (sep (map flat_item its) ++ TRPar :: rest) = Some (its, TRPar :: rest).
Proof.
  induction its as [|it r IH]; intros rest fuel Hw Hne Hf; [congruence|].
  cbn [forallb] in Hw. apply andb_true_iff in Hw. destruct Hw as [Hw1 Hw2].
  destruct fuel as [|f]; [cbn in Hf; lia|]. cbn [parse_items].
  destruct r as [|it2 r2].
  - cbn [map]. rewrite sep_single. rewrite (parse_item_flat it (TRPar :: rest) Hw1 I). reflexivity.
  - cbn [map]. rewrite sep_cons2. rewrite <- app_assoc. cbn [app].
    rewrite (parse_item_flat it (TComma :: sep (flat_item it2 :: map flat_item r2) ++ TRPar :: rest) Hw1 I).
    change (flat_item it2 :: map flat_item r2) with (map flat_item (it2 :: r2)).
    rewrite (IH rest f Hw2 ltac:(discriminate)); [reflexivity|]. cbn in *. lia.
Qed.

Definition rp_of (c : ctx) (nm : N) (t : ty) (opt : bool) : rparam :=
  mkR nm (if elided c nm t (print_ty (ctx_param c) t) then None else Some (to_expr (ctx_param c) t)) opt.
Definition rp_param (c : ctx) (q : param) : rparam := rp_of c (p_name q) (p_ty q) (p_opt q).
Definition rp_star (c : ctx) (st : N * ty) : rparam := rp_of c (fst st) (container_elem (snd st)) false.

Lemma print_param_flat : forall env c nm t opt, wf env t = true ->
  print_param c nm t opt = flat_rparam (rp_of c nm t opt) /\ wfe_rparam (rp_of c nm t opt) = true.
Proof.
  intros env c nm t opt Hw. unfold print_param, rp_of, flat_rparam, wfe_rparam. cbn [r_name r_ann r_def].
  destruct (print_to_expr env (ctx_param c) t Hw) as [E W].
  destruct (elided c nm t (print_ty (ctx_param c) t)).
  - split; reflexivity.
  - split; [|exact W]. rewrite E. cbn [app]. reflexivity.
Qed.

Lemma print_container_param : forall c st,
  print_container c st = print_param c (fst st) (container_elem (snd st)) false.
Proof. intros c [nm t]. unfold print_container, container_elem. cbn [fst snd]. destruct t; reflexivity. Qed.

Fixpoint items_loop (c : ctx) (ps : list param) (star : option rparam) : list item :=
  match ps with
  | [] => match star with Some sp => [IStar (Some sp)] | None => [] end
  | p :: rest =>
      if pkind_eqb (p_kind p) KwOnly then IStar star :: map (fun q => IParam (rp_param c q)) (p :: rest)
      else IParam (rp_param c p)
           :: (if pkind_eqb (p_kind p) PosOnly &&
                  match rest with [] => true | q :: _ => negb (pkind_eqb (p_kind q) PosOnly) end
               then [ISlash] else [])
           ++ items_loop c rest star
  end.

Lemma params_loop_items : forall env c ps star,
  (forall p, In p ps -> wf env (p_ty p) = true) ->
  params_loop c ps (option_map flat_rparam star) = map flat_item (items_loop c ps star) /\
  forallb wfe_item (items_loop c ps star) = forallb wfe_item (match star with Some sp => [IStar (Some sp)] | None => [] end).
Proof.
  intros env c ps star. induction ps as [|p rest IH]; intros Hw.
  - cbn. destruct star; split; reflexivity.
  - assert (Hp: wf env (p_ty p) = true) by (apply Hw; left; reflexivity).
    assert (Hrest: forall q, In q rest -> wf env (p_ty q) = true) by (intros q Hq; apply Hw; right; exact Hq).
    destruct (print_param_flat env c (p_name p) (p_ty p) (p_opt p) Hp) as [E1 W1].
    cbn [params_loop items_loop]. destruct (pkind_eqb (p_kind p) KwOnly).
    + split.
      * cbn [map flat_item]. f_equal; [destruct star; reflexivity|]. f_equal; [exact E1|].
        rewrite map_map. apply map_ext_in. intros q Hq.
        apply (print_param_flat env c (p_name q) (p_ty q) (p_opt q)). apply Hrest. exact Hq.
      * cbn [map forallb wfe_item]. unfold rp_param at 1. rewrite W1. cbn [andb].
        assert (Hall: forallb wfe_item (map (fun q => IParam (rp_param c q)) rest) = true).
        { rewrite forallb_forall. intros it Hit. apply in_map_iff in Hit. destruct Hit as (q & <- & Hq).
          apply (print_param_flat env c (p_name q) (p_ty q) (p_opt q)). apply Hrest. exact Hq. }
        rewrite Hall. destruct star; cbn; rewrite ?andb_true_r; reflexivity.
    + destruct (IH Hrest) as [IH1 IH2]. split.
      * cbn [map flat_item]. f_equal; [exact E1|]. rewrite map_app, IH1. f_equal.
        destruct (pkind_eqb (p_kind p) PosOnly && _); reflexivity.
      * cbn [forallb wfe_item]. unfold rp_param at 1. rewrite W1. cbn [andb]. rewrite forallb_app, IH2.
        destruct (pkind_eqb (p_kind p) PosOnly && _); reflexivity.
Qed.

Definition has_kind (k : pkind) (p : param) : Prop := p_kind p = k.

Lemma kinds_split : forall ps, kinds_sorted ps = true ->
  exists P R K, ps = P ++ R ++ K /\ Forall (has_kind PosOnly) P /\ Forall (has_kind Regular) R /\
                Forall (has_kind KwOnly) K.
Proof.
  induction ps as [|p rest IH]; intros Hs.
  - exists [], [], []. repeat split; constructor.
  - assert (Hrest: kinds_sorted rest = true).
    { destruct rest as [|q r]; [reflexivity|]. cbn in Hs. apply andb_true_iff in Hs. apply Hs. }
    destruct (IH Hrest) as (P & R & K & E & HP & HR & HK). subst rest.
    (* the kind of p is at most the kind of the block that comes next *)
    assert (Hnext: forall k q X Y, P ++ R ++ K = (q :: X) ++ Y -> Forall (has_kind k) (q :: X) ->
              kind_rank (p_kind p) <= kind_rank k).
    { intros k q X Y Eq HF. rewrite Eq in Hs. cbn in Hs. apply andb_true_iff in Hs. destruct Hs as [Hs _].
      apply Nat.leb_le in Hs. rewrite (Forall_inv HF) in Hs. exact Hs. }
    destruct (p_kind p) eqn:Ek.
    + exists (p :: P), R, K. repeat split; try assumption. constructor; assumption.
    + destruct P as [|q P'].
      * exists [], (p :: R), K. repeat split; try assumption; constructor; assumption.
      * pose proof (Hnext _ _ _ _ eq_refl HP) as Hc. cbn in Hc. lia.
    + destruct P as [|q P']; [destruct R as [|q R']|].
      * exists [], [], (p :: K). repeat split; try assumption; constructor; assumption.
      * pose proof (Hnext _ _ _ _ eq_refl HR) as Hc. cbn in Hc. lia.
      * pose proof (Hnext _ _ _ _ eq_refl HP) as Hc. cbn in Hc. lia.
Qed.

Definition rps (c : ctx) (ps : list param) : list rparam := map (rp_param c) ps.

Lemma items_loop_kw : forall c K star, Forall (has_kind KwOnly) K ->
  items_loop c K star =
  match K with
  | [] => match star with Some sp => [IStar (Some sp)] | None => [] end
  | _ => IStar star :: map IParam (rps c K)
  end.
Proof.
  intros c K star HK. destruct K as [|p rest]; [reflexivity|].
  inversion HK as [|? ? Hp _]; subst. cbn [items_loop]. unfold has_kind in Hp. rewrite Hp. cbn [pkind_eqb].
  unfold rps. rewrite map_map. reflexivity.
Qed.

Lemma items_loop_reg : forall c R rest star, Forall (has_kind Regular) R ->
  items_loop c (R ++ rest) star = map IParam (rps c R) ++ items_loop c rest star.
Proof.
  intros c R rest star HR. induction HR as [|p R' Hp _ IH]; [reflexivity|].
  cbn [app items_loop]. unfold has_kind in Hp. rewrite Hp. cbn [pkind_eqb andb app]. rewrite IH. reflexivity.
Qed.

Lemma items_loop_pos : forall c P rest star, Forall (has_kind PosOnly) P -> P <> [] ->
  match rest with [] => True | q :: _ => p_kind q <> PosOnly end ->
  items_loop c (P ++ rest) star = map IParam (rps c P) ++ ISlash :: items_loop c rest star.
Proof.
  intros c P rest star HP. induction HP as [|p P' Hp HP' IH]; intros Hne Hrest; [congruence|].
  cbn [app items_loop]. unfold has_kind in Hp. rewrite Hp. cbn [pkind_eqb andb].
  destruct P' as [|p2 P''].
  - cbn [app]. assert (Hc: match rest with [] => true | q :: _ => negb (pkind_eqb (p_kind q) PosOnly) end = true).
    { destruct rest as [|q r]; [reflexivity|]. destruct (p_kind q); try reflexivity. congruence. }
    rewrite Hc. reflexivity.
  - cbn [app]. inversion HP' as [|? ? Hp2 _]; subst. unfold has_kind in Hp2. rewrite Hp2. cbn [pkind_eqb negb app].
    change (p2 :: P'' ++ rest) with ((p2 :: P'') ++ rest). rewrite IH; [reflexivity|discriminate|exact Hrest].
Qed.

Lemma build_params : forall ph pos reg X rest,
  (ph = 0 \/ ph = 1)%nat ->
  build_rsig ph (mkRS pos reg None [] None) false (map IParam X ++ rest) =
  build_rsig ph (mkRS pos (reg ++ X) None [] None) false rest.
Proof.
  intros ph pos reg X. revert reg. induction X as [|x X IH]; intros reg rest Hph.
  - rewrite app_nil_r. reflexivity.
  - cbn [map app build_rsig]. destruct Hph as [->| ->]; cbn [rs_pos rs_reg]; rewrite IH by auto;
      rewrite <- app_assoc; reflexivity.
Qed.

Lemma build_kw : forall pos reg st kw bare X rest,
  build_rsig 2 (mkRS pos reg st kw None) bare (map IParam X ++ rest) =
  build_rsig 2 (mkRS pos reg st (kw ++ X) None) bare rest.
Proof.
  intros pos reg st kw bare X. revert kw. induction X as [|x X IH]; intros kw rest.
  - rewrite app_nil_r. reflexivity.
  - cbn [map app build_rsig rs_pos rs_reg rs_star rs_kw]. rewrite IH. rewrite <- app_assoc. reflexivity.
Qed.

Lemma build_tail : forall ph pos reg st kw bare sst,
  (ph <= 2)%nat -> (bare = true -> kw <> []) ->
  (forall p, sst = Some p -> r_def p = false) ->
  build_rsig ph (mkRS pos reg st kw None) bare (match sst with Some p => [IDStar p] | None => [] end) =
  Some (mkRS pos reg st kw sst).
Proof.
  intros ph pos reg st kw bare sst Hph Hb Hd.
  assert (Hbk: bare && match kw with [] => true | _ => false end = false).
  { destruct bare; [|reflexivity]. destruct kw; [exfalso; apply Hb; reflexivity|reflexivity]. }
  destruct sst as [p|].
  - cbn [build_rsig rs_pos rs_reg rs_star rs_kw]. unfold no_default. rewrite (Hd p eq_refl). rewrite Hbk. cbn.
    destruct ph as [|[|[|ph]]]; try reflexivity. lia.
  - cbn [build_rsig rs_kw]. rewrite Hbk. reflexivity.
Qed.

Lemma build_star : forall ph pos reg star rest,
  (ph = 0 \/ ph = 1)%nat -> (forall p, star = Some p -> r_def p = false) ->
  build_rsig ph (mkRS pos reg None [] None) false (IStar star :: rest) =
  build_rsig 2 (mkRS pos reg star [] None) (match star with None => true | Some _ => false end) rest.
Proof.
  intros ph pos reg [sp|] rest Hph Hd; destruct Hph as [-> | ->]; cbn [build_rsig]; try reflexivity;
    unfold no_default; rewrite (Hd sp eq_refl); reflexivity.
Qed.

Lemma build_items : forall c P R K star sst,
  Forall (has_kind PosOnly) P -> Forall (has_kind Regular) R -> Forall (has_kind KwOnly) K ->
  (forall p, star = Some p -> r_def p = false) -> (forall p, sst = Some p -> r_def p = false) ->
  build_rsig 0 (mkRS [] [] None [] None) false
    (items_loop c (P ++ R ++ K) star ++ match sst with Some p => [IDStar p] | None => [] end) =
  Some (mkRS (rps c P) (rps c R) star (rps c K) sst).
Proof.
  intros c P R K star sst HP HR HK Hst Hsst.
  (* after the positional-only block *)
  assert (Hmid: forall ph pos, (ph = 0 \/ ph = 1)%nat ->
            build_rsig ph (mkRS pos [] None [] None) false
              (items_loop c (R ++ K) star ++ match sst with Some p => [IDStar p] | None => [] end) =
            Some (mkRS pos (rps c R) star (rps c K) sst)).
  { intros ph pos Hph. rewrite (items_loop_reg c R K star HR). rewrite <- app_assoc.
    rewrite build_params by exact Hph. cbn [app].
    rewrite (items_loop_kw c K star HK).
    destruct K as [|k0 K']; [destruct star as [sp|]|]; cbn [app].
    - rewrite build_star by assumption. apply build_tail; [lia | discriminate | exact Hsst].
    - apply build_tail; [destruct Hph; lia | discriminate | exact Hsst].
    - rewrite build_star, build_kw by assumption. cbn [app].
      apply build_tail; [lia | intros _; discriminate | exact Hsst]. }
  destruct P as [|p0 P'].
  - cbn [app]. apply Hmid. left. reflexivity.
  - rewrite (items_loop_pos c (p0 :: P') (R ++ K) star HP ltac:(discriminate)).
    + rewrite <- app_assoc. rewrite build_params by (left; reflexivity). cbn [app build_rsig rs_reg].
      apply Hmid. right. reflexivity.
    + destruct R as [|r0 R']; [destruct K as [|k0 K']; [exact I|]|].
      * cbn. inversion HK as [|? ? Hk _]; subst. unfold has_kind in Hk. rewrite Hk. discriminate.
      * cbn. inversion HR as [|? ? Hr _]; subst. unfold has_kind in Hr. rewrite Hr. discriminate.
Qed.

Lemma conv_rp : forall env c nm t opt, wf env t = true ->
  conv_ann env (r_ann (rp_of c nm t opt)) = Some (norm_pty c nm t).
Proof.
  intros env c nm t opt Hw. unfold rp_of, norm_pty. cbn [r_ann].
  destruct (elided c nm t (print_ty (ctx_param c) t)); [reflexivity|].
  cbn [conv_ann]. apply conv_to_expr. exact Hw.
Qed.

Lemma conv_params : forall env c k X,
  Forall (has_kind k) X ->
  (forall p, In p X -> wf env (p_ty p) = true /\ p_mut p = None) ->
  mapM (conv_param env k) (rps c X) = Some (map (norm_param c) X).
Proof.
  intros env c k X HX Hw. unfold rps. apply mapM_map. intros p Hp.
  destruct (Hw p Hp) as [Hwp Hm]. rewrite Forall_forall in HX. specialize (HX p Hp). unfold has_kind in HX.
  unfold conv_param, rp_param. rewrite (conv_rp env c _ _ _ Hwp). unfold norm_param. rewrite Hm, HX. reflexivity.
Qed.

Lemma wf_container_elem : forall env d st, wf_container env d st = true -> wf env (container_elem (snd st)) = true.
Proof.
  intros env d [nm t] Hw. unfold wf_container in Hw. cbn [snd] in *.
  destruct t; try discriminate; [reflexivity|]. apply andb_true_iff in Hw. apply Hw.
Qed.

Lemma conv_star_ok : forall env c st, wf_container env false st = true ->
  conv_star env (Some (rp_star c st)) = Some (Some (norm_star c st)).
Proof.
  intros env c st Hw. apply wf_container_elem in Hw. destruct st as [nm t].
  unfold rp_star, rp_of, norm_star, conv_star. cbn [fst snd r_ann r_name] in *.
  destruct (elided c nm (container_elem t) (print_ty (ctx_param c) (container_elem t))); [reflexivity|].
  rewrite (conv_to_expr env (ctx_param c) _ Hw). reflexivity.
Qed.

Lemma conv_sstar_ok : forall env c st, wf_container env true st = true ->
  conv_sstar env (Some (rp_star c st)) = Some (Some (norm_sstar c st)).
Proof.
  intros env c st Hw. apply wf_container_elem in Hw. destruct st as [nm t].
  unfold rp_star, rp_of, norm_sstar, conv_sstar. cbn [fst snd r_ann r_name] in *.
  destruct (elided c nm (container_elem t) (print_ty (ctx_param c) (container_elem t))); [reflexivity|].
  rewrite (conv_to_expr env (ctx_param c) _ Hw). reflexivity.
Qed.

(* the printed return annotation *)
Definition ret_expr (c : ctx) (t : ty) : expr :=
  if tokens_eqb (print_ty (ctx_plain c) t) [TName id_nothing] then EName id_Never else to_expr (ctx_plain c) t.

Lemma ret_ok : forall env c t, wf env t = true -> is_tvar env id_Never = false ->
  (if tokens_eqb (print_ty (ctx_plain c) t) [TName id_nothing] then [TName id_Never] else print_ty (ctx_plain c) t)
    = flat (ret_expr c t) /\ wfe (ret_expr c t) = true /\ conv env (ret_expr c t) = Some (norm_ret c t).
Proof.
  intros env c t Hw Hv. unfold ret_expr, norm_ret.
  destruct (print_to_expr env (ctx_plain c) t Hw) as [E W].
  destruct (tokens_eqb (print_ty (ctx_plain c) t) [TName id_nothing]) eqn:En.
  - repeat split. cbn [conv]. unfold conv_name. rewrite Hv. reflexivity.
  - repeat split; [exact E | exact W | apply conv_to_expr; exact Hw].
Qed.

Definition items_of (c : ctx) (s : sig) : list item :=
  items_loop c (s_params s) (option_map (rp_star c) (s_star s)) ++
  match s_sstar s with Some st => [IDStar (rp_star c st)] | None => [] end.

(* the part of parse_sig that follows the syntax, for a body that is `...` *)
Definition finish_sig (env : penv) (scope : list N) (its : list item) (re : expr) : option sig :=
  match build_rsig 0 (mkRS [] [] None [] None) false its with
  | Some rs =>
      if defaults_ok false (rs_pos rs ++ rs_reg rs) then
        match mapM (conv_param env PosOnly) (rs_pos rs),
              mapM (conv_param env Regular) (rs_reg rs),
              mapM (conv_param env KwOnly) (rs_kw rs),
              conv_star env (rs_star rs), conv_sstar env (rs_sstar rs),
              conv env re with
        | Some pp, Some pr, Some pk, Some st, Some sst, Some ret =>
            let s0 := mkSig (pp ++ pr ++ pk) st sst ret in
            let selfm :=
              match first_param rs, pp ++ pr ++ pk with
              | Some fp, q :: _ =>
                  if (r_name fp =? id_self)%N &&
                     match r_ann fp with Some e => expr_is_generic e | None => false end
                  then [(id_self, p_ty q)] else []
              | _, _ => []
              end in
            match apply_mutators s0 ([] ++ selfm) with
            | Some s1 => if verify_mutators scope s1 then Some s1 else None
            | None => None
            end
        | _, _, _, _, _, _ => None
        end
      else None
  | None => None
  end.

Lemma flat_item_head : forall it, exists t r, flat_item it = t :: r /\ t <> TRPar.
Proof.
  destruct it as [|[p|]|p|p]; cbn; unfold flat_rparam; cbn; eexists; eexists; (split; [reflexivity|discriminate]).
Qed.

Lemma sep_items_length : forall its, length its <= length (sep (map flat_item its)).
Proof.
  induction its as [|it r IH]; [cbn; lia|]. destruct r as [|it2 r2].
  - cbn [map]. rewrite sep_single. destruct (flat_item_head it) as (t & q & -> & _). cbn. lia.
  - cbn [map]. rewrite sep_cons2. rewrite app_length. cbn [length]. cbn [map] in IH. cbn [length] in *. lia.
Qed.

(* the parameter list between the parentheses: "()" or items *)
Lemma after_params_items : forall its rest r, forallb wfe_item its = true ->
  r = sep (map flat_item its) ++ TRPar :: rest ->
  match r with
  | TRPar :: r' => Some ([], r')
  | _ => match parse_items (S (length r)) r with
         | Some (its, TRPar :: r') => Some (its, r')
         | _ => None
         end
  end = Some (its, rest).
Proof.
  intros its rest r Hw ->. destruct its as [|it its']; [reflexivity|].
  rewrite (parse_items_flat (it :: its') rest) by
    (try discriminate; try assumption; rewrite app_length; pose proof (sep_items_length (it :: its')); lia).
  destruct (flat_item_head it) as (t & q & Eh & Hne).
  assert (Hs: exists q', sep (map flat_item (it :: its')) ++ TRPar :: rest = t :: q')
    by (destruct its'; cbn [map]; [rewrite sep_single|rewrite sep_cons2]; rewrite Eh; cbn [app]; eauto).
  destruct Hs as (q' & ->). apply (token_not_rpar t _ _ Hne).
Qed.

Lemma parse_sig_tokens : forall env scope its re,
  forallb wfe_item its = true -> wfe re = true ->
  parse_sig env scope (TLPar :: sep (map flat_item its) ++ TRPar :: TArrow :: flat re ++ TColon :: [TEllipsis]) =
  finish_sig env scope its re.
Proof.
  intros env scope its re Hw Hre. unfold parse_sig. cbv beta iota zeta.
  rewrite (after_params_items its _ _ Hw eq_refl).
  rewrite (parse_flat_gen re Hre) by (rewrite ?app_length; cbn [length]; try lia; exact I).
  reflexivity.
Qed.

Lemma wf_sig_parts : forall env scope c s, wf_sig env scope c s = true ->
  (forall p, In p (s_params s) -> wf env (p_ty p) = true) /\
  kinds_sorted (s_params s) = true /\ defaults_sorted false (s_params s) = true /\
  (forall st, s_star s = Some st -> wf_container env false st = true) /\
  (forall st, s_sstar s = Some st -> wf_container env true st = true) /\
  wf env (s_ret s) = true /\ is_tvar env id_Never = false.
Proof.
  intros env scope c s H. unfold wf_sig in H.
  destruct (andb4 _ _ _ _ H) as (H7 & _ & _ & Hnever).
  destruct (andb4 _ _ _ _ H7) as (H4 & Hst & Hss & Hret).
  destruct (andb4 _ _ _ _ H4) as (Hp & Hkinds & Hdef & _).
  repeat split; try assumption.
  - intros p Hin. rewrite forallb_forall in Hp. specialize (Hp p Hin). apply andb_true_iff in Hp. apply Hp.
  - intros st E. rewrite E in Hst. exact Hst.
  - intros st E. rewrite E in Hss. exact Hss.
  - apply negb_true_iff in Hnever. exact Hnever.
Qed.

Lemma wf_sig_mut : forall env scope c s p m, wf_sig env scope c s = true ->
  In p (s_params s) -> p_mut p = Some m -> wf env m = true.
Proof.
  intros env scope c s p m H Hp Em. unfold wf_sig in H. repeat (apply andb_true_iff in H; destruct H as [H _]).
  rewrite forallb_forall in H. specialize (H p Hp). rewrite Em in H. apply andb_true_iff in H. destruct H as [_ H]. apply andb_true_iff in H. apply H.
Qed.

Lemma no_mut_body : forall c ps,
  forallb (fun p => match p_mut p with None => true | Some _ => false end) ps = true ->
  print_body c ps = [TEllipsis].
Proof.
  intros c ps H. unfold print_body.
  assert (E: flat_map (fun p => match p_mut p with
                                | Some m => TNewline :: TName (p_name p) :: TEq :: print_ty (ctx_plain c) m
                                | None => [] end) ps = []).
  { induction ps as [|p r IH]; [reflexivity|]. cbn in H. apply andb_true_iff in H.
    destruct H as [Hp Hr]. cbn [flat_map]. destruct (p_mut p); [discriminate|]. apply IH. exact Hr. }
  rewrite E. reflexivity.
Qed.

Lemma print_sig_items : forall env scope c s, wf_sig env scope c s = true ->
  forallb (fun p => match p_mut p with None => true | Some _ => false end) (s_params s) = true ->
  print_sig c s = TLPar :: sep (map flat_item (items_of c s)) ++ TRPar :: TArrow :: flat (ret_expr c (s_ret s)) ++ TColon :: [TEllipsis]
  /\ forallb wfe_item (items_of c s) = true /\ wfe (ret_expr c (s_ret s)) = true /\
  conv env (ret_expr c (s_ret s)) = Some (norm_ret c (s_ret s)).
Proof.
  intros env scope c s Hwf Hmut.
  destruct (wf_sig_parts env scope c s Hwf) as (Hps & Hk & Hd & Hst & Hss & Hret & Hnev).
  destruct (ret_ok env c (s_ret s) Hret Hnev) as (Er & Wr & Cr).
  assert (Hstar: forall st, wf_container env false st = true \/ wf_container env true st = true ->
            print_container c st = flat_rparam (rp_star c st) /\ wfe_rparam (rp_star c st) = true).
  { intros st Hw. rewrite print_container_param. unfold rp_star.
    apply (print_param_flat env). destruct Hw as [Hw|Hw]; exact (wf_container_elem env _ st Hw). }
  pose proof (no_mut_body c (s_params s) Hmut) as Ebody.
  set (star := option_map (rp_star c) (s_star s)).
  destruct (params_loop_items env c (s_params s) star Hps) as [EL WL].
  assert (Estar: match s_star s with Some st => Some (print_container c st) | None => None end = option_map flat_rparam star).
  { unfold star. destruct (s_star s) as [st|] eqn:E; [|reflexivity]. cbn. f_equal. apply Hstar. left. apply Hst. reflexivity. }
  split; [|split; [|split; assumption]].
  - unfold print_sig. rewrite Estar, EL, Ebody, Er. unfold items_of. fold star. rewrite map_app.
    assert (Ess: match s_sstar s with Some st => [TDStar :: print_container c st] | None => [] end =
                 map flat_item (match s_sstar s with Some st => [IDStar (rp_star c st)] | None => [] end)).
    { destruct (s_sstar s) as [st|] eqn:E; [|reflexivity]. cbn. f_equal. f_equal. apply Hstar. right. apply Hss. reflexivity. }
    rewrite Ess. cbn [app]. reflexivity.
  - unfold items_of. fold star. rewrite forallb_app, WL.
    assert (W1: forallb wfe_item (match star with Some sp => [IStar (Some sp)] | None => [] end) = true).
    { unfold star. destruct (s_star s) as [st|] eqn:E; [|reflexivity]. cbn. rewrite andb_true_r. apply Hstar. left. apply Hst. reflexivity. }
    rewrite W1. destruct (s_sstar s) as [st|] eqn:E; [|reflexivity]. cbn. rewrite andb_true_r. apply Hstar. right. apply Hss. reflexivity.
Qed.

Lemma defaults_ok_rps : forall c X K seen,
  Forall (fun p => p_kind p <> KwOnly) X -> Forall (has_kind KwOnly) K ->
  defaults_sorted seen (X ++ K) = defaults_ok seen (rps c X).
Proof.
  intros c X K seen HX HK. revert seen. induction HX as [|p X' Hp _ IH]; intros seen.
  - cbn [app rps map defaults_ok]. destruct K as [|k K']; [reflexivity|].
    inversion HK as [|? ? Hk _]; subst. cbn. unfold has_kind in Hk. rewrite Hk. reflexivity.
  - cbn [app rps map defaults_sorted defaults_ok]. unfold rp_param at 1. unfold rp_of. cbn [r_def].
    assert (Ek: pkind_eqb (p_kind p) KwOnly = false) by (destruct (p_kind p); try reflexivity; congruence).
    rewrite Ek. destruct (p_opt p); [apply IH|]. f_equal. apply IH.
Qed.

Lemma prints_generic_flat : forall e, prints_generic (flat e) = expr_is_generic e.
Proof. destruct e; reflexivity. Qed.

Lemma norm_param_nomut : forall c ps,
  forallb (fun p => match p_mut p with None => true | Some _ => false end) ps = true ->
  forallb (fun p => match p_mut p with None => true | Some _ => false end) (map (norm_param c) ps) = true.
Proof.
  intros c ps H. rewrite forallb_forall in *. intros q Hq. apply in_map_iff in Hq. destruct Hq as (p & <- & Hp).
  specialize (H p Hp). unfold norm_param. cbn [p_mut]. destruct (p_mut p); [discriminate|reflexivity].
Qed.

Lemma verify_mutators_nomut : forall scope s,
  forallb (fun p => match p_mut p with None => true | Some _ => false end) (s_params s) = true ->
  verify_mutators scope s = true.
Proof.
  intros scope s H. unfold verify_mutators. rewrite forallb_forall in *. intros p Hp. specialize (H p Hp).
  destruct (p_mut p); [discriminate|reflexivity].
Qed.

Lemma read_items_of : forall env scope c s, wf_sig env scope c s = true ->
  exists P R K,
    s_params s = P ++ R ++ K /\
    Forall (has_kind PosOnly) P /\ Forall (has_kind Regular) R /\ Forall (has_kind KwOnly) K /\
    build_rsig 0 (mkRS [] [] None [] None) false (items_of c s) =
      Some (mkRS (rps c P) (rps c R) (option_map (rp_star c) (s_star s)) (rps c K)
                 (option_map (rp_star c) (s_sstar s))) /\
    defaults_ok false (rps c P ++ rps c R) = true /\
    conv_star env (option_map (rp_star c) (s_star s)) = Some (option_map (norm_star c) (s_star s)) /\
    conv_sstar env (option_map (rp_star c) (s_sstar s)) = Some (option_map (norm_sstar c) (s_sstar s)).
Proof.
  intros env scope c s Hwf.
  destruct (wf_sig_parts env scope c s Hwf) as (Hps & Hk & Hd & Hst & Hss & Hret & Hnev).
  destruct (kinds_split (s_params s) Hk) as (P & R & K & Eps & HP & HR & HK).
  exists P, R, K. repeat split; try assumption.
  - unfold items_of. rewrite Eps.
    replace (match s_sstar s with Some st => [IDStar (rp_star c st)] | None => [] end)
      with (match option_map (rp_star c) (s_sstar s) with Some p => [IDStar p] | None => [] end)
      by (destruct (s_sstar s); reflexivity).
    apply (build_items c P R K); try assumption.
    + intros p Ep. destruct (s_star s); [|discriminate]. injection Ep as <-. reflexivity.
    + intros p Ep. destruct (s_sstar s); [|discriminate]. injection Ep as <-. reflexivity.
  - unfold rps. rewrite <- map_app. fold (rps c (P ++ R)).
    rewrite <- (defaults_ok_rps c (P ++ R) K false), <- app_assoc, <- Eps; [exact Hd | | exact HK].
    apply Forall_app. split; [eapply Forall_impl; [|exact HP] | eapply Forall_impl; [|exact HR]];
      intros p Hp; unfold has_kind in Hp; rewrite Hp; discriminate.
  - destruct (s_star s) as [st|] eqn:Es; [|reflexivity]. cbn [option_map]. apply conv_star_ok, Hst. reflexivity.
  - destruct (s_sstar s) as [st|] eqn:Es; [|reflexivity]. cbn [option_map]. apply conv_sstar_ok, Hss. reflexivity.
Qed.

Lemma simple_sig_parts : forall c s, simple_sig c s = true ->
  forallb (fun p => match p_mut p with None => true | Some _ => false end) (s_params s) = true /\
  self_mutated c s = false.
Proof.
  intros c s H. apply andb_true_iff in H. destruct H as [Hm Hs]. apply negb_true_iff in Hs. split; assumption.
Qed.

Theorem parse_sig_print_lemma : forall env scope c s,
  wf_sig env scope c s = true -> simple_sig c s = true ->
  parse_sig env scope (print_sig c s) = Some (norm_sig c s).
Proof.
  intros env scope c s Hwf Hsimple.
  destruct (simple_sig_parts c s Hsimple) as [Hmut Hself].
  destruct (print_sig_items env scope c s Hwf Hmut) as (E & W & Wr & Cr).
  destruct (wf_sig_parts env scope c s Hwf) as (Hps & Hk & Hd & Hst & Hss & Hret & Hnev).
  rewrite E. rewrite (parse_sig_tokens env scope _ _ W Wr).
  destruct (read_items_of env scope c s Hwf) as (P & R & K & Eps & HP & HR & HK & Hb & Hdef & Cst & Csst).
  unfold finish_sig. rewrite Hb. cbn [rs_pos rs_reg rs_star rs_kw rs_sstar].
  rewrite Hdef.
  assert (Hin: forall X, (forall p, In p X -> In p (s_params s)) ->
            forall p, In p X -> wf env (p_ty p) = true /\ p_mut p = None).
  { intros X HX p Hp. split; [apply Hps; apply HX; exact Hp|].
    rewrite forallb_forall in Hmut. specialize (Hmut p (HX p Hp)). destruct (p_mut p); [discriminate|reflexivity]. }
  rewrite (conv_params env c PosOnly P HP) by (apply Hin; intros p Hp; rewrite Eps; apply in_or_app; left; exact Hp).
  rewrite (conv_params env c Regular R HR) by (apply Hin; intros p Hp; rewrite Eps; apply in_or_app; right; apply in_or_app; left; exact Hp).
  rewrite (conv_params env c KwOnly K HK) by (apply Hin; intros p Hp; rewrite Eps; apply in_or_app; right; apply in_or_app; right; exact Hp).
  rewrite Cst, Csst, Cr. cbv beta iota zeta.
  rewrite <- !map_app. rewrite <- Eps.
  assert (Hselfm: match first_param (mkRS (rps c P) (rps c R) (option_map (rp_star c) (s_star s)) (rps c K) (option_map (rp_star c) (s_sstar s))),
                        map (norm_param c) (s_params s) with
                  | Some fp, q :: _ =>
                      if (r_name fp =? id_self)%N && match r_ann fp with Some e => expr_is_generic e | None => false end
                      then [(id_self, p_ty q)] else []
                  | _, _ => []
                  end = []).
  { unfold first_param. cbn [rs_pos rs_reg rs_kw]. unfold rps. rewrite <- !map_app. rewrite <- Eps.
    unfold self_mutated in Hself.
    destruct (s_params s) as [|p0 pr]; [reflexivity|]. cbn [map].
    unfold rp_param, rp_of. cbn [r_name r_ann].
    destruct (p_name p0 =? id_self)%N; [|reflexivity]. cbn [andb] in *.
    destruct (elided c (p_name p0) (p_ty p0) (print_ty (ctx_param c) (p_ty p0))); [reflexivity|].
    cbn [negb andb] in Hself.
    destruct (print_to_expr env (ctx_param c) (p_ty p0) (Hps p0 (or_introl eq_refl))) as [Ep0 _].
    rewrite Ep0, prints_generic_flat in Hself. rewrite Hself. reflexivity. }
  rewrite Hselfm. cbn [app apply_mutators].
  rewrite verify_mutators_nomut by (cbn [s_params]; apply norm_param_nomut; exact Hmut).
  unfold norm_sig. rewrite Hself.
  destruct (s_star s), (s_sstar s), (map (norm_param c) (s_params s)); reflexivity.
Qed.

Lemma elided_any : forall c nm printed, elided c nm AnyT printed = true.
Proof. reflexivity. Qed.

(* the annotation is left out for Any; otherwise the rule looks only at the printed text *)
Lemma elided_eq : forall c nm t printed, elided c nm t printed = is_any t || elided c nm NothingT printed.
Proof. intros. destruct t; reflexivity. Qed.

Lemma print_param_norm : forall env c nm t opt,
  wf env t = true -> stable (ctx_param c) t = true -> any_ok c t = true ->
  print_param c nm (norm_pty c nm t) opt = print_param c nm t opt.
Proof.
  intros env c nm t opt Hw Hs Ha. unfold norm_pty, print_param.
  destruct (elided c nm t (print_ty (ctx_param c) t)) eqn:El; [reflexivity|].
  change (ctx_param (ctx_param c)) with (ctx_param c).
  rewrite (print_norm_lemma env (ctx_param c) t Hw Hs).
  rewrite elided_eq in El |- *. apply orb_false_iff in El. destruct El as [Ea Ee].
  unfold any_ok in Ha. rewrite Ea in Ha. apply negb_true_iff in Ha. rewrite Ha, Ee. reflexivity.
Qed.

Lemma norm_param_kind : forall c p, p_kind (norm_param c p) = p_kind p. Proof. reflexivity. Qed.
Lemma norm_param_name : forall c p, p_name (norm_param c p) = p_name p. Proof. reflexivity. Qed.
Lemma norm_param_opt : forall c p, p_opt (norm_param c p) = p_opt p. Proof. reflexivity. Qed.
Lemma norm_param_ty : forall c p, p_ty (norm_param c p) = norm_pty c (p_name p) (p_ty p). Proof. reflexivity. Qed.

Lemma params_loop_norm : forall env c ps star,
  (forall p, In p ps -> wf env (p_ty p) = true /\ stable (ctx_param c) (p_ty p) = true /\ any_ok c (p_ty p) = true) ->
  params_loop c (map (norm_param c) ps) star = params_loop c ps star.
Proof.
  intros env c ps star. induction ps as [|p rest IH]; intros H; [reflexivity|].
  assert (Hq: forall q, In q (p :: rest) ->
            print_param c (p_name (norm_param c q)) (p_ty (norm_param c q)) (p_opt (norm_param c q)) =
            print_param c (p_name q) (p_ty q) (p_opt q)).
  { intros q Hq. rewrite norm_param_name, norm_param_ty, norm_param_opt.
    destruct (H q Hq) as (A & B & C). apply (print_param_norm env); assumption. }
  assert (Hrest: forall q, In q rest -> wf env (p_ty q) = true /\ stable (ctx_param c) (p_ty q) = true /\ any_ok c (p_ty q) = true)
    by (intros q Hq'; apply H; right; exact Hq').
  cbn [map params_loop]. rewrite norm_param_kind.
  destruct (pkind_eqb (p_kind p) KwOnly).
  - f_equal. cbn [map]. f_equal; [apply Hq; left; reflexivity|].
    rewrite map_map. apply map_ext_in. intros q Hq'. apply Hq. right. exact Hq'.
  - rewrite (Hq p (or_introl eq_refl)). f_equal. rewrite (IH Hrest). f_equal.
    destruct rest as [|q r]; [reflexivity|]. cbn [map]. rewrite norm_param_kind. reflexivity.
Qed.

(* *args and **kwargs are printed from the element type alone, which the reader gives back as norm_pty *)
Lemma print_container_norm : forall env c d st st',
  wf_container env d st = true ->
  stable (ctx_param c) (container_elem (snd st)) = true -> any_ok c (container_elem (snd st)) = true ->
  fst st' = fst st -> container_elem (snd st') = norm_pty c (fst st) (container_elem (snd st)) ->
  print_container c st' = print_container c st.
Proof.
  intros env c d st st' Hw Hs Ha E1 E2. rewrite !print_container_param, E1, E2.
  apply (print_param_norm env); [exact (wf_container_elem env d st Hw) | exact Hs | exact Ha].
Qed.

Lemma print_container_norm_star : forall env c st,
  wf_container env false st = true ->
  stable (ctx_param c) (container_elem (snd st)) = true -> any_ok c (container_elem (snd st)) = true ->
  print_container c (norm_star c st) = print_container c st.
Proof.
  intros env c st Hw Hs Ha. apply (print_container_norm env c false); try assumption; unfold norm_star, norm_pty;
    destruct (elided c (fst st) _ _); reflexivity.
Qed.

Lemma print_container_norm_sstar : forall env c st,
  wf_container env true st = true ->
  stable (ctx_param c) (container_elem (snd st)) = true -> any_ok c (container_elem (snd st)) = true ->
  print_container c (norm_sstar c st) = print_container c st.
Proof.
  intros env c st Hw Hs Ha. apply (print_container_norm env c true); try assumption; unfold norm_sstar, norm_pty;
    destruct (elided c (fst st) _ _); reflexivity.
Qed.

Lemma norm_sig_simple : forall c s, self_mutated c s = false ->
  norm_sig c s =
  mkSig (map (norm_param c) (s_params s))
        (match s_star s with Some st => Some (norm_star c st) | None => None end)
        (match s_sstar s with Some st => Some (norm_sstar c st) | None => None end)
        (norm_ret c (s_ret s)).
Proof. intros c s H. unfold norm_sig. rewrite H. destruct (map (norm_param c) (s_params s)); reflexivity. Qed.

Lemma print_body_norm : forall env c ps,
  (forall p m, In p ps -> p_mut p = Some m -> wf env m = true /\ stable (ctx_plain c) m = true) ->
  print_body c (map (norm_param c) ps) = print_body c ps.
Proof.
  intros env c ps H. unfold print_body. rewrite !flat_map_concat_map, map_map.
  erewrite map_ext_in; [reflexivity|].
  intros p Hp. unfold norm_param. cbn [p_mut p_name]. destruct (p_mut p) as [m|] eqn:Em; [|reflexivity].
  destruct (H p m Hp Em) as [Hw Hs]. change (ctx_plain (ctx_plain c)) with (ctx_plain c).
  rewrite (print_norm_lemma env (ctx_plain c) m Hw Hs). reflexivity.
Qed.

Lemma print_norm_ret : forall env c t, wf env t = true -> stable (ctx_plain c) t = true ->
  (if tokens_eqb (print_ty (ctx_plain c) (norm_ret c t)) [TName id_nothing] then [TName id_Never]
   else print_ty (ctx_plain c) (norm_ret c t)) =
  (if tokens_eqb (print_ty (ctx_plain c) t) [TName id_nothing] then [TName id_Never] else print_ty (ctx_plain c) t).
Proof.
  intros env c t Hw Hs. unfold norm_ret.
  destruct (tokens_eqb (print_ty (ctx_plain c) t) [TName id_nothing]) eqn:En; [reflexivity|].
  change (ctx_plain (ctx_plain c)) with (ctx_plain c).
  rewrite (print_norm_lemma env (ctx_plain c) t Hw Hs), En. reflexivity.
Qed.

(* type mutations are allowed: stable_sig alone excludes the implicit one for a generic self *)
Theorem print_sig_norm_general : forall env scope c s,
  wf_sig env scope c s = true -> stable_sig c s = true ->
  print_sig c (norm_sig c s) = print_sig c s.
Proof.
  intros env scope c s Hwf Hst.
  destruct (wf_sig_parts env scope c s Hwf) as (Hps & Hk & Hd & Hstar & Hsstar & Hret & Hnev).
  unfold stable_sig in Hst. apply andb_true_iff in Hst. destruct Hst as [Hst Hself]. apply negb_true_iff in Hself.
  destruct (andb4 _ _ _ _ Hst) as (Sp & Sstar & Ssstar & Sret). clear Hst. rename Sp into Hst.
  assert (Hall: forall p, In p (s_params s) -> wf env (p_ty p) = true /\ stable (ctx_param c) (p_ty p) = true /\ any_ok c (p_ty p) = true).
  { intros p Hp. rewrite forallb_forall in Hst. specialize (Hst p Hp).
    destruct (andb3 _ _ _ Hst) as (A & B & _). repeat split; [apply Hps; exact Hp | exact A | exact B]. }
  rewrite (norm_sig_simple c s Hself). unfold print_sig. cbn [s_params s_star s_sstar s_ret]. cbv zeta.
  rewrite (print_norm_ret env c (s_ret s) Hret Sret), (params_loop_norm env c _ _ Hall), (print_body_norm env c (s_params s)).
  - destruct (s_star s) as [st|].
    + apply andb_true_iff in Sstar. destruct Sstar as [A B].
      rewrite (print_container_norm_star env c st (Hstar st eq_refl) A B).
      destruct (s_sstar s) as [sst|]; [|reflexivity]. apply andb_true_iff in Ssstar. destruct Ssstar as [A' B'].
      rewrite (print_container_norm_sstar env c sst (Hsstar sst eq_refl) A' B'). reflexivity.
    + destruct (s_sstar s) as [sst|]; [|reflexivity]. apply andb_true_iff in Ssstar. destruct Ssstar as [A' B'].
      rewrite (print_container_norm_sstar env c sst (Hsstar sst eq_refl) A' B'). reflexivity.
  - intros p m Hp Em. split; [exact (wf_sig_mut env scope c s p m Hwf Hp Em)|].
    rewrite forallb_forall in Hst. specialize (Hst p Hp). rewrite Em in Hst. apply andb_true_iff in Hst. apply Hst.
Qed.

Theorem print_sig_norm_lemma : forall env scope c s,
  wf_sig env scope c s = true -> simple_sig c s = true -> stable_sig c s = true ->
  print_sig c (norm_sig c s) = print_sig c s.
Proof. intros env scope c s Hwf _ Hst. apply (print_sig_norm_general env scope); assumption. Qed.

Lemma pkind_eqb_refl : forall k, pkind_eqb k k = true.
Proof. destruct k; reflexivity. Qed.

Lemma star_eq_norm_star : forall env c st,
  wf_container env false st = true -> stable (ctx_param c) (container_elem (snd st)) = true ->
  star_shape_t c st = true -> star_eq (norm_star c st) (fst st, unqual (snd st)) = true.
Proof.
  intros env c [nm t] Hw Hs Hsh. pose proof (wf_container_elem env _ _ Hw) as Hwe.
  unfold star_shape_t in Hsh. unfold star_eq, norm_star. cbn [fst snd] in *.
  destruct t; try discriminate.
  - cbn [container_elem]. rewrite elided_any. cbn [fst snd unqual ty_eq]. rewrite N.eqb_refl. exact Hsh.
  - destruct ps as [|e [|e2 pr]]; try discriminate. destruct (andb3 _ _ _ Hsh) as (En & Enel & Ee).
    apply negb_true_iff in Enel. cbn [container_elem last] in *. rewrite Enel. cbn [fst snd unqual ty_eq map list_eqb].
    rewrite N.eqb_refl, En, (reparse_equal_lemma env (ctx_param c) e Hwe Hs Ee). reflexivity.
Qed.

Lemma star_eq_norm_sstar : forall env c st,
  wf_container env true st = true -> stable (ctx_param c) (container_elem (snd st)) = true ->
  star_shape_d c st = true -> star_eq (norm_sstar c st) (fst st, unqual (snd st)) = true.
Proof.
  intros env c [nm t] Hw Hs Hsh. pose proof (wf_container_elem env _ _ Hw) as Hwe.
  unfold star_shape_d in Hsh. unfold star_eq, norm_sstar. cbn [fst snd] in *.
  destruct t; try discriminate.
  - cbn [container_elem]. rewrite elided_any. cbn [fst snd unqual ty_eq]. rewrite N.eqb_refl. exact Hsh.
  - destruct ps as [|k [|e [|e3 pr]]]; try discriminate. destruct (andb4 _ _ _ _ Hsh) as (En & Ek & Enel & Ee).
    apply negb_true_iff in Enel. cbn [container_elem last] in *. rewrite Enel. cbn [fst snd unqual ty_eq map list_eqb].
    cbn [ty_eq unqual] in Ek. rewrite N.eqb_refl, En, Ek, (reparse_equal_lemma env (ctx_param c) e Hwe Hs Ee). reflexivity.
Qed.

Theorem sig_reparse_equal_general : forall env scope c s,
  wf_sig env scope c s = true -> stable_sig c s = true -> eq_stable_sig c s = true ->
  forallb (fun p => match p_mut p with Some m => eq_stable (ctx_plain c) m | None => true end) (s_params s) = true ->
  sig_eq (norm_sig c s) (unqual_sig s) = true.
Proof.
  intros env scope c s Hwf Hst Heq Hmeq.
  destruct (wf_sig_parts env scope c s Hwf) as (Hps & Hk & Hd & Hstar & Hsstar & Hret & Hnev).
  unfold stable_sig in Hst. apply andb_true_iff in Hst. destruct Hst as [Hst Hself]. apply negb_true_iff in Hself.
  destruct (andb4 _ _ _ _ Hst) as (Sp & Sstar & Ssstar & Sret). clear Hst. rename Sp into Hst.
  unfold eq_stable_sig in Heq. apply andb_true_iff in Heq. destruct Heq as [Heq Enn]. apply negb_true_iff in Enn.
  destruct (andb4 _ _ _ _ Heq) as (Ep & Estar & Esstar & Eret). clear Heq. rename Ep into Heq.
  rewrite (norm_sig_simple c s Hself). unfold sig_eq, unqual_sig. cbn [s_params s_star s_sstar s_ret].
  repeat (apply andb_true_iff; split).
  - apply list_eqb_map. intros p Hp. unfold param_eq, norm_param, unqual_param. cbn [p_name p_ty p_kind p_opt p_mut].
    rewrite N.eqb_refl, pkind_eqb_refl, Bool.eqb_reflx.
    rewrite forallb_forall in Hmeq, Hst, Heq. specialize (Hmeq p Hp). specialize (Hst p Hp). specialize (Heq p Hp).
    destruct (andb3 _ _ _ Hst) as (St & _ & Sm).
    assert (Emut: opt_eq ty_eq (match p_mut p with Some m => Some (norm (ctx_plain c) m) | None => None end)
                               (match p_mut p with Some m => Some (unqual m) | None => None end) = true).
    { destruct (p_mut p) as [m|] eqn:Em; [|reflexivity].
      apply (reparse_equal_lemma env); [exact (wf_sig_mut env scope c s p m Hwf Hp Em) | exact Sm | exact Hmeq]. }
    rewrite Emut, !andb_true_r.
    apply andb_true_iff in Heq. destruct Heq as [Et Hshown].
    unfold norm_pty, shown in *.
    destruct (elided c (p_name p) (p_ty p) (print_ty (ctx_param c) (p_ty p))).
    + rewrite orb_false_r in Hshown. destruct (p_ty p); try discriminate. reflexivity.
    + apply (reparse_equal_lemma env); [apply Hps; exact Hp | exact St | exact Et].
  - destruct (s_star s) as [st|]; [|reflexivity]. apply andb_true_iff in Sstar.
    apply (star_eq_norm_star env); [apply Hstar; reflexivity | apply Sstar | exact Estar].
  - destruct (s_sstar s) as [st|]; [|reflexivity]. apply andb_true_iff in Ssstar.
    apply (star_eq_norm_sstar env); [apply Hsstar; reflexivity | apply Ssstar | exact Esstar].
  - unfold norm_ret. rewrite Enn. apply (reparse_equal_lemma env); assumption.
Qed.

Theorem sig_reparse_equal_lemma : forall env scope c s,
  wf_sig env scope c s = true -> simple_sig c s = true -> stable_sig c s = true -> eq_stable_sig c s = true ->
  sig_eq (norm_sig c s) (unqual_sig s) = true.
Proof.
  intros env scope c s Hwf Hsimple Hst Heq. apply (sig_reparse_equal_general env scope); try assumption.
  destruct (simple_sig_parts c s Hsimple) as [Hmut _]. rewrite forallb_forall in *.
  intros p Hp. specialize (Hmut p Hp). destruct (p_mut p); [discriminate|reflexivity].
Qed.

Theorem sig_verify_ok_lemma : forall env scope c s,
  wf_sig env scope c s = true -> simple_sig c s = true -> verify_sig (norm_sig c s) = true.
Proof.
  intros env scope c s Hwf Hsimple.
  destruct (simple_sig_parts c s Hsimple) as [Hmut Hself].
  destruct (wf_sig_parts env scope c s Hwf) as (Hps & Hk & Hd & Hstar & Hsstar & Hret & Hnev).
  rewrite (norm_sig_simple c s Hself). unfold verify_sig. cbn [s_params s_star s_sstar s_ret].
  repeat (apply andb_true_iff; split).
  - rewrite forallb_forall. intros q Hq. apply in_map_iff in Hq. destruct Hq as (p & <- & Hp).
    unfold norm_param. cbn [p_ty p_mut]. rewrite forallb_forall in Hmut. specialize (Hmut p Hp).
    destruct (p_mut p); [discriminate|]. rewrite andb_true_r. unfold norm_pty.
    destruct (elided c (p_name p) (p_ty p) (print_ty (ctx_param c) (p_ty p))); [reflexivity|].
    apply (verify_ok_lemma env). apply Hps. exact Hp.
  - destruct (s_star s) as [[nm t]|] eqn:Es; [|reflexivity]. specialize (Hstar _ eq_refl).
    unfold norm_star. cbn [fst snd].
    destruct (elided c nm (container_elem t) (print_ty (ctx_param c) (container_elem t))); [reflexivity|].
    cbn [snd verify_ty forallb]. rewrite andb_true_r. apply (verify_ok_lemma env).
    exact (wf_container_elem env _ _ Hstar).
  - destruct (s_sstar s) as [[nm t]|] eqn:Es; [|reflexivity]. specialize (Hsstar _ eq_refl).
    unfold norm_sstar. cbn [fst snd].
    destruct (elided c nm (container_elem t) (print_ty (ctx_param c) (container_elem t))); [reflexivity|].
    cbn [snd verify_ty forallb]. rewrite andb_true_r. apply (verify_ok_lemma env).
    exact (wf_container_elem env _ _ Hsstar).
  - unfold norm_ret. destruct (tokens_eqb _ _); [reflexivity|]. apply (verify_ok_lemma env). exact Hret.
Qed.
