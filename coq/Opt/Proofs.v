(* C11 — lemmas about the optimiser model (Opt/Model.v): equality and semantics of types, what each pass
   keeps well-formed, the justified-rewrite relation (Opt/Rewrites.v) at the level of types — every type-level
   pass only rewrites, and a rewrite never narrows, which is where "never stricter" comes from (CollapseLongUnions
   excepted: with max_union 0 it is no rewrite of the relation, and its widening is proved directly) — then
   declarations and widening along any list of passes. *)
From Coq Require Import List Arith Bool Lia.
From PV Require Import Opt.Syntax Generated.C11_Passes Opt.Model Opt.Spec Opt.Rewrites.
Import ListNotations.

Section TyInd.
  Variable P : ty -> Prop.
  Hypothesis Hname : forall k c, P (TName k c).
  Hypothesis Hany : P TAny.
  Hypothesis Hnothing : P TNothing.
  Hypothesis Hlit : forall n, P (TLit n).
  Hypothesis Hunion : forall ts, Forall P ts -> P (TUnion ts).
  Hypothesis Hgen : forall k c ps, Forall P ps -> P (TGen k c ps).
  Hypothesis Htup : forall k c ps, Forall P ps -> P (TTup k c ps).
  Hypothesis Hcall : forall k c ps, Forall P ps -> P (TCall k c ps).
  Hypothesis Hvar : forall n sc hb ps, Forall P ps -> P (TVar n sc hb ps).
  Fixpoint ty_ind' (t : ty) : P t :=
    let fix go (l : list ty) : Forall P l :=
      match l with
      | [] => Forall_nil P
      | x :: r => Forall_cons x (ty_ind' x) (go r)
      end in
    match t with
    | TName k c => Hname k c
    | TAny => Hany
    | TNothing => Hnothing
    | TLit n => Hlit n
    | TUnion ts => Hunion ts (go ts)
    | TGen k c ps => Hgen k c ps (go ps)
    | TTup k c ps => Htup k c ps (go ps)
    | TCall k c ps => Hcall k c ps (go ps)
    | TVar n sc hb ps => Hvar n sc hb ps (go ps)
    end.
End TyInd.

Lemma kind_eqb_eq : forall a b, kind_eqb a b = true <-> a = b.
Proof. destruct a, b; simpl; split; congruence. Qed.

(* the list comparison nested in [ty_eqb] *)
Definition tys_eqb := fix go (l l' : list ty) : bool :=
  match l, l' with
  | [], [] => true
  | x :: r, y :: r' => ty_eqb x y && go r r'
  | _, _ => false
  end.

Lemma kind_eqb_refl : forall k, kind_eqb k k = true.
Proof. destruct k; reflexivity. Qed.

Lemma tys_eqb_refl : forall l, Forall (fun a => ty_eqb a a = true) l -> tys_eqb l l = true.
Proof. induction 1; simpl; [reflexivity | rewrite H, IHForall; reflexivity]. Qed.

Lemma ty_eqb_refl : forall a, ty_eqb a a = true.
Proof.
  induction a using ty_ind'; simpl; fold tys_eqb;
    rewrite ?kind_eqb_refl, ?Nat.eqb_refl, ?Bool.eqb_reflx; simpl;
    try (apply tys_eqb_refl; assumption); reflexivity.
Qed.

Lemma tys_eqb_sound : forall l, Forall (fun a => forall b, ty_eqb a b = true -> a = b) l ->
  forall l', tys_eqb l l' = true -> l = l'.
Proof.
  induction 1 as [|x r Hx _ IH]; destruct l' as [|y r']; simpl; intros E; try discriminate; [reflexivity|].
  apply andb_prop in E as [E1 E2]. f_equal; auto.
Qed.

(* off the diagonal the comparison is [false]; on it, field by field, each by the lemma for the field's type *)
Lemma ty_eqb_sound : forall a b, ty_eqb a b = true -> a = b.
Proof.
  induction a using ty_ind'; destruct b; intros E; try discriminate E; try reflexivity;
    simpl in E; fold tys_eqb in E; repeat (apply andb_prop in E as [E ?]);
    f_equal; first [apply kind_eqb_eq | apply Nat.eqb_eq | apply Bool.eqb_prop | apply (tys_eqb_sound _ H)];
    assumption.
Qed.

Lemma ty_eqb_eq : forall a b, ty_eqb a b = true <-> a = b.
Proof. split; [apply ty_eqb_sound | intros <-; apply ty_eqb_refl]. Qed.

Lemma mem_by_In : forall {A} (eqb : A -> A -> bool),
  (forall a b, eqb a b = true <-> a = b) -> forall x l, mem_by eqb x l = true <-> In x l.
Proof.
  intros A eqb He x l. unfold mem_by. rewrite existsb_exists. split.
  - intros [y [Hy E]]. apply He in E. subst; assumption.
  - intros Hin. exists x. split; [assumption | apply He; reflexivity].
Qed.

Lemma memb_In : forall x l, memb x l = true <-> In x l.
Proof. intros. apply mem_by_In. apply ty_eqb_eq. Qed.
Lemma memn_In : forall x l, memn x l = true <-> In x l.
Proof. intros. apply (mem_by_In Nat.eqb Nat.eqb_eq). Qed.

Lemma app_snoc : forall {A} (l : list A) x r, l ++ x :: r = (l ++ [x]) ++ r.
Proof. intros. rewrite <- app_assoc. reflexivity. Qed.

Lemma dedup_from_subset : forall {A} (eqb : A -> A -> bool) l seen x,
  In x (dedup_from eqb seen l) -> In x l.
Proof.
  induction l as [|y r IH]; simpl; intros seen x Hin; [contradiction|].
  destruct (mem_by eqb y seen); [eauto|]. destruct Hin; eauto.
Qed.
Lemma dedup_by_subset : forall {A} (eqb : A -> A -> bool) l x, In x (dedup_by eqb l) -> In x l.
Proof. intros A eqb l. apply dedup_from_subset. Qed.

Lemma dedup_from_cover : forall {A} (eqb : A -> A -> bool), (forall a, eqb a a = true) ->
  forall l seen x, In x l -> mem_by eqb x seen = true \/ mem_by eqb x (dedup_from eqb seen l) = true.
Proof.
  intros A eqb Hr. induction l as [|y r IH]; intros seen x Hin; simpl; [contradiction|].
  destruct (mem_by eqb y seen) eqn:E.
  - destruct Hin as [->|Hin]; auto.
  - change (mem_by eqb x (y :: dedup_from eqb (y :: seen) r)) with (eqb x y || mem_by eqb x (dedup_from eqb (y :: seen) r)).
    destruct Hin as [->|Hin]; [rewrite Hr; auto|].
    destruct (IH (y :: seen) x Hin) as [M|M]; [|rewrite M, orb_true_r; auto].
    change (eqb x y || mem_by eqb x seen = true) in M. apply orb_true_iff in M. destruct M as [->|M]; auto.
Qed.
Lemma dedup_by_cover : forall {A} (eqb : A -> A -> bool), (forall a, eqb a a = true) ->
  forall l x, In x l -> exists y, In y (dedup_by eqb l) /\ eqb x y = true.
Proof.
  intros A eqb Hr l x Hin. destruct (dedup_from_cover eqb Hr l [] x Hin) as [M|M]; [discriminate|].
  apply existsb_exists in M. exact M.
Qed.

Lemma dedup_In : forall x l, In x (dedup l) <-> In x l.
Proof.
  intros x l. split; [apply dedup_by_subset|]. intros Hin.
  destruct (dedup_by_cover ty_eqb ty_eqb_refl l x Hin) as [y [Hy E]]. apply ty_eqb_eq in E. subst; assumption.
Qed.

Lemma wider_refl : forall H t, wider H t t.
Proof. unfold wider; auto. Qed.
Lemma wider_trans : forall H a b c, wider H a b -> wider H b c -> wider H a c.
Proof. unfold wider; auto. Qed.

Fixpoint gen_ok (H : hier) (ps : list ty) (cs : list (list value)) : Prop :=
  match ps, cs with
  | p :: ps', c0 :: cs' => Forall (admits H p) c0 /\ gen_ok H ps' cs'
  | _, _ => True
  end.

Lemma admits_union : forall H ts v, admits H (TUnion ts) v <-> exists t, In t ts /\ admits H t v.
Proof.
  intros H ts v. simpl. induction ts as [|t r IH]; simpl.
  - split; [contradiction | intros [? [[] _]]].
  - rewrite IH. split.
    + intros [Ha | [t' [Hin Ha]]]; [exists t; auto | exists t'; auto].
    + intros [t' [[->|Hin] Ha]]; [left; assumption | right; exists t'; auto].
Qed.

Lemma admits_all : forall H p vs,
  (fix all (vs : list value) : Prop := match vs with [] => True | x :: r => admits H p x /\ all r end) vs
  <-> Forall (admits H p) vs.
Proof.
  induction vs as [|x r IH]; simpl; split; auto.
  - intros [? ?]; constructor; [assumption | apply IH; assumption].
  - intros F; inversion F; subst. split; [assumption | apply IH; assumption].
Qed.

Lemma admits_gen : forall H k c ps v,
  admits H (TGen k c ps) v <-> Sub H (cls_of v) c /\ gen_ok H ps (contents_of v).
Proof.
  intros H k c ps v. simpl. apply and_iff_compat_l.
  generalize (contents_of v). induction ps as [|p r IH]; intros cs; simpl; [tauto|].
  destruct cs as [|c0 cs']; [tauto|]. rewrite IH, admits_all. tauto.
Qed.

Lemma admits_tup : forall H k c ps v,
  admits H (TTup k c ps) v <->
  exists items, v = Tup items /\ Sub H c_tuple c /\ Forall2 (admits H) ps items.
Proof.
  intros H k c ps v. destruct v as [d cs|items|a r|n]; simpl;
    try (split; [contradiction | intros [? [E _]]; discriminate]).
  split.
  - intros [Hs Hf]. exists items. split; [reflexivity|]. split; [assumption|].
    clear Hs. revert items Hf.
    induction ps as [|p r IH]; intros items Hf; destruct items as [|x items']; try contradiction.
    + constructor.
    + destruct Hf as [Ha Hb]. constructor; [exact Ha | apply IH; exact Hb].
  - intros [items' [E [Hs Hf]]]. inversion E; subst items'. split; [assumption|]. clear E.
    induction Hf; [exact I | split; assumption].
Qed.

Lemma admits_call : forall H k c ps v,
  admits H (TCall k c ps) v <->
  exists a r, v = Fn a r /\ Sub H c_callable c /\ length ps = S a /\ admits H (last_or TNothing ps) r.
Proof.
  intros H k c ps v. destruct v as [d cs|items|a r|n]; simpl;
    try (split; [contradiction | intros [? [? [E _]]]; discriminate]).
  assert (L : (fix lst (ps0 : list ty) : Prop :=
                 match ps0 with
                 | [] => False
                 | p :: r' => match r' with [] => admits H p r | _ :: _ => lst r' end
                 end) ps <-> admits H (last_or TNothing ps) r).
  { induction ps as [|p r' IH]; simpl; [tauto|]. destruct r'; [tauto | exact IH]. }
  rewrite L. split.
  - intros [? [? ?]]. exists a, r. auto.
  - intros [a' [r' [E [? [? ?]]]]]. inversion E; subst. auto.
Qed.

Lemma admits_kind : forall H t v k k',
  match t with
  | TName _ c => admits H (TName k c) v <-> admits H (TName k' c) v
  | TGen _ c ps => admits H (TGen k c ps) v <-> admits H (TGen k' c ps) v
  | TTup _ c ps => admits H (TTup k c ps) v <-> admits H (TTup k' c ps) v
  | TCall _ c ps => admits H (TCall k c ps) v <-> admits H (TCall k' c ps) v
  | _ => True
  end.
Proof. intros; destruct t; simpl; tauto. Qed.

Lemma Sub_trans : forall H a b c, Sub H a b -> Sub H b c -> Sub H a c.
Proof. intros H a b c S1; induction S1; intros S2; [assumption | econstructor; eauto]. Qed.

(* prefix-pointwise widening of parameter lists: [ps'] may be shorter (zip truncation) *)
Inductive pw (H : hier) : list ty -> list ty -> Prop :=
| pw_nil : forall qs, pw H qs []
| pw_cons : forall q p qs ps, wider H q p -> pw H qs ps -> pw H (q :: qs) (p :: ps).

Lemma pw_refl : forall H l, pw H l l.
Proof. induction l; constructor; [apply wider_refl | assumption]. Qed.
Lemma pw_length : forall H a b, pw H a b -> length b <= length a.
Proof. induction 1; simpl; lia. Qed.

Lemma gen_ok_pw : forall H qs ps, pw H qs ps -> forall cs, gen_ok H qs cs -> gen_ok H ps cs.
Proof.
  induction 1; intros cs G; simpl; [destruct cs; exact I|].
  destruct cs as [|c0 cs']; [exact I|]. simpl in G. destruct G as [G1 G2]. split.
  - eapply Forall_impl; [|exact G1]. intros; apply H0; assumption.
  - apply IHpw; assumption.
Qed.

Lemma pw_Forall2_admits : forall H qs ps, pw H qs ps -> length ps = length qs ->
  forall items, Forall2 (admits H) qs items -> Forall2 (admits H) ps items.
Proof.
  induction 1; intros L items F.
  - destruct qs; [assumption | discriminate].
  - inversion F; subst. constructor; [apply H0; assumption | apply IHpw; [simpl in L; lia | assumption]].
Qed.

Lemma last_or_pw : forall H qs ps, pw H qs ps -> length ps = length qs ->
  wider H (last_or TNothing qs) (last_or TNothing ps).
Proof.
  induction 1; intros L.
  - destruct qs; [apply wider_refl | discriminate].
  - simpl in L. destruct qs as [|q' qs']; destruct ps as [|p' ps']; simpl in *; try lia.
    + assumption.
    + apply IHpw. lia.
Qed.

Lemma wider_gen : forall H k k' c qs ps, pw H qs ps -> wider H (TGen k c qs) (TGen k' c ps).
Proof.
  intros H k k' c qs ps P v. rewrite !admits_gen. intros [S G]. split; [assumption|].
  eapply gen_ok_pw; eassumption.
Qed.
Lemma wider_tup : forall H k k' c qs ps, pw H qs ps -> length ps = length qs ->
  wider H (TTup k c qs) (TTup k' c ps).
Proof.
  intros H k k' c qs ps P L v. rewrite !admits_tup. intros [items [E [S F]]]. exists items.
  repeat split; try assumption. eapply pw_Forall2_admits; eassumption.
Qed.
Lemma wider_call : forall H k k' c qs ps, pw H qs ps -> length ps = length qs ->
  wider H (TCall k c qs) (TCall k' c ps).
Proof.
  intros H k k' c qs ps P L v. rewrite !admits_call. intros [a [r [E [S [Ln A]]]]]. exists a, r.
  repeat split; try assumption; [congruence|]. eapply last_or_pw; eassumption.
Qed.

(* a type parameter is its upper value *)
Definition upper (hb : bool) (ps : list ty) : ty :=
  match ps with
  | [] => TAny
  | b :: cs => if hb then match cs with [] => b | _ => TUnion cs end else TUnion (b :: cs)
  end.
Lemma admits_var : forall H n sc hb ps v, admits H (TVar n sc hb ps) v <-> admits H (upper hb ps) v.
Proof. intros H n sc hb ps v. destruct ps as [|b cs]; simpl; [tauto|]. destruct hb; destruct cs; simpl; tauto. Qed.
Lemma union_pw : forall H qs ps, pw H qs ps -> length ps = length qs -> wider H (TUnion qs) (TUnion ps).
Proof.
  induction 1; intros L v A.
  - destruct qs; [assumption | discriminate].
  - apply admits_union in A. destruct A as [t [[<-|Hin] A]]; apply admits_union.
    + exists p. split; [left; reflexivity | apply H0; assumption].
    + assert (A' : admits H (TUnion ps) v).
      { apply IHpw; [simpl in L; lia|]. apply admits_union. exists t; auto. }
      apply admits_union in A'. destruct A' as [t' [Hin' A']]. exists t'. split; [right; assumption | assumption].
Qed.
Lemma union_wider : forall H l l',
  (forall t, In t l -> exists t', In t' l' /\ wider H t t') -> wider H (TUnion l) (TUnion l').
Proof.
  intros H l l' C v A. apply admits_union in A. destruct A as [t [Hin A]].
  destruct (C t Hin) as [t' [Hin' W]]. apply admits_union. exists t'. auto.
Qed.
Lemma wider_var : forall H n sc hb qs ps, pw H qs ps -> length ps = length qs ->
  wider H (TVar n sc hb qs) (TVar n sc hb ps).
Proof.
  intros H n sc hb qs ps P L v. rewrite !admits_var. destruct P as [qs|q p qs ps W P].
  - destruct qs; [auto | discriminate].
  - simpl in L. assert (L' : length ps = length qs) by lia.
    unfold upper. destruct hb.
    + destruct qs as [|q' qs']; destruct ps as [|p' ps']; try discriminate; [apply W|].
      apply (union_pw H (q' :: qs') (p' :: ps')); assumption.
    + apply (union_pw H (q :: qs) (p :: ps)); [constructor; assumption | simpl; lia].
Qed.

Lemma unbounded_admits : forall H t v, unbounded_var t -> admits H t v.
Proof. intros H t v [n [sc [hb ->]]]. exact I. Qed.

Lemma pw_map : forall H (f : ty -> ty) l, Forall (fun t => wider H t (f t)) l -> pw H l (map f l).
Proof. induction 1; simpl; constructor; assumption. Qed.

Lemma flat_sound : forall H t v, admits H t v <-> exists x, In x (flat t) /\ admits H x v.
Proof.
  intros H t; induction t using ty_ind'; intros v;
    try (simpl; split; [intros A; eexists; split; [left; reflexivity | exact A]
                       | intros [x [[<-|[]] A]]; exact A]).
  - simpl. split; [contradiction | intros [x [[] _]]].
  - rewrite admits_union. change (flat (TUnion ts)) with (flat_map flat ts). split.
    + intros [t [Hin A]]. rewrite Forall_forall in H0. apply (H0 t Hin) in A.
      destruct A as [x [Hx A]]. exists x. split; [apply in_flat_map; exists t; auto | assumption].
    + intros [x [Hx A]]. apply in_flat_map in Hx. destruct Hx as [t [Hin Hx]]. exists t. split; [assumption|].
      rewrite Forall_forall in H0. apply (H0 t Hin). exists x; auto.
Qed.

(* what [join] returns, by the shape of the de-duplicated flattened member list [l] *)
Inductive join_spec (l : list ty) : ty -> Prop :=
| join_one : forall x, l = [x] -> join_spec l x
| join_optional_any : forall c, In TAny l -> In (TName KNamed c) l -> c = c_none \/ c = c_none_unresolved ->
    join_spec l (TUnion [TAny; TName KNamed c_none])
| join_any : In TAny l -> join_spec l TAny
| join_empty : l = [] -> join_spec l TNothing
| join_union : join_spec l (TUnion l).

Lemma join_cases : forall ts, join_spec (dedup (flat_map flat ts)) (join ts).
Proof.
  intros ts. unfold join. generalize (dedup (flat_map flat ts)). intros l.
  assert (G : join_spec l (if existsb is_any l
                           then if existsb is_named_none l then TUnion [TAny; TName KNamed c_none] else TAny
                           else match l with [] => TNothing | _ => TUnion l end)).
  { destruct (existsb is_any l) eqn:Ea.
    - apply existsb_exists in Ea. destruct Ea as [a [Ha Ea]]. destruct a; try discriminate.
      destruct (existsb is_named_none l) eqn:En; [|apply join_any; assumption].
      apply existsb_exists in En. destruct En as [n [Hn En]]. destruct n as [[] c| | | | | | | |]; try discriminate.
      apply orb_true_iff in En. rewrite !Nat.eqb_eq in En. eapply join_optional_any; eassumption.
    - destruct l; [apply join_empty; reflexivity | apply join_union]. }
  destruct l as [|y [|z r]]; try exact G. apply join_one; reflexivity.
Qed.

Lemma join_widens : forall H ts t, In t ts -> wider H t (join ts).
Proof.
  intros H ts t Hin v A. apply flat_sound in A. destruct A as [x [Hx A]].
  assert (Hl : In x (dedup (flat_map flat ts))) by (apply dedup_In, in_flat_map; eauto).
  destruct (join_cases ts) as [y E | c _ _ _ | _ | E | ]; try rewrite E in Hl.
  - destruct Hl as [->|[]]. exact A.
  - simpl; auto.
  - exact I.
  - contradiction.
  - apply admits_union. eauto.
Qed.
Lemma flat1_sound : forall H t v, admits H t v <-> exists x, In x (flat1 t) /\ admits H x v.
Proof.
  intros H t v. destruct t; try (simpl; split; [intros A; eexists; split; [left; reflexivity | exact A]
                                               | intros [x [[<-|[]] A]]; exact A]).
  simpl flat1. apply admits_union.
Qed.

Lemma norm_union_admits : forall H l v, admits H (TUnion (norm_union l)) v <-> admits H (TUnion l) v.
Proof.
  intros H l v. rewrite !admits_union. unfold norm_union. split.
  - intros [x [Hx A]]. rewrite dedup_In in Hx. apply in_flat_map in Hx. destruct Hx as [t [Hin Hx]].
    exists t. split; [assumption|]. apply flat1_sound. exists x; auto.
  - intros [t [Hin A]]. apply flat1_sound in A. destruct A as [x [Hx A]]. exists x. split; [|assumption].
    apply dedup_In. apply in_flat_map. exists t; auto.
Qed.

Definition children (t : ty) : list ty :=
  match t with TUnion ts | TGen _ _ ts | TTup _ _ ts | TCall _ _ ts | TVar _ _ _ ts => ts | _ => [] end.

Lemma norm_union_elems : forall (I : ty -> Prop),
  (forall t, I t -> Forall I (children t)) ->
  forall l, Forall I l -> Forall I (norm_union l).
Proof.
  intros I IU l F. apply Forall_forall. intros x Hx. unfold norm_union in Hx. rewrite dedup_In in Hx.
  apply in_flat_map in Hx. destruct Hx as [t [Hin Hx]]. rewrite Forall_forall in F. specialize (F t Hin).
  destruct t; simpl in Hx; try (destruct Hx as [<-|[]]; exact F).
  apply IU in F. rewrite Forall_forall in F. apply F; assumption.
Qed.

Section VisitWidens.
  Variable fU : list ty -> ty.
  Variable fG : kind -> cid -> list ty -> ty.
  Variable fN : kind -> cid -> ty.
  Variable fB : kind -> kind.
  Variable H : hier.
  Hypothesis fU_ok : forall l, wider H (TUnion l) (fU l).
  Hypothesis fG_ok : forall k c ps, wider H (TGen k c ps) (fG k c ps).
  Hypothesis fN_ok : forall k c, wider H (TName k c) (fN k c).

  Lemma visit_widens : forall t, wider H t (visit fU fG fN fB t).
  Proof.
    induction t using ty_ind'; simpl; try apply wider_refl; try apply fN_ok;
      pose proof (pw_map H _ _ H0) as P.
    - eapply wider_trans; [|apply fU_ok].
      intros v A. apply norm_union_admits. revert v A. apply union_pw; [exact P | apply map_length].
    - eapply wider_trans; [|apply fG_ok]. apply wider_gen. exact P.
    - apply wider_tup; [exact P | apply map_length].
    - apply wider_call; [exact P | apply map_length].
    - apply wider_var; [exact P | apply map_length].
  Qed.
End VisitWidens.

Lemma wf_sub : forall k t, wf k t -> Forall (wf k) (children t).
Proof. intros k t W; inversion W; subst; simpl; auto. Qed.

Section VisitWf.
  Variable fU : list ty -> ty.
  Variable fG : kind -> cid -> list ty -> ty.
  Variable fN : kind -> cid -> ty.
  Variable k : kind.
  Hypothesis fU_wf : forall l, Forall (wf k) l -> wf k (fU l).
  Hypothesis fG_wf : forall c ps, Forall (wf k) ps -> wf k (fG k c ps).
  Hypothesis fN_wf : forall c, wf k (fN k c).

  Lemma visit_wf : forall t, wf k t -> wf k (visit fU fG fN id_kind t).
  Proof.
    assert (Ch : forall ps, Forall (fun t => wf k t -> wf k (visit fU fG fN id_kind t)) ps -> Forall (wf k) ps ->
                 Forall (wf k) (map (visit fU fG fN id_kind) ps)).
    { intros ps F1 F2. apply Forall_map. rewrite Forall_forall in *. auto. }
    induction t using ty_ind'; intros W; simpl; try assumption;
      pose proof (wf_sub _ _ W) as Ws; inversion W; subst; unfold id_kind.
    - apply fN_wf.
    - apply fU_wf, norm_union_elems; [apply wf_sub | auto].
    - apply fG_wf; auto.
    - constructor; auto.
    - constructor; auto.
    - constructor; auto.
  Qed.
End VisitWf.

Definition Itrue (t : ty) : Prop := True.
Lemma Itrue_all : forall l, Forall Itrue l.
Proof. intros l. apply Forall_forall. intros; exact I. Qed.

Lemma flat_wf : forall k t, wf k t -> Forall (wf k) (flat t).
Proof.
  intros k t; induction t using ty_ind'; intros W; simpl; try (constructor; [assumption | constructor]).
  - constructor.
  - apply Forall_flat_map. pose proof (wf_sub _ _ W) as Ws. rewrite Forall_forall in *. auto.
Qed.

Lemma join_wf : forall k ts, Forall (wf k) ts -> wf k (join ts).
Proof.
  intros k ts F.
  assert (Fl : Forall (wf k) (dedup (flat_map flat ts))).
  { apply Forall_forall. intros x Hx. rewrite dedup_In in Hx. revert x Hx. apply Forall_forall, Forall_flat_map.
    eapply Forall_impl; [apply flat_wf | exact F]. }
  destruct (join_cases ts) as [y E | c _ Hn _ | _ | _ | ]; try (constructor; assumption).
  - rewrite E in Fl. inversion Fl; assumption.
  - rewrite Forall_forall in Fl. apply Fl in Hn. inversion Hn; subst. repeat constructor.
Qed.

Lemma join_wider_union : forall H l, wider H (TUnion l) (join l).
Proof.
  intros H l v A. apply admits_union in A. destruct A as [t [Hin A]]. eapply join_widens; eassumption.
Qed.

Lemma simplify_unions_wf : forall k t, wf k t -> wf k (simplify_unions t).
Proof.
  intros k t. unfold simplify_unions. apply visit_wf.
  - apply join_wf.
  - intros; constructor; assumption.
  - intros; constructor.
Qed.

Lemma simplify_containers_wf : forall k b t, wf k t -> wf k (simplify_containers b t).
Proof.
  intros k b t. unfold simplify_containers. apply visit_wf.
  - intros l F. unfold sc_union. destruct b; [|constructor; assumption].
    destruct l as [|x [|y r]]; try (constructor; assumption). inversion F; assumption.
  - intros c ps F. unfold sc_generic. destruct (forallb is_any ps); constructor; assumption.
  - intros; constructor.
Qed.

Lemma clu_union_wider : forall H n l, wider H (TUnion l) (clu_union n l).
Proof.
  intros H n l v A. unfold clu_union.
  destruct ((n <? length l) && negb (existsb is_lit l)); [exact I|].
  destruct (existsb is_any l); [apply join_wider_union; assumption | assumption].
Qed.
Lemma collapse_long_unions_widens_lemma : forall H n t, wider H t (collapse_long_unions n t).
Proof.
  intros H n t. unfold collapse_long_unions.
  apply visit_widens; intros; [apply clu_union_wider | apply wider_refl | apply wider_refl].
Qed.
Lemma collapse_long_unions_wf : forall k n t, wf k t -> wf k (collapse_long_unions n t).
Proof.
  intros k n t. unfold collapse_long_unions. apply visit_wf.
  - intros l F. unfold clu_union. destruct ((n <? length l) && negb (existsb is_lit l)); [constructor|].
    destruct (existsb is_any l); [apply join_wf; assumption | constructor; assumption].
  - intros; constructor; assumption.
  - intros; constructor.
Qed.

Lemma adjust_generic_type_wf : forall k t, wf k t -> wf k (adjust_generic_type t).
Proof.
  intros k t. unfold adjust_generic_type. apply visit_wf.
  - intros; constructor; assumption.
  - intros; constructor; assumption.
  - intros c. unfold agt_name. destruct k; [constructor|]. destruct (Nat.eqb c c_object); constructor.
Qed.

Lemma subs_step_sound : forall H m S, (forall n, In n S -> Sub H n m) ->
  forall n, In n (subs_step H S) -> Sub H n m.
Proof.
  intros H m S HS n Hin. unfold subs_step in Hin. apply in_app_or in Hin. destruct Hin as [Hin|Hin]; [auto|].
  apply filter_In in Hin. destruct Hin as [_ E]. apply andb_true_iff in E. destruct E as [_ E].
  apply existsb_exists in E. destruct E as [s [Hs E]]. apply memn_In in E.
  econstructor; [exact Hs | auto].
Qed.

Lemma iter_subs_sound : forall H m k S, (forall n, In n S -> Sub H n m) ->
  forall n, In n (iter k (subs_step H) S) -> Sub H n m.
Proof.
  intros H m k; induction k as [|k IH]; intros S HS n Hin; simpl in Hin; [auto|].
  eapply IH; [|exact Hin]. apply subs_step_sound; assumption.
Qed.

Lemma expand_sub_sound : forall H m n, In n (expand_sub H m) -> Sub H n m.
Proof.
  intros H m n Hin. unfold expand_sub in Hin. eapply iter_subs_sound; [|exact Hin].
  intros x [<-|[]]. constructor.
Qed.

Lemma iter_subs_mono : forall H k S n, In n S -> In n (iter k (subs_step H) S).
Proof.
  intros H k; induction k as [|k IH]; intros S n Hin; simpl; [assumption|].
  apply IH. unfold subs_step. apply in_or_app; left; assumption.
Qed.

Lemma expand_sub_refl : forall H m, In m (expand_sub H m).
Proof. intros. unfold expand_sub. apply iter_subs_mono. left; reflexivity. Qed.

Lemma ranked_sub : forall H, ranked H -> forall a b, Sub H a b -> a = b \/ b < a.
Proof.
  intros H R a b S. induction S as [|d s c Hs _ IH]; [left; reflexivity|].
  right. apply R in Hs. destruct IH as [<-|IH]; lia.
Qed.

Lemma dedup_from_NoDup : forall {A} (eqb : A -> A -> bool),
  (forall a b, eqb a b = true <-> a = b) ->
  forall l seen, NoDup (dedup_from eqb seen l) /\ (forall x, In x (dedup_from eqb seen l) -> ~ In x seen).
Proof.
  intros A eqb He. induction l as [|y r IH]; intros seen; simpl.
  - split; [constructor | intros x []].
  - destruct (mem_by eqb y seen) eqn:E; [apply IH|].
    destruct (IH (y :: seen)) as [ND NI]. split.
    + constructor; [|assumption]. intros Hin. apply (NI y Hin). left; reflexivity.
    + intros x [<-|Hin] Hs.
      * apply (mem_by_In eqb He) in Hs. congruence.
      * apply (NI x Hin). right; assumption.
Qed.

Lemma dedup_NoDup : forall l, NoDup (dedup l).
Proof. intros l. apply (dedup_from_NoDup ty_eqb ty_eqb_eq l []). Qed.

Lemma filter_map_In : forall {A B} (f : A -> option B) l y,
  In y (filter_map f l) <-> exists x, In x l /\ f x = Some y.
Proof.
  intros A B f l y. induction l as [|x r IH]; simpl.
  - split; [contradiction | intros [? [[] _]]].
  - destruct (f x) eqn:E; simpl; rewrite IH; split.
    + intros [<-|[x' [Hin E']]]; [exists x; auto | exists x'; auto].
    + intros [x' [[<-|Hin] E']]; [left; congruence | right; exists x'; auto].
    + intros [x' [Hin E']]; exists x'; auto.
    + intros [x' [[<-|Hin] E']]; [congruence | exists x'; auto].
Qed.

Lemma filter_map_NoDup : forall {A B} (f : A -> option B) l,
  (forall x x' y, In x l -> In x' l -> f x = Some y -> f x' = Some y -> x = x') ->
  NoDup l -> NoDup (filter_map f l).
Proof.
  intros A B f l Inj ND. induction ND as [|x r Hx ND IH]; simpl; [constructor|].
  assert (IH' : NoDup (filter_map f r)).
  { apply IH. intros a a' y Ha Ha'. apply Inj; right; assumption. }
  destruct (f x) eqn:E; [|assumption]. constructor; [|assumption].
  intros Hin. apply filter_map_In in Hin. destruct Hin as [x' [Hin E']].
  assert (x = x') by (eapply Inj; [left; reflexivity | right; assumption | exact E | exact E']).
  subst; contradiction.
Qed.

Lemma NoDup_two : forall (l : list nat) c, NoDup l -> 2 <= length l -> exists m, In m l /\ m <> c.
Proof.
  intros l c ND L. destruct l as [|a [|b r]]; simpl in L; try lia.
  destruct (Nat.eq_dec a c) as [->|Ne]; [|exists a; split; [left; reflexivity | assumption]].
  exists b. split; [right; left; reflexivity|]. inversion ND; subst. intros ->. apply H1. left; reflexivity.
Qed.

Lemma suws_kept_super : forall H k l, ranked H -> Forall (wf k) l ->
  forall c, In (TName k c) l ->
  exists u, In (TName k u) l /\ (suws_count H (filter_map name_of (dedup l)) u <=? 1) = true /\ Sub H c u.
Proof.
  intros H k l R F.
  set (members := filter_map name_of (dedup l)).
  assert (M1 : forall c, In c members <-> In (TName k c) l).
  { intros c. unfold members. rewrite filter_map_In. split.
    - intros [t [Hin E]]. rewrite dedup_In in Hin. destruct t; try discriminate. simpl in E. inversion E; subst.
      rewrite Forall_forall in F. specialize (F _ Hin). inversion F; subst. assumption.
    - intros Hin. exists (TName k c). split; [apply dedup_In; assumption | reflexivity]. }
  assert (M2 : NoDup members).
  { unfold members. apply filter_map_NoDup; [|apply dedup_NoDup].
    intros x x' y Hx Hx' E E'. rewrite dedup_In in Hx, Hx'. rewrite Forall_forall in F.
    pose proof (F _ Hx) as W. pose proof (F _ Hx') as W'.
    destruct x; try discriminate. destruct x'; try discriminate. simpl in E, E'.
    inversion W; inversion W'; subst. congruence. }
  assert (K : forall n c, c < n -> In c members ->
              exists u, In u members /\ (suws_count H members u <=? 1) = true /\ Sub H c u).
  { induction n as [|n IH]; intros c Lt Hc; [lia|].
    destruct (suws_count H members c <=? 1) eqn:E.
    - exists c. repeat split; try assumption. constructor.
    - apply Nat.leb_gt in E. unfold suws_count in E.
      destruct (NoDup_two (filter (fun m => memn c (expand_sub H m)) members) c) as [m [Hm Ne]];
        [apply NoDup_filter; assumption | exact E |].
      apply filter_In in Hm. destruct Hm as [Hm Ec]. apply memn_In in Ec. apply expand_sub_sound in Ec.
      destruct (ranked_sub H R _ _ Ec) as [->|Lt']; [congruence|].
      destruct (IH m ltac:(lia) Hm) as [u [Hu [Ku Su]]]. exists u. repeat split; try assumption.
      eapply Sub_trans; eassumption. }
  intros c Hc. destruct (K (S c) c ltac:(lia) (proj2 (M1 c) Hc)) as [u [Hu [Ku Su]]].
  exists u. repeat split; try assumption. apply M1; assumption.
Qed.

Lemma suws_union_wf : forall H k l, Forall (wf k) l -> wf k (suws_union H l).
Proof.
  intros H k l F. unfold suws_union. apply join_wf. apply Forall_forall. intros x Hx.
  apply filter_In in Hx. destruct Hx as [Hx _]. rewrite Forall_forall in F. auto.
Qed.

Lemma simplify_superclasses_wf : forall H k t, wf k t -> wf k (simplify_superclasses H t).
Proof.
  intros H k t. unfold simplify_superclasses. apply visit_wf.
  - apply suws_union_wf.
  - intros; constructor; assumption.
  - intros; constructor.
Qed.

Lemma map_opt_Forall2 : forall {A B} (f : A -> option B) l l',
  map_opt f l = Some l' -> Forall2 (fun a b => f a = Some b) l l'.
Proof.
  intros A B f. induction l as [|x r IH]; intros l' E; simpl in E.
  - inversion E; constructor.
  - destruct (f x) eqn:Ex; [|discriminate]. destruct (map_opt f r) eqn:Er; [|discriminate].
    inversion E; subst. constructor; [assumption | apply IH; reflexivity].
Qed.

Lemma last_or_nonempty : forall d d' ps, ps <> [] -> last_or d ps = last_or d' ps.
Proof.
  intros d d' ps. induction ps as [|p r IH]; intros N; [congruence|].
  destruct r as [|q r']; [reflexivity|]. simpl in *. apply IH. discriminate.
Qed.

Lemma last_or_In : forall d ps, ps <> [] -> In (last_or d ps) ps.
Proof.
  intros d ps. induction ps as [|p r IH]; intros N; [congruence|].
  destruct r as [|q r']; [left; reflexivity|]. right. apply IH. discriminate.
Qed.

Lemma Forall2_ex : forall {A B} (R : A -> B -> Prop) l l',
  Forall2 R l l' -> Forall (fun x => exists p, In p l /\ R p x) l'.
Proof.
  induction 1; constructor.
  - exists x; split; [left; reflexivity | assumption].
  - eapply Forall_impl; [|exact IHForall2]. intros a [p [Hp Rp]]. exists p; split; [right; assumption | assumption].
Qed.

Lemma cc_conv_wider : forall H mt mc t, wider H t (cc_conv mt mc t).
Proof.
  intros H mt mc t v A. destruct t; simpl; try assumption.
  - destruct mt; [|assumption]. apply admits_tup in A. destruct A as [items [-> [S F]]].
    apply admits_gen. split; [assumption|]. simpl. split; [|exact I].
    apply Forall2_ex in F. eapply Forall_impl; [|exact F]. intros a [p [Hp Ap]].
    eapply join_widens; eassumption.
  - destruct mc; [|assumption]. apply admits_call in A. destruct A as [a [r [-> [S [L A]]]]].
    apply admits_gen. split; [assumption|]. simpl. split; [constructor|]. split; [|exact I].
    constructor; [|constructor].
    rewrite (last_or_nonempty TAny TNothing); [assumption|]. destruct ps; discriminate.
Qed.

Lemma cc_conv_wf : forall k mt mc t, wf k t -> wf k (cc_conv mt mc t).
Proof.
  intros k mt mc t W. destruct t; simpl; try assumption.
  - destruct mt; [|assumption]. pose proof (wf_sub _ _ W) as Wp. inversion W; subst.
    constructor. constructor; [|constructor]. apply join_wf; assumption.
  - destruct mc; [|assumption]. pose proof (wf_sub _ _ W) as Wp. inversion W; subst.
    constructor. constructor; [constructor|]. constructor; [|constructor].
    destruct ps as [|p r]; [constructor|]. rewrite Forall_forall in Wp. apply Wp.
    apply last_or_In. discriminate.
Qed.

Lemma zip_join_length : forall a b, length a = length b -> length (zip_join a b) = length a.
Proof.
  induction a as [|x r IH]; intros b L; destruct b; simpl in *; try lia. rewrite IH; lia.
Qed.
Lemma zip_join_wf : forall k a b, Forall (wf k) a -> Forall (wf k) b -> Forall (wf k) (zip_join a b).
Proof.
  intros k a; induction a as [|x r IH]; intros b Fa Fb; simpl; [constructor|].
  destruct b as [|y b']; [constructor|]. inversion Fa; inversion Fb; subst.
  constructor; [apply join_wf; repeat constructor; assumption | apply IH; assumption].
Qed.

Lemma fold_zip_wf : forall k rest init, Forall (wf k) init ->
  (forall m, In m rest -> Forall (wf k) (params_of m)) ->
  Forall (wf k) (fold_left (fun acc t => zip_join acc (params_of t)) rest init).
Proof.
  intros k rest; induction rest as [|a r IH]; intros init Fi Fr; simpl; [assumption|].
  apply IH; [apply zip_join_wf; [assumption | apply Fr; left; reflexivity] | intros m Hm; apply Fr; right; assumption].
Qed.

Lemma params_of_wf : forall k t, wf k t -> Forall (wf k) (params_of t).
Proof. intros k t W. destruct t; simpl; try constructor; inversion W; assumption. Qed.

Lemma ckey_eqb_eq : forall a b, ckey_eqb a b = true <-> a = b.
Proof.
  destruct a, b; simpl; try (split; discriminate);
    rewrite !andb_true_iff, kind_eqb_eq, !Nat.eqb_eq; intuition congruence.
Qed.

Lemma has_key_iff : forall key t, has_key key t = true <-> key_of t = Some key.
Proof.
  intros key t. unfold has_key. destruct (key_of t) as [k'|]; [|split; discriminate].
  rewrite ckey_eqb_eq. split; congruence.
Qed.

Lemma merged_wf : forall k key whole, Forall (wf k) whole -> Forall (wf k) (merged key whole).
Proof.
  intros k key whole F. unfold merged.
  pose proof (fun m => proj1 (filter_In (has_key key) m whole)) as Fi.
  destruct (filter (has_key key) whole) as [|t0 rest]; [constructor|].
  rewrite Forall_forall in F.
  apply fold_zip_wf.
  - apply params_of_wf. apply F. apply (Fi t0). left; reflexivity.
  - intros m Hm. apply params_of_wf. apply F. apply (Fi m). right; assumption.
Qed.

Lemma wf_container_base : forall k t, wf k t ->
  match t with
  | TTup _ c _ => memn c [c_tuple; c_typing_tuple] = true
  | TCall _ c _ => c = c_callable
  | _ => True
  end.
Proof. intros k t W. destruct W; auto. Qed.

(* two well-formed members with one merge key have one shape: a tuple and a callable never share a base *)
Lemma key_same_container : forall k t0 t1 key, wf k t0 -> wf k t1 ->
  key_of t0 = Some key -> key_of t1 = Some key -> same_container t0 t1.
Proof.
  intros k t0 t1 key W0 W1 K0 K1. apply wf_container_base in W0. apply wf_container_base in W1.
  destruct t0; try discriminate K0; destruct t1; try discriminate K1; simpl in K0, K1;
    rewrite <- K1 in K0; inversion K0; subst; try constructor; try congruence; discriminate.
Qed.

Lemma with_params_wf : forall k t ps, wf k t -> Forall (wf k) ps -> wf k (with_params t ps).
Proof. intros k t ps W F. destruct t; simpl; try assumption; inversion W; subst; constructor; assumption. Qed.

Section CCEmit.
  Variable k : kind.
  Variable rec : ty -> option ty.
  Hypothesis rec_wf : forall t t', wf k t -> rec t = Some t' -> wf k t'.

  Lemma rec_params_wf : forall ps ps', Forall (wf k) ps -> map_opt rec ps = Some ps' -> Forall (wf k) ps'.
  Proof. intros ps ps' F E. apply map_opt_Forall2 in E. induction E; inversion F; subst; constructor; eauto. Qed.

  Lemma cc_emit_wf : forall whole, Forall (wf k) whole -> forall l done result t',
    (forall t, In t l -> In t whole) -> wf k result -> cc_emit rec whole done result l = Some t' -> wf k t'.
  Proof.
    intros whole Fw. induction l as [|t r IH]; intros done result t' Sub Wr E; simpl in E.
    - inversion E; subst; assumption.
    - assert (Wt : wf k t) by (rewrite Forall_forall in Fw; apply Fw, Sub; left; reflexivity).
      assert (Sub' : forall x, In x r -> In x whole) by (intros; apply Sub; right; assumption).
      destruct (key_of t) as [key|].
      + destruct (mem_by ckey_eqb key done); [exact (IH _ _ _ Sub' Wr E)|].
        destruct (map_opt rec (merged key whole)) as [ps'|] eqn:Em; [|discriminate].
        apply (IH _ _ _ Sub') in E; [assumption|]. apply join_wf. constructor; [assumption|].
        constructor; [|constructor]. apply with_params_wf; [assumption|].
        eapply rec_params_wf; [|exact Em]. apply merged_wf; assumption.
      + apply (IH _ _ _ Sub') in E; [assumption|]. apply join_wf. repeat constructor; assumption.
  Qed.
End CCEmit.

(* CombineContainers.VisitUnionType before its final loop: the members of the joined union, degenerated
   where tuples / callables of different lengths meet *)
Definition join_members (l0 : list ty) : list ty :=
  let u := join l0 in match u with TUnion l' => l' | _ => [u] end.
Definition cc_prep (l0 : list ty) : list ty :=
  let l := join_members l0 in
  let mt := should_merge true None l in
  let mc := should_merge false None l in
  if mt || mc then map (cc_conv mt mc) l else l.

Lemma cc_union_unfold : forall rec l0, cc_union rec l0 =
  if negb (existsb is_generic l0) then Some (TUnion l0)
  else if negb (has_redundant (cc_prep l0)) then Some (TUnion (cc_prep l0))
       else cc_emit rec (cc_prep l0) [] TNothing (cc_prep l0).
Proof. intros rec l0. exact eq_refl. Qed.

Lemma cc_prep_elems : forall (I : ty -> Prop), (forall mt mc t, I t -> I (cc_conv mt mc t)) ->
  forall l0, Forall I (join_members l0) -> Forall I (cc_prep l0).
Proof.
  intros I Hc l0 F. unfold cc_prep. destruct (_ || _); [|assumption].
  apply Forall_map. eapply Forall_impl; [|exact F]. intros; apply Hc; assumption.
Qed.

Lemma join_members_wf : forall k l0, Forall (wf k) l0 -> Forall (wf k) (join_members l0).
Proof.
  intros k l0 F. apply join_wf in F. unfold join_members.
  destruct (join l0); try (constructor; [assumption | constructor]). exact (wf_sub _ _ F).
Qed.
Lemma cc_prep_wf : forall k l0, Forall (wf k) l0 -> Forall (wf k) (cc_prep l0).
Proof. intros k l0 F. apply cc_prep_elems; [intros; apply cc_conv_wf; assumption | apply join_members_wf; assumption]. Qed.

Lemma cc_union_wf : forall k rec, (forall t t', wf k t -> rec t = Some t' -> wf k t') ->
  forall l0 t', Forall (wf k) l0 -> cc_union rec l0 = Some t' -> wf k t'.
Proof.
  intros k rec Hrec l0 t' F0 E. rewrite cc_union_unfold in E. pose proof (cc_prep_wf k l0 F0) as F2.
  destruct (negb (existsb is_generic l0)); [inversion E; subst; constructor; assumption|].
  (* the prepared list as a variable: written [cc_prep l0], the kernel unfolds it at Qed (so too in cc_union_jr) *)
  revert E F2. generalize (cc_prep l0). intros l2 E F2.
  destruct (negb (has_redundant l2)); [inversion E; subst; constructor; assumption|].
  eapply (cc_emit_wf k rec Hrec _ F2); [| |exact E]; [auto | constructor].
Qed.

Lemma cc_wf : forall k n t t', wf k t -> cc n t = Some t' -> wf k t'.
Proof.
  intros k n; induction n as [|f IH]; intros t t' W E; simpl in E; [discriminate|].
  pose proof (wf_sub _ _ W) as Ws.
  destruct t; simpl in Ws; try (inversion E; subst; assumption);
    destruct (map_opt (cc f) _) as [l'|] eqn:Em; try discriminate;
    pose proof (rec_params_wf k (cc f) IH _ _ Ws Em) as F'; simpl in E.
  - eapply (cc_union_wf k (cc f) IH); [|exact E]. apply norm_union_elems; [apply wf_sub | assumption].
  - inversion E; subst. inversion W; subst. constructor; assumption.
  - inversion E; subst. inversion W; subst. constructor; assumption.
  - inversion E; subst. inversion W; subst. constructor; assumption.
  - inversion E; subst. constructor; assumption.
Qed.

Lemma combine_containers_wf : forall k t, wf k t -> wf k (combine_containers t).
Proof.
  intros k t W. unfold combine_containers, cc_top. destruct (cc (2 * size t + 2) t) eqn:E; [|assumption].
  apply (cc_wf k _ _ _ W E).
Qed.

Lemma param_wider_refl : forall H p, param_wider H p p.
Proof.
  intros H p. unfold param_wider. repeat split; try apply wider_refl.
  destruct (p_mut p); [apply wider_refl | reflexivity].
Qed.
Lemma param_wider_trans : forall H a b c, param_wider H a b -> param_wider H b c -> param_wider H a c.
Proof.
  intros H a b c [N1 [K1 [O1 [T1 M1]]]] [N2 [K2 [O2 [T2 M2]]]]. unfold param_wider.
  repeat split; try congruence; [eapply wider_trans; eassumption|].
  destruct (p_mut a) as [m|]; destruct (p_mut b) as [m'|]; destruct (p_mut c) as [m''|];
    try congruence; try discriminate; try (eapply wider_trans; eassumption).
Qed.
Lemma oparam_wider_refl : forall H p, oparam_wider H p p.
Proof. intros H [p|]; simpl; [apply param_wider_refl | exact I]. Qed.
Lemma oparam_wider_trans : forall H a b c, oparam_wider H a b -> oparam_wider H b c -> oparam_wider H a c.
Proof.
  intros H [a|] [b|] [c|]; simpl; try tauto. apply param_wider_trans.
Qed.

Lemma Forall2_refl : forall {A} (R : A -> A -> Prop), (forall x, R x x) -> forall l, Forall2 R l l.
Proof. intros A R Rr; induction l; constructor; auto. Qed.
Lemma Forall2_trans : forall {A} (R : A -> A -> Prop), (forall x y z, R x y -> R y z -> R x z) ->
  forall a b c, Forall2 R a b -> Forall2 R b c -> Forall2 R a c.
Proof.
  intros A R Rt a b c F1; revert c; induction F1; intros c0 F2; inversion F2; subst; constructor; eauto.
Qed.
Lemma Forall2_map_r : forall {A B} (R : A -> B -> Prop) (g : A -> B) l,
  (forall x, In x l -> R x (g x)) -> Forall2 R l (map g l).
Proof.
  intros A B R g; induction l as [|x r IH]; intros Hl; simpl; constructor.
  - apply Hl; left; reflexivity.
  - apply IH; intros; apply Hl; right; assumption.
Qed.

Lemma sig_wider_refl : forall H s, sig_wider H s s.
Proof.
  intros H s. unfold sig_wider. repeat split; try apply oparam_wider_refl; try apply wider_refl.
  apply Forall2_refl. apply param_wider_refl.
Qed.
Lemma sig_wider_trans : forall H a b c, sig_wider H a b -> sig_wider H b c -> sig_wider H a c.
Proof.
  intros H a b c [P1 [S1 [SS1 R1]]] [P2 [S2 [SS2 R2]]]. unfold sig_wider. repeat split.
  - eapply Forall2_trans; [apply param_wider_trans | eassumption | eassumption].
  - eapply oparam_wider_trans; eassumption.
  - eapply oparam_wider_trans; eassumption.
  - eapply wider_trans; eassumption.
Qed.
Lemma func_wider_refl : forall H f, func_wider H f f.
Proof.
  intros H f. unfold func_wider. repeat split. intros s Hs. exists s. split; [assumption | apply sig_wider_refl].
Qed.
Lemma func_wider_trans : forall H a b c, func_wider H a b -> func_wider H b c -> func_wider H a c.
Proof.
  intros H a b c [N1 [K1 S1]] [N2 [K2 S2]]. unfold func_wider. repeat split; try congruence.
  intros s Hs. destruct (S1 s Hs) as [s' [Hs' W1]]. destruct (S2 s' Hs') as [s'' [Hs'' W2]].
  exists s''. split; [assumption | eapply sig_wider_trans; eassumption].
Qed.
Lemma const_wider_refl : forall H c, const_wider H c c.
Proof. intros; split; [reflexivity | apply wider_refl]. Qed.
Lemma const_wider_trans : forall H a b c, const_wider H a b -> const_wider H b c -> const_wider H a c.
Proof. intros H a b c [N1 W1] [N2 W2]. split; [congruence | eapply wider_trans; eassumption]. Qed.
Lemma class_wider_refl : forall H c, class_wider H c c.
Proof.
  intros; unfold class_wider; repeat split;
    [apply Forall2_refl; apply func_wider_refl | apply Forall2_refl; apply const_wider_refl].
Qed.
Lemma class_wider_trans : forall H a b c, class_wider H a b -> class_wider H b c -> class_wider H a c.
Proof.
  intros H a b c [N1 [B1 [M1 C1]]] [N2 [B2 [M2 C2]]]. unfold class_wider. repeat split; try congruence.
  - eapply Forall2_trans; [apply func_wider_trans | eassumption | eassumption].
  - eapply Forall2_trans; [apply const_wider_trans | eassumption | eassumption].
Qed.
Lemma unit_wider_refl : forall H u, unit_wider H u u.
Proof.
  intros; unfold unit_wider; repeat split; apply Forall2_refl;
    [apply const_wider_refl | apply class_wider_refl | apply func_wider_refl].
Qed.
Lemma unit_wider_trans : forall H a b c, unit_wider H a b -> unit_wider H b c -> unit_wider H a c.
Proof.
  intros H a b c [C1 [L1 F1]] [C2 [L2 F2]]. unfold unit_wider. repeat split.
  - eapply Forall2_trans; [apply const_wider_trans | eassumption | eassumption].
  - eapply Forall2_trans; [apply class_wider_trans | eassumption | eassumption].
  - eapply Forall2_trans; [apply func_wider_trans | eassumption | eassumption].
Qed.

Lemma Forall_iff : forall {A} (Q R : A -> Prop) l, (forall x, Q x <-> R x) -> (Forall Q l <-> Forall R l).
Proof. intros A Q R l E. split; apply Forall_impl; intros a; apply E. Qed.

Section Decl.
Variable P : ty -> Prop.
Definition wf_param (p : param) : Prop :=
  P (p_ty p) /\ match p_mut p with Some m => P m | None => True end.
Definition wf_oparam (p : option param) : Prop :=
  match p with Some p => wf_param p | None => True end.
Definition wf_sig (s : sig) : Prop :=
  Forall (wf_param) (s_params s) /\ wf_oparam (s_star s) /\ wf_oparam (s_starstar s) /\
  P (s_ret s) /\ Forall P (s_exc s).
Definition wf_func (f : func) : Prop := Forall (wf_sig) (f_sigs f).
Definition wf_const (c : const) : Prop := P (k_ty c).
Definition wf_class (c : class) : Prop :=
  Forall (wf_func) (cl_methods c) /\ Forall (wf_const) (cl_consts c).

Lemma wf_param_iff : forall p, Forall P (types_of_param p) <-> wf_param p.
Proof.
  intros p. unfold types_of_param, wf_param. destruct (p_mut p); split.
  - intros F; inversion F as [|? ? ? F']; subst; inversion F'; subst; auto.
  - intros [? ?]; repeat constructor; assumption.
  - intros F; inversion F; subst; auto.
  - intros [? _]; repeat constructor; assumption.
Qed.
Lemma wf_oparam_iff : forall p, Forall P (types_of_oparam p) <-> wf_oparam p.
Proof.
  intros [p|]; simpl; [apply wf_param_iff | split; [intros; exact I | constructor]].
Qed.
Lemma wf_sig_iff : forall s, Forall P (types_of_sig s) <-> wf_sig s.
Proof.
  intros s. unfold types_of_sig, wf_sig.
  rewrite !Forall_app, Forall_flat_map, !wf_oparam_iff, (Forall_iff _ _ _ wf_param_iff), Forall_cons_iff, Forall_nil_iff.
  tauto.
Qed.
Lemma wf_func_iff : forall f, Forall P (types_of_func f) <-> wf_func f.
Proof. intros f. unfold types_of_func, wf_func. rewrite Forall_flat_map. apply Forall_iff, wf_sig_iff. Qed.
Lemma wf_class_iff : forall c,
  Forall P (flat_map types_of_func (cl_methods c) ++ map k_ty (cl_consts c)) <-> wf_class c.
Proof.
  intros c. unfold wf_class. rewrite Forall_app, Forall_flat_map, Forall_map, (Forall_iff _ _ _ wf_func_iff). tauto.
Qed.
Lemma wf_unit_iff : forall u,
  Forall P (types_of_unit u) <-> Forall (wf_const) (u_consts u) /\ Forall (wf_class) (u_classes u) /\
                  Forall (wf_func) (u_funcs u).
Proof.
  intros u. unfold types_of_unit.
  rewrite !Forall_app, !Forall_flat_map, Forall_map, (Forall_iff _ _ _ wf_func_iff), (Forall_iff _ _ _ wf_class_iff).
  tauto.
Qed.

(* the shape every unit-level pass has *)
Definition unit_map_t (gc : const -> const) (gm : cid -> func -> func) (gcc : const -> const)
           (gf : func -> func) (ft : ty -> ty) (u : unit_) : unit_ :=
  mkUnit (map gc (u_consts u)) (map (map_class_t gm gcc ft) (u_classes u)) (map gf (u_funcs u)).
Definition unit_map (gc : const -> const) (gm : cid -> func -> func) (gcc : const -> const)
           (gf : func -> func) : unit_ -> unit_ := unit_map_t gc gm gcc gf same_ty.

Lemma Forall_map_pres : forall {A} (Q : A -> Prop) (g : A -> A) l,
  (forall x, Q x -> Q (g x)) -> Forall Q l -> Forall Q (map g l).
Proof. intros A Q g l Hg F. induction F; simpl; constructor; auto. Qed.

Lemma unit_map_wf : forall gc gm gcc gf ft u,
  (forall c, wf_const c -> wf_const (gc c)) ->
  (forall n f, wf_func f -> wf_func (gm n f)) ->
  (forall c, wf_const c -> wf_const (gcc c)) ->
  (forall f, wf_func f -> wf_func (gf f)) ->
  Forall P (types_of_unit u) -> Forall P (types_of_unit (unit_map_t gc gm gcc gf ft u)).
Proof.
  intros gc gm gcc gf ft u Hc Hm Hcc Hf W. apply wf_unit_iff in W. destruct W as [W1 [W2 W3]].
  apply wf_unit_iff. simpl. repeat split.
  - apply Forall_map_pres; assumption.
  - apply Forall_map_pres; [|assumption]. intros cl [M C]. unfold wf_class; simpl. split.
    + apply Forall_map_pres; [apply Hm | assumption].
    + apply Forall_map_pres; assumption.
  - apply Forall_map_pres; assumption.
Qed.

Lemma unit_map_wider : forall H gc gm gcc gf ft u,
  (forall c, wf_const c -> const_wider H c (gc c)) ->
  (forall n f, wf_func f -> func_wider H f (gm n f)) ->
  (forall c, wf_const c -> const_wider H c (gcc c)) ->
  (forall f, wf_func f -> func_wider H f (gf f)) ->
  Forall P (types_of_unit u) -> unit_wider H u (unit_map_t gc gm gcc gf ft u).
Proof.
  intros H gc gm gcc gf ft u Hc Hm Hcc Hf W. apply wf_unit_iff in W. destruct W as [W1 [W2 W3]].
  rewrite Forall_forall in W1, W2, W3. unfold unit_wider; simpl. repeat split.
  - apply Forall2_map_r. intros; apply Hc; auto.
  - apply Forall2_map_r. intros cl Hcl. destruct (W2 cl Hcl) as [M C]. rewrite Forall_forall in M, C.
    unfold class_wider; simpl. repeat split.
    + apply Forall2_map_r. intros; apply Hm; auto.
    + apply Forall2_map_r. intros; apply Hcc; auto.
  - apply Forall2_map_r. intros; apply Hf; auto.
Qed.

Lemma unit_map_hier : forall gc gm gcc gf ft u, hier_of (unit_map_t gc gm gcc gf ft u) = hier_of u.
Proof.
  intros. unfold hier_of, unit_map_t; simpl. rewrite map_map. reflexivity.
Qed.

Lemma map_param_wf : forall f p, (forall t, P t -> P (f t)) -> wf_param p -> wf_param (map_param f p).
Proof.
  intros f p Hf [W M]. unfold wf_param, map_param; simpl. split; [auto|].
  destruct (p_mut p); simpl; auto.
Qed.
Lemma map_param_wider : forall H f p, (forall t, P t -> wider H t (f t)) -> wf_param p ->
  param_wider H p (map_param f p).
Proof.
  intros H f p Hf [W M]. unfold param_wider, map_param; simpl. repeat split; [auto|].
  destruct (p_mut p); simpl; auto.
Qed.

Lemma map_sig4_wf : forall fp fr fe ft s,
  (forall t, P t -> P (fp t)) -> (forall t, P t -> P (fr t)) -> (forall t, P t -> P (fe t)) ->
  wf_sig s -> wf_sig (map_sig4 fp fr fe ft s).
Proof.
  intros fp fr fe ft s Hp Hr He [Pp [S [SS [R E]]]]. unfold wf_sig, map_sig4; simpl. repeat split.
  - apply Forall_forall. intros x Hx. apply in_map_iff in Hx. destruct Hx as [p [<- Hin]].
    apply map_param_wf; [assumption|]. rewrite Forall_forall in Pp; auto.
  - destruct (s_star s); simpl; [apply map_param_wf; assumption | exact I].
  - destruct (s_starstar s); simpl; [apply map_param_wf; assumption | exact I].
  - auto.
  - apply Forall_forall. intros x Hx. apply in_map_iff in Hx. destruct Hx as [p [<- Hin]].
    rewrite Forall_forall in E; auto.
Qed.
Lemma map_sig4_wider : forall H fp fr fe ft s,
  (forall t, P t -> wider H t (fp t)) -> (forall t, P t -> wider H t (fr t)) ->
  wf_sig s -> sig_wider H s (map_sig4 fp fr fe ft s).
Proof.
  intros H fp fr fe ft s Hp Hr [Pp [S [SS [R E]]]]. unfold sig_wider, map_sig4; simpl. repeat split.
  - apply Forall2_map_r. intros p Hin. eapply map_param_wider; [eassumption|]. rewrite Forall_forall in Pp; auto.
  - destruct (s_star s); simpl; [eapply map_param_wider; eassumption | exact I].
  - destruct (s_starstar s); simpl; [eapply map_param_wider; eassumption | exact I].
  - auto.
Qed.

Lemma map_func_wf : forall g f, (forall s, wf_sig s -> wf_sig (g s)) -> wf_func f -> wf_func (map_func g f).
Proof. intros g f Hg W. unfold wf_func, map_func; simpl. apply Forall_map_pres; assumption. Qed.
Lemma map_func_wider : forall H g f, (forall s, wf_sig s -> sig_wider H s (g s)) -> wf_func f ->
  func_wider H f (map_func g f).
Proof.
  intros H g f Hg W. unfold func_wider, map_func; simpl. repeat split. intros s Hs.
  exists (g s). split; [apply in_map; assumption|]. apply Hg. unfold wf_func in W. rewrite Forall_forall in W; auto.
Qed.

Lemma map_unit5_eq : forall fp fr fe fc ft u,
  map_unit5 fp fr fe fc ft u =
  unit_map_t (map_const fc) (fun _ => map_func (map_sig4 fp fr fe ft)) (map_const fc)
             (map_func (map_sig4 fp fr fe ft)) ft u.
Proof. reflexivity. Qed.

Lemma map_unit5_wf : forall fp fr fe fc ft u,
  (forall t, P t -> P (fp t)) -> (forall t, P t -> P (fr t)) ->
  (forall t, P t -> P (fe t)) -> (forall t, P t -> P (fc t)) ->
  Forall P (types_of_unit u) -> Forall P (types_of_unit (map_unit5 fp fr fe fc ft u)).
Proof.
  intros fp fr fe fc ft u Hp Hr He Hc W. rewrite map_unit5_eq. apply unit_map_wf; try assumption.
  - intros c Wc. apply Hc; assumption.
  - intros _ f Wf. apply map_func_wf; [|assumption]. intros; apply map_sig4_wf; assumption.
  - intros c Wc. apply Hc; assumption.
  - intros f Wf. apply map_func_wf; [|assumption]. intros; apply map_sig4_wf; assumption.
Qed.
Lemma map_unit5_wider : forall H fp fr fe fc ft u,
  (forall t, P t -> wider H t (fp t)) -> (forall t, P t -> wider H t (fr t)) ->
  (forall t, P t -> wider H t (fc t)) ->
  Forall P (types_of_unit u) -> unit_wider H u (map_unit5 fp fr fe fc ft u).
Proof.
  intros H fp fr fe fc ft u Hp Hr Hc W. rewrite map_unit5_eq. apply (unit_map_wider H); try assumption.
  - intros c Wc. split; [reflexivity | apply Hc; assumption].
  - intros _ f Wf. eapply map_func_wider; [|eassumption]. intros; eapply map_sig4_wider; eassumption.
  - intros c Wc. split; [reflexivity | apply Hc; assumption].
  - intros f Wf. eapply map_func_wider; [|eassumption]. intros; eapply map_sig4_wider; eassumption.
Qed.
End Decl.

Lemma list_eqb_eq : forall {A} (eqb : A -> A -> bool), (forall a b, eqb a b = true <-> a = b) ->
  forall l l', list_eqb eqb l l' = true <-> l = l'.
Proof.
  intros A eqb He. induction l as [|x r IH]; destruct l' as [|y r']; simpl; try (split; congruence).
  rewrite andb_true_iff, He, IH. intuition congruence.
Qed.
Lemma option_eqb_eq : forall {A} (eqb : A -> A -> bool), (forall a b, eqb a b = true <-> a = b) ->
  forall a b, option_eqb eqb a b = true <-> a = b.
Proof. intros A eqb He [a|] [b|]; simpl; try (split; congruence). rewrite He. intuition congruence. Qed.
Lemma param_eqb_eq : forall a b, param_eqb a b = true <-> a = b.
Proof.
  intros [n1 t1 k1 o1 m1] [n2 t2 k2 o2 m2]. unfold param_eqb; simpl.
  rewrite !andb_true_iff, !Nat.eqb_eq, ty_eqb_eq, eqb_true_iff, (option_eqb_eq ty_eqb ty_eqb_eq).
  intuition congruence.
Qed.
Lemma stripped_eqb_iff : forall a b, stripped_eqb a b = true <->
  s_params a = s_params b /\ s_star a = s_star b /\ s_starstar a = s_starstar b /\ s_template a = s_template b.
Proof.
  intros a b. unfold stripped_eqb.
  rewrite !andb_true_iff, (list_eqb_eq param_eqb param_eqb_eq), !(option_eqb_eq param_eqb param_eqb_eq),
    (list_eqb_eq ty_eqb ty_eqb_eq). tauto.
Qed.
Lemma stripped_eqb_sym : forall a b, stripped_eqb a b = stripped_eqb b a.
Proof. intros a b. apply eq_true_iff_eq. rewrite !stripped_eqb_iff. intuition congruence. Qed.
Lemma sig_eqb_eq : forall a b, sig_eqb a b = true <-> a = b.
Proof.
  intros a b. unfold sig_eqb. rewrite !andb_true_iff, stripped_eqb_iff, ty_eqb_eq, (list_eqb_eq ty_eqb ty_eqb_eq).
  destruct a, b; simpl. intuition congruence.
Qed.

Definition tys_py_eqb := fix go (l l' : list ty) : bool :=
  match l, l' with
  | [], [] => true
  | x :: r, y :: r' => py_eqb x y && go r r'
  | _, _ => false
  end.

Lemma kind_cid_eqb : forall k k' c c' (x : bool),
  kind_eqb k k' && Nat.eqb c c' && x = true -> k = k' /\ c = c' /\ x = true.
Proof.
  intros k k' c c' x E. apply andb_prop in E as [E X]. apply andb_prop in E as [K C].
  apply kind_eqb_eq in K. apply Nat.eqb_eq in C. auto.
Qed.

(* `==` only relates types that every reflexive relation does which is closed under the constructors and
   blind to the order of union members *)
Section PyEqbRel.
  Variable R : ty -> ty -> Prop.
  Hypothesis R_refl : forall t, R t t.
  Hypothesis R_union : forall l l', (forall x, In x l <-> In x l') -> R (TUnion l) (TUnion l').
  Hypothesis R_gen : forall k c l l', Forall2 R l l' -> R (TGen k c l) (TGen k c l').
  Hypothesis R_tup : forall k c l l', Forall2 R l l' -> R (TTup k c l) (TTup k c l').
  Hypothesis R_call : forall k c l l', Forall2 R l l' -> R (TCall k c l) (TCall k c l').
  Hypothesis R_var : forall n sc hb l l', Forall2 R l l' -> R (TVar n sc hb l) (TVar n sc hb l').

  Lemma tys_py_eqb_rel : forall l, Forall (fun a => forall b, py_eqb a b = true -> R a b) l ->
    forall l', tys_py_eqb l l' = true -> Forall2 R l l'.
  Proof.
    intros l F. induction F as [|x r Hx _ IH]; destruct l' as [|y r']; simpl; intros E; try discriminate; constructor;
      apply andb_true_iff in E; [apply Hx | apply IH]; tauto.
  Qed.

  Lemma py_eqb_rel : forall a b, py_eqb a b = true -> R a b.
  Proof.
    induction a using ty_ind'; intros b E;
      try (assert (E' : ty_eqb _ b = true) by (destruct b; exact E);
           apply ty_eqb_eq in E'; subst b; apply R_refl);
      destruct b; try discriminate E; simpl in E; fold tys_py_eqb in E.
    - apply andb_prop in E as [E1 E2]. rewrite forallb_forall in E1, E2. apply R_union.
      intros x; split; intros Hx; apply memb_In; auto.
    - apply kind_cid_eqb in E as [-> [-> E]]. apply R_gen, (tys_py_eqb_rel _ H _ E).
    - apply kind_cid_eqb in E as [-> [-> E]]. apply R_tup, (tys_py_eqb_rel _ H _ E).
    - apply kind_cid_eqb in E as [-> [-> E]]. apply R_call, (tys_py_eqb_rel _ H _ E).
    - apply andb_prop in E as [E L]. apply andb_prop in E as [E B]. apply andb_prop in E as [N S].
      apply Nat.eqb_eq in N. apply Nat.eqb_eq in S. apply Bool.eqb_prop in B. subst.
      apply R_var, (tys_py_eqb_rel _ H _ L).
  Qed.
End PyEqbRel.

Lemma Forall2_pw : forall H (R : ty -> ty -> Prop) l l',
  Forall2 R l l' -> (forall x y, In x l -> R x y -> wider H x y) -> pw H l l' /\ length l' = length l.
Proof.
  intros H R l l' F. induction F; intros Hw; simpl.
  - split; [constructor | reflexivity].
  - destruct IHF as [P L]; [intros; apply Hw; [right|]; assumption|].
    split; [constructor; [apply Hw; [left; reflexivity | assumption] | assumption] | lia].
Qed.

Lemma tys_py_eqb_refl : forall l, Forall (fun a => py_eqb a a = true) l -> tys_py_eqb l l = true.
Proof. induction 1; simpl; [reflexivity | rewrite H, IHForall; reflexivity]. Qed.

Lemma py_eqb_refl : forall a, py_eqb a a = true.
Proof.
  induction a using ty_ind'; simpl; fold tys_py_eqb;
    rewrite ?kind_eqb_refl, ?Nat.eqb_refl, ?Bool.eqb_reflx; simpl;
    try (apply tys_py_eqb_refl; assumption); try reflexivity.
  assert (F : forallb (fun x => memb x ts) ts = true) by (apply forallb_forall; intros; apply memb_In; assumption).
  rewrite F. reflexivity.
Qed.

Section JR.
Variable H : hier.
Variable mx : nat.
Notation jr := (jr_ty H mx).

Section Cong.
  Variable C : list ty -> ty.
  Hypothesis cong : forall a x y b, jr x y -> jr (C (a ++ x :: b)) (C (a ++ y :: b)).
  Lemma cong_all_pre : forall l l', Forall2 jr l l' -> forall pre, jr (C (pre ++ l)) (C (pre ++ l')).
  Proof.
    induction 1 as [|x y l l' Hxy _ IH]; intros pre; [apply jr_refl|].
    eapply jr_trans; [apply cong; exact Hxy|].
    rewrite (app_snoc pre y l).
    rewrite (app_snoc pre y l').
    apply IH.
  Qed.
  Lemma cong_all : forall l l', Forall2 jr l l' -> jr (C l) (C l').
  Proof. intros l l' F. apply (cong_all_pre l l' F []). Qed.
End Cong.

Lemma jr_union_all : forall l l', Forall2 jr l l' -> jr (TUnion l) (TUnion l').
Proof. apply cong_all. intros; apply jr_in_union; assumption. Qed.
Lemma jr_gen_all : forall k c l l', Forall2 jr l l' -> jr (TGen k c l) (TGen k c l').
Proof. intros k c. apply (cong_all (TGen k c)). intros; apply jr_in_gen; assumption. Qed.
Lemma jr_tup_all : forall k c l l', Forall2 jr l l' -> jr (TTup k c l) (TTup k c l').
Proof. intros k c. apply (cong_all (TTup k c)). intros; apply jr_in_tup; assumption. Qed.
Lemma jr_call_all : forall k c l l', Forall2 jr l l' -> jr (TCall k c l) (TCall k c l').
Proof. intros k c. apply (cong_all (TCall k c)). intros; apply jr_in_call; assumption. Qed.

Lemma jr_var_all : forall n sc hb l l', Forall2 jr l l' -> jr (TVar n sc hb l) (TVar n sc hb l').
Proof. intros n sc hb. apply (cong_all (TVar n sc hb)). intros; apply jr_in_var; assumption. Qed.

Lemma Member_leaf : forall x t, Member x t -> is_union x = false /\ is_nothing x = false.
Proof. induction 1; auto. Qed.
Lemma Member_of_leaf : forall x t, is_union t = false -> Member x t -> x = t.
Proof. intros x t E M. inversion M; subst; [reflexivity | discriminate]. Qed.
Lemma Member_union_iff : forall x ts, Member x (TUnion ts) <-> exists t, In t ts /\ Member x t.
Proof.
  intros x ts. split.
  - intros M. inversion M; subst; [discriminate | eauto].
  - intros [t [Hin M]]. econstructor; eassumption.
Qed.

Lemma flat_Member : forall t x, In x (flat t) <-> Member x t.
Proof.
  induction t using ty_ind'; intros x;
    try (simpl; split; [intros [<-|[]]; constructor; reflexivity
                       | intros M; left; symmetry; apply Member_of_leaf; [reflexivity | exact M]]).
  - simpl. split; [contradiction | intros M; inversion M; subst; discriminate].
  - change (flat (TUnion ts)) with (flat_map flat ts). rewrite in_flat_map, Member_union_iff.
    rewrite Forall_forall in H0. split; intros [t [Hin Hx]]; exists t; split; auto; apply (H0 t Hin); exact Hx.
Qed.

Lemma same_members_flat : forall ts, same_members ts (dedup (flat_map flat ts)).
Proof.
  intros ts x. split.
  - intros [t [Hin M]]. exists x. split.
    + apply dedup_In. apply in_flat_map. exists t. split; [assumption | apply flat_Member; assumption].
    + destruct (Member_leaf _ _ M). constructor; assumption.
  - intros [t' [Hin M]]. rewrite dedup_In in Hin. apply in_flat_map in Hin. destruct Hin as [t [Hin Hf]].
    apply flat_Member in Hf. destruct (Member_leaf _ _ Hf) as [E _].
    rewrite (Member_of_leaf _ _ E M). exists t; auto.
Qed.

Lemma jr_join : forall ts, jr (TUnion ts) (join ts).
Proof.
  intros ts. eapply jr_trans; [apply jr_same_members; apply same_members_flat|].
  destruct (join_cases ts) as [y E | c Ha Hn Hc | Ha | E | ]; try rewrite E.
  - apply jr_one_member.
  - eapply jr_optional_any; eassumption.
  - apply jr_any_absorbs; assumption.
  - apply jr_no_member.
  - apply jr_refl.
Qed.

Lemma same_members_norm : forall ts, same_members ts (norm_union ts).
Proof.
  intros ts x. unfold norm_union. split.
  - intros [t [Hin M]]. destruct (is_union t) eqn:E.
    + destruct t; try discriminate. apply Member_union_iff in M. destruct M as [m [Hm M]].
      exists m. split; [|assumption].
      apply dedup_In. apply in_flat_map. exists (TUnion ts0). split; [assumption | exact Hm].
    + exists t. split; [|assumption]. apply dedup_In. apply in_flat_map. exists t. split; [assumption|].
      destruct t; simpl; try (left; reflexivity); discriminate.
  - intros [t' [Hin M]]. rewrite dedup_In in Hin. apply in_flat_map in Hin. destruct Hin as [t [Hin Hf]].
    exists t. split; [assumption|]. destruct t; simpl in Hf; try (destruct Hf as [<-|[]]; assumption).
    apply Member_union_iff. exists t'. auto.
Qed.

Lemma jr_norm_union : forall ts, jr (TUnion ts) (TUnion (norm_union ts)).
Proof. intros; apply jr_same_members; apply same_members_norm. Qed.

Section VisitJR.
  Variable fU : list ty -> ty.
  Variable fG : kind -> cid -> list ty -> ty.
  Variable fN : kind -> cid -> ty.
  Variable fB : kind -> kind.
  Variable I : ty -> Prop.
  Hypothesis I_sub : forall t, I t -> Forall I (children t).
  Hypothesis I_visit : forall t, I t -> I (visit fU fG fN fB t).
  Hypothesis fU_jr : forall l, Forall I l -> jr (TUnion l) (fU l).
  Hypothesis fG_jr : forall k c ps, jr (TGen k c ps) (fG (fB k) c ps).
  Hypothesis fN_jr : forall k c, jr (TName k c) (fN k c).
  Hypothesis fT_jr : forall k c ps, jr (TTup k c ps) (TTup (fB k) c ps).
  Hypothesis fC_jr : forall k c ps, jr (TCall k c ps) (TCall (fB k) c ps).

  Lemma visit_jr : forall t, I t -> jr t (visit fU fG fN fB t).
  Proof.
    induction t using ty_ind'; intros It; simpl; try apply jr_refl; try apply fN_jr;
      pose proof (I_sub _ It) as Is; simpl in Is;
      assert (F : Forall2 jr _ (map (visit fU fG fN fB) _))
        by (apply Forall2_map_r; rewrite Forall_forall in *; eauto).
    - eapply jr_trans; [apply jr_union_all; exact F|].
      eapply jr_trans; [apply jr_norm_union|]. apply fU_jr.
      apply norm_union_elems; [exact I_sub|]. apply Forall_map. eapply Forall_impl; [|exact Is]. exact I_visit.
    - eapply jr_trans; [apply jr_gen_all; exact F|]. apply fG_jr.
    - eapply jr_trans; [apply jr_tup_all; exact F|]. apply fT_jr.
    - eapply jr_trans; [apply jr_call_all; exact F|]. apply fC_jr.
    - apply jr_var_all. exact F.
  Qed.
End VisitJR.

Ltac triv_inv := try (intros; apply Itrue_all); try (intros; exact Logic.I).

Lemma simplify_unions_jr : forall t, jr t (simplify_unions t).
Proof.
  intros t. unfold simplify_unions.
  apply (visit_jr join TGen TName id_kind Itrue); triv_inv; intros; try apply jr_refl. apply jr_join.
Qed.

Lemma simplify_containers_jr : forall b t, jr t (simplify_containers b t).
Proof.
  intros b t. unfold simplify_containers.
  apply (visit_jr (sc_union b) sc_generic TName id_kind Itrue); triv_inv; intros; try apply jr_refl.
  - unfold sc_union. destruct b; [|apply jr_refl]. destruct l as [|x [|y r]]; try apply jr_refl. apply jr_one_member.
  - unfold sc_generic, id_kind. destruct (forallb is_any ps) eqn:E; [apply jr_all_any_container; assumption | apply jr_refl].
Qed.

Lemma collapse_long_unions_jr : forall t, mx <> 0 -> jr t (collapse_long_unions mx t).
Proof.
  intros t N. unfold collapse_long_unions.
  apply (visit_jr (clu_union mx) TGen TName id_kind Itrue); triv_inv; intros; try apply jr_refl.
  unfold clu_union. destruct ((mx <? length l) && negb (existsb is_lit l)) eqn:E.
  - apply andb_true_iff in E. destruct E as [E1 E2]. apply Nat.ltb_lt in E1. apply negb_true_iff in E2.
    apply jr_long_union; assumption.
  - destruct (existsb is_any l); [apply jr_join | apply jr_refl].
Qed.

Lemma adjust_generic_type_jr : forall t, jr t (adjust_generic_type t).
Proof.
  intros t. unfold adjust_generic_type.
  apply (visit_jr TUnion TGen agt_name id_kind Itrue); triv_inv; intros; try apply jr_refl.
  unfold agt_name. destruct k; [apply jr_refl|]. destruct (Nat.eqb c c_object) eqn:E; [|apply jr_refl].
  apply Nat.eqb_eq in E. subst. apply jr_object_is_any.
Qed.

Lemma resolve_jr : forall t, jr t (resolve t).
Proof.
  intros t. unfold resolve.
  apply (visit_jr TUnion TGen (fun _ c => TName KClass c) to_class Itrue); triv_inv; intros; try apply jr_refl.
  - apply jr_lookup_gen.
  - apply jr_lookup_name.
  - apply jr_lookup_tup.
  - apply jr_lookup_call.
Qed.

Lemma drop_list : forall (keep : ty -> bool) l pre,
  (forall t, In t l -> keep t = false ->
     exists k c k' s, t = TName k c /\ Sub H c s /\ keep (TName k' s) = true /\ In (TName k' s) (pre ++ l)) ->
  jr (TUnion (pre ++ l)) (TUnion (pre ++ filter keep l)).
Proof.
  intros keep. induction l as [|x r IH]; intros pre J; simpl; [apply jr_refl|].
  destruct (keep x) eqn:Kx.
  - rewrite (app_snoc pre x r).
    rewrite (app_snoc pre x (filter keep r)).
    apply IH. intros t Ht Kt. destruct (J t (or_intror Ht) Kt) as [k [c [k' [s [E [Sb [Ks Hs]]]]]]].
    exists k, c, k', s. repeat split; try assumption. rewrite <- app_assoc. exact Hs.
  - destruct (J x (or_introl eq_refl) Kx) as [k [c [k' [s [E [Sb [Ks Hs]]]]]]]. subst x.
    assert (Hs' : In (TName k' s) (pre ++ r)).
    { apply in_app_or in Hs. apply in_or_app. destruct Hs as [Hs|[Hs|Hs]]; auto. congruence. }
    eapply jr_trans; [eapply jr_subclass_absorbed; eassumption|].
    apply IH. intros t Ht Kt. destruct (J t (or_intror Ht) Kt) as [k2 [c2 [k2' [s2 [E2 [Sb2 [Ks2 Hs2]]]]]]].
    exists k2, c2, k2', s2. repeat split; try assumption.
    apply in_app_or in Hs2. apply in_or_app. destruct Hs2 as [Hs2|[Hs2|Hs2]]; auto. congruence.
Qed.

Lemma suws_union_jr : forall k l, ranked H -> Forall (wf k) l -> jr (TUnion l) (suws_union H l).
Proof.
  intros k l R F. unfold suws_union.
  eapply jr_trans; [|apply jr_join].
  apply (drop_list _ l []). intros t Ht Kt.
  destruct (name_of t) as [c|] eqn:E; [|discriminate]. destruct t; try discriminate. simpl in E. inversion E; subst c0.
  rewrite Forall_forall in F. pose proof (F _ Ht) as W. assert (k0 = k) by (inversion W; reflexivity). subst k0.
  rewrite <- Forall_forall in F.
  destruct (suws_kept_super H k l R F c Ht) as [u [Hu [Ku Su]]].
  exists k, c, k, u. repeat split; try assumption.
Qed.

Lemma simplify_superclasses_jr : forall k t, ranked H -> wf k t -> jr t (simplify_superclasses H t).
Proof.
  intros k t R. unfold simplify_superclasses.
  apply (visit_jr (suws_union H) TGen TName id_kind (wf k)); intros; try apply jr_refl.
  - apply wf_sub; assumption.
  - apply simplify_superclasses_wf; assumption.
  - apply (suws_union_jr k); assumption.
Qed.

Lemma Member_sound : forall t v, admits H t v <-> exists x, Member x t /\ admits H x v.
Proof.
  intros t v. rewrite flat_sound. split; intros [x [Hx A]]; exists x; split; auto; apply flat_Member; assumption.
Qed.

Lemma pw_middle : forall a x y b, wider H x y -> pw H (a ++ x :: b) (a ++ y :: b).
Proof.
  induction a as [|z a IH]; intros x y b W; simpl; constructor; try apply wider_refl; try assumption.
  - apply pw_refl.
  - apply IH; assumption.
Qed.

Lemma zip_union_pw_l : forall a b, pw H a (zip_union a b).
Proof.
  induction a as [|x r IH]; intros b; simpl; [constructor|]. destruct b as [|y b']; constructor; [|apply IH].
  intros v A. apply admits_union. exists x. split; [left; reflexivity | assumption].
Qed.
Lemma zip_union_pw_r : forall a b, pw H b (zip_union a b).
Proof.
  induction a as [|x r IH]; intros b; simpl; [constructor|]. destruct b as [|y b']; constructor; [|apply IH].
  intros v A. apply admits_union. exists y. split; [right; left; reflexivity | assumption].
Qed.
Lemma zip_union_length : forall a b, length a = length b -> length (zip_union a b) = length a.
Proof. induction a as [|x r IH]; intros b L; destruct b; simpl in *; try lia. rewrite IH; lia. Qed.

Lemma merged_container_wider : forall t0 t1, same_container t0 t1 ->
  wider H t0 (with_params t0 (zip_union (params_of t0) (params_of t1))) /\
  wider H t1 (with_params t0 (zip_union (params_of t0) (params_of t1))).
Proof.
  intros t0 t1 S. destruct S; simpl.
  - split; apply wider_gen; [apply zip_union_pw_l | apply zip_union_pw_r].
  - split; apply wider_tup; try apply zip_union_pw_l; try apply zip_union_pw_r;
      rewrite zip_union_length; congruence.
  - split; apply wider_call; try apply zip_union_pw_l; try apply zip_union_pw_r;
      rewrite zip_union_length; congruence.
Qed.

Lemma jr_widens_lemma : forall t t', jr t t' -> wider H t t'.
Proof.
  induction 1.
  - apply wider_refl.
  - eapply wider_trans; eassumption.
  - apply union_pw; [apply pw_middle; assumption | rewrite !app_length; reflexivity].
  - apply wider_gen. apply pw_middle. assumption.
  - apply wider_tup; [apply pw_middle; assumption | rewrite !app_length; reflexivity].
  - apply wider_call; [apply pw_middle; assumption | rewrite !app_length; reflexivity].
  - apply wider_var; [apply pw_middle; assumption | rewrite !app_length; reflexivity].
  - intros v A. apply admits_union in A. destruct A as [t [Hin A]]. apply Member_sound in A.
    destruct A as [x [Mx Ax]]. destruct (proj1 (H0 x) (ex_intro _ t (conj Hin Mx))) as [t' [Hin' Mx']].
    apply admits_union. exists t'. split; [assumption|]. apply Member_sound. exists x; auto.
  - intros v A. apply admits_union in A. destruct A as [t [[<-|[]] A]]. assumption.
  - intros v A. apply admits_union in A. destruct A as [t [[] _]].
  - intros v _. exact Logic.I.
  - intros v _. apply admits_union. exists TAny. split; [left; reflexivity | exact Logic.I].
  - intros v A. apply admits_union. exists x. split; [left; reflexivity | assumption].
  - intros v A. apply admits_tup in A. destruct A as [items [-> [S F]]].
    apply admits_gen. split; [assumption|]. simpl. split; [|exact Logic.I].
    apply Forall2_ex in F. eapply Forall_impl; [|exact F]. intros a [p [Hp Ap]].
    apply admits_union. exists p; auto.
  - apply (cc_conv_wider H true true (TCall k c ps)).
  - destruct (merged_container_wider t0 t1 H0) as [W0 W1]. apply union_wider. intros t Hin.
    apply in_elt_inv in Hin. destruct Hin as [->|Hin]; [eexists; split; [apply in_elt | exact W0]|].
    rewrite app_assoc in Hin. apply in_elt_inv in Hin.
    destruct Hin as [->|Hin]; [eexists; split; [apply in_elt | exact W1]|].
    exists t. split; [|apply wider_refl]. rewrite <- app_assoc in Hin. apply in_app_or in Hin.
    destruct Hin; apply in_or_app; simpl; auto.
  - apply union_wider. intros t Hin. apply in_elt_inv in Hin. destruct Hin as [->|Hin].
    + exists (TName k' s). split; [assumption|]. intros v A. simpl in *. eapply Sub_trans; eassumption.
    + exists t. split; [assumption | apply wider_refl].
  - intros v _. exact Logic.I.
  - intros v _. exact Logic.I.
  - intros v A. apply admits_gen in A. simpl. tauto.
  - intros v A. exact A.
  - intros v A. exact A.
  - intros v A. exact A.
  - intros v A. exact A.
  - intros v _. destruct cps as [|x r]; [congruence|]. apply admits_union. exists x.
    split; [left; reflexivity|]. apply unbounded_admits. inversion H2; assumption.
Qed.

Lemma zip_union_join : forall a b, Forall2 jr (zip_union a b) (zip_join a b).
Proof.
  induction a as [|x r IH]; intros b; simpl; [constructor|]. destruct b as [|y b']; constructor; [|apply IH].
  apply jr_join.
Qed.

Lemma with_params_jr : forall t ps qs, Forall2 jr ps qs -> jr (with_params t ps) (with_params t qs).
Proof.
  intros t ps qs F. destruct t; simpl; try apply jr_refl;
    [apply jr_gen_all | apply jr_tup_all | apply jr_call_all]; assumption.
Qed.

Lemma key_with_params : forall t key ps, key_of t = Some key ->
  (forall k c n, key = KN k c n -> length ps = n) -> key_of (with_params t ps) = Some key.
Proof.
  intros t key ps K L. destruct t; simpl in *; try discriminate; inversion K; subst; try reflexivity;
    rewrite (L _ _ _ eq_refl); reflexivity.
Qed.
Lemma params_with_params : forall t key ps, key_of t = Some key -> params_of (with_params t ps) = ps.
Proof. intros t key ps K. destruct t; simpl in *; try discriminate; reflexivity. Qed.
Lemma with_params_twice : forall t ps qs, with_params (with_params t ps) qs = with_params t qs.
Proof. intros t ps qs. destruct t; reflexivity. Qed.
Lemma key_length : forall t k c n, key_of t = Some (KN k c n) -> length (params_of t) = n.
Proof. intros t k c n K. destruct t; simpl in K; try discriminate; inversion K; reflexivity. Qed.

Definition not_key (key : ckey) (t : ty) : bool := negb (has_key key t).

(* all later containers with this key are folded into the first one *)
Lemma merge_all : forall k key l t pre mid, wf k t -> Forall (wf k) l -> key_of t = Some key ->
  jr (TUnion (pre ++ t :: mid ++ l))
     (TUnion (pre ++ with_params t (fold_left (fun acc x => zip_join acc (params_of x))
                                              (filter (has_key key) l) (params_of t))
                  :: mid ++ filter (not_key key) l)).
Proof.
  intros k key. induction l as [|x r IH]; intros t pre mid Wt Fl Kt; simpl.
  - destruct t; simpl in Kt; try discriminate; apply jr_refl.
  - inversion Fl as [|? ? Wx Fr]; subst. unfold not_key at 1. destruct (has_key key x) eqn:Hx; simpl.
    + apply has_key_iff in Hx.
      pose proof (key_same_container k t x key Wt Wx Kt Hx) as SC.
      eapply jr_trans; [apply (jr_merge_containers H mx pre t mid x r SC)|].
      set (t2 := with_params t (zip_join (params_of t) (params_of x))).
      assert (J : jr (with_params t (zip_union (params_of t) (params_of x))) t2)
        by (apply with_params_jr; apply zip_union_join).
      eapply jr_trans; [apply jr_in_union; exact J|].
      assert (K2 : key_of t2 = Some key).
      { apply key_with_params; [assumption|]. intros k' c n ->. rewrite zip_join_length.
        - eapply key_length; eassumption.
        - rewrite (key_length _ _ _ _ Kt), (key_length _ _ _ _ Hx). reflexivity. }
      assert (W2 : wf k t2).
      { apply with_params_wf; [assumption|]. apply zip_join_wf; apply params_of_wf; assumption. }
      specialize (IH t2 pre mid W2 Fr K2).
      unfold t2 in IH at 2 3. rewrite with_params_twice, (params_with_params _ _ _ Kt) in IH. exact IH.
    + rewrite (app_snoc mid x r).
      rewrite (app_snoc mid x (filter (not_key key) r)).
      apply IH; assumption.
Qed.

Lemma join_head : forall r a rest, jr (TUnion (r :: a :: rest)) (TUnion (join [r; a] :: rest)).
Proof.
  intros r a rest.
  eapply jr_trans; [apply (jr_same_members H mx _ (TUnion [r; a] :: rest))|].
  - intros x. split.
    + intros [t [[<-|[<-|Hin]] M]].
      * exists (TUnion [r; a]). split; [left; reflexivity | apply Member_union_iff; exists r; simpl; auto].
      * exists (TUnion [r; a]). split; [left; reflexivity | apply Member_union_iff; exists a; simpl; auto].
      * exists t. split; [right; assumption | assumption].
    + intros [t [[<-|Hin] M]].
      * apply Member_union_iff in M. destruct M as [t [[<-|[<-|[]]] M]]; eexists; split; try exact M; simpl; auto.
      * exists t. split; [right; right; assumption | assumption].
  - apply (jr_in_union H mx [] _ _ rest). apply jr_join.
Qed.

(* what the final loop has still to emit from [l]: the members whose key is not yet done *)
Definition eff (done : list ckey) (l : list ty) : list ty :=
  filter (fun t => match key_of t with Some k => negb (mem_by ckey_eqb k done) | None => true end) l.

Lemma filter_filter_key : forall key done r,
  filter (not_key key) (eff done r) = eff (key :: done) r.
Proof.
  intros key done r. unfold eff. induction r as [|x r IH]; simpl; [reflexivity|].
  unfold not_key, has_key, mem_by at 2. simpl.
  destruct (key_of x) as [kx|] eqn:Kx; simpl.
  - destruct (mem_by ckey_eqb kx done) eqn:M; simpl.
    + rewrite orb_true_r. simpl. exact IH.
    + unfold not_key, has_key. rewrite Kx. rewrite orb_false_r.
      destruct (ckey_eqb kx key); simpl; [exact IH | f_equal; exact IH].
  - unfold not_key, has_key. rewrite Kx. simpl. f_equal. exact IH.
Qed.

Lemma filter_key_not_key : forall key key' l, key <> key' ->
  filter (has_key key') (filter (not_key key) l) = filter (has_key key') l.
Proof.
  intros key key' l N. induction l as [|x r IH]; simpl; [reflexivity|].
  unfold not_key at 1. destruct (has_key key x) eqn:Hk; simpl.
  - destruct (has_key key' x) eqn:Hk'; [|exact IH].
    apply has_key_iff in Hk. apply has_key_iff in Hk'. congruence.
  - rewrite IH. reflexivity.
Qed.

Section EmitJR.
  Variable k : kind.
  Variable rec : ty -> option ty.
  Hypothesis rec_wf : forall t t', wf k t -> rec t = Some t' -> wf k t'.
  Hypothesis rec_jr : forall t t', wf k t -> rec t = Some t' -> jr t t'.
  Variable whole : list ty.
  Hypothesis whole_wf : Forall (wf k) whole.

  Lemma rec_params_jr : forall ps ps', Forall (wf k) ps -> map_opt rec ps = Some ps' -> Forall2 jr ps ps'.
  Proof.
    intros ps ps' F E. apply map_opt_Forall2 in E. induction E; constructor.
    - inversion F; subst. apply rec_jr; assumption.
    - inversion F; subst. apply IHE; assumption.
  Qed.

  Lemma eff_incl : forall done l, (forall t, In t l -> In t whole) -> Forall (wf k) (eff done l).
  Proof.
    intros done l Sub. apply Forall_forall. intros x Hx. unfold eff in Hx. apply filter_In in Hx.
    rewrite Forall_forall in whole_wf. apply whole_wf. apply Sub. tauto.
  Qed.

  Lemma cc_emit_jr : forall l done result t',
    (forall t, In t l -> In t whole) ->
    wf k result ->
    (forall key, mem_by ckey_eqb key done = false ->
                 filter (has_key key) (eff done l) = filter (has_key key) whole) ->
    cc_emit rec whole done result l = Some t' ->
    jr (TUnion (result :: eff done l)) t'.
  Proof.
    induction l as [|t r IH]; intros done result t' Sub Wr Hyp E; simpl in E.
    - inversion E; subst. simpl. apply jr_one_member.
    - assert (Wt : wf k t).
      { rewrite Forall_forall in whole_wf. apply whole_wf. apply Sub. left; reflexivity. }
      assert (Sub' : forall x, In x r -> In x whole) by (intros; apply Sub; right; assumption).
      destruct (key_of t) as [key|] eqn:Kt.
      + destruct (mem_by ckey_eqb key done) eqn:Md.
        * assert (Ee : eff done (t :: r) = eff done r) by (unfold eff; simpl; rewrite Kt, Md; reflexivity).
          rewrite Ee. apply IH; try assumption. intros key' M'. rewrite <- (Hyp key' M'), Ee. reflexivity.
        * destruct (map_opt rec (merged key whole)) as [ps'|] eqn:Em; [|discriminate].
          assert (Ee : eff done (t :: r) = t :: eff done r) by (unfold eff; simpl; rewrite Kt, Md; reflexivity).
          rewrite Ee.
          pose proof (Hyp key Md) as Hk. rewrite Ee in Hk. simpl in Hk.
          rewrite (proj2 (has_key_iff key t) Kt) in Hk.
          assert (Mg : merged key whole =
                       fold_left (fun acc x => zip_join acc (params_of x)) (filter (has_key key) (eff done r)) (params_of t)).
          { unfold merged. rewrite <- Hk. reflexivity. }
          pose proof (merge_all k key (eff done r) t [result] [] Wt (eff_incl done r Sub') Kt) as MA.
          simpl in MA. rewrite <- Mg, filter_filter_key in MA.
          eapply jr_trans; [exact MA|].
          pose proof (rec_params_jr _ _ (merged_wf k key whole whole_wf) Em) as Fp.
          pose proof (rec_params_wf k rec rec_wf _ _ (merged_wf k key whole whole_wf) Em) as Fw.
          eapply jr_trans; [apply (jr_in_union H mx [result]); apply with_params_jr; exact Fp|].
          eapply jr_trans; [apply join_head|].
          apply IH; try assumption.
          -- apply join_wf. constructor; [assumption|]. constructor; [|constructor]. apply with_params_wf; assumption.
          -- intros key' M'. unfold mem_by in M'. simpl in M'. apply orb_false_iff in M'. destruct M' as [Ne M'].
             assert (Nk : key <> key') by (intros ->; rewrite (proj2 (ckey_eqb_eq key' key') eq_refl) in Ne; discriminate).
             rewrite <- filter_filter_key, (filter_key_not_key key key' _ Nk).
             rewrite <- (Hyp key' M'), Ee. simpl.
             destruct (has_key key' t) eqn:Hk'; [|reflexivity].
             apply has_key_iff in Hk'. congruence.
      + assert (Ee : eff done (t :: r) = t :: eff done r) by (unfold eff; simpl; rewrite Kt; reflexivity).
        rewrite Ee. eapply jr_trans; [apply join_head|].
        apply IH; try assumption.
        * apply join_wf. repeat constructor; assumption.
        * intros key' M'. rewrite <- (Hyp key' M'), Ee. simpl. unfold has_key at 2. rewrite Kt. reflexivity.
  Qed.
End EmitJR.

Lemma eff_nil : forall l, eff [] l = l.
Proof.
  intros l. unfold eff. induction l as [|x r IH]; simpl; [reflexivity|].
  destruct (key_of x); simpl; f_equal; exact IH.
Qed.

Lemma cc_conv_jr : forall mt mc t, jr t (cc_conv mt mc t).
Proof.
  intros mt mc t. destruct t; simpl; try apply jr_refl.
  - destruct mt; [|apply jr_refl]. eapply jr_trans; [apply jr_tuple_homogeneous|].
    apply (jr_in_gen H mx k c [] _ _ []). apply jr_join.
  - destruct mc; [|apply jr_refl]. apply jr_callable_degenerate.
Qed.

Lemma cc_prep_jr : forall l0, jr (TUnion l0) (TUnion (cc_prep l0)).
Proof.
  intros l0. apply jr_trans with (TUnion (join_members l0)).
  - eapply jr_trans; [apply jr_join|]. unfold join_members.
    destruct (join l0); try apply jr_one_member_wrap. apply jr_refl.
  - unfold cc_prep. destruct (_ || _); [|apply jr_refl]. apply jr_union_all, Forall2_map_r.
    intros; apply cc_conv_jr.
Qed.

Lemma cc_union_jr : forall k rec,
  (forall t t', wf k t -> rec t = Some t' -> wf k t') ->
  (forall t t', wf k t -> rec t = Some t' -> jr t t') ->
  forall l0 t', Forall (wf k) l0 -> cc_union rec l0 = Some t' -> jr (TUnion l0) t'.
Proof.
  intros k rec Hok Hjr l0 t' F0 E. rewrite cc_union_unfold in E.
  destruct (negb (existsb is_generic l0)); [inversion E; subst; apply jr_refl|].
  eapply jr_trans; [apply cc_prep_jr|]. pose proof (cc_prep_wf k l0 F0) as F2.
  revert E F2. generalize (cc_prep l0). intros l2 E F2.
  destruct (negb (has_redundant l2)); [inversion E; subst; apply jr_refl|].
  eapply jr_trans; [apply (jr_same_members H mx _ (TNothing :: l2))|].
  - intros x. split.
    + intros [t [Hin M]]. exists t. split; [right; assumption | assumption].
    + intros [t [[<-|Hin] M]]; [inversion M; subst; discriminate | exists t; auto].
  - pose proof (cc_emit_jr k rec Hok Hjr _ F2 l2 [] TNothing t') as J. rewrite eff_nil in J.
    apply J; [auto | constructor | reflexivity | assumption].
Qed.

Lemma cc_jr : forall k n t t', wf k t -> cc n t = Some t' -> jr t t'.
Proof.
  intros k n; induction n as [|f IH]; intros t t' W E; simpl in E; [discriminate|].
  pose proof (cc_wf k f) as Hok. pose proof (wf_sub _ _ W) as Ws.
  destruct t; simpl in Ws; try (inversion E; subst; apply jr_refl);
    destruct (map_opt (cc f) _) as [l'|] eqn:Em; try discriminate;
    pose proof (rec_params_jr k (cc f) IH _ _ Ws Em) as J; simpl in E.
  - eapply jr_trans; [apply jr_union_all; exact J|]. eapply jr_trans; [apply jr_norm_union|].
    apply (cc_union_jr k (cc f) Hok IH); [|assumption].
    apply norm_union_elems; [apply wf_sub | exact (rec_params_wf k (cc f) Hok _ _ Ws Em)].
  - inversion E; subst. apply jr_gen_all, J.
  - inversion E; subst. apply jr_tup_all, J.
  - inversion E; subst. apply jr_call_all, J.
  - inversion E; subst. apply jr_var_all, J.
Qed.

Lemma combine_containers_jr : forall k t, wf k t -> jr t (combine_containers t).
Proof.
  intros k t W. unfold combine_containers, cc_top. destruct (cc (2 * size t + 2) t) eqn:E; [|apply jr_refl].
  apply (cc_jr k _ _ _ W E).
Qed.

Lemma same_members_sets : forall a b, (forall x, In x a <-> In x b) -> same_members a b.
Proof. intros a b E x. split; intros [t [Hin M]]; exists t; split; auto; apply E; assumption. Qed.

Lemma py_eqb_jr : forall a b, py_eqb a b = true -> jr a b.
Proof.
  apply py_eqb_rel; [apply jr_refl | | apply jr_gen_all | apply jr_tup_all | apply jr_call_all | apply jr_var_all].
  intros; apply jr_same_members, same_members_sets; assumption.
Qed.

(* representative of a type among the `==`-deduplicated list *)
Definition py_rep (D : list ty) (r : ty) : ty :=
  if memb r D then r else match find (py_eqb r) D with Some y => y | None => r end.

Lemma py_rep_spec : forall l r, In r l -> In (py_rep (dedup_py l) r) (dedup_py l) /\ jr r (py_rep (dedup_py l) r).
Proof.
  intros l r Hin. unfold py_rep, dedup_py. destruct (memb r (dedup_by py_eqb l)) eqn:M.
  - split; [apply memb_In; assumption | apply jr_refl].
  - destruct (dedup_by_cover py_eqb py_eqb_refl l r Hin) as [y [Hy Ey]].
    destruct (find (py_eqb r) (dedup_by py_eqb l)) as [z|] eqn:Fz.
    + apply find_some in Fz. destruct Fz as [Hz Ez].
      split; [exact Hz | apply py_eqb_jr; exact Ez].
    + exfalso. pose proof (find_none _ _ Fz y Hy) as N. congruence.
Qed.

Lemma dedup_py_jr : forall l, jr (TUnion l) (TUnion (dedup_py l)).
Proof.
  intros l. eapply jr_trans; [apply jr_union_all; apply (Forall2_map_r _ (py_rep (dedup_py l)))|].
  - intros x Hx. apply (py_rep_spec l x Hx).
  - apply jr_same_members. apply same_members_sets. intros x. split.
    + intros Hx. apply in_map_iff in Hx. destruct Hx as [r [<- Hr]]. apply (py_rep_spec l r Hr).
    + intros Hx. apply in_map_iff. exists x. split.
      * unfold py_rep. rewrite (proj2 (memb_In x (dedup_py l)) Hx). reflexivity.
      * eapply dedup_by_subset; eassumption.
Qed.
End JR.

(* never stricter, because each of these passes only rewrites; the max_union index of the relation plays no part
   in that, so any value serves.  collapse_long_unions_widens_lemma is not among them: see the head of the file *)
Lemma py_eqb_wider : forall H a b, py_eqb a b = true -> wider H a b.
Proof. intros H a b E. apply (jr_widens_lemma H 0), py_eqb_jr, E. Qed.
Lemma simplify_unions_widens_lemma : forall H t, wider H t (simplify_unions t).
Proof. intros H t. apply (jr_widens_lemma H 0), simplify_unions_jr. Qed.
Lemma simplify_containers_widens_lemma : forall H b t, wider H t (simplify_containers b t).
Proof. intros H b t. apply (jr_widens_lemma H 0), simplify_containers_jr. Qed.
Lemma adjust_generic_type_widens_lemma : forall H t, wider H t (adjust_generic_type t).
Proof. intros H t. apply (jr_widens_lemma H 0), adjust_generic_type_jr. Qed.
Lemma resolve_widens_lemma : forall H t, wider H t (resolve t).
Proof. intros H t. apply (jr_widens_lemma H 0), resolve_jr. Qed.
Lemma simplify_superclasses_widens_lemma : forall H k t,
  ranked H -> wf k t -> wider H t (simplify_superclasses H t).
Proof. intros H k t R W. apply (jr_widens_lemma H 0), (simplify_superclasses_jr H 0 k); assumption. Qed.
Lemma cc_sound : forall H k n t t', wf k t -> cc n t = Some t' -> wider H t t' /\ wf k t'.
Proof.
  intros H k n t t' W E. split; [apply (jr_widens_lemma H 0), (cc_jr H 0 k n) | apply (cc_wf k n t)]; assumption.
Qed.
Lemma combine_containers_widens_lemma : forall H k t, wf k t -> wider H t (combine_containers t).
Proof. intros H k t W. apply (jr_widens_lemma H 0), (combine_containers_jr H 0 k), W. Qed.

Lemma sig_eqb_refl : forall s, sig_eqb s s = true.
Proof. intros; apply sig_eqb_eq; reflexivity. Qed.
Lemma stripped_eqb_refl : forall s, stripped_eqb s s = true.
Proof. intros; apply stripped_eqb_iff; auto. Qed.

Lemma remove_duplicates_wider : forall H f, func_wider H f (remove_duplicates_f f).
Proof.
  intros H f. unfold func_wider, remove_duplicates_f; simpl. repeat split. intros s Hs.
  destruct (dedup_by_cover sig_eqb sig_eqb_refl _ _ Hs) as [y [Hy E]]. apply sig_eqb_eq in E. subst y.
  exists s. split; [assumption | apply sig_wider_refl].
Qed.
Lemma remove_duplicates_wf : forall P f, wf_func P f -> wf_func P (remove_duplicates_f f).
Proof.
  intros P f W. unfold wf_func, remove_duplicates_f in *; simpl. apply Forall_forall. intros s Hs.
  apply dedup_by_subset in Hs. rewrite Forall_forall in W; auto.
Qed.

(* signature_merge_sound, core: every original signature is covered by its group's signature *)
Lemma combine_returns_wider : forall H f, func_wider H f (combine_returns_f f).
Proof.
  intros H f. unfold func_wider, combine_returns_f; simpl. repeat split. intros s Hs.
  destruct (dedup_by_cover stripped_eqb stripped_eqb_refl _ _ Hs) as [s0 [H0 E]].
  exists (combine_group (f_sigs f) s0). split; [apply in_map; assumption|].
  apply stripped_eqb_iff in E. destruct E as [E1 [E2 [E3 E4]]].
  unfold sig_wider, combine_group; simpl. rewrite <- E1, <- E2, <- E3. repeat split.
  - apply Forall2_refl. apply param_wider_refl.
  - apply oparam_wider_refl.
  - apply oparam_wider_refl.
  - assert (Hm : In (s_ret s) (map s_ret (filter (stripped_eqb s0) (f_sigs f)))).
    { apply in_map. apply filter_In. split; [assumption|]. apply stripped_eqb_iff. auto. }
    destruct (dedup_by_cover py_eqb py_eqb_refl _ _ Hm) as [y [Hy Ey]].
    eapply wider_trans; [apply py_eqb_wider; exact Ey|]. apply join_widens. exact Hy.
Qed.
Lemma combine_returns_wf : forall k f, wf_func (wf k) f -> wf_func (wf k) (combine_returns_f f).
Proof.
  intros k f W. unfold wf_func, combine_returns_f in *; simpl. apply Forall_forall. intros s Hs.
  apply in_map_iff in Hs. destruct Hs as [s0 [<- H0]]. apply dedup_by_subset in H0.
  rewrite Forall_forall in W. destruct (W s0 H0) as [Pp [S [SS [R E]]]].
  unfold wf_sig, combine_group; simpl. repeat split; try assumption.
  - apply join_wf. apply Forall_forall. intros t Ht. apply dedup_by_subset in Ht.
    apply in_map_iff in Ht. destruct Ht as [s1 [<- H1]]. apply filter_In in H1. destruct H1 as [H1 _].
    apply (W s1 H1).
  - apply Forall_forall. intros t Ht. apply dedup_by_subset in Ht. apply in_flat_map in Ht.
    destruct Ht as [s1 [H1 Ht]]. apply filter_In in H1. destruct H1 as [H1 _].
    destruct (W s1 H1) as [_ [_ [_ [_ E1]]]]. rewrite Forall_forall in E1; auto.
Qed.

Lemma absorb_param_wider : forall H p, param_wider H p (absorb_param p).
Proof.
  intros H p. unfold absorb_param. destruct (p_mut p) as [m|] eqn:E; [|apply param_wider_refl].
  unfold param_wider; simpl. rewrite E. repeat split; apply join_widens; simpl; auto.
Qed.
Lemma absorb_param_wf : forall k p, wf_param (wf k) p -> wf_param (wf k) (absorb_param p).
Proof.
  intros k p [W M]. unfold absorb_param. destruct (p_mut p) as [m|] eqn:E; [|split; [assumption | rewrite E; exact I]].
  unfold wf_param; simpl. split; [|exact I]. apply join_wf. repeat constructor; assumption.
Qed.
Lemma absorb_sig_wider : forall H s, sig_wider H s (absorb_sig s).
Proof.
  intros H s. unfold sig_wider, absorb_sig; simpl. repeat split.
  - apply Forall2_map_r. intros; apply absorb_param_wider.
  - destruct (s_star s); simpl; [apply absorb_param_wider | exact I].
  - destruct (s_starstar s); simpl; [apply absorb_param_wider | exact I].
  - apply wider_refl.
Qed.
Lemma absorb_sig_wf : forall k s, wf_sig (wf k) s -> wf_sig (wf k) (absorb_sig s).
Proof.
  intros k s [Pp [S [SS [R E]]]]. unfold wf_sig, absorb_sig; simpl. repeat split; try assumption.
  - apply Forall_map_pres; [apply absorb_param_wf | assumption].
  - destruct (s_star s); simpl; [apply absorb_param_wf; assumption | exact I].
  - destruct (s_starstar s); simpl; [apply absorb_param_wf; assumption | exact I].
Qed.

Lemma unparameterised_wider : forall H t,
  wider H t (match t with TGen k c _ | TTup k c _ | TCall k c _ => TName k c | _ => t end).
Proof.
  intros H t v A. destruct t; try assumption.
  - apply admits_gen in A. simpl. tauto.
  - apply admits_tup in A. destruct A as [items [-> [S _]]]. exact S.
  - apply admits_call in A. destruct A as [a [r [-> [S _]]]]. exact S.
Qed.
Lemma normalize_self_sig_wider : forall H cls s, sig_wider H s (normalize_self_sig cls s).
Proof.
  intros H cls s. unfold normalize_self_sig. destruct (s_params s) as [|p rest] eqn:Ep; [apply sig_wider_refl|].
  destruct (Nat.eqb (p_name p) 0 && is_generic (p_ty p) && Nat.eqb (base_cid (p_ty p)) cls); [|apply sig_wider_refl].
  unfold sig_wider; simpl. rewrite Ep. repeat split; try apply oparam_wider_refl; try apply wider_refl.
  constructor; [|apply Forall2_refl; apply param_wider_refl].
  unfold param_wider; simpl. repeat split.
  - intros v A. apply (unparameterised_wider H (p_ty p)) in A. destruct (p_ty p); exact A.
  - destruct (p_mut p); [apply wider_refl | reflexivity].
Qed.
Lemma normalize_self_sig_wf : forall k cls s, wf_sig (wf k) s -> wf_sig (wf k) (normalize_self_sig cls s).
Proof.
  intros k cls s W. unfold normalize_self_sig. destruct (s_params s) as [|p rest] eqn:Ep; [assumption|].
  destruct (Nat.eqb (p_name p) 0 && is_generic (p_ty p) && Nat.eqb (base_cid (p_ty p)) cls); [|assumption].
  destruct W as [Pp [S [SS [R E]]]]. unfold wf_sig; simpl. repeat split; try assumption.
  rewrite Ep in Pp. inversion Pp as [|? ? [Wt Wm] Pr]; subst. constructor; [|assumption].
  unfold wf_param; simpl. split; [|assumption].
  destruct (p_ty p); try assumption; inversion Wt; subst; constructor.
Qed.

Lemma map_funcs_unit_eq : forall g u,
  map_funcs_unit g u = unit_map (fun c => c) (fun _ => g) (fun c => c) g u.
Proof. intros g [cs cls fs]. unfold map_funcs_unit, unit_map, unit_map_t; simpl. rewrite map_id. reflexivity. Qed.
Lemma normalize_self_eq : forall u,
  normalize_self u = unit_map (fun c => c) (fun cls => map_func (normalize_self_sig cls)) (fun c => c) (fun f => f) u.
Proof. intros [cs cls fs]. unfold normalize_self, unit_map, unit_map_t; simpl. rewrite !map_id. reflexivity. Qed.

Lemma adjust_self_no_classes : forall u, u_classes u = [] -> adjust_self u = u.
Proof. intros [cs cls fs] E; simpl in E; subst. reflexivity. Qed.

Lemma Forall2_map_post : forall {A B} (R : A -> B -> Prop) (g : B -> B) l l',
  (forall x y, R x y -> R x (g y)) -> Forall2 R l l' -> Forall2 R l (map g l').
Proof. intros A B R g l l' Hg F. induction F; simpl; constructor; auto. Qed.

Lemma resolve_unit_wider : forall H u, unit_wider H u (resolve_unit u).
Proof.
  intros H u.
  assert (W : unit_wider H u (map_ty_unit resolve u)).
  { unfold map_ty_unit. apply (map_unit5_wider Itrue); try (intros; apply resolve_widens_lemma).
    apply Itrue_all. }
  destruct W as [C [L F]]. unfold unit_wider, resolve_unit; simpl. repeat split; try assumption.
  apply Forall2_map_post; [|exact L].
  intros x y [N [B [M K]]]. unfold class_wider; simpl. repeat split; try assumption.
  rewrite map_map. simpl. exact B.
Qed.

Lemma map_opt_s_Forall2 : forall {A B} (f : A -> option B) l l',
  map_opt_s f l = Some l' -> Forall2 (fun a b => f a = Some b) l l'.
Proof.
  intros A B f. induction l as [|x r IH]; intros l' E; simpl in E.
  - inversion E; constructor.
  - destruct (f x) eqn:Ex; [|discriminate]. destruct (map_opt_s f r) eqn:Er; [|discriminate].
    inversion E; subst. constructor; [assumption | apply IH; reflexivity].
Qed.
Lemma assoc_ty_In : forall sg t v, assoc_ty sg t = Some v -> In (t, v) sg.
Proof.
  induction sg as [|[k w] r IH]; intros t v E; simpl in E; [discriminate|].
  destruct (ty_eqb k t) eqn:Ek.
  - apply ty_eqb_eq in Ek. inversion E; subst. left; reflexivity.
  - right. apply IH; assumption.
Qed.

Lemma Forall2_impl : forall {A B} (R R' : A -> B -> Prop) l l',
  (forall a b, R a b -> R' a b) -> Forall2 R l l' -> Forall2 R' l l'.
Proof. intros A B R R' l l' Hi F. induction F; constructor; auto. Qed.

Definition sg_ok (H : hier) (sg : list (ty * ty)) : Prop := forall k v, In (k, v) sg -> wider H k v.

Lemma subst_wider : forall H sg, sg_ok H sg -> forall t t', subst sg t = Some t' -> wider H t t'.
Proof.
  intros H sg OK. induction t using ty_ind'; intros t' E; simpl in E;
    try (inversion E; subst; apply wider_refl);
    destruct (map_opt_s (subst sg) _) as [l|] eqn:Em; try discriminate;
    apply map_opt_s_Forall2 in Em; destruct (Forall2_pw H _ _ _ Em) as [P L];
    try (intros x y Hin Ex; rewrite Forall_forall in H0; apply H0; assumption); simpl in E.
  - inversion E; subst. intros v A. apply norm_union_admits. apply (union_pw H ts l P L). exact A.
  - inversion E; subst. apply wider_gen; assumption.
  - inversion E; subst. apply wider_tup; assumption.
  - inversion E; subst. apply wider_call; assumption.
  - eapply wider_trans; [apply (wider_var H n sc hb ps l P L)|]. apply OK, assoc_ty_In. exact E.
Qed.

Lemma subst_param_wider : forall H sg p p', sg_ok H sg -> subst_param sg p = Some p' -> param_wider H p p'.
Proof.
  intros H sg p p' OK E. unfold subst_param in E.
  destruct (subst sg (p_ty p)) as [t|] eqn:Et; [|discriminate].
  destruct (p_mut p) as [m|] eqn:Em.
  - destruct (subst sg m) as [m'|] eqn:Es; simpl in E; [|discriminate]. inversion E; subst.
    unfold param_wider; simpl. rewrite Em. repeat split; eapply subst_wider; eassumption.
  - inversion E; subst. unfold param_wider; simpl. rewrite Em. repeat split. eapply subst_wider; eassumption.
Qed.
Lemma subst_oparam_wider : forall H sg p p', sg_ok H sg -> subst_oparam sg p = Some p' -> oparam_wider H p p'.
Proof.
  intros H sg [p|] p' OK E; simpl in E.
  - destruct (subst_param sg p) eqn:Ep; simpl in E; [|discriminate]. inversion E; subst. simpl.
    eapply subst_param_wider; eassumption.
  - inversion E; subst. exact I.
Qed.
Lemma subst_sig_wider : forall H sg tmpl s s', sg_ok H sg -> subst_sig sg tmpl s = Some s' -> sig_wider H s s'.
Proof.
  intros H sg tmpl s s' OK E. unfold subst_sig in E.
  destruct (map_opt (subst_param sg) (s_params s)) as [ps|] eqn:E1; [|discriminate].
  destruct (subst_oparam sg (s_star s)) as [st|] eqn:E2; [|discriminate].
  destruct (subst_oparam sg (s_starstar s)) as [ss|] eqn:E3; [|discriminate].
  destruct (subst sg (s_ret s)) as [r|] eqn:E4; [|discriminate].
  destruct (map_opt (subst sg) (s_exc s)) as [ex|] eqn:E5; [|discriminate].
  destruct (map_opt (subst sg) tmpl) as [tm|] eqn:E6; [|discriminate].
  inversion E; subst. unfold sig_wider; simpl. repeat split.
  - apply map_opt_Forall2 in E1. eapply Forall2_impl; [|exact E1].
    intros a b Eab. eapply subst_param_wider; eassumption.
  - eapply subst_oparam_wider; eassumption.
  - eapply subst_oparam_wider; eassumption.
  - eapply subst_wider; eassumption.
Qed.

Lemma wf_param_Itrue : forall p, wf_param Itrue p.
Proof. intros p. split; [exact I | destruct (p_mut p); exact I]. Qed.
Lemma wf_sig_Itrue : forall s, wf_sig Itrue s.
Proof.
  intros s. unfold wf_sig. repeat split; try exact I.
  - apply Forall_forall. intros; apply wf_param_Itrue.
  - destruct (s_star s); simpl; [apply wf_param_Itrue | exact I].
  - destruct (s_starstar s); simpl; [apply wf_param_Itrue | exact I].
  - apply Itrue_all.
Qed.

Lemma mtp_item_ok : forall H fuel m ct st acc item tm sg,
  Forall unbounded_var ct ->
  (forall tm sg, acc = Some (tm, sg) -> sg_ok H sg) ->
  mtp_item fuel m (fun t => memb t ct && negb (memb t st)) acc item = Some (tm, sg) -> sg_ok H sg.
Proof.
  intros H fuel m ct st acc item tm sg U OK E'. unfold mtp_item in E'.
  destruct acc as [[tm0 sg0]|]; [|discriminate].
  destruct (all_containing fuel m item []) as [[cont seen]|]; [|discriminate].
  destruct (filter (fun t => memb t ct && negb (memb t st)) cont) as [|x cps] eqn:Ef.
  - inversion E'; subst. eapply OK; reflexivity.
  - inversion E'; subst. intros k v [Ekv|Hin].
    + inversion Ekv; subst. intros w _. apply (join_widens H (x :: cps) x); [left; reflexivity|].
      apply unbounded_admits.
      assert (Hx : In x (filter (fun t => memb t ct && negb (memb t st)) cont)) by (rewrite Ef; left; reflexivity).
      apply filter_In in Hx. destruct Hx as [_ Hx]. apply andb_true_iff in Hx. destruct Hx as [Hx _].
      apply memb_In in Hx. rewrite Forall_forall in U. apply U; assumption.
    + eapply OK; [reflexivity | eassumption].
Qed.

Lemma mtp_fold_ok : forall H fuel m ct st items acc tm sg,
  Forall unbounded_var ct ->
  (forall tm sg, acc = Some (tm, sg) -> sg_ok H sg) ->
  fold_left (mtp_item fuel m (fun t => memb t ct && negb (memb t st))) items acc = Some (tm, sg) ->
  sg_ok H sg.
Proof.
  intros H fuel m ct st items; induction items as [|it r IH]; intros acc tm sg U OK E; simpl in E.
  - eapply OK; eassumption.
  - eapply IH; [exact U | | exact E].
    intros tm' sg' E'. exact (mtp_item_ok H fuel m ct st acc it tm' sg' U OK E').
Qed.

Lemma mtp_sig_wider : forall H ct s s', Forall unbounded_var ct -> mtp_sig ct s = Some s' -> sig_wider H s s'.
Proof.
  intros H ct s s' U E. unfold mtp_sig in E.
  match type of E with context [fold_left ?f ?l ?a] => destruct (fold_left f l a) as [[tm sg]|] eqn:Ef end;
    [|discriminate].
  destruct (subst_sig sg tm s) as [s1|] eqn:Es; simpl in E; [|discriminate]. inversion E; subst.
  assert (OK : sg_ok H sg).
  { eapply (mtp_fold_ok H _ _ ct (s_template s)); [exact U | | exact Ef].
    intros tm0 sg0 E0. inversion E0; subst. intros k v Hin. apply in_map_iff in Hin.
    destruct Hin as [x [Ex _]]. inversion Ex; subst. apply wider_refl. }
  eapply sig_wider_trans; [eapply subst_sig_wider; eassumption|].
  unfold map_sig. apply (map_sig4_wider Itrue); try (intros; apply simplify_unions_widens_lemma).
  apply wf_sig_Itrue.
Qed.

Lemma mtp_func_wider : forall H ct f f', Forall unbounded_var ct -> mtp_func ct f = Some f' -> func_wider H f f'.
Proof.
  intros H ct f f' U E. unfold mtp_func in E.
  destruct (map_opt (mtp_sig ct) (f_sigs f)) as [ss|] eqn:Em; simpl in E; [|discriminate]. inversion E; subst.
  unfold func_wider; simpl. repeat split. intros s Hs. apply map_opt_Forall2 in Em.
  clear E. induction Em; [contradiction|]. destruct Hs as [<-|Hs].
  - exists y. split; [left; reflexivity | eapply mtp_sig_wider; eassumption].
  - destruct (IHEm Hs) as [s' [Hin W]]. exists s'. split; [right; assumption | assumption].
Qed.

Lemma merge_type_parameters_wider : forall H u u',
  unb_classes u -> merge_type_parameters u = Some u' -> unit_wider H u u' /\ hier_of u' = hier_of u.
Proof.
  intros H u u' U E. unfold merge_type_parameters in E.
  destruct (map_opt mtp_class (u_classes u)) as [cs|] eqn:Ec; [|discriminate].
  destruct (map_opt (mtp_func []) (u_funcs u)) as [fs|] eqn:Ef; [|discriminate]. inversion E; subst.
  apply map_opt_Forall2 in Ec. apply map_opt_Forall2 in Ef.
  assert (C : Forall2 (class_wider H) (u_classes u) cs /\ map (fun c => (cl_name c, map snd (cl_bases c))) cs
              = map (fun c => (cl_name c, map snd (cl_bases c))) (u_classes u)).
  { unfold unb_classes in U. clear Ef E. induction Ec; [split; [constructor | reflexivity]|].
    inversion U as [|? ? Ux Ur]; subst. destruct (IHEc Ur) as [F M]. unfold mtp_class in H0.
    destruct (map_opt (mtp_func (cl_template x)) (cl_methods x)) as [ms|] eqn:Em; simpl in H0; [|discriminate].
    inversion H0; subst. split.
    - constructor; [|assumption]. unfold class_wider; simpl. repeat split.
      + apply map_opt_Forall2 in Em. eapply Forall2_impl; [|exact Em]. intros a b Eab.
        eapply mtp_func_wider; eassumption.
      + apply Forall2_refl. apply const_wider_refl.
    - simpl. rewrite M. reflexivity. }
  destruct C as [C M]. split.
  - unfold unit_wider; simpl. repeat split.
    + apply Forall2_refl. apply const_wider_refl.
    + exact C.
    + eapply Forall2_impl; [|exact Ef]. intros a b Eab. eapply mtp_func_wider; [constructor | eassumption].
  - unfold hier_of; simpl. exact M.
Qed.

Lemma hier_of_classes_nil : forall u, hier_of u = [] -> u_classes u = [].
Proof. intros u E. unfold hier_of in E. destruct (u_classes u); [reflexivity | discriminate]. Qed.

(* what [run_pass_sound] claims, for a pass that applies one function to every type, resp. to every function;
   [X] stands for whatever side condition the caller carries *)
Lemma map_ty_unit_sound : forall (P : ty -> Prop) (X : Prop) H k f u,
  (forall t, P t -> wider H t (f t)) -> (forall t, wf k t -> wf k (f t)) -> Forall P (types_of_unit u) ->
  unit_wider H u (map_ty_unit f u) /\ hier_of (map_ty_unit f u) = hier_of u /\
  (wf_unit k u -> X -> wf_unit k (map_ty_unit f u)).
Proof.
  intros P X H k f u Hw Hf F. split; [|split].
  - apply (map_unit5_wider P); assumption.
  - apply unit_map_hier.
  - intros W _. apply map_unit5_wf; assumption.
Qed.
Lemma map_funcs_unit_sound : forall (X : Prop) H k g u,
  (forall f, func_wider H f (g f)) -> (forall f, wf_func (wf k) f -> wf_func (wf k) (g f)) ->
  unit_wider H u (map_funcs_unit g u) /\ hier_of (map_funcs_unit g u) = hier_of u /\
  (wf_unit k u -> X -> wf_unit k (map_funcs_unit g u)).
Proof.
  intros X H k g u Hw Hf. rewrite map_funcs_unit_eq. split; [|split].
  - apply (unit_map_wider Itrue); try (intros; apply const_wider_refl); try (intros; apply Hw). apply Itrue_all.
  - apply unit_map_hier.
  - intros W _. apply unit_map_wf; auto.
Qed.

Lemma run_pass_sound : forall k cs o Hd p u u',
  run_pass cs o Hd p u = Some u' ->
  ranked (hier_of u ++ Hd) ->
  (p = PAdjustSelf \/ p = PMergeTypeParameters -> hier_of u = []) ->
  (needs_wf p = true -> wf_unit k u) ->
  unit_wider (hier_of u ++ Hd) u u' /\ hier_of u' = hier_of u /\
  (wf_unit k u -> keeps_wf p = true -> wf_unit k u').
Proof.
  intros k cs o Hd p u u' E R NC NW. set (H := hier_of u ++ Hd) in *.
  destruct p; simpl in E; try discriminate; try (inversion E; subst u'; clear E).
  - rewrite normalize_self_eq. split; [|split].
    + apply (unit_map_wider Itrue); try (intros; apply const_wider_refl); try (intros; apply func_wider_refl);
        [|apply Itrue_all].
      intros n f Wf. apply (map_func_wider Itrue); [|exact Wf].
      intros; apply normalize_self_sig_wider.
    + apply unit_map_hier.
    + intros W _. apply unit_map_wf; auto. intros n f Wf. apply map_func_wf; [|assumption].
      intros; apply normalize_self_sig_wf; assumption.
  - apply map_funcs_unit_sound; [apply remove_duplicates_wider | apply remove_duplicates_wf].
  - apply (map_ty_unit_sound Itrue); [intros; apply simplify_unions_widens_lemma | apply simplify_unions_wf | apply Itrue_all].
  - apply map_funcs_unit_sound; [apply combine_returns_wider | apply combine_returns_wf].
  - destruct (forallb (fun t => is_some (cc_top t)) (types_of_unit u)); [|discriminate].
    inversion E; subst u'; clear E.
    apply (map_ty_unit_sound (wf k)); [apply combine_containers_widens_lemma | apply combine_containers_wf | exact (NW eq_refl)].
  - apply (map_ty_unit_sound Itrue);
      [intros; apply simplify_containers_widens_lemma | apply simplify_containers_wf | apply Itrue_all].
  - apply (map_ty_unit_sound (wf k));
      [intros; apply (simplify_superclasses_widens_lemma H k); assumption | apply simplify_superclasses_wf | exact (NW eq_refl)].
  - apply (map_ty_unit_sound Itrue);
      [intros; apply collapse_long_unions_widens_lemma | apply collapse_long_unions_wf | apply Itrue_all].
  - split; [|split].
    + apply (map_unit5_wider Itrue); try (intros; apply adjust_generic_type_widens_lemma);
        try (intros; apply wider_refl). apply Itrue_all.
    + apply unit_map_hier.
    + intros W _. apply map_unit5_wf; try assumption; try (intros; assumption);
        intros; apply adjust_generic_type_wf; assumption.
  - apply map_funcs_unit_sound.
    + intros f. apply (map_func_wider Itrue); [intros; apply absorb_sig_wider | apply Forall_forall; intros; apply wf_sig_Itrue].
    + intros f Wf. apply map_func_wf; [apply absorb_sig_wf | assumption].
  - (* MergeTypeParameters: guarded by remove_mutable, where the unit has no classes *)
    assert (U : unb_classes u).
    { unfold unb_classes. rewrite (hier_of_classes_nil u (NC (or_intror eq_refl))). constructor. }
    destruct (merge_type_parameters_wider H u u' U E) as [W Hh].
    split; [exact W | split; [exact Hh | intros _ D; discriminate]].
  - (* AdjustSelf: guarded by remove_mutable, where the unit has no classes *)
    rewrite adjust_self_no_classes by (apply hier_of_classes_nil; apply NC; left; reflexivity).
    split; [apply unit_wider_refl | split; [reflexivity | intros; assumption]].
  - split; [|split].
    + apply resolve_unit_wider.
    + unfold hier_of, resolve_unit; simpl. rewrite !map_map. simpl. apply map_ext. intros c.
      simpl. rewrite map_map. reflexivity.
    + intros _ D; discriminate.
Qed.

Lemma enabled_remove_mutable : forall o fl,
  forallb (enabled o) fl = true -> existsb is_remove_mutable fl = true -> o_remove_mutable o = true.
Proof.
  intros o fl F E. apply existsb_exists in E. destruct E as [f [Hf Ef]]. rewrite forallb_forall in F.
  specialize (F f Hf). destruct f; try discriminate. exact F.
Qed.

Lemma has_flag_enabled : forall o f fl, has_flag f fl = true -> forallb (enabled o) fl = true -> enabled o f = true.
Proof.
  intros o f fl Hf En. unfold has_flag in Hf. apply existsb_exists in Hf. destruct Hf as [g [Hg E]].
  rewrite forallb_forall in En. specialize (En g Hg). destruct f, g; try discriminate; assumption.
Qed.

Lemma run_passes_sound : forall k cs o Hd ps wfok u u',
  pipeline_ok wfok ps = true ->
  run_passes cs o Hd ps u = Some u' ->
  ranked (hier_of u ++ Hd) ->
  (o_remove_mutable o = true -> hier_of u = []) ->
  (wfok = true -> wf_unit k u) ->
  unit_wider (hier_of u ++ Hd) u u'.
Proof.
  intros k cs o Hd ps; induction ps as [|[fl p] r IH]; intros wfok u u' OK E R RM W; simpl in E.
  - inversion E; subst. apply unit_wider_refl.
  - simpl in OK. apply andb_true_iff in OK. destruct OK as [OK OK3]. apply andb_true_iff in OK.
    destruct OK as [OK1 OK2].
    destruct (forallb (enabled o) fl) eqn:En.
    + destruct (run_pass cs o Hd p u) as [u1|] eqn:E1; [|discriminate].
      destruct (run_pass_sound k cs o Hd p u u1 E1 R) as [W1 [H1 K1]].
      * intros [-> | ->]; apply RM; (eapply enabled_remove_mutable; [exact En | exact OK2]).
      * intros Nw. apply W. rewrite Nw in OK1. simpl in OK1. exact OK1.
      * eapply unit_wider_trans; [exact W1|]. rewrite <- H1.
        apply (IH (wfok && keeps_wf p) u1 u'); try assumption.
        -- rewrite H1; assumption.
        -- rewrite H1; assumption.
        -- intros Ew. apply andb_true_iff in Ew. destruct Ew as [Ew Ek]. apply K1; auto.
    + apply (IH (wfok && keeps_wf p) u u'); try assumption.
      intros Ew. apply andb_true_iff in Ew. apply W. tauto.
Qed.

Lemma run_pass_ty_sound : forall H k o p t t',
  wf k t -> run_pass_ty o p t = Some t' -> wider H t t' /\ wf k t'.
Proof.
  intros H k o p t t' W E.
  destruct p; simpl in E; try discriminate; try (inversion E; subst t'; clear E);
    try (split; [apply wider_refl | assumption]).
  - split; [apply simplify_unions_widens_lemma | apply simplify_unions_wf; assumption].
  - unfold cc_top in E. apply (cc_sound H k _ _ _ W E).
  - split; [apply simplify_containers_widens_lemma | apply simplify_containers_wf; assumption].
  - split; [apply collapse_long_unions_widens_lemma | apply collapse_long_unions_wf; assumption].
Qed.

Lemma rankedb_ranked : forall H, rankedb H = true -> ranked H.
Proof.
  intros H R d s Hin. unfold rankedb in R. induction H as [|[k ss] r IH]; simpl in *; [contradiction|].
  apply andb_true_iff in R. destruct R as [R1 R2].
  destruct (Nat.eqb k d) eqn:E.
  - apply Nat.eqb_eq in E. subst k. rewrite forallb_forall in R1. apply Nat.ltb_lt. apply R1. assumption.
  - apply IH; assumption.
Qed.

Lemma passes_ok : pipeline_ok true passes = true.
Proof. vm_compute. reflexivity. Qed.
