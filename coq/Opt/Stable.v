(* C11 — normal forms: every enabled lossless pass is the identity on a stable stub. *)
From Coq Require Import List Arith Bool Lia.
From PV Require Import Opt.Syntax Generated.C11_Passes Opt.Model Opt.Spec Opt.Proofs Opt.Fuel.
Import ListNotations.

Lemma filter_all : forall {A} (f : A -> bool) l, forallb f l = true -> filter f l = l.
Proof.
  induction l as [|x r IH]; simpl; intros E; [reflexivity|].
  apply andb_true_iff in E. destruct E as [E1 E2]. rewrite E1, IH; auto.
Qed.

Lemma map_id_in : forall {A} (f : A -> A) l, (forall x, In x l -> f x = x) -> map f l = l.
Proof. intros A f l Hf. rewrite <- (map_id l) at 2. apply map_ext_in. exact Hf. Qed.

Lemma existsb_false_In : forall {A} (f : A -> bool) l, existsb f l = false -> forall y, In y l -> f y = false.
Proof.
  intros A f l E y Hy. destruct (f y) eqn:F; [|reflexivity].
  rewrite <- E. symmetry. apply existsb_exists. exists y; auto.
Qed.

Lemma dedup_from_distinct : forall {A} (eqb eqb' : A -> A -> bool), (forall a b, eqb a b = eqb' b a) ->
  forall l seen, distinct_by eqb' l = true -> (forall x, In x l -> mem_by eqb x seen = false) ->
  dedup_from eqb seen l = l.
Proof.
  intros A eqb eqb' Sym. induction l as [|x r IH]; intros seen D Hs; simpl; [reflexivity|].
  simpl in D. apply andb_true_iff in D. destruct D as [D1 D2]. apply negb_true_iff in D1.
  rewrite (Hs x (or_introl eq_refl)). f_equal. apply IH; [assumption|].
  intros y Hy. unfold mem_by; simpl. rewrite Sym, (existsb_false_In _ _ D1 y Hy). apply (Hs y (or_intror Hy)).
Qed.
Lemma dedup_by_distinct : forall {A} (eqb : A -> A -> bool), (forall a b, eqb a b = eqb b a) ->
  forall l, distinct_by eqb l = true -> dedup_by eqb l = l.
Proof. intros A eqb Sym l D. apply (dedup_from_distinct eqb eqb); auto. Qed.

Lemma filter_distinct : forall {A} (eqb : A -> A -> bool),
  (forall a, eqb a a = true) -> (forall a b, eqb a b = eqb b a) ->
  forall l, distinct_by eqb l = true -> forall x, In x l -> filter (eqb x) l = [x].
Proof.
  intros A eqb Rf Sym. induction l as [|y r IH]; intros D x Hin; [contradiction|].
  simpl in D. apply andb_true_iff in D. destruct D as [D1 D2]. apply negb_true_iff in D1. simpl.
  destruct Hin as [->|Hin].
  - rewrite Rf. f_equal. pose proof (existsb_false_In _ _ D1) as F.
    clear - F. induction r as [|z r' IH]; simpl; [reflexivity|].
    rewrite (F z (or_introl eq_refl)). apply IH. intros; apply F; right; assumption.
  - rewrite Sym, (existsb_false_In _ _ D1 x Hin). apply IH; assumption.
Qed.

Lemma distinct_by_weaken : forall {A} (e1 e2 : A -> A -> bool),
  (forall a b, e2 a b = true -> e1 a b = true) ->
  forall l, distinct_by e1 l = true -> distinct_by e2 l = true.
Proof.
  intros A e1 e2 W. induction l as [|x r IH]; simpl; intros D; [reflexivity|].
  apply andb_true_iff in D. destruct D as [D1 D2]. rewrite IH by assumption. rewrite andb_true_r.
  apply negb_true_iff in D1. apply negb_true_iff.
  destruct (existsb (e2 x) r) eqn:E; [|reflexivity].
  apply existsb_exists in E. destruct E as [y [Hy E]]. apply W in E.
  rewrite (existsb_false_In _ _ D1 y Hy) in E. discriminate.
Qed.

Lemma eqb_sym_of_eq : forall {A} (eqb : A -> A -> bool), (forall a b, eqb a b = true <-> a = b) ->
  forall a b, eqb a b = eqb b a.
Proof. intros A eqb He a b. apply eq_true_iff_eq. rewrite !He. split; congruence. Qed.
Lemma ty_eqb_sym : forall a b, ty_eqb a b = ty_eqb b a.
Proof. apply eqb_sym_of_eq. apply ty_eqb_eq. Qed.
Lemma ckey_eqb_sym : forall a b, ckey_eqb a b = ckey_eqb b a.
Proof. apply eqb_sym_of_eq. apply ckey_eqb_eq. Qed.

Section StableTy.
  Variable H : hier.
  Variable deps : bool.
  Variable maxu : nat.
  Variable kk : kind.
  Notation st := (stable_ty H deps maxu kk).

  Record union_facts (ts : list ty) : Prop := {
    uf_len : 2 <= length ts;
    uf_flat : forallb (fun x => negb (is_union x || is_nothing x || is_any x)) ts = true;
    uf_nodup : distinct_by ty_eqb ts = true;
    uf_mt : should_merge true None ts = false;
    uf_mc : should_merge false None ts = false;
    uf_keys : distinct_by ckey_eqb (filter_map key_of ts) = true;
    uf_sub : deps = true ->
             forallb (fun x => match name_of x with
                               | Some n => suws_count H (filter_map name_of ts) n <=? 1
                               | None => true end) ts = true;
    uf_long : maxu <> 0 -> (maxu <? length ts) && negb (existsb is_lit ts) = false;
    uf_members : forallb st ts = true }.

  Lemma stable_union : forall ts, st (TUnion ts) = true -> union_facts ts.
  Proof.
    intros ts E. simpl in E.
    apply andb_prop in E as [E E9]. apply andb_prop in E as [E E8]. apply andb_prop in E as [E E7].
    apply andb_prop in E as [E E6]. apply andb_prop in E as [E E5]. apply andb_prop in E as [E E4].
    apply andb_prop in E as [E E3]. apply andb_prop in E as [E1 E2].
    constructor; try assumption.
    - destruct (length ts) as [|[|n]]; [discriminate | discriminate | lia].
    - apply negb_true_iff; assumption.
    - apply negb_true_iff; assumption.
    - intros D. rewrite D in E7. simpl in E7. exact E7.
    - intros N. rewrite !orb_true_iff in E8. destruct E8 as [[E8|E8]|E8].
      + apply Nat.eqb_eq in E8. contradiction.
      + apply Nat.leb_le in E8. assert (X : (maxu <? length ts) = false) by (apply Nat.ltb_ge; exact E8).
        rewrite X. reflexivity.
      + rewrite E8. apply andb_false_r.
  Qed.

  Lemma flat_members_id : forall ts,
    forallb (fun x => negb (is_union x || is_nothing x || is_any x)) ts = true ->
    flat_map flat1 ts = ts /\ flat_map flat ts = ts /\ existsb is_any ts = false.
  Proof.
    induction ts as [|x r IH]; simpl; intros E; [auto|].
    apply andb_true_iff in E. destruct E as [E1 E2]. destruct (IH E2) as [A [B C]]. rewrite A, B, C.
    destruct x; simpl in *; try discriminate; auto.
  Qed.

  Lemma union_facts_norm : forall ts, union_facts ts -> norm_union ts = ts.
  Proof.
    intros ts F. unfold norm_union. rewrite (proj1 (flat_members_id _ (uf_flat _ F))).
    apply dedup_by_distinct; [apply ty_eqb_sym | apply (uf_nodup _ F)].
  Qed.
  Lemma union_facts_join : forall ts, union_facts ts -> join ts = TUnion ts.
  Proof.
    intros ts F. destruct (flat_members_id _ (uf_flat _ F)) as [_ [Fl Na]]. unfold join. rewrite Fl.
    unfold dedup. rewrite (dedup_by_distinct ty_eqb ty_eqb_sym _ (uf_nodup _ F)).
    rewrite Na. pose proof (uf_len _ F) as L.
    destruct ts as [|x [|y r]]; simpl in L; try lia. reflexivity.
  Qed.
  Lemma union_facts_cc : forall rec ts, union_facts ts -> cc_union rec ts = Some (TUnion ts).
  Proof.
    intros rec ts F. unfold cc_union. destruct (negb (existsb is_generic ts)); [reflexivity|].
    rewrite (union_facts_join _ F), (uf_mt _ F), (uf_mc _ F). simpl.
    unfold has_redundant. rewrite (dedup_by_distinct ckey_eqb ckey_eqb_sym _ (uf_keys _ F)).
    rewrite Nat.eqb_refl. reflexivity.
  Qed.
  Lemma union_facts_sc : forall cs ts, union_facts ts -> sc_union cs ts = TUnion ts.
  Proof.
    intros cs ts F. unfold sc_union. destruct cs; [|reflexivity]. pose proof (uf_len _ F) as L.
    destruct ts as [|x [|y r]]; simpl in L; try lia; reflexivity.
  Qed.
  Lemma union_facts_suws : forall ts, deps = true -> union_facts ts -> suws_union H ts = TUnion ts.
  Proof.
    intros ts D F. unfold suws_union. unfold dedup.
    rewrite (dedup_by_distinct ty_eqb ty_eqb_sym _ (uf_nodup _ F)).
    rewrite (filter_all _ _ (uf_sub _ F D)). apply union_facts_join; assumption.
  Qed.
  Lemma union_facts_clu : forall ts, maxu <> 0 -> union_facts ts -> clu_union maxu ts = TUnion ts.
  Proof.
    intros ts N F. unfold clu_union. rewrite (uf_long _ F N), (proj2 (proj2 (flat_members_id _ (uf_flat _ F)))). reflexivity.
  Qed.

  (* the generic visitor is the identity when its callbacks are, on stable nodes *)
  Section VisitId.
    Variable fU : list ty -> ty.
    Variable fG : kind -> cid -> list ty -> ty.
    Variable fN : kind -> cid -> ty.
    Variable fB : kind -> kind.
    Variable extra : ty -> bool.   (* an additional subterm-closed requirement *)
    Hypothesis extra_sub : forall t, extra t = true -> forallb extra (children t) = true.
    Hypothesis fU_id : forall ts, union_facts ts -> fU ts = TUnion ts.
    Hypothesis fG_id : forall c ps, negb (forallb is_any ps) = true -> fG kk c ps = TGen kk c ps.
    Hypothesis fN_id : forall c, extra (TName kk c) = true -> fN kk c = TName kk c.
    Hypothesis fB_id : fB kk = kk.

    Lemma visit_stable : forall t, st t = true -> extra t = true -> visit fU fG fN fB t = t.
    Proof.
      assert (Ch : forall ps, Forall (fun t => st t = true -> extra t = true -> visit fU fG fN fB t = t) ps ->
                   forallb st ps = true -> forallb extra ps = true -> map (visit fU fG fN fB) ps = ps).
      { intros ps F S X. apply map_id_in. intros x Hx. rewrite Forall_forall in F.
        rewrite forallb_forall in S, X. auto. }
      induction t using ty_ind'; intros S X; simpl; try reflexivity.
      - simpl in S. apply kind_eqb_eq in S. subst k. apply fN_id. assumption.
      - pose proof (stable_union _ S) as F. pose proof (extra_sub _ X) as Xs. simpl in Xs.
        rewrite (Ch ts H0 (uf_members _ F) Xs). rewrite (union_facts_norm _ F). apply fU_id. assumption.
      - simpl in S. rewrite !andb_true_iff in S. destruct S as [[S1 S2] S3]. apply kind_eqb_eq in S1. subst k.
        pose proof (extra_sub _ X) as Xs. simpl in Xs. rewrite (Ch ps H0 S3 Xs), fB_id. apply fG_id. assumption.
      - simpl in S. rewrite !andb_true_iff in S. destruct S as [S1 S3]. apply kind_eqb_eq in S1. subst k.
        pose proof (extra_sub _ X) as Xs. simpl in Xs. rewrite (Ch ps H0 S3 Xs), fB_id. reflexivity.
      - simpl in S. rewrite !andb_true_iff in S. destruct S as [S1 S3]. apply kind_eqb_eq in S1. subst k.
        pose proof (extra_sub _ X) as Xs. simpl in Xs. rewrite (Ch ps H0 S3 Xs), fB_id. reflexivity.
      - simpl in S. pose proof (extra_sub _ X) as Xs. simpl in Xs. rewrite (Ch ps H0 S Xs). reflexivity.
    Qed.
  End VisitId.

  Definition no_extra (t : ty) : bool := true.
  Lemma no_extra_sub : forall t, no_extra t = true -> forallb no_extra (children t) = true.
  Proof. intros t _. apply forallb_forall. reflexivity. Qed.
  Lemma nco_sub : forall t, no_class_object t = true -> forallb no_class_object (children t) = true.
  Proof. intros t E. destruct t; try reflexivity; exact E. Qed.

  Lemma stable_simplify_unions : forall t, st t = true -> simplify_unions t = t.
  Proof.
    intros t S. unfold simplify_unions. apply (visit_stable join TGen TName id_kind no_extra no_extra_sub); auto.
    intros; apply union_facts_join; assumption.
  Qed.
  Lemma stable_simplify_containers : forall cs t, st t = true -> simplify_containers cs t = t.
  Proof.
    intros cs t S. unfold simplify_containers.
    apply (visit_stable (sc_union cs) sc_generic TName id_kind no_extra no_extra_sub); auto.
    - intros; apply union_facts_sc; assumption.
    - intros c ps E. unfold sc_generic. apply negb_true_iff in E. rewrite E. reflexivity.
  Qed.
  Lemma stable_simplify_superclasses : forall t, deps = true -> st t = true -> simplify_superclasses H t = t.
  Proof.
    intros t D S. unfold simplify_superclasses.
    apply (visit_stable (suws_union H) TGen TName id_kind no_extra no_extra_sub); auto.
    intros; apply union_facts_suws; assumption.
  Qed.
  Lemma stable_collapse_long_unions : forall t, maxu <> 0 -> st t = true -> collapse_long_unions maxu t = t.
  Proof.
    intros t N S. unfold collapse_long_unions.
    apply (visit_stable (clu_union maxu) TGen TName id_kind no_extra no_extra_sub); auto.
    intros; apply union_facts_clu; assumption.
  Qed.
  Lemma stable_adjust_generic_type : forall t, st t = true -> no_class_object t = true ->
    adjust_generic_type t = t.
  Proof.
    intros t S X. unfold adjust_generic_type.
    apply (visit_stable TUnion TGen agt_name id_kind no_class_object nco_sub); auto.
    intros c E. unfold agt_name. destruct kk; [reflexivity|]. simpl in E.
    apply negb_true_iff in E. rewrite E. reflexivity.
  Qed.
  Lemma stable_resolve : forall t, kk = KClass -> st t = true -> resolve t = t.
  Proof.
    intros t K S. unfold resolve.
    apply (visit_stable TUnion TGen (fun _ c => TName KClass c) to_class no_extra no_extra_sub); auto;
      intros; rewrite K; reflexivity.
  Qed.

  Lemma size_child : forall x l, In x l -> size x <= fold_right (fun y n => size y + n) 0 l.
  Proof.
    induction l as [|y r IH]; intros Hin; [contradiction|]. simpl. destruct Hin as [->|Hin]; [lia|].
    specialize (IH Hin). lia.
  Qed.
  Lemma map_opt_id : forall (f : ty -> option ty) l, (forall x, In x l -> f x = Some x) -> map_opt f l = Some l.
  Proof.
    induction l as [|x r IH]; intros Hf; simpl; [reflexivity|].
    rewrite (Hf x (or_introl eq_refl)), IH; [reflexivity|]. intros; apply Hf; right; assumption.
  Qed.
  Lemma stable_cc : forall t, st t = true -> forall n, size t <= n -> cc n t = Some t.
  Proof.
    assert (Ch : forall ps f, Forall (fun t => st t = true -> forall n, size t <= n -> cc n t = Some t) ps ->
                 forallb st ps = true -> fold_right (fun y n => size y + n) 0 ps <= f ->
                 map_opt (cc f) ps = Some ps).
    { intros ps f F S L. apply map_opt_id. intros x Hx. rewrite Forall_forall in F.
      rewrite forallb_forall in S. apply F; auto. pose proof (size_child x ps Hx). lia. }
    induction t using ty_ind'; intros S m L; (destruct m as [|f]; [simpl in L; lia|]); simpl; try reflexivity.
    - pose proof (stable_union _ S) as F. simpl in L.
      rewrite (Ch ts f H0 (uf_members _ F)) by lia. rewrite (union_facts_norm _ F). apply union_facts_cc. assumption.
    - simpl in S. rewrite !andb_true_iff in S. destruct S as [[S1 S2] S3]. simpl in L.
      rewrite (Ch ps f H0 S3) by lia. reflexivity.
    - simpl in S. rewrite !andb_true_iff in S. destruct S as [S1 S3]. simpl in L.
      rewrite (Ch ps f H0 S3) by lia. reflexivity.
    - simpl in S. rewrite !andb_true_iff in S. destruct S as [S1 S3]. simpl in L.
      rewrite (Ch ps f H0 S3) by lia. reflexivity.
    - simpl in S. simpl in L. rewrite (Ch ps f H0 S) by lia. reflexivity.
  Qed.
  Lemma stable_cc_top : forall t, st t = true -> cc_top t = Some t.
  Proof. intros t S. unfold cc_top. apply stable_cc; [assumption | lia]. Qed.
  Lemma stable_combine_containers : forall t, st t = true -> combine_containers t = t.
  Proof. intros t S. unfold combine_containers. rewrite (stable_cc_top t S). reflexivity. Qed.

  Lemma stable_join1 : forall t, st t = true -> join [t] = t.
  Proof.
    intros t S. destruct t; try reflexivity.
    assert (E : join [TUnion ts] = join ts) by (unfold join; simpl; rewrite app_nil_r; reflexivity).
    rewrite E. apply union_facts_join, stable_union, S.
  Qed.
End StableTy.

Section StableUnit.
  Variable H : hier.
  Variable deps : bool.
  Variable maxu : nat.
  Variable kk : kind.
  Notation st := (stable_ty H deps maxu kk).

  Lemma map_param_id : forall f p, stable_param st p = true -> (forall t, st t = true -> f t = t) ->
    map_param f p = p.
  Proof.
    intros f [n t k o m] S Hf. unfold stable_param in S; simpl in S. apply andb_true_iff in S.
    destruct S as [S1 S2]. unfold map_param; simpl. rewrite (Hf t S1).
    destruct m as [m|]; simpl; [rewrite (Hf m S2)|]; reflexivity.
  Qed.
  Lemma map_oparam_id : forall f p, stable_oparam st p = true -> (forall t, st t = true -> f t = t) ->
    option_map (map_param f) p = p.
  Proof. intros f [p|] S Hf; simpl; [rewrite map_param_id; auto | reflexivity]. Qed.

  Lemma stable_sig_parts : forall s, stable_sig st s = true ->
    forallb (stable_param st) (s_params s) = true /\ stable_oparam st (s_star s) = true /\
    stable_oparam st (s_starstar s) = true /\ st (s_ret s) = true /\ no_class_object (s_ret s) = true /\
    forallb st (s_exc s) = true /\ distinct_by (fun a b => py_eqb b a) (s_exc s) = true /\
    forallb st (s_template s) = true.
  Proof. intros s S. unfold stable_sig in S. repeat (apply andb_prop in S as [S ?]). repeat split; assumption. Qed.

  Lemma map_sig4_id : forall fp fr fe ft s, stable_sig st s = true ->
    (forall t, st t = true -> fp t = t) ->
    (forall t, st t = true -> no_class_object t = true -> fr t = t) ->
    (forall t, st t = true -> fe t = t) ->
    (forall t, st t = true -> ft t = t) ->
    map_sig4 fp fr fe ft s = s.
  Proof.
    intros fp fr fe ft [ps sa ss r ex tm] S Hp Hr He Ht.
    destruct (stable_sig_parts _ S) as [S1 [S2 [S3 [S4 [S5 [S6 [S7 S8]]]]]]]. simpl in *.
    unfold map_sig4; simpl. f_equal.
    - apply map_id_in. intros p Hin. apply map_param_id; [|assumption]. rewrite forallb_forall in S1; auto.
    - apply map_oparam_id; assumption.
    - apply map_oparam_id; assumption.
    - apply Hr; assumption.
    - apply map_id_in. intros t Hin. apply He. rewrite forallb_forall in S6; auto.
    - apply map_id_in. intros t Hin. apply Ht. rewrite forallb_forall in S8; auto.
  Qed.

  Lemma map_func_id : forall g f, (forall s, In s (f_sigs f) -> g s = s) -> map_func g f = f.
  Proof. intros g [n k sigs] Hg. unfold map_func; simpl in *. rewrite map_id_in; auto. Qed.
  Lemma map_const_id : forall f c, stable_const st c = true ->
    (forall t, st t = true -> no_class_object t = true -> f t = t) -> map_const f c = c.
  Proof.
    intros f [n t] S Hf. unfold stable_const in S; simpl in S. apply andb_true_iff in S. destruct S.
    unfold map_const; simpl. rewrite Hf; auto.
  Qed.
  Lemma map_class_id : forall gf gc ft c,
    (forall f, In f (cl_methods c) -> gf (cl_name c) f = f) ->
    (forall k, In k (cl_consts c) -> gc k = k) ->
    (forall t, In t (cl_template c) -> ft t = t) -> map_class_t gf gc ft c = c.
  Proof. intros gf gc ft [n b ms cs tm] Hf Hc Ht. unfold map_class_t; simpl in *. rewrite !map_id_in; auto. Qed.

  Definition stable_parts (u : unit_) : Prop :=
    forallb (stable_const st) (u_consts u) = true /\ forallb (stable_class kk st) (u_classes u) = true /\
    forallb (stable_func st) (u_funcs u) = true.

  Lemma stable_func_sigs : forall f, stable_func st f = true -> forall s, In s (f_sigs f) -> stable_sig st s = true.
  Proof.
    intros f S s Hin. unfold stable_func in S. apply andb_true_iff in S. destruct S as [S _].
    rewrite forallb_forall in S. auto.
  Qed.
  Lemma stable_class_parts : forall c, stable_class kk st c = true ->
    (forall f, In f (cl_methods c) -> stable_func st f = true /\ forallb (self_plain (cl_name c)) (f_sigs f) = true) /\
    (forall k, In k (cl_consts c) -> stable_const st k = true) /\
    forallb (fun b => kind_eqb (fst b) kk) (cl_bases c) = true.
  Proof.
    intros c S. unfold stable_class in S. rewrite !andb_true_iff in S. destruct S as [[[S1 S2] S3] S4].
    rewrite forallb_forall in S1, S2. split; [|split; [auto | assumption]].
    intros f Hf. specialize (S1 f Hf). apply andb_true_iff in S1. exact S1.
  Qed.

  Lemma stable_class_template : forall c, stable_class kk st c = true -> forallb st (cl_template c) = true.
  Proof. intros c S. unfold stable_class in S. rewrite !andb_true_iff in S. tauto. Qed.

  Lemma unit_map_id : forall gc gm gcc gf ft u, stable_parts u ->
    (forall c, stable_const st c = true -> gc c = c) ->
    (forall cls f, stable_func st f = true -> forallb (self_plain cls) (f_sigs f) = true -> gm cls f = f) ->
    (forall c, stable_const st c = true -> gcc c = c) ->
    (forall f, stable_func st f = true -> gf f = f) ->
    (forall t, st t = true -> ft t = t) ->
    unit_map_t gc gm gcc gf ft u = u.
  Proof.
    intros gc gm gcc gf ft [cs cls fs] [S1 [S2 S3]] Hc Hm Hcc Hf Ht. simpl in *.
    rewrite forallb_forall in S1, S2, S3. unfold unit_map_t; simpl. f_equal.
    - apply map_id_in. auto.
    - apply map_id_in. intros c Hin. destruct (stable_class_parts c (S2 c Hin)) as [M [K _]].
      apply map_class_id.
      + intros f Hf'. destruct (M f Hf'). apply Hm; assumption.
      + intros k Hk. apply Hcc. auto.
      + intros t Hin'. apply Ht. pose proof (stable_class_template c (S2 c Hin)) as T.
        rewrite forallb_forall in T. auto.
    - apply map_id_in. auto.
  Qed.

  Lemma map_unit5_id : forall fp fr fe fc ft u, stable_parts u ->
    (forall t, st t = true -> fp t = t) ->
    (forall t, st t = true -> no_class_object t = true -> fr t = t) ->
    (forall t, st t = true -> fe t = t) ->
    (forall t, st t = true -> no_class_object t = true -> fc t = t) ->
    (forall t, st t = true -> ft t = t) ->
    map_unit5 fp fr fe fc ft u = u.
  Proof.
    intros fp fr fe fc ft u S Hp Hr He Hc Ht. rewrite map_unit5_eq. apply unit_map_id; try assumption.
    - intros c Sc. apply map_const_id; assumption.
    - intros cls f Sf _. apply map_func_id. intros s Hs. apply map_sig4_id; try assumption.
      eapply stable_func_sigs; eassumption.
    - intros c Sc. apply map_const_id; assumption.
    - intros f Sf. apply map_func_id. intros s Hs. apply map_sig4_id; try assumption.
      eapply stable_func_sigs; eassumption.
  Qed.

  Lemma map_ty_unit_id : forall f u, stable_parts u -> (forall t, st t = true -> f t = t) -> map_ty_unit f u = u.
  Proof. intros f u S Hf. unfold map_ty_unit. apply map_unit5_id; auto. Qed.

  Lemma stable_remove_duplicates : forall f, stable_func st f = true -> remove_duplicates_f f = f.
  Proof.
    intros [n k sigs] S. unfold stable_func in S; simpl in S. apply andb_true_iff in S. destruct S as [_ D].
    unfold remove_duplicates_f; simpl. f_equal.
    apply dedup_by_distinct; [apply eqb_sym_of_eq; apply sig_eqb_eq|].
    eapply distinct_by_weaken; [|exact D]. intros a b E. unfold sig_eqb in E.
    rewrite !andb_true_iff in E. tauto.
  Qed.

  Lemma stable_combine_returns : forall f, stable_func st f = true -> combine_returns_f f = f.
  Proof.
    intros [n k sigs] S. pose proof (stable_func_sigs _ S) as Ss. simpl in Ss.
    unfold stable_func in S; simpl in S. apply andb_true_iff in S. destruct S as [_ D].
    unfold combine_returns_f; simpl. f_equal.
    rewrite (dedup_by_distinct stripped_eqb stripped_eqb_sym _ D).
    apply map_id_in. intros s0 Hin. unfold combine_group.
    rewrite (filter_distinct stripped_eqb stripped_eqb_refl stripped_eqb_sym _ D s0 Hin). simpl.
    destruct (stable_sig_parts _ (Ss s0 Hin)) as [S1 [S2 [S3 [S4 [S5 [S6 [S7 S8]]]]]]].
    destruct s0 as [ps sa ss r ex tm]. simpl in *.
    rewrite app_nil_r. f_equal.
    - unfold dedup_py, dedup_by; simpl. apply (stable_join1 H deps maxu kk). assumption.
    - unfold dedup_py, dedup_by. apply (dedup_from_distinct py_eqb (fun a b => py_eqb b a)); auto.
  Qed.

  Lemma stable_normalize_self_sig : forall cls s, self_plain cls s = true -> normalize_self_sig cls s = s.
  Proof.
    intros cls s E. unfold normalize_self_sig, self_plain in *. destruct (s_params s) as [|p r]; [reflexivity|].
    apply negb_true_iff in E. rewrite E. reflexivity.
  Qed.
End StableUnit.

Lemma stable_unit_parts : forall kk o Hd u, stable_unit kk o Hd u = true ->
  stable_parts (hier_of u ++ Hd) (o_deps o) (o_max_union o) kk u.
Proof.
  intros kk o Hd u S. unfold stable_unit in S. rewrite !andb_true_iff in S. unfold stable_parts. tauto.
Qed.

Lemma run_pass_stable : forall kk cs o Hd fl p u,
  lossless o -> (o_deps o && o_can_do_lookup o = true -> kk = KClass) ->
  idem_guard_ok fl p = true -> forallb (enabled o) fl = true ->
  stable_unit kk o Hd u = true -> run_pass cs o Hd p u = Some u.
Proof.
  intros kk cs o Hd fl p u [L1 [L2 L3]] K G En S. pose proof (stable_unit_parts _ _ _ _ S) as P.
  set (H := hier_of u ++ Hd) in *.
  destruct p; simpl; simpl in G.
  - f_equal. rewrite normalize_self_eq. eapply unit_map_id; [exact P | auto | | auto | auto | reflexivity].
    intros cls f Sf Sp. apply map_func_id. intros s Hs. apply stable_normalize_self_sig.
    rewrite forallb_forall in Sp. auto.
  - f_equal. rewrite map_funcs_unit_eq. eapply unit_map_id; [exact P | auto | | auto | | reflexivity].
    + intros cls f Sf _. eapply stable_remove_duplicates; eassumption.
    + intros f Sf. eapply stable_remove_duplicates; eassumption.
  - f_equal. eapply map_ty_unit_id; [exact P|]. intros; eapply stable_simplify_unions; eassumption.
  - f_equal. rewrite map_funcs_unit_eq. eapply unit_map_id; [exact P | auto | | auto | | reflexivity].
    + intros cls f Sf _. eapply stable_combine_returns; eassumption.
    + intros f Sf. eapply stable_combine_returns; eassumption.
  - rewrite cc_pass_total. f_equal. eapply map_ty_unit_id; [exact P|]. intros; eapply stable_combine_containers; eassumption.
  - f_equal. eapply map_ty_unit_id; [exact P|]. intros; eapply stable_simplify_containers; eassumption.
  - pose proof (has_flag_enabled o FDeps fl G En) as D. simpl in D.
    f_equal. eapply map_ty_unit_id; [exact P|]. intros; apply (stable_simplify_superclasses H (o_deps o) (o_max_union o) kk); assumption.
  - pose proof (has_flag_enabled o FLossy fl G En) as D. simpl in D. congruence.
  - pose proof (has_flag_enabled o FUseAbcs fl G En) as D. simpl in D. congruence.
  - pose proof (has_flag_enabled o FMaxUnion fl G En) as D. simpl in D. apply negb_true_iff in D.
    apply Nat.eqb_neq in D.
    f_equal. eapply map_ty_unit_id; [exact P|]. intros; apply (stable_collapse_long_unions H (o_deps o) (o_max_union o) kk); assumption.
  - f_equal. unfold adjust_return_and_constant. eapply map_unit5_id; [exact P | | | | |]; try (intros; reflexivity);
      intros; eapply stable_adjust_generic_type; eassumption.
  - pose proof (has_flag_enabled o FRemoveMutable fl G En) as D. simpl in D. congruence.
  - pose proof (has_flag_enabled o FRemoveMutable fl G En) as D. simpl in D. congruence.
  - pose proof (has_flag_enabled o FRemoveMutable fl G En) as D. simpl in D. congruence.
  - apply andb_true_iff in G. destruct G as [G1 G2].
    pose proof (has_flag_enabled o FDeps fl G1 En) as D1. pose proof (has_flag_enabled o FCanDoLookup fl G2 En) as D2.
    simpl in D1, D2. assert (Kk : kk = KClass) by (apply K; rewrite D1, D2; reflexivity).
    f_equal. unfold resolve_unit.
    rewrite (map_ty_unit_id H (o_deps o) (o_max_union o) kk resolve u P)
      by (intros; eapply stable_resolve; eassumption).
    destruct u as [ucs cls fs]; simpl. f_equal.
    destruct P as [_ [P2 _]]. simpl in P2. rewrite forallb_forall in P2.
    apply map_id_in. intros c Hc. destruct (stable_class_parts _ _ _ _ _ (P2 c Hc)) as [_ [_ B]].
    destruct c as [n bs ms ks tm]; simpl in *. f_equal. apply map_id_in. intros [bk bc] Hb.
    rewrite forallb_forall in B. specialize (B _ Hb). simpl in B. apply kind_eqb_eq in B. subst. reflexivity.
Qed.

Lemma run_passes_stable : forall kk cs o Hd ps u,
  lossless o -> (o_deps o && o_can_do_lookup o = true -> kk = KClass) ->
  idem_pipeline_ok ps = true -> stable_unit kk o Hd u = true -> run_passes cs o Hd ps u = Some u.
Proof.
  intros kk cs o Hd ps u L K. induction ps as [|[fl p] r IH]; intros G S; simpl; [reflexivity|].
  unfold idem_pipeline_ok in G. simpl in G. apply andb_true_iff in G. destruct G as [G1 G2].
  destruct (forallb (enabled o) fl) eqn:En; [|apply IH; assumption].
  rewrite (run_pass_stable kk cs o Hd fl p u L K G1 En S). apply IH; assumption.
Qed.

Lemma idem_passes_ok : idem_pipeline_ok passes = true.
Proof. vm_compute. reflexivity. Qed.

(* Optimising a stub that is in normal form changes nothing; hence optimisation is idempotent whenever
   its first result is in normal form. *)
Lemma optimize_stable_fixpoint : forall kk o Hd u,
  lossless o -> (o_deps o && o_can_do_lookup o = true -> kk = KClass) ->
  stable_unit kk o Hd u = true -> opt o Hd u = Some u.
Proof. intros kk o Hd u L K S. unfold opt. apply (run_passes_stable kk); try assumption. apply idem_passes_ok. Qed.

