(* C11 — every lossless pass only makes justified rewrites: parameters, signatures, functions, units and the
   pipeline (the type-level part is in Opt/Proofs.v). *)
From Coq Require Import List Arith Bool.
From PV Require Import Opt.Syntax Generated.C11_Passes Opt.Model Opt.Spec Opt.Proofs Opt.Rewrites.
Import ListNotations.

Section JR.
Variable H : hier.
Variable mx : nat.
Notation jr := (jr_ty H mx).

Variable cls : option cid.
Notation jp := (jr_param H mx cls).
Notation jsig := (jr_sig H mx cls).
Notation jsigs := (jr_sigs H mx cls).

Lemma jr_omut_refl : forall m, jr_omut H mx m m.
Proof. intros [m|]; simpl; [apply jr_refl | exact Logic.I]. Qed.
Lemma jp_refl : forall p, jp p p.
Proof. intros [n t kd op m]. apply jp_types; [apply jr_refl | apply jr_omut_refl]. Qed.
Lemma jr_oparam_refl : forall p, jr_oparam H mx cls p p.
Proof. intros [p|]; simpl; [apply jp_refl | exact Logic.I]. Qed.
Lemma jr_exc_refl : forall es, jr_exc H mx es es.
Proof. intros es. split; intros e He; exists e; split; auto; apply jr_refl. Qed.
Lemma jsig_refl : forall s, jsig s s.
Proof.
  intros s. unfold jr_sig. split; [apply Forall2_refl; apply jp_refl|].
  split; [apply jr_oparam_refl|]. split; [apply jr_oparam_refl|]. split; [apply jr_refl | apply jr_exc_refl].
Qed.
Lemma jsigs_refl : forall l, jsigs l l.
Proof. intros l. apply js_each. apply Forall2_refl. apply jsig_refl. Qed.

Lemma map_param_jr : forall (I : ty -> Prop) f p, (forall t, I t -> jr t (f t)) -> wf_param I p -> jp p (map_param f p).
Proof.
  intros I f [n t kd op m] Hf [W M]. unfold map_param; simpl in *. apply jp_types; [auto|].
  destruct m; simpl; auto.
Qed.

Lemma map_sig4_jr : forall (I : ty -> Prop) fp fr fe ft s,
  (forall t, I t -> jr t (fp t)) -> (forall t, I t -> jr t (fr t)) -> (forall t, I t -> jr t (fe t)) ->
  wf_sig I s -> jsig s (map_sig4 fp fr fe ft s).
Proof.
  intros I fp fr fe ft s Hp Hr He [Pp [S [SS [R E]]]]. unfold jr_sig, map_sig4; simpl. repeat split.
  - apply Forall2_map_r. intros p Hin. eapply map_param_jr; [eassumption|]. rewrite Forall_forall in Pp; auto.
  - destruct (s_star s); simpl; [eapply map_param_jr; eassumption | exact Logic.I].
  - destruct (s_starstar s); simpl; [eapply map_param_jr; eassumption | exact Logic.I].
  - auto.
  - intros e Hin. exists (fe e). split; [apply in_map; assumption|]. apply He. rewrite Forall_forall in E; auto.
  - intros e' Hin. apply in_map_iff in Hin. destruct Hin as [e [<- Hin]]. exists e. split; [assumption|].
    apply He. rewrite Forall_forall in E; auto.
Qed.

Lemma remove_dups_jr : forall l pre seen, (forall x, In x seen <-> In x pre) ->
  jsigs (pre ++ l) (pre ++ dedup_from sig_eqb seen l).
Proof.
  induction l as [|x r IH]; intros pre seen E; simpl; [apply jsigs_refl|].
  destruct (mem_by sig_eqb x seen) eqn:M.
  - apply (mem_by_In sig_eqb sig_eqb_eq) in M. apply E in M. apply in_split in M. destruct M as [a [b ->]].
    eapply js_trans; [|apply IH; exact E].
    rewrite <- !app_assoc. simpl. apply js_identical_removed.
  - rewrite (app_snoc pre x r).
    rewrite (app_snoc pre x (dedup_from sig_eqb (x :: seen) r)).
    apply IH. intros y. simpl. rewrite in_app_iff, E. simpl. tauto.
Qed.
Lemma remove_duplicates_jr : forall f, jr_func H mx cls f (remove_duplicates_f f).
Proof.
  intros f. unfold jr_func, remove_duplicates_f; simpl. repeat split.
  apply (remove_dups_jr (f_sigs f) [] []). intros; tauto.
Qed.

(* the signature rule js_merged puts in place of [acc] and [x] *)
Definition merge2 (acc x : sig) : sig :=
  mkSig (s_params acc) (s_star acc) (s_starstar acc) (TUnion [s_ret acc; s_ret x]) (s_exc acc ++ s_exc x)
        (s_template acc).
Definition not_same (s x : sig) : bool := negb (stripped_eqb s x).

Lemma sig_merge_all : forall s l acc pre mid, same_parameters s acc ->
  jsigs (pre ++ acc :: mid ++ l)
        (pre ++ fold_left merge2 (filter (stripped_eqb s) l) acc :: mid ++ filter (not_same s) l).
Proof.
  intros s. induction l as [|x r IH]; intros acc pre mid SP; simpl; [apply jsigs_refl|].
  unfold not_same at 1. destruct (stripped_eqb s x) eqn:E; simpl.
  - apply stripped_eqb_iff in E. destruct SP as [P1 [P2 [P3 P4]]]. destruct E as [E1 [E2 [E3 E4]]].
    eapply js_trans; [apply (js_merged H mx cls pre acc mid x r); unfold same_parameters; repeat split; congruence|].
    apply (IH (merge2 acc x)). unfold same_parameters, merge2; simpl. auto.
  - rewrite (app_snoc mid x r).
    rewrite (app_snoc mid x (filter (not_same s) r)).
    apply IH; assumption.
Qed.

Lemma fold_merge2_shape : forall l acc,
  s_params (fold_left merge2 l acc) = s_params acc /\ s_star (fold_left merge2 l acc) = s_star acc /\
  s_starstar (fold_left merge2 l acc) = s_starstar acc /\
  s_exc (fold_left merge2 l acc) = s_exc acc ++ flat_map s_exc l /\
  same_members [s_ret (fold_left merge2 l acc)] (s_ret acc :: map s_ret l).
Proof.
  induction l as [|x r IH]; intros acc; simpl.
  - rewrite app_nil_r. split; [reflexivity|]. split; [reflexivity|]. split; [reflexivity|]. split; [reflexivity|].
    intros y; tauto.
  - destruct (IH (merge2 acc x)) as [A [B [C [D M]]]]. simpl in *. rewrite A, B, C, D, <- app_assoc.
    split; [reflexivity|]. split; [reflexivity|]. split; [reflexivity|]. split; [reflexivity|].
    intros y. rewrite (M y). split.
    + intros [t [[<-|Hin] Mt]].
      * apply Member_union_iff in Mt. destruct Mt as [t [[<-|[<-|[]]] Mt]]; eexists; split; try exact Mt; simpl; auto.
      * exists t. split; [right; right; assumption | assumption].
    + intros [t [[<-|[<-|Hin]] Mt]].
      * exists (TUnion [s_ret acc; s_ret x]). split; [left; reflexivity|]. apply Member_union_iff.
        exists (s_ret acc). simpl; auto.
      * exists (TUnion [s_ret acc; s_ret x]). split; [left; reflexivity|]. apply Member_union_iff.
        exists (s_ret x). simpl; auto.
      * exists t. split; [right; assumption | assumption].
Qed.

Lemma merged_group_jr : forall s ms whole,
  filter (stripped_eqb s) whole = s :: ms ->
  jsig (fold_left merge2 ms s) (combine_group whole s).
Proof.
  intros s ms whole Fw. destruct (fold_merge2_shape ms s) as [A [B [C [D M]]]].
  unfold jr_sig, combine_group. rewrite Fw. simpl. rewrite A, B, C, D.
  split; [apply Forall2_refl; apply jp_refl|]. split; [apply jr_oparam_refl|]. split; [apply jr_oparam_refl|]. split.
  - eapply jr_trans; [apply jr_one_member_wrap|].
    eapply jr_trans; [apply jr_same_members; exact M|].
    eapply jr_trans; [apply dedup_py_jr|]. apply jr_join.
  - split.
    + intros e He. destruct (dedup_by_cover py_eqb py_eqb_refl _ e He) as [y [Hy Ey]].
      exists y. split; [exact Hy | apply py_eqb_jr; exact Ey].
    + intros e' He. exists e'. split; [eapply dedup_by_subset; exact He | apply jr_refl].
Qed.

(* the signatures of [l] whose parameter group has not been emitted yet *)
Definition effS (seen : list sig) (l : list sig) : list sig :=
  filter (fun s => negb (mem_by stripped_eqb s seen)) l.

Lemma stripped_trans_false : forall s s0 x, stripped_eqb s x = true -> stripped_eqb s0 s = false -> stripped_eqb s0 x = false.
Proof.
  intros s s0 x E N. destruct (stripped_eqb s0 x) eqn:E2; [|reflexivity].
  apply stripped_eqb_iff in E. apply stripped_eqb_iff in E2. destruct E as [? [? [? ?]]]. destruct E2 as [? [? [? ?]]].
  assert (stripped_eqb s0 s = true) by (apply stripped_eqb_iff; repeat split; congruence). congruence.
Qed.

Lemma combine_jr : forall whole l seen pre,
  (forall s0, mem_by stripped_eqb s0 seen = false ->
     filter (stripped_eqb s0) (effS seen l) = filter (stripped_eqb s0) whole) ->
  jsigs (pre ++ effS seen l) (pre ++ map (combine_group whole) (dedup_from stripped_eqb seen l)).
Proof.
  intros whole. induction l as [|s r IH]; intros seen pre Hyp; [simpl; apply jsigs_refl|].
  simpl dedup_from. destruct (mem_by stripped_eqb s seen) eqn:M.
  - assert (Ee : effS seen (s :: r) = effS seen r) by (unfold effS; simpl; rewrite M; reflexivity).
    rewrite Ee. apply IH. intros s0 M0. rewrite <- (Hyp s0 M0), Ee. reflexivity.
  - assert (Ee : effS seen (s :: r) = s :: effS seen r) by (unfold effS; simpl; rewrite M; reflexivity).
    rewrite Ee. pose proof (Hyp s M) as Hs. rewrite Ee in Hs. simpl in Hs. rewrite stripped_eqb_refl in Hs.
    eapply js_trans; [apply (sig_merge_all s (effS seen r) s pre []); unfold same_parameters; auto|].
    simpl.
    assert (Fe : filter (not_same s) (effS seen r) = effS (s :: seen) r).
    { unfold effS, mem_by. clear. induction r as [|x r IHr]; simpl; [reflexivity|].
      destruct (existsb (stripped_eqb x) seen) eqn:Mx; simpl.
      - rewrite orb_true_r. simpl. exact IHr.
      - rewrite orb_false_r. unfold not_same at 1. rewrite (stripped_eqb_sym s x).
        destruct (stripped_eqb x s); simpl; [exact IHr | f_equal; exact IHr]. }
    rewrite Fe.
    eapply js_trans.
    + apply (js_each H mx cls (pre ++ _ :: effS (s :: seen) r)
                             (pre ++ combine_group whole s :: effS (s :: seen) r)).
      apply Forall2_app; [apply Forall2_refl; apply jsig_refl|]. constructor; [|apply Forall2_refl; apply jsig_refl].
      apply merged_group_jr. symmetry. exact Hs.
    + rewrite (app_snoc pre (combine_group whole s) (effS (s :: seen) r)).
      rewrite (app_snoc pre (combine_group whole s) (map (combine_group whole) (dedup_from stripped_eqb (s :: seen) r))).
      apply IH. intros s0 M0. unfold mem_by in M0. simpl in M0. apply orb_false_iff in M0. destruct M0 as [N0 M0].
      rewrite <- Fe. rewrite <- (Hyp s0 M0), Ee. simpl. rewrite N0.
      clear - N0. induction (effS seen r) as [|x l IHl]; simpl; [reflexivity|].
      unfold not_same at 1. destruct (stripped_eqb s x) eqn:Ex; simpl.
      * rewrite (stripped_trans_false s s0 x Ex N0). exact IHl.
      * rewrite IHl. reflexivity.
Qed.
End JR.

Lemma effS_nil : forall l, effS [] l = l.
Proof. intros l. unfold effS. induction l as [|x r IH]; simpl; [reflexivity | f_equal; exact IH]. Qed.

Lemma combine_returns_jr : forall H mx cls f, jr_func H mx cls f (combine_returns_f f).
Proof.
  intros H mx cls f. unfold jr_func, combine_returns_f; simpl. repeat split.
  pose proof (combine_jr H mx cls (f_sigs f) (f_sigs f) [] []) as C.
  assert (Hy : forall s0, mem_by stripped_eqb s0 [] = false ->
               filter (stripped_eqb s0) (effS [] (f_sigs f)) = filter (stripped_eqb s0) (f_sigs f))
    by (intros s0 _; rewrite effS_nil; reflexivity).
  specialize (C Hy). simpl in C. rewrite effS_nil in C. exact C.
Qed.

Lemma map_func_jr : forall H mx cls (I : ty -> Prop) g f,
  (forall s, wf_sig I s -> jr_sig H mx cls s (g s)) -> wf_func I f -> jr_func H mx cls f (map_func g f).
Proof.
  intros H mx cls I g f Hg W. unfold jr_func, map_func; simpl. repeat split. apply js_each.
  apply Forall2_map_r. intros s Hs. apply Hg. unfold wf_func in W. rewrite Forall_forall in W; auto.
Qed.

Lemma normalize_self_sig_jr : forall H mx c s, jr_sig H mx (Some c) s (normalize_self_sig c s).
Proof.
  intros H mx c s. unfold normalize_self_sig. destruct (s_params s) as [|p rest] eqn:Ep; [apply jsig_refl|].
  destruct (Nat.eqb (p_name p) 0 && is_generic (p_ty p) && Nat.eqb (base_cid (p_ty p)) c) eqn:E; [|apply jsig_refl].
  rewrite !andb_true_iff, !Nat.eqb_eq in E. destruct E as [[E1 E2] E3].
  unfold jr_sig; simpl. rewrite Ep.
  split; [|split; [apply jr_oparam_refl | split; [apply jr_oparam_refl | split; [apply jr_refl | apply jr_exc_refl]]]].
  constructor; [|apply Forall2_refl; apply jp_refl].
  destruct p as [n t kd op m]; simpl in *. subst n.
  destruct t; try discriminate;
    [apply (jp_self_unparameterised H mx (Some c) c (TGen k c0 ps))
    |apply (jp_self_unparameterised H mx (Some c) c (TTup k c0 ps))
    |apply (jp_self_unparameterised H mx (Some c) c (TCall k c0 ps))]; auto.
Qed.

Lemma unit_map_jr : forall (I : ty -> Prop) Hd mx gc gm gcc gf ft u,
  (forall c, wf_const I c -> jr_const (hier_of u ++ Hd) mx c (gc c)) ->
  (forall n f, wf_func I f -> jr_func (hier_of u ++ Hd) mx (Some n) f (gm n f)) ->
  (forall c, wf_const I c -> jr_const (hier_of u ++ Hd) mx c (gcc c)) ->
  (forall f, wf_func I f -> jr_func (hier_of u ++ Hd) mx None f (gf f)) ->
  Forall I (types_of_unit u) -> jr_unit Hd mx u (unit_map_t gc gm gcc gf ft u).
Proof.
  intros I Hd mx gc gm gcc gf ft u Hc Hm Hcc Hf W. apply wf_unit_iff in W. destruct W as [W1 [W2 W3]].
  rewrite Forall_forall in W1, W2, W3. unfold jr_unit; simpl. repeat split.
  - apply Forall2_map_r. intros; apply Hc; auto.
  - apply Forall2_map_r. intros cl Hcl. destruct (W2 cl Hcl) as [M C]. rewrite Forall_forall in M, C.
    unfold jr_class; simpl. repeat split.
    + apply Forall2_map_r. intros; apply Hm; auto.
    + apply Forall2_map_r. intros; apply Hcc; auto.
  - apply Forall2_map_r. intros; apply Hf; auto.
Qed.

Lemma map_unit5_jr : forall (I : ty -> Prop) Hd mx fp fr fe fc ft u,
  (forall t, I t -> jr_ty (hier_of u ++ Hd) mx t (fp t)) -> (forall t, I t -> jr_ty (hier_of u ++ Hd) mx t (fr t)) ->
  (forall t, I t -> jr_ty (hier_of u ++ Hd) mx t (fe t)) -> (forall t, I t -> jr_ty (hier_of u ++ Hd) mx t (fc t)) ->
  Forall I (types_of_unit u) -> jr_unit Hd mx u (map_unit5 fp fr fe fc ft u).
Proof.
  intros I Hd mx fp fr fe fc ft u Hp Hr He Hc W. rewrite map_unit5_eq. apply (unit_map_jr I); try assumption.
  - intros c Wc. split; [reflexivity | apply Hc; assumption].
  - intros n f Wf. eapply map_func_jr; [|eassumption]. intros; eapply map_sig4_jr; eassumption.
  - intros c Wc. split; [reflexivity | apply Hc; assumption].
  - intros f Wf. eapply map_func_jr; [|eassumption]. intros; eapply map_sig4_jr; eassumption.
Qed.

Lemma jr_func_trans : forall H mx cls a b c, jr_func H mx cls a b -> jr_func H mx cls b c -> jr_func H mx cls a c.
Proof.
  intros H mx cls a b c [N1 [K1 S1]] [N2 [K2 S2]]. unfold jr_func. repeat split; try congruence.
  eapply js_trans; eassumption.
Qed.
Lemma jr_const_trans : forall H mx a b c, jr_const H mx a b -> jr_const H mx b c -> jr_const H mx a c.
Proof. intros H mx a b c [N1 W1] [N2 W2]. split; [congruence | eapply jr_trans; eassumption]. Qed.
Lemma jr_class_trans : forall H mx a b c, jr_class H mx a b -> jr_class H mx b c -> jr_class H mx a c.
Proof.
  intros H mx a b c [N1 [B1 [M1 C1]]] [N2 [B2 [M2 C2]]]. unfold jr_class. repeat split; try congruence.
  - rewrite <- N1 in M2. eapply Forall2_trans; [apply jr_func_trans | eassumption | eassumption].
  - eapply Forall2_trans; [apply jr_const_trans | eassumption | eassumption].
Qed.
Lemma jr_unit_hier : forall Hd mx u u', jr_unit Hd mx u u' -> hier_of u' = hier_of u.
Proof.
  intros Hd mx u u' [_ [L _]]. unfold hier_of. induction L; simpl; [reflexivity|].
  destruct H as [N [B _]]. rewrite IHL, N, B. reflexivity.
Qed.
Lemma jr_unit_refl : forall Hd mx u, jr_unit Hd mx u u.
Proof.
  intros Hd mx u. unfold jr_unit. repeat split; apply Forall2_refl.
  - intros c. split; [reflexivity | apply jr_refl].
  - intros c. unfold jr_class. repeat split; apply Forall2_refl.
    + intros f. unfold jr_func. repeat split. apply jsigs_refl.
    + intros k. split; [reflexivity | apply jr_refl].
  - intros f. unfold jr_func. repeat split. apply jsigs_refl.
Qed.
Lemma jr_unit_trans : forall Hd mx a b c, jr_unit Hd mx a b -> jr_unit Hd mx b c -> jr_unit Hd mx a c.
Proof.
  intros Hd mx a b c J1 J2. pose proof (jr_unit_hier _ _ _ _ J1) as E.
  destruct J1 as [C1 [L1 F1]]. destruct J2 as [C2 [L2 F2]]. rewrite E in C2, L2, F2.
  unfold jr_unit. repeat split.
  - eapply Forall2_trans; [apply jr_const_trans | eassumption | eassumption].
  - eapply Forall2_trans; [apply jr_class_trans | eassumption | eassumption].
  - eapply Forall2_trans; [apply jr_func_trans | eassumption | eassumption].
Qed.

Lemma resolve_unit_jr : forall Hd mx u, jr_unit Hd mx u (resolve_unit u).
Proof.
  intros Hd mx u.
  assert (W : jr_unit Hd mx u (map_ty_unit resolve u)).
  { unfold map_ty_unit. apply (map_unit5_jr Itrue); try (intros; apply resolve_jr). apply Itrue_all. }
  destruct W as [C [L F]]. unfold jr_unit, resolve_unit; simpl. repeat split; try assumption.
  apply Forall2_map_post; [|exact L].
  intros x y [N [B [M K]]]. unfold jr_class; simpl. repeat split; try assumption.
  rewrite map_map. simpl. exact B.
Qed.

Lemma run_pass_jr : forall k cs o Hd fl p u u',
  lossless o -> jr_guard_ok fl p = true -> forallb (enabled o) fl = true ->
  run_pass cs o Hd p u = Some u' ->
  ranked (hier_of u ++ Hd) -> (needs_wf p = true -> wf_unit k u) ->
  jr_unit Hd (o_max_union o) u u'.
Proof.
  intros k cs o Hd fl p u u' [L1 [L2 L3]] G En E R NW. set (mx := o_max_union o).
  destruct p; simpl in E; simpl in G; try discriminate; try (inversion E; subst u'; clear E).
  - rewrite normalize_self_eq. apply (unit_map_jr Itrue); try (intros; split; [reflexivity | apply jr_refl]);
      [| |apply Itrue_all].
    + intros n f Wf. apply (map_func_jr _ _ _ Itrue); [|exact Wf]. intros; apply normalize_self_sig_jr.
    + intros f _. unfold jr_func. repeat split. apply jsigs_refl.
  - rewrite map_funcs_unit_eq. apply (unit_map_jr Itrue); try (intros; split; [reflexivity | apply jr_refl]);
      try (intros; apply remove_duplicates_jr). apply Itrue_all.
  - apply (map_unit5_jr Itrue); try (intros; apply simplify_unions_jr). apply Itrue_all.
  - rewrite map_funcs_unit_eq. apply (unit_map_jr Itrue); try (intros; split; [reflexivity | apply jr_refl]);
      try (intros; apply combine_returns_jr). apply Itrue_all.
  - destruct (forallb (fun t => is_some (cc_top t)) (types_of_unit u)); [|discriminate].
    inversion E; subst u'; clear E. specialize (NW eq_refl).
    apply (map_unit5_jr (wf k)); try (intros; apply (combine_containers_jr _ _ k); assumption). assumption.
  - apply (map_unit5_jr Itrue); try (intros; apply simplify_containers_jr). apply Itrue_all.
  - specialize (NW eq_refl).
    apply (map_unit5_jr (wf k)); try (intros; apply (simplify_superclasses_jr _ _ k); assumption). assumption.
  - pose proof (has_flag_enabled o FMaxUnion fl G En) as D. simpl in D. apply negb_true_iff in D.
    apply Nat.eqb_neq in D.
    apply (map_unit5_jr Itrue); try (intros; apply collapse_long_unions_jr; assumption). apply Itrue_all.
  - apply (map_unit5_jr Itrue); try (intros; apply adjust_generic_type_jr); try (intros; apply jr_refl). apply Itrue_all.
  - pose proof (has_flag_enabled o FRemoveMutable fl G En) as D. simpl in D. congruence.
  - pose proof (has_flag_enabled o FRemoveMutable fl G En) as D. simpl in D. congruence.
  - pose proof (has_flag_enabled o FRemoveMutable fl G En) as D. simpl in D. congruence.
  - apply resolve_unit_jr.
Qed.

Lemma run_passes_jr : forall k cs o Hd ps wfok u u',
  lossless o ->
  pipeline_ok wfok ps = true -> forallb (fun s => jr_guard_ok (fst s) (snd s)) ps = true ->
  run_passes cs o Hd ps u = Some u' ->
  ranked (hier_of u ++ Hd) -> (wfok = true -> wf_unit k u) ->
  jr_unit Hd (o_max_union o) u u'.
Proof.
  intros k cs o Hd ps; induction ps as [|[fl p] r IH]; intros wfok u u' L OK G E R W; simpl in E.
  - inversion E; subst. apply jr_unit_refl.
  - simpl in OK, G. apply andb_true_iff in OK. destruct OK as [OK OK3]. apply andb_true_iff in OK.
    destruct OK as [OK1 OK2]. apply andb_true_iff in G. destruct G as [G1 G2].
    destruct (forallb (enabled o) fl) eqn:En.
    + destruct (run_pass cs o Hd p u) as [u1|] eqn:E1; [|discriminate].
      assert (Wn : needs_wf p = true -> wf_unit k u).
      { intros Nw. apply W. rewrite Nw in OK1. simpl in OK1. exact OK1. }
      destruct (run_pass_sound k cs o Hd p u u1 E1 R) as [_ [H1 K1]]; [|exact Wn|].
      * intros [-> | ->]; simpl in G1; pose proof (has_flag_enabled o FRemoveMutable fl G1 En) as D; simpl in D;
        destruct L as [_ [_ L3]]; congruence.
      * eapply jr_unit_trans; [exact (run_pass_jr k cs o Hd fl p u u1 L G1 En E1 R Wn)|].
        apply (IH (wfok && keeps_wf p) u1 u'); try assumption.
        -- rewrite H1; assumption.
        -- intros Ew. apply andb_true_iff in Ew. destruct Ew as [Ew Ek]. apply K1; auto.
    + apply (IH (wfok && keeps_wf p) u u'); try assumption.
      intros Ew. apply andb_true_iff in Ew. apply W. tauto.
Qed.

Lemma jr_passes_ok : jr_pipeline_ok passes = true.
Proof. vm_compute. reflexivity. Qed.

Lemma lossless_changes_only_lemma : forall k o Hd u u',
  lossless o -> ranked (hier_of u ++ Hd) -> wf_unit k u ->
  opt o Hd u = Some u' -> jr_unit Hd (o_max_union o) u u'.
Proof.
  intros k o Hd u u' L R W. unfold opt. intros E. pose proof jr_passes_ok as OK. unfold jr_pipeline_ok in OK.
  apply andb_true_iff in OK. destruct OK as [OK1 OK2].
  apply (run_passes_jr k _ o Hd _ true u u' L OK1 OK2 E R). auto.
Qed.

Lemma lossless_changes_only_ty_lemma : forall H k o t t',
  o_lossy o = false -> wf k t -> opt_ty o t = Some t' -> jr_ty H (o_max_union o) t t'.
Proof.
  intros H k o t t' L. unfold opt_ty.
  assert (G : forallb (fun s => jr_guard_ok (fst s) (snd s)) passes = true).
  { pose proof jr_passes_ok as OK. unfold jr_pipeline_ok in OK. apply andb_true_iff in OK. tauto. }
  revert G. generalize passes. intros ps; revert t.
  induction ps as [|[fl p] r IH]; intros t G W E; simpl in E.
  - inversion E; subst. apply jr_refl.
  - simpl in G. apply andb_true_iff in G. destruct G as [G1 G2].
    destruct (forallb (enabled o) fl) eqn:En; [|apply IH; assumption].
    destruct (run_pass_ty o p t) as [t1|] eqn:E1; [|discriminate].
    destruct (run_pass_ty_sound H k o p t t1 W E1) as [_ W1].
    eapply jr_trans; [|apply IH; eassumption].
    clear IH E. destruct p; simpl in E1; try discriminate; try (inversion E1; subst t1; apply jr_refl).
    + inversion E1; subst. apply simplify_unions_jr.
    + unfold cc_top in E1. eapply cc_jr; eassumption.
    + inversion E1; subst. apply simplify_containers_jr.
    + inversion E1; subst. apply collapse_long_unions_jr.
      simpl in G1. pose proof (has_flag_enabled o FMaxUnion fl G1 En) as D. simpl in D.
      apply negb_true_iff in D. apply Nat.eqb_neq in D. exact D.
Qed.

Lemma jr_param_wider : forall H mx cls p p', jr_param H mx cls p p' -> param_wider H p p'.
Proof.
  induction 1.
  - eapply param_wider_trans; eassumption.
  - unfold param_wider; simpl. repeat split; [eapply jr_widens_lemma; eassumption|].
    destruct m, m'; simpl in *; try contradiction; [eapply jr_widens_lemma; eassumption | reflexivity].
  - unfold param_wider; simpl. repeat split; intros v A; apply admits_union; eexists; split; try exact A; simpl; auto.
  - unfold param_wider; simpl. repeat split.
    + apply unparameterised_wider.
    + destruct m; [apply wider_refl | reflexivity].
Qed.

Lemma jr_sig_wider : forall H mx cls s s', jr_sig H mx cls s s' -> sig_wider H s s'.
Proof.
  intros H mx cls s s' [P [S [SS [R _]]]]. unfold sig_wider. repeat split.
  - eapply Forall2_impl; [|exact P]. intros; eapply jr_param_wider; eassumption.
  - destruct (s_star s), (s_star s'); simpl in *; try contradiction; try exact Logic.I. eapply jr_param_wider; eassumption.
  - destruct (s_starstar s), (s_starstar s'); simpl in *; try contradiction; try exact Logic.I. eapply jr_param_wider; eassumption.
  - eapply jr_widens_lemma; eassumption.
Qed.

Lemma jr_sigs_cover : forall H mx cls l l', jr_sigs H mx cls l l' ->
  forall q, In q l -> exists q', In q' l' /\ sig_wider H q q'.
Proof.
  induction 1; intros q Hs.
  - destruct (IHjr_sigs1 q Hs) as [s1 [H1 W1]]. destruct (IHjr_sigs2 s1 H1) as [s2 [H2 W2]].
    exists s2. split; [assumption | eapply sig_wider_trans; eassumption].
  - clear - H0 Hs. induction H0; [contradiction|]. destruct Hs as [<-|Hs].
    + exists y. split; [left; reflexivity | eapply jr_sig_wider; eassumption].
    + destruct (IHForall2 Hs) as [s' [Hs' W]]. exists s'. split; [right; assumption | assumption].
  - exists q. split; [|apply sig_wider_refl].
    rewrite !in_app_iff in *. simpl in *. rewrite !in_app_iff in *. simpl in *. tauto.
  - rewrite in_app_iff in Hs. simpl in Hs. rewrite in_app_iff in Hs. simpl in Hs.
    destruct H0 as [E1 [E2 [E3 E4]]].
    assert (M1 : sig_wider H s1 (mkSig (s_params s1) (s_star s1) (s_starstar s1) (TUnion [s_ret s1; s_ret s2]) (s_exc s1 ++ s_exc s2) (s_template s1))).
    { unfold sig_wider; simpl. repeat split; try apply oparam_wider_refl.
      - apply Forall2_refl; apply param_wider_refl.
      - intros v A. apply admits_union. exists (s_ret s1). simpl; auto. }
    assert (M2 : sig_wider H s2 (mkSig (s_params s1) (s_star s1) (s_starstar s1) (TUnion [s_ret s1; s_ret s2]) (s_exc s1 ++ s_exc s2) (s_template s1))).
    { unfold sig_wider; simpl. rewrite E1, E2, E3. repeat split; try apply oparam_wider_refl.
      - apply Forall2_refl; apply param_wider_refl.
      - intros v A. apply admits_union. exists (s_ret s2). simpl; auto. }
    destruct Hs as [Hs|[<-|[Hs|[<-|Hs]]]].
    + exists q. split; [apply in_or_app; auto | apply sig_wider_refl].
    + eexists. split; [apply in_or_app; right; left; reflexivity | exact M1].
    + exists q. split; [apply in_or_app; right; right; apply in_or_app; auto | apply sig_wider_refl].
    + eexists. split; [apply in_or_app; right; left; reflexivity | exact M2].
    + exists q. split; [apply in_or_app; right; right; apply in_or_app; auto | apply sig_wider_refl].
Qed.

Lemma jr_unit_widens_lemma : forall Hd mx u u', jr_unit Hd mx u u' -> unit_wider (hier_of u ++ Hd) u u'.
Proof.
  intros Hd mx u u' [C [L F]]. set (H := hier_of u ++ Hd) in *.
  assert (Fn : forall cls f f', jr_func H mx cls f f' -> func_wider H f f').
  { intros cls f f' [N [K S]]. unfold func_wider. repeat split; try assumption. eapply jr_sigs_cover; eassumption. }
  assert (Cn : forall c c', jr_const H mx c c' -> const_wider H c c').
  { intros c c' [N J]. split; [assumption | eapply jr_widens_lemma; eassumption]. }
  unfold unit_wider. repeat split.
  - eapply Forall2_impl; [|exact C]. exact Cn.
  - eapply Forall2_impl; [|exact L]. intros c c' [N [B [M K]]]. unfold class_wider. repeat split; try assumption.
    + eapply Forall2_impl; [|exact M]. intros; eapply Fn; eassumption.
    + eapply Forall2_impl; [|exact K]. exact Cn.
  - eapply Forall2_impl; [|exact F]. intros; eapply Fn; eassumption.
Qed.
