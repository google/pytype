(* C11 — the fuel of the CombineContainers model is always sufficient: [cc_top t] is never [None].
   No well-formedness hypothesis.

   Idea.  After one union step every union is "alternating" (no UnionType directly inside a UnionType),
   and the re-visit of merged parameters only sees such types, one generic level below the union that is
   being rebuilt.  For alternating types the fuel need is 2 * (generic depth) + 1 or 2. *)
From Coq Require Import List Arith Bool Lia.
From PV Require Import Opt.Syntax Generated.C11_Passes Opt.Model Opt.Spec Opt.Proofs.
Import ListNotations.

(* nesting depth counting only the non-union nodes that have children *)
Fixpoint gd (t : ty) : nat :=
  match t with
  | TUnion ts => fold_right (fun x n => Nat.max (gd x) n) 0 ts
  | TGen _ _ ps | TTup _ _ ps | TCall _ _ ps | TVar _ _ _ ps =>
      S (fold_right (fun x n => Nat.max (gd x) n) 0 ps)
  | _ => 0
  end.
(* full depth *)
Fixpoint dp (t : ty) : nat :=
  match t with
  | TUnion ts | TGen _ _ ts | TTup _ _ ts | TCall _ _ ts | TVar _ _ _ ts =>
      S (fold_right (fun x n => Nat.max (dp x) n) 0 ts)
  | _ => 1
  end.
(* no UnionType directly inside a UnionType, anywhere *)
Fixpoint altb (t : ty) : bool :=
  match t with
  | TUnion ts => forallb (fun x => negb (is_union x)) ts && forallb altb ts
  | TGen _ _ ps | TTup _ _ ps | TCall _ _ ps | TVar _ _ _ ps => forallb altb ps
  | _ => true
  end.

Notation mxg l := (fold_right (fun x n => Nat.max (gd x) n) 0 l).
Notation mxd l := (fold_right (fun x n => Nat.max (dp x) n) 0 l).

(* [Q g t]: alternating, of generic depth at most [g]; [NU]: and not itself a union; [bnd t]: the fuel an
   alternating type needs *)
Definition Q (g : nat) (t : ty) : Prop := altb t = true /\ gd t <= g.
Definition NU (g : nat) (t : ty) : Prop := is_union t = false /\ Q g t.
Definition bnd (t : ty) : nat := 2 * gd t + (if is_union t then 2 else 1).

Lemma mxg_In : forall l x, In x l -> gd x <= mxg l.
Proof.
  induction l as [|a r IH]; simpl; intros x Hx; [contradiction|].
  destruct Hx as [<-|Hx]; [lia|]. specialize (IH x Hx). lia.
Qed.
Lemma mxg_le : forall l g, (forall x, In x l -> gd x <= g) -> mxg l <= g.
Proof.
  induction l as [|a r IH]; simpl; intros g H; [lia|].
  assert (gd a <= g) by (apply H; left; reflexivity).
  assert (mxg r <= g) by (apply IH; intros; apply H; right; assumption). lia.
Qed.
Lemma mxd_In : forall l x, In x l -> dp x <= mxd l.
Proof.
  induction l as [|a r IH]; simpl; intros x Hx; [contradiction|].
  destruct Hx as [<-|Hx]; [lia|]. specialize (IH x Hx). lia.
Qed.
Lemma mxg_le_mxd : forall l, Forall (fun x => gd x <= dp x) l -> mxg l <= mxd l.
Proof. induction 1; simpl; lia. Qed.

Lemma gd_le_dp : forall t, gd t <= dp t.
Proof.
  induction t using ty_ind'; simpl; try lia;
    pose proof (mxg_le_mxd _ H); lia.
Qed.

Lemma dp_pos : forall t, 1 <= dp t.
Proof. destruct t; simpl; lia. Qed.

Lemma mxd_le_sum : forall l, Forall (fun x => dp x <= size x) l ->
  mxd l <= fold_right (fun x n => size x + n) 0 l.
Proof. induction 1; simpl; lia. Qed.

Lemma dp_le_size : forall t, dp t <= size t.
Proof.
  induction t using ty_ind'; simpl; try lia;
    pose proof (mxd_le_sum _ H); lia.
Qed.

Lemma bnd_le : forall t, bnd t <= 2 * gd t + 2.
Proof. intros t. unfold bnd. destruct (is_union t); lia. Qed.
Lemma bnd_nu : forall t, is_union t = false -> bnd t = 2 * gd t + 1.
Proof. intros t U. unfold bnd. rewrite U. reflexivity. Qed.

Lemma Q_mono : forall g g' t, g <= g' -> Q g t -> Q g' t.
Proof. intros g g' t L [A B]. split; [assumption | lia]. Qed.

Lemma NU_Q : forall g l, Forall (NU g) l -> Forall (Q g) l.
Proof. intros g l F. eapply Forall_impl; [|exact F]. intros a [_ W]; exact W. Qed.

Lemma Q_union : forall g ts, Q g (TUnion ts) <-> Forall (NU g) ts.
Proof.
  intros g ts. unfold NU, Q. simpl. rewrite andb_true_iff, !forallb_forall, Forall_forall. split.
  - intros [[A B] C] x Hx. split; [|split].
    + specialize (A x Hx). destruct (is_union x); [discriminate | reflexivity].
    + auto.
    + pose proof (mxg_In ts x Hx). lia.
  - intros H. split; [split|].
    + intros x Hx. destruct (H x Hx) as [U _]. rewrite U. reflexivity.
    + intros x Hx. apply (H x Hx).
    + apply mxg_le. intros x Hx. apply (H x Hx).
Qed.

Lemma Q_params : forall g ps,
  (forallb altb ps = true /\ S (mxg ps) <= g) <-> exists g', g = S g' /\ Forall (Q g') ps.
Proof.
  intros g ps. split.
  - intros [A B]. destruct g as [|g']; [lia|]. exists g'. split; [reflexivity|].
    apply Forall_forall. intros x Hx. split.
    + rewrite forallb_forall in A. auto.
    + pose proof (mxg_In ps x Hx). lia.
  - intros [g' [-> F]]. rewrite Forall_forall in F. split.
    + apply forallb_forall. intros x Hx. apply (F x Hx).
    + assert (mxg ps <= g') by (apply mxg_le; intros x Hx; apply (F x Hx)). lia.
Qed.

Definition is_container (t : ty) : Prop :=
  match t with TGen _ _ _ | TTup _ _ _ | TCall _ _ _ | TVar _ _ _ _ => True | _ => False end.
Lemma Q_container : forall g t, is_container t -> (Q g t <-> exists g', g = S g' /\ Forall (Q g') (children t)).
Proof. intros g t C. destruct t; try contradiction; unfold Q; simpl; apply Q_params. Qed.

Lemma flat_Q : forall g t, Q g t -> Forall (NU g) (flat t).
Proof.
  intros g t; induction t using ty_ind'; intros W; simpl;
    try (constructor; [split; [reflexivity | assumption] | constructor]).
  - constructor.
  - apply Q_union in W. apply Forall_forall. intros x Hx. apply in_flat_map in Hx.
    destruct Hx as [t [Hin Hx]]. rewrite Forall_forall in H, W. destruct (W t Hin) as [_ Wt].
    specialize (H t Hin Wt). rewrite Forall_forall in H. auto.
Qed.

Lemma join_Q : forall g ts, Forall (Q g) ts -> Q g (join ts).
Proof.
  intros g ts F.
  assert (Fl : Forall (NU g) (dedup (flat_map flat ts))).
  { apply Forall_forall. intros x Hx. rewrite dedup_In in Hx. revert x Hx. apply Forall_forall, Forall_flat_map.
    eapply Forall_impl; [apply flat_Q | exact F]. }
  destruct (join_cases ts) as [y E | c _ _ _ | _ | _ | ]; try (split; simpl; [reflexivity | lia]).
  - rewrite E in Fl. inversion Fl as [|? ? [_ Wy] _]. exact Wy.
  - apply Q_union; assumption.
Qed.

Lemma norm_union_NU : forall g l, Forall (Q g) l -> Forall (NU g) (norm_union l).
Proof.
  intros g l F. apply Forall_forall. intros x Hx. unfold norm_union in Hx. rewrite dedup_In in Hx.
  apply in_flat_map in Hx. destruct Hx as [t [Hin Hx]]. rewrite Forall_forall in F. specialize (F t Hin).
  destruct t; simpl in Hx; try (destruct Hx as [<-|[]]; split; [reflexivity | exact F]).
  apply Q_union in F. rewrite Forall_forall in F. apply F; assumption.
Qed.

Lemma cc_conv_NU : forall g mt mc t, NU g t -> NU g (cc_conv mt mc t).
Proof.
  intros g mt mc t [U W]. destruct t; simpl; try (split; assumption).
  - destruct mt; [|split; assumption]. split; [reflexivity|].
    apply Q_container in W; [|exact I]. destruct W as [g' [-> F]]. apply Q_container; [exact I|]. exists g'. split; [reflexivity|].
    constructor; [apply join_Q; assumption | constructor].
  - destruct mc; [|split; assumption]. split; [reflexivity|].
    apply Q_container in W; [|exact I]. destruct W as [g' [-> F]]. apply Q_container; [exact I|]. exists g'. split; [reflexivity|].
    constructor; [split; simpl; [reflexivity | lia]|]. constructor; [|constructor].
    destruct ps as [|p r]; [split; simpl; [reflexivity | lia]|].
    rewrite Forall_forall in F. apply F. apply last_or_In. discriminate.
Qed.

Lemma zip_join_Q : forall g a b, Forall (Q g) a -> Forall (Q g) b -> Forall (Q g) (zip_join a b).
Proof.
  intros g a; induction a as [|x r IH]; intros b Fa Fb; simpl; [constructor|].
  destruct b as [|y b']; [constructor|]. inversion Fa; inversion Fb; subst.
  constructor; [apply join_Q; constructor; [assumption|]; constructor; [assumption | constructor] | apply IH; assumption].
Qed.

Lemma fold_zip_Q : forall g rest init, Forall (Q g) init ->
  (forall m, In m rest -> Forall (Q g) (params_of m)) ->
  Forall (Q g) (fold_left (fun acc t => zip_join acc (params_of t)) rest init).
Proof.
  intros g rest; induction rest as [|a r IH]; intros init Fi Fr; simpl; [assumption|].
  apply IH; [apply zip_join_Q; [assumption | apply Fr; left; reflexivity]
            | intros m Hm; apply Fr; right; assumption].
Qed.

(* a generic member sits one level above its parameters *)
Lemma params_of_Q : forall g t key, key_of t = Some key -> Q g t ->
  exists g', g = S g' /\ Forall (Q g') (params_of t).
Proof.
  intros g t key K W. destruct t; simpl in K; try discriminate; apply Q_container in W; try exact I; exact W.
Qed.

Lemma merged_Q : forall g' key whole, Forall (Q (S g')) whole -> Forall (Q g') (merged key whole).
Proof.
  intros g' key whole F. unfold merged.
  pose proof (fun m => proj1 (filter_In (has_key key) m whole)) as Fi.
  destruct (filter (has_key key) whole) as [|t0 rest]; [constructor|].
  rewrite Forall_forall in F.
  assert (P : forall m, In m (t0 :: rest) -> Forall (Q g') (params_of m)).
  { intros m Hm. destruct (Fi m Hm) as [Hin Hk]. apply has_key_iff in Hk.
    destruct (params_of_Q _ _ _ Hk (F m Hin)) as [g2 [E F2]]. inversion E; subst. exact F2. }
  apply fold_zip_Q.
  - apply P. left; reflexivity.
  - intros m Hm. apply P. right; assumption.
Qed.

Lemma with_params_Q : forall g' t key ps, key_of t = Some key -> Forall (Q g') ps ->
  Q (S g') (with_params t ps).
Proof.
  intros g' t key ps K F. destruct t; simpl in K; try discriminate; simpl;
    (apply Q_container; [exact I | exists g'; auto]).
Qed.

Lemma map_opt_exists : forall {A B} (f : A -> option B) (R : B -> Prop) l,
  Forall (fun x => exists y, f x = Some y /\ R y) l ->
  exists l', map_opt f l = Some l' /\ Forall R l'.
Proof.
  intros A B f R l F. induction F as [|x r [y [Ey Ry]] _ [r' [Er Rr]]]; simpl.
  - exists []. split; [reflexivity | constructor].
  - rewrite Ey, Er. exists (y :: r'). split; [reflexivity | constructor; assumption].
Qed.

Lemma cc_emit_Q : forall g rec whole,
  (forall g', g = S g' -> forall m, Q g' m -> exists m', rec m = Some m' /\ Q g' m') ->
  Forall (Q g) whole ->
  forall l done result, Forall (Q g) l -> Q g result ->
  exists r, cc_emit rec whole done result l = Some r /\ Q g r.
Proof.
  intros g rec whole Hrec Fw. induction l as [|t r IH]; intros done result Fl Wr; simpl.
  - exists result. split; [reflexivity | assumption].
  - inversion Fl as [|? ? Wt Fr]; subst.
    destruct (key_of t) as [key|] eqn:Kt.
    + destruct (mem_by ckey_eqb key done).
      * apply IH; assumption.
      * destruct (params_of_Q _ _ _ Kt Wt) as [g' [Eg _]].
        assert (Fm : Forall (Q g') (merged key whole)).
        { apply merged_Q. rewrite <- Eg. exact Fw. }
        assert (Ex : exists ps', map_opt rec (merged key whole) = Some ps' /\ Forall (Q g') ps').
        { apply map_opt_exists. eapply Forall_impl; [|exact Fm]. intros m Wm. apply (Hrec g' Eg m Wm). }
        destruct Ex as [ps' [Em Fp]]. rewrite Em.
        apply IH; [assumption|]. apply join_Q. constructor; [assumption|]. constructor; [|constructor].
        rewrite Eg. eapply with_params_Q; eassumption.
    + apply IH; [assumption|]. apply join_Q. constructor; [assumption|]. constructor; [assumption | constructor].
Qed.

Lemma cc_union_defined : forall g rec l0,
  Forall (NU g) l0 ->
  (forall g', g = S g' -> forall m, Q g' m -> exists m', rec m = Some m' /\ Q g' m') ->
  exists t', cc_union rec l0 = Some t' /\ Q g t'.
Proof.
  intros g rec l0 F0 Hrec. rewrite cc_union_unfold.
  destruct (negb (existsb is_generic l0)).
  { exists (TUnion l0). split; [reflexivity | apply Q_union; assumption]. }
  assert (F2 : Forall (NU g) (cc_prep l0)).
  { apply cc_prep_elems; [intros; apply cc_conv_NU; assumption|].
    pose proof (join_Q g l0 (NU_Q g l0 F0)) as Wu. unfold join_members.
    destruct (join l0); try (constructor; [split; [reflexivity | assumption] | constructor]).
    apply Q_union; assumption. }
  destruct (negb (has_redundant (cc_prep l0))).
  { exists (TUnion (cc_prep l0)). split; [reflexivity | apply Q_union; assumption]. }
  apply cc_emit_Q with (g := g); try assumption; try (apply NU_Q; assumption).
  split; simpl; [reflexivity | lia].
Qed.

Lemma children_ok : forall f ps,
  Forall (fun x => exists x', cc f x = Some x' /\ Q (gd x) x') ps ->
  exists ps', map_opt (cc f) ps = Some ps' /\ Forall (Q (mxg ps)) ps'.
Proof.
  intros f ps F. apply map_opt_exists. apply Forall_forall. intros x Hx.
  rewrite Forall_forall in F. destruct (F x Hx) as [x' [E W]]. exists x'. split; [assumption|].
  eapply Q_mono; [|exact W]. apply mxg_In; assumption.
Qed.

(* alternating types need fuel 2 * gd + 1, or + 2 for a union *)
Lemma cc_alt_total : forall n t, altb t = true -> bnd t <= n ->
  exists t', cc n t = Some t' /\ Q (gd t) t'.
Proof.
  induction n as [|f IH]; intros t A B.
  { pose proof (bnd_le t). unfold bnd in B. destruct (is_union t); lia. }
  assert (Ch : forall ps, forallb altb ps = true -> (forall x, In x ps -> bnd x <= f) ->
               exists ps', map_opt (cc f) ps = Some ps' /\ Forall (Q (mxg ps)) ps').
  { intros ps Ap Bp. apply children_ok. apply Forall_forall. intros x Hx. apply IH.
    - rewrite forallb_forall in Ap. auto.
    - auto. }
  assert (Bp : forall ps, 2 * S (mxg ps) + 1 <= S f -> forall x, In x ps -> bnd x <= f).
  { intros ps L x Hx. pose proof (bnd_le x). pose proof (mxg_In ps x Hx). lia. }
  destruct t; try (eexists; split; [reflexivity | split; [exact A | apply le_n]]).
  (* the four container nodes alike *)
  2-5: assert (B' : 2 * S (mxg ps) + 1 <= S f) by exact B;
    destruct (Ch ps A (Bp ps B')) as [ps' [Em Fs]]; simpl; rewrite Em; simpl;
    eexists; (split; [reflexivity|]); (apply Q_container; [exact I|]);
    exists (mxg ps); split; [reflexivity | assumption].
  - simpl in A. apply andb_true_iff in A. destruct A as [A1 A2].
    assert (B' : 2 * mxg ts + 2 <= S f) by exact B.
    destruct (Ch ts A2) as [ts' [Em Fs]].
    { intros x Hx. rewrite forallb_forall in A1. specialize (A1 x Hx).
      rewrite bnd_nu by (destruct (is_union x); [discriminate | reflexivity]).
      pose proof (mxg_In ts x Hx). lia. }
    destruct (cc_union_defined (mxg ts) (cc f) (norm_union ts')) as [t' [E W]].
    + apply norm_union_NU; assumption.
    + intros g' Eg m [Am Gm]. destruct (IH m Am) as [m' [Em' Wm']].
      * pose proof (bnd_le m). lia.
      * exists m'. split; [assumption|]. eapply Q_mono; [|exact Wm']. assumption.
    + exists t'. simpl. rewrite Em. split; assumption.
Qed.

(* arbitrary types: fuel 2 * depth; after the first union step only alternating types are re-visited *)
Lemma cc_total : forall n t, 2 * dp t <= n -> exists t', cc n t = Some t' /\ Q (gd t) t'.
Proof.
  induction n as [|f IH]; intros t B.
  { pose proof (dp_pos t). lia. }
  assert (Ch : forall ps, 2 * S (mxd ps) <= S f ->
               exists ps', map_opt (cc f) ps = Some ps' /\ Forall (Q (mxg ps)) ps').
  { intros ps L. apply children_ok. apply Forall_forall. intros x Hx. apply IH.
    pose proof (mxd_In ps x Hx). lia. }
  destruct t; try (eexists; split; [reflexivity | split; [reflexivity | apply le_n]]).
  (* the four container nodes alike *)
  2-5: assert (B' : 2 * S (mxd ps) <= S f) by exact B;
    destruct (Ch ps B') as [ps' [Em Fs]]; simpl; rewrite Em; simpl;
    eexists; (split; [reflexivity|]); (apply Q_container; [exact I|]);
    exists (mxg ps); split; [reflexivity | assumption].
  - assert (B' : 2 * S (mxd ts) <= S f) by exact B.
    destruct (Ch ts B') as [ts' [Em Fs]].
    assert (GD : mxg ts <= mxd ts).
    { apply mxg_le_mxd. apply Forall_forall. intros; apply gd_le_dp. }
    destruct (cc_union_defined (mxg ts) (cc f) (norm_union ts')) as [t' [E W]].
    + apply norm_union_NU; assumption.
    + intros g' Eg m [Am Gm]. destruct (cc_alt_total f m Am) as [m' [Em' Wm']].
      * pose proof (bnd_le m). lia.
      * exists m'. split; [assumption|]. eapply Q_mono; [|exact Wm']. assumption.
    + exists t'. simpl. rewrite Em. split; assumption.
Qed.

Theorem cc_top_total : forall t, cc_top t <> None.
Proof.
  intros t. unfold cc_top. destruct (cc_total (2 * size t + 2) t) as [t' [E _]].
  - pose proof (dp_le_size t). lia.
  - rewrite E. discriminate.
Qed.

Lemma cc_pass_total : forall u, forallb (fun t => is_some (cc_top t)) (types_of_unit u) = true.
Proof.
  intros u. apply forallb_forall. intros t _. destruct (cc_top t) eqn:E; [reflexivity|].
  exfalso. exact (cc_top_total t E).
Qed.

