(* C11 — idempotence: one-member unions, and the stubs on which a second run changes the result. *)
From Coq Require Import List Arith Bool.
From PV Require Import Opt.Syntax Generated.C11_Passes Opt.Model Opt.Spec Opt.Proofs.
Import ListNotations.

Lemma no_single_all : forall l,
  (fix all (l : list ty) : Prop := match l with [] => True | x :: r => no_single x /\ all r end) l
  <-> Forall no_single l.
Proof.
  induction l as [|x r IH]; simpl; split; auto.
  - intros [? ?]; constructor; [assumption | apply IH; assumption].
  - intros F; inversion F; subst; split; [assumption | apply IH; assumption].
Qed.
Lemma no_single_union : forall ts, no_single (TUnion ts) <-> length ts <> 1 /\ Forall no_single ts.
Proof. intros; simpl. rewrite no_single_all. tauto. Qed.
Lemma no_single_container : forall t, is_union t = false -> (no_single t <-> Forall no_single (children t)).
Proof. destruct t; simpl; intros U; try discriminate; try apply no_single_all; split; auto. Qed.
Lemma no_single_sub : forall t, no_single t -> Forall no_single (children t).
Proof.
  intros t N. destruct (is_union t) eqn:U; [|apply no_single_container; assumption].
  destruct t; try discriminate. apply no_single_union in N. apply N.
Qed.

(* SimplifyContainers in the variant whose VisitUnionType returns the sole member of a one-member union
   ([simplify_containers true]) never leaves, and removes every, one-member union. *)
Lemma simplify_containers_no_single_lemma : forall t, no_single (simplify_containers true t).
Proof.
  unfold simplify_containers. set (V := visit (sc_union true) sc_generic TName id_kind).
  induction t using ty_ind'; try exact I;
    try (apply no_single_container; [reflexivity | apply Forall_map; assumption]).
  - change (no_single (sc_union true (norm_union (map V ts)))).
    assert (F : Forall no_single (norm_union (map V ts)))
      by (apply norm_union_elems; [exact no_single_sub | apply Forall_map; assumption]).
    destruct (norm_union (map V ts)) as [|x [|y r]]; simpl sc_union.
    + apply no_single_union. split; [discriminate | constructor].
    + inversion F; assumption.
    + apply no_single_union. split; [discriminate | assumption].
  - change (no_single (sc_generic k c (map V ps))). unfold sc_generic.
    destruct (forallb is_any (map V ps)); [exact I|].
    apply no_single_container; [reflexivity | apply Forall_map; assumption].
Qed.

(* the other variant ([simplify_containers false]) on this type: Union[List[Any], list] -> UnionType((list,)) *)
Definition single_member_witness : ty := TUnion [TGen KClass 10 [TAny]; TName KClass 10].
(* deps: object, NoneType, int, typing.Sequence, list(Sequence) *)
Definition w_deps : hier := [(1, []); (2, [1]); (8, [1]); (9, [1]); (10, [9])].
Definition w_fn (ret : ty) : unit_ := mkUnit [] [] [mkFunc 0 0 [mkSig [] None None ret [] []]].
Definition w_const (t : ty) : unit_ := mkUnit [mkConst 0 t] [] [].

(* def f() -> Union[object, List[int]]: object becomes Any only after the unions were simplified *)
Definition w1 := w_fn (TUnion [TName KClass 1; TGen KClass 10 [TName KClass 8]]).
Definition w1_once := w_fn (TUnion [TAny; TGen KClass 10 [TName KClass 8]]).
Definition w1_twice := w_fn TAny.
(* def f() -> Union[List[object], Sequence]: the late SimplifyContainers exposes list next to its base *)
Definition w2 := w_fn (TUnion [TGen KClass 10 [TName KClass 1]; TName KClass 9]).
Definition w2_once := w_fn (TUnion [TName KClass 10; TName KClass 9]).
Definition w2_twice := w_fn (TName KClass 9).
(* x: Union[List[object], list]: one-member union left by the last SimplifyContainers *)
Definition w3 := w_const (TUnion [TGen KClass 10 [TName KClass 1]; TName KClass 10]).
Definition w3_once := w_const (TUnion [TName KClass 10]).
Definition w3_twice := w_const (TName KClass 10).

Lemma lossless_pytype_opts : lossless pytype_opts.
Proof. repeat split. Qed.

Lemma w_ranked : forall u, u_classes u = [] -> ranked (hier_of u ++ w_deps).
Proof. intros u E. unfold hier_of. rewrite E. apply rankedb_ranked. vm_compute. reflexivity. Qed.

