(* C11 — second-run characterisation, Visit short-cut, Literal equality. *)
From Coq Require Import List Arith Bool Lia.
From PV Require Import Opt.Syntax Generated.C11_Passes Opt.Model Opt.Spec Opt.Proofs Opt.Stable Opt.SecondRun.
Import ListNotations.

Lemma const_eqb_eq : forall a b, const_eqb a b = true <-> a = b.
Proof.
  intros [n t] [n' t']. unfold const_eqb; simpl. rewrite andb_true_iff, Nat.eqb_eq, ty_eqb_eq. intuition congruence.
Qed.
Lemma func_eqb_eq : forall a b, func_eqb a b = true <-> a = b.
Proof.
  intros [n k s] [n' k' s']. unfold func_eqb; simpl.
  rewrite !andb_true_iff, !Nat.eqb_eq, (list_eqb_eq sig_eqb sig_eqb_eq). intuition congruence.
Qed.
Lemma base_eqb_eq : forall a b, base_eqb a b = true <-> a = b.
Proof.
  intros [k c] [k' c']. unfold base_eqb; simpl. rewrite andb_true_iff, kind_eqb_eq, Nat.eqb_eq. intuition congruence.
Qed.
Lemma class_eqb_eq : forall a b, class_eqb a b = true <-> a = b.
Proof.
  intros [n b m c t] [n' b' m' c' t']. unfold class_eqb; simpl.
  rewrite !andb_true_iff, Nat.eqb_eq, (list_eqb_eq base_eqb base_eqb_eq), (list_eqb_eq func_eqb func_eqb_eq),
    (list_eqb_eq const_eqb const_eqb_eq), (list_eqb_eq ty_eqb ty_eqb_eq). intuition congruence.
Qed.
Lemma unit_eqb_eq : forall a b, unit_eqb a b = true <-> a = b.
Proof.
  intros [c l f] [c' l' f']. unfold unit_eqb; simpl.
  rewrite !andb_true_iff, (list_eqb_eq const_eqb const_eqb_eq), (list_eqb_eq class_eqb class_eqb_eq),
    (list_eqb_eq func_eqb func_eqb_eq). intuition congruence.
Qed.

Lemma second_run_stable_in_fixpoint : forall cs o Hd ps u,
  second_run_stable_in cs o Hd ps u = true -> run_passes cs o Hd ps u = Some u.
Proof.
  intros cs o Hd ps u. induction ps as [|[fl p] r IH]; intros S; simpl; [reflexivity|].
  unfold second_run_stable_in in S. simpl in S. apply andb_true_iff in S. destruct S as [S1 S2].
  destruct (forallb (enabled o) fl); simpl in S1; [|apply IH; exact S2].
  unfold pass_fixes in S1. destruct (run_pass cs o Hd p u) as [u'|]; [|discriminate].
  apply unit_eqb_eq in S1. subst u'. apply IH; exact S2.
Qed.
Lemma stable_unit_second_run_stable_in : forall kk cs o Hd ps u,
  lossless o -> (o_deps o && o_can_do_lookup o = true -> kk = KClass) ->
  idem_pipeline_ok ps = true -> stable_unit kk o Hd u = true -> second_run_stable_in cs o Hd ps u = true.
Proof.
  intros kk cs o Hd ps u L K G S. unfold second_run_stable_in. apply forallb_forall. intros [fl p] Hin.
  unfold idem_pipeline_ok in G. rewrite forallb_forall in G. specialize (G _ Hin). simpl in *.
  destruct (forallb (enabled o) fl) eqn:En; [|reflexivity]. simpl.
  unfold pass_fixes. rewrite (run_pass_stable kk cs o Hd fl p u L K G En S). apply unit_eqb_eq. reflexivity.
Qed.
Lemma first_change_none : forall cs o Hd ps u i,
  first_change cs o Hd ps u i = None -> run_passes cs o Hd ps u = Some u.
Proof.
  intros cs o Hd ps. induction ps as [|[fl p] r IH]; intros u i E; simpl in *; [reflexivity|].
  destruct (forallb (enabled o) fl); [|eapply IH; exact E].
  destruct (run_pass cs o Hd p u) as [u'|]; [|discriminate].
  destruct (unit_eqb u' u) eqn:Eu; [|discriminate]. apply unit_eqb_eq in Eu. subst u'. eapply IH; exact E.
Qed.
Lemma first_change_step : forall cs o Hd ps u i j p,
  first_change cs o Hd ps u i = Some (j, p) ->
  i <= j /\ exists fl, nth_error ps (j - i) = Some (fl, p) /\ forallb (enabled o) fl = true /\
  run_pass cs o Hd p u <> Some u.
Proof.
  intros cs o Hd ps. induction ps as [|[fl q] r IH]; intros u i j p E; simpl in E; [discriminate|].
  destruct (forallb (enabled o) fl) eqn:En.
  - destruct (run_pass cs o Hd q u) as [u'|] eqn:Er.
    + destruct (unit_eqb u' u) eqn:Eu.
      * apply unit_eqb_eq in Eu. subst u'. destruct (IH _ _ _ _ E) as [Le [fl' [N [En' Ne]]]].
        split; [lia|]. exists fl'. replace (j - i) with (S (j - S i)) by lia. simpl. auto.
      * inversion E; subst. split; [lia|]. exists fl. rewrite Nat.sub_diag. simpl. repeat split; auto.
        rewrite Er. intros X. inversion X; subst. rewrite (proj2 (unit_eqb_eq u u) eq_refl) in Eu. discriminate.
    + inversion E; subst. split; [lia|]. exists fl. rewrite Nat.sub_diag. simpl. repeat split; auto.
      rewrite Er. discriminate.
  - destruct (IH _ _ _ _ E) as [Le [fl' [N [En' Ne]]]].
    split; [lia|]. exists fl'. replace (j - i) with (S (j - S i)) by lia. simpl. auto.
Qed.

Lemma second_run_iff_in : forall cs o Hd ps u u1 u2,
  run_passes cs o Hd ps u = Some u1 -> run_passes cs o Hd ps u1 = Some u2 ->
  (u2 = u1 <-> second_run_changes_in cs o Hd ps u = CStable).
Proof.
  intros cs o Hd ps u u1 u2 E1 E2. unfold second_run_changes_in. rewrite E1, E2.
  destruct (unit_eqb u2 u1) eqn:Eu.
  - apply unit_eqb_eq in Eu. tauto.
  - assert (N : u2 <> u1) by (intros X; subst; rewrite (proj2 (unit_eqb_eq u1 u1) eq_refl) in Eu; discriminate).
    destruct (first_change cs o Hd ps u1 0) as [[j p]|] eqn:Ef.
    + split; [intros X; contradiction|].
      destruct (last_change cs o Hd ps u 0 None) as [i|];
        [destruct (j <? i); [|destruct (Nat.eqb j i)]|]; discriminate.
    + apply first_change_none in Ef. rewrite E2 in Ef. inversion Ef; subst. contradiction.
Qed.
(* a named clause always names a step that is enabled and, applied to the first run's result, changes it *)
Lemma second_run_clause_in : forall cs o Hd ps u u1 p,
  run_passes cs o Hd ps u = Some u1 ->
  (second_run_changes_in cs o Hd ps u = CSingleSweep p \/ second_run_changes_in cs o Hd ps u = CPassNotIdempotent p
   \/ second_run_changes_in cs o Hd ps u = CLatePass p) ->
  exists j fl, nth_error ps j = Some (fl, p) /\ forallb (enabled o) fl = true /\
               run_pass cs o Hd p u1 <> Some u1.
Proof.
  intros cs o Hd ps u u1 p E1 C. unfold second_run_changes_in in C. rewrite E1 in C.
  destruct (run_passes cs o Hd ps u1) as [u2|]; [|destruct C as [C|[C|C]]; discriminate].
  destruct (unit_eqb u2 u1); [destruct C as [C|[C|C]]; discriminate|].
  destruct (first_change cs o Hd ps u1 0) as [[j q]|] eqn:Ef; [|destruct C as [C|[C|C]]; discriminate].
  assert (q = p).
  { destruct (last_change cs o Hd ps u 0 None) as [i|];
      [destruct (j <? i); [|destruct (Nat.eqb j i)]|]; destruct C as [C|[C|C]]; inversion C; reflexivity. }
  subst q. destruct (first_change_step _ _ _ _ _ _ _ _ Ef) as [_ [fl [N [En Ne]]]]. rewrite Nat.sub_0_r in N.
  exists j, fl. repeat split; assumption.
Qed.
Lemma visit_sc_eq : forall fU fG fN fB t, ctor_built t = true -> visit_sc fU fG fN fB t = visit fU fG fN fB t.
Proof.
  intros fU fG fN fB.
  assert (Ch : forall ps, Forall (fun t => ctor_built t = true -> visit_sc fU fG fN fB t = visit fU fG fN fB t) ps ->
               forallb ctor_built ps = true -> map (visit_sc fU fG fN fB) ps = map (visit fU fG fN fB) ps).
  { intros ps F C. apply map_ext_in. intros x Hx. rewrite Forall_forall in F. rewrite forallb_forall in C. auto. }
  induction t using ty_ind'; intros C; simpl in *; try reflexivity.
  - apply andb_true_iff in C. destruct C as [C1 C2]. rewrite (Ch ts H C2).
    destruct (list_eqb ty_eqb (map (visit fU fG fN fB) ts) ts) eqn:E; [|reflexivity].
    apply (list_eqb_eq ty_eqb ty_eqb_eq) in E. rewrite E.
    apply (list_eqb_eq ty_eqb ty_eqb_eq) in C1. rewrite C1. reflexivity.
  - rewrite (Ch ps H C). reflexivity.
  - rewrite (Ch ps H C). reflexivity.
  - rewrite (Ch ps H C). reflexivity.
  - rewrite (Ch ps H C). reflexivity.
Qed.

Lemma lv_eqb_eq : forall a b, lv_eqb a b = true <-> a = b.
Proof.
  intros [n|x] [m|y]; simpl; split; try congruence.
  - rewrite Nat.eqb_eq; congruence.
  - intros E; inversion E; apply Nat.eqb_refl.
  - intros E; apply Bool.eqb_prop in E; congruence.
  - intros E; inversion E; apply Bool.eqb_reflx.
Qed.
Lemma dedup_from_ext_in : forall {A} (e1 e2 : A -> A -> bool) (Pd : A -> Prop),
  (forall a b, Pd a -> Pd b -> e1 a b = e2 a b) ->
  forall l seen, Forall Pd l -> Forall Pd seen -> dedup_from e1 seen l = dedup_from e2 seen l.
Proof.
  intros A e1 e2 Pd He. induction l as [|x r IH]; intros seen Fl Fs; simpl; [reflexivity|].
  inversion Fl; subst.
  assert (M : mem_by e1 x seen = mem_by e2 x seen).
  { unfold mem_by. clear - He Fs H1. induction Fs; simpl; [reflexivity|]. rewrite IHFs, (He x x0); auto. }
  rewrite M. destruct (mem_by e2 x seen); [apply IH; assumption|]. f_equal. apply IH; [assumption | constructor; assumption].
Qed.
