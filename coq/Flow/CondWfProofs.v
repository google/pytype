(* C18: the normal form of the terms conditions.py builds (cond_wfb of Flow/Api.v) is
   preserved by every constructor, and the idempotence / unit / complement laws that do hold. *)
From Coq Require Import List Bool PeanoNat.
From PV Require Import Flow.Model Flow.Proofs Flow.Api.
Import ListNotations.

Lemma forallb_ext_in : forall A (f g : A -> bool) l, (forall x, In x l -> f x = g x) -> forallb f l = forallb g l.
Proof.
  intros A f g l. induction l as [|a t IH]; intros H; simpl; auto.
  rewrite (H a (or_introl eq_refl)), IH; auto. intros. apply H. right. assumption.
Qed.

Lemma existsb_ext_in : forall A (f g : A -> bool) l, (forall x, In x l -> f x = g x) -> existsb f l = existsb g l.
Proof.
  intros A f g l. induction l as [|a t IH]; intros H; simpl; auto.
  rewrite (H a (or_introl eq_refl)), IH; auto. intros. apply H. right. assumption.
Qed.

Lemma set_eqb_sym : forall l l0,
  (forall x, In x l -> forall y, cond_eqb x y = cond_eqb y x) ->
  forallb (fun x => existsb (fun y => cond_eqb x y) l0) l &&
  forallb (fun y => existsb (fun x => cond_eqb x y) l) l0 =
  forallb (fun x => existsb (fun y => cond_eqb x y) l) l0 &&
  forallb (fun y => existsb (fun x => cond_eqb x y) l0) l.
Proof.
  intros l l0 H. rewrite andb_comm. f_equal.
  - apply forallb_ext_in. intros y _. apply existsb_ext_in. intros x Hx. apply H. exact Hx.
  - apply forallb_ext_in. intros x Hx. apply existsb_ext_in. intros y _. apply H. exact Hx.
Qed.

Lemma cond_eqb_sym : forall a b, cond_eqb a b = cond_eqb b a.
Proof.
  induction a using cond_ind'; intros b; destruct b; simpl; try reflexivity.
  - apply Nat.eqb_sym.
  - apply IHa.
  - rewrite Forall_forall in H. apply set_eqb_sym. exact H.
  - rewrite Forall_forall in H. apply set_eqb_sym. exact H.
Qed.

Lemma cond_eqb_not_self : forall x, cond_eqb x (CNot x) = false.
Proof. induction x using cond_ind'; simpl; auto. Qed.

Lemma eqb_not_shape : forall x y, is_not x = false -> cond_eqb x (CNot y) = false.
Proof. intros x y H. destruct x; simpl in *; auto. discriminate. Qed.

Lemma notc_not_self : forall a, cond_eqb (NotC a) a = false.
Proof.
  intros a. destruct a; cbn [NotC]; try apply cond_eqb_not_self;
    rewrite cond_eqb_sym; apply cond_eqb_not_self.
Qed.

(* no double negation at the top of the term *)
Definition nn (c : cond) : bool := match c with CNot (CNot _) => false | _ => true end.

Lemma wf_nn : forall c, cond_wfb c = true -> nn c = true.
Proof.
  intros c H. destruct c; auto. simpl in H. apply andb_prop in H. destruct H as [H _].
  destruct c; auto; try discriminate.
Qed.

Lemma nn_not : forall c, nn (CNot c) = true -> is_not c = false.
Proof. intros [] H; [reflexivity..|discriminate H|reflexivity|reflexivity]. Qed.

Lemma notc_involutive_lemma : forall a, nn a = true -> NotC (NotC a) = a.
Proof. intros a H. destruct a; auto. destruct a; auto. discriminate. Qed.

(* [Not(x) == y] is the same test as [Not(y) == x] on terms without double negation: by the head
   constructors of x and y; only when both are negations is there anything to compare *)
Lemma notc_swap : forall x y, nn x = true -> nn y = true -> cond_eqb (NotC x) y = cond_eqb (NotC y) x.
Proof.
  intros x y Hx Hy. destruct x as [| | |x'| |], y as [| | |y'| |]; cbn [NotC];
    try reflexivity; try exact (cond_eqb_sym _ _).
  rewrite !eqb_not_shape; [reflexivity | apply nn_not, Hy | apply nn_not, Hx].
Qed.

Lemma cmem_false : forall c s, cmem c s = false <-> forall y, In y s -> cond_eqb c y = false.
Proof.
  intros c s. unfold cmem. induction s as [|a t IH]; simpl.
  - split; [intros _ y []|reflexivity].
  - rewrite orb_false_iff, IH. split.
    + intros [H1 H2] y [E|Hy]; [subst; auto | auto].
    + intros H. split; [apply H; left; reflexivity | intros y Hy; apply H; right; exact Hy].
Qed.

Lemma cmem_app : forall c s1 s2, cmem c (s1 ++ s2) = cmem c s1 || cmem c s2.
Proof. intros. unfold cmem. apply existsb_app. Qed.

Lemma nodupb_snoc : forall s c, nodupb s = true -> cmem c s = false -> nodupb (s ++ [c]) = true.
Proof.
  induction s as [|x t IH]; intros c Hs Hc; cbn [app nodupb] in *.
  - reflexivity.
  - apply andb_prop in Hs. destruct Hs as [Hx Ht].
    rewrite cmem_false in Hc.
    rewrite cmem_app. unfold cmem at 2. cbn [existsb]. rewrite orb_false_r.
    rewrite (cond_eqb_sym x c), (Hc x (or_introl eq_refl)), orb_false_r, Hx. cbn [andb].
    apply IH; auto. apply cmem_false. intros y Hy. apply Hc. right. exact Hy.
Qed.

Lemma nodupb_cadd : forall c s, nodupb s = true -> nodupb (cadd c s) = true.
Proof.
  intros c s H. unfold cadd. destruct (cmem c s) eqn:E; auto. apply nodupb_snoc; auto.
Qed.

Lemma in_cadd : forall x c s, In x (cadd c s) -> In x s \/ x = c.
Proof.
  intros x c s H. unfold cadd in H. destruct (cmem c s); auto.
  apply in_app_or in H. destruct H as [H|[H|[]]]; auto.
Qed.

Lemma cadd_incl : forall c s x, In x s -> In x (cadd c s).
Proof. intros c s x H. unfold cadd. destruct (cmem c s); auto. apply in_or_app. auto. Qed.

(* the constants are what the loop of either kind skips or returns at once *)
Lemma is_const_kind : forall k c, is_const c = is_ignore k c || is_accept k c.
Proof. intros [] []; reflexivity. Qed.

(* what the loop of _Composite.make keeps true of its set: members well formed and not constant, no two
   equal, none the negation of another *)
Definition set_ok (s : list cond) : Prop :=
  (forall x, In x s -> cond_wfb x = true /\ is_const x = false) /\
  nodupb s = true /\
  (forall x y, In x s -> In y s -> cond_eqb (NotC x) y = false).

Lemma set_ok_nil : set_ok [].
Proof. split; [intros x []|]. split; [reflexivity|intros x y []]. Qed.

Lemma set_ok_cadd : forall k arg s, set_ok s -> cond_wfb arg = true ->
  is_ignore k arg = false -> is_accept k arg = false -> cmem (NotC arg) s = false ->
  set_ok (cadd arg s).
Proof.
  intros k arg s [H1 [H2 H3]] Wa Ei Ea Em. split; [|split].
  - intros x Hx. destruct (in_cadd _ _ _ Hx) as [Hx'|E]; [auto|]. subst x. split; auto.
    rewrite (is_const_kind k), Ei, Ea. reflexivity.
  - apply nodupb_cadd. exact H2.
  - rewrite cmem_false in Em. intros x y Hx Hy.
    destruct (in_cadd _ _ _ Hx) as [Hx'|Ex]; destruct (in_cadd _ _ _ Hy) as [Hy'|Ey]; subst; auto.
    + rewrite notc_swap; [apply Em; exact Hx' | apply wf_nn; apply H1; exact Hx' | apply wf_nn; exact Wa].
    + apply notc_not_self.
Qed.

(* the loop returns the absorbing constant, or a well-formed set of members taken from s and args *)
Lemma make_loop_ok : forall k args s,
  (forall a, In a args -> cond_wfb a = true) -> set_ok s ->
  match make_loop k args s with
  | inl c => c = accept k
  | inr s' => set_ok s' /\ (forall x, In x s' -> In x s \/ In x args)
  end.
Proof.
  intros k args. induction args as [|arg rest IH]; intros s Hargs Hs; cbn [make_loop].
  - split; auto.
  - assert (forall a, In a rest -> cond_wfb a = true) as Hrest by (intros; apply Hargs; right; assumption).
    destruct (is_ignore k arg) eqn:Ei.
    + specialize (IH s Hrest Hs). destruct (make_loop k rest s); auto.
      destruct IH as [A B]. split; auto. intros x Hx. destruct (B x Hx); auto. right. right. assumption.
    + destruct (is_accept k arg) eqn:Ea; [apply is_accept_eq; exact Ea|].
      destruct (cmem (NotC arg) s) eqn:Em; [reflexivity|].
      assert (set_ok (cadd arg s)) as Hs'.
      { apply (set_ok_cadd k); auto. apply Hargs. left. reflexivity. }
      specialize (IH (cadd arg s) Hrest Hs'). destruct (make_loop k rest (cadd arg s)); auto.
      destruct IH as [A B]. split; auto.
      intros x Hx. destruct (B x Hx) as [Hc|Hr]; [|right; right; exact Hr].
      destruct (in_cadd _ _ _ Hc); [left; assumption | right; left; auto].
Qed.

Lemma cond_wfb_mk : forall k l, cond_wfb (mk k l) = true <-> 2 <= length l /\ set_ok l.
Proof.
  intros k l. unfold set_ok.
  assert (cond_wfb (mk k l) = (2 <=? length l) && forallb cond_wfb l && forallb (fun x => negb (is_const x)) l &&
                              nodupb l && nocomplb l) as E by (destruct k; reflexivity).
  rewrite E. clear E. unfold nocomplb. split.
  - intros H. apply andb_prop in H. destruct H as [H Hn]. apply andb_prop in H. destruct H as [H Hd].
    apply andb_prop in H. destruct H as [H Hc]. apply andb_prop in H. destruct H as [Hl Hw].
    rewrite forallb_forall in Hw, Hc, Hn. split; [apply Nat.leb_le, Hl|]. split; [|split; [exact Hd|]].
    + intros x Hx. split; [auto|]. apply negb_true_iff. auto.
    + intros x y Hx Hy. specialize (Hn x Hx). apply negb_true_iff in Hn. rewrite cmem_false in Hn. auto.
  - intros [Hl [H1 [H2 H3]]]. repeat (apply andb_true_intro; split); [apply Nat.leb_le, Hl | | | exact H2 |];
      apply forallb_forall; intros x Hx; [apply H1, Hx | |]; apply negb_true_iff; [apply H1, Hx|].
    apply cmem_false. intros y Hy. apply H3; assumption.
Qed.

(* the result of And / Or is an argument, a constant, or a fresh composite of the called kind with at
   least two members that are all arguments (nothing is flattened, no new subterm is built) *)
Lemma make_result_lemma : forall k args,
  (forall a, In a args -> cond_wfb a = true) ->
  In (make k args) args \/ is_const (make k args) = true \/
  exists s, make k args = mk k s /\ 2 <= length s /\ set_ok s /\ forall x, In x s -> In x args.
Proof.
  intros k args Hargs. unfold make.
  pose proof (make_loop_ok k args [] Hargs set_ok_nil) as H.
  destruct (make_loop k args []) as [c|s].
  - right. left. subst c. destruct k; reflexivity.
  - destruct H as [Hok Hmem].
    assert (forall x, In x s -> In x args) as Hin.
    { intros x Hx. destruct (Hmem x Hx) as [[]|]; assumption. }
    destruct s as [|c [|c' s']].
    + right. left. destruct k; reflexivity.
    + left. apply Hin. left. reflexivity.
    + right. right. exists (c :: c' :: s'). split; [reflexivity|]. split; [|auto].
      apply le_n_S, le_n_S, Nat.le_0_l.
Qed.

(* how the loop treats one argument: the unit is skipped, the absorbing constant returned, anything
   else tested against the set and added *)
Lemma make_loop_ignore : forall k rest s, make_loop k (ignore k :: rest) s = make_loop k rest s.
Proof. intros []; reflexivity. Qed.

Lemma make_loop_accept : forall k rest s, make_loop k (accept k :: rest) s = inl (accept k).
Proof. intros []; reflexivity. Qed.

Lemma make_loop_plain : forall k a rest s, is_const a = false ->
  make_loop k (a :: rest) s = if cmem (NotC a) s then inl (accept k) else make_loop k rest (cadd a s).
Proof.
  intros k a rest s H. rewrite (is_const_kind k) in H. apply orb_false_iff in H. destruct H as [Hi Ha].
  cbn [make_loop]. rewrite Hi, Ha. reflexivity.
Qed.

Lemma arg_cases : forall k a, a = ignore k \/ a = accept k \/ is_const a = false.
Proof.
  intros k a. rewrite (is_const_kind k).
  destruct (is_ignore k a) eqn:Ei; [left; apply is_ignore_eq, Ei|].
  destruct (is_accept k a) eqn:Ea; [right; left; apply is_accept_eq, Ea | right; right; reflexivity].
Qed.

Lemma cadd_nil : forall a, cadd a [] = [a].
Proof. reflexivity. Qed.

Lemma cmem_self : forall a, cmem a [a] = true.
Proof. intros a. unfold cmem. cbn [existsb]. rewrite cond_eqb_refl. reflexivity. Qed.

Lemma cmem_notc_self : forall a, cmem (NotC a) [a] = false.
Proof. intros a. unfold cmem. cbn [existsb]. rewrite notc_not_self. reflexivity. Qed.

(* And(a) = a,  Or(a) = a *)
Lemma make_single_lemma : forall k a, make k [a] = a.
Proof.
  intros k a. unfold make. destruct (arg_cases k a) as [->|[->|H]];
    [rewrite make_loop_ignore | rewrite make_loop_accept | rewrite (make_loop_plain k a _ _ H)]; reflexivity.
Qed.

(* And(a, Not(a)) = FALSE and Or(a, Not(a)) = TRUE in both argument orders, for every non-constant
   term without a double negation whose negation is not a constant either (Not(_Not(TRUE)) is TRUE) *)
Lemma make_complement_lemma : forall k a,
  nn a = true -> is_const a = false -> is_const (NotC a) = false ->
  make k [a; NotC a] = accept k /\ make k [NotC a; a] = accept k.
Proof.
  intros k a Hn Ha Hna. split; unfold make.
  - rewrite (make_loop_plain k a _ _ Ha). cbn [cmem existsb].
    rewrite cadd_nil, (make_loop_plain k _ _ _ Hna), (notc_involutive_lemma a Hn), cmem_self. reflexivity.
  - rewrite (make_loop_plain k _ _ _ Hna). cbn [cmem existsb].
    rewrite cadd_nil, (make_loop_plain k a _ _ Ha), cmem_self. reflexivity.
Qed.

