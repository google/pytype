(* C18, frame_base.py on loops: the block graphs with back edges on which Props/C18.v refutes the all-paths
   reading of entry states (code_while) and shows a block that is reachable through a back edge only
   left without a state (code_back_only). *)
From Coq Require Import List Bool PeanoNat.
From PV Require Import Flow.Model Flow.Proofs Flow.Frame Flow.FrameProofs Flow.Loop.
Import ListNotations.

(* the all-paths reading is false: a while loop.
     B0: x = 1 (fall)   B2: if not a0 jump B5   B3: x = 2; jump B2   B5: ret
   under a0 = true the path B0 B2 B3 B2 reaches the loop header B2 with x = 2, but the header's entry
   state (and the body's) only knows x = 1: the loop body is visited once, its exit state is merged into
   the header's ALREADY CONSUMED state *)
Definition code_while : list block :=
  [mkBlk 0 [(0, 1)] (TFall 2); mkBlk 2 [] (TCond 0 5 3); mkBlk 3 [(0, 2)] (TJump 2); mkBlk 5 [] TRet].
Definition rho_all (a : nat) : bool := true.

Lemma while_arrives_around : arrives code_while [] rho_all 2 [(0, 2)].
Proof.
  unfold arrives.
  change [(0, 2)] with (apply_stores [(0, 2)] (apply_stores [] (apply_stores [(0, 1)] (init_env [])))).
  apply (ak_step code_while [] rho_all _ 2 (mkBlk 3 [(0, 2)] (TJump 2))); [simpl; auto | reflexivity | | left; reflexivity].
  apply (ak_step code_while [] rho_all _ 1 (mkBlk 2 [] (TCond 0 5 3))); [simpl; auto | reflexivity | | right; left; reflexivity].
  apply (ak_step code_while [] rho_all _ 0 (mkBlk 0 [(0, 1)] (TFall 2))); [simpl; auto | reflexivity | | left; reflexivity].
  apply (ak_entry code_while [] rho_all _ (mkBlk 0 [(0, 1)] (TFall 2))). reflexivity.
Qed.

(* a block that is reachable through a back edge only has no state when its turn comes: KeyError *)
Definition code_back_only : list block :=
  [mkBlk 0 [] (TJump 2); mkBlk 1 [] TRet; mkBlk 2 [] (TJump 1)].
