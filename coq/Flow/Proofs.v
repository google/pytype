(* C18: conditions.py, variables.py and state.py as modelled in Flow/Model.v - what the condition
   constructors mean, the invariant Inv of block states and its preservation by every operation,
   the exact effect of with_condition and merge_into on the values a local can have. *)
From Coq Require Import List Bool PeanoNat.
From PV Require Import Flow.Model.
Import ListNotations.

Section CondInd.
  Variable P : cond -> Prop.
  Hypothesis HT : P CT.
  Hypothesis HF : P CF.
  Hypothesis HA : forall a, P (Atom a).
  Hypothesis HN : forall c, P c -> P (CNot c).
  Hypothesis HAnd : forall l, Forall P l -> P (CAnd l).
  Hypothesis HOr : forall l, Forall P l -> P (COr l).

  Fixpoint cond_ind' (c : cond) : P c :=
    match c with
    | CT => HT
    | CF => HF
    | Atom a => HA a
    | CNot x => HN x (cond_ind' x)
    | CAnd l => HAnd l ((fix go (l : list cond) : Forall P l :=
                           match l with
                           | [] => Forall_nil P
                           | x :: t => Forall_cons x (cond_ind' x) (go t)
                           end) l)
    | COr l => HOr l ((fix go (l : list cond) : Forall P l :=
                         match l with
                         | [] => Forall_nil P
                         | x :: t => Forall_cons x (cond_ind' x) (go t)
                         end) l)
    end.
End CondInd.

(* if every member of l1 has an f-equal in l2: what holds of all of l2 holds of all of l1, and what
   holds of some member of l1 holds of some member of l2 *)
Lemma sub_sem : forall (f : cond -> bool) l1 l2,
  (forall x, In x l1 -> exists y, In y l2 /\ f x = f y) ->
  (forallb f l2 = true -> forallb f l1 = true) /\ (existsb f l1 = true -> existsb f l2 = true).
Proof.
  intros f l1 l2 H. split.
  - intros F. apply forallb_forall. intros x Hx. destruct (H x Hx) as [y [Hy E]].
    rewrite E. apply (proj1 (forallb_forall _ _) F y Hy).
  - intros X. apply existsb_exists in X. destruct X as [x [Hx Fx]]. destruct (H x Hx) as [y [Hy E]].
    apply existsb_exists. exists y. split; congruence.
Qed.

(* the frozenset comparison of [cond_eqb], for any [f] that the comparison of members respects *)
Lemma set_eqb_sem : forall (f : cond -> bool) l1 l2,
  (forall x, In x l1 -> forall y, cond_eqb x y = true -> f x = f y) ->
  forallb (fun x => existsb (fun y => cond_eqb x y) l2) l1 &&
  forallb (fun y => existsb (fun x => cond_eqb x y) l1) l2 = true ->
  forallb f l1 = forallb f l2 /\ existsb f l1 = existsb f l2.
Proof.
  intros f l1 l2 Hf E. apply andb_prop in E. destruct E as [E1 E2]. rewrite forallb_forall in E1, E2.
  destruct (sub_sem f l1 l2) as [F12 X12].
  { intros x Hx. destruct (proj1 (existsb_exists _ _) (E1 x Hx)) as [y [Hy E]]. eauto. }
  destruct (sub_sem f l2 l1) as [F21 X21].
  { intros y Hy. destruct (proj1 (existsb_exists _ _) (E2 y Hy)) as [x [Hx E]].
    exists x. split; [exact Hx | symmetry; apply (Hf x Hx y E)]. }
  split; apply eq_true_iff_eq; split; assumption.
Qed.

Lemma cond_eqb_sound : forall rho a b, cond_eqb a b = true -> holds rho a = holds rho b.
Proof.
  intros rho a. induction a using cond_ind'; intros b E; destruct b; try discriminate E; simpl in *.
  - reflexivity.
  - reflexivity.
  - apply Nat.eqb_eq in E. subst. reflexivity.
  - f_equal. auto.
  - rewrite Forall_forall in H. apply (set_eqb_sem _ _ _ H E).
  - rewrite Forall_forall in H. apply (set_eqb_sem _ _ _ H E).
Qed.

Lemma set_eqb_refl : forall l, Forall (fun x => cond_eqb x x = true) l ->
  forallb (fun x => existsb (fun y => cond_eqb x y) l) l &&
  forallb (fun y => existsb (fun x => cond_eqb x y) l) l = true.
Proof.
  intros l H. rewrite Forall_forall in H.
  apply andb_true_intro. split; apply forallb_forall; intros x Hx; apply existsb_exists; eauto.
Qed.

Lemma cond_eqb_refl : forall a, cond_eqb a a = true.
Proof. induction a using cond_ind'; simpl; auto using Nat.eqb_refl, set_eqb_refl. Qed.

Lemma holds_NotC : forall rho c, holds rho (NotC c) = negb (holds rho c).
Proof. intros rho c. destruct c; simpl; try reflexivity. rewrite negb_involutive. reflexivity. Qed.

Lemma cmem_sound : forall rho c s, cmem c s = true -> exists y, In y s /\ holds rho y = holds rho c.
Proof.
  intros rho c s H. apply existsb_exists in H. destruct H as [y [Hy E]].
  exists y. split; auto. symmetry. apply cond_eqb_sound. exact E.
Qed.

Lemma is_ignore_eq : forall k c, is_ignore k c = true -> c = ignore k.
Proof. intros [] c H; destruct c; simpl in H; try discriminate; reflexivity. Qed.

Lemma is_accept_eq : forall k c, is_accept k c = true -> c = accept k.
Proof. intros [] c H; destruct c; simpl in H; try discriminate; reflexivity. Qed.

(* A composite of kind [k] means the [kop k]-fold of its members' meanings; [ignore k] is the unit of
   [kop k] and [accept k] its absorbing element. *)
Definition kop (k : kind) : bool -> bool -> bool := match k with KAnd => andb | KOr => orb end.
Definition ksem (rho : nat -> bool) (k : kind) (l : list cond) : bool :=
  match k with KAnd => forallb (holds rho) l | KOr => existsb (holds rho) l end.

Lemma holds_mk : forall rho k l, holds rho (mk k l) = ksem rho k l.
Proof. intros rho []; reflexivity. Qed.

Lemma ksem_nil : forall rho k, ksem rho k [] = holds rho (ignore k).
Proof. intros rho []; reflexivity. Qed.

Lemma ksem_cons : forall rho k c l, ksem rho k (c :: l) = kop k (holds rho c) (ksem rho k l).
Proof. intros rho []; reflexivity. Qed.

Lemma ksem_app : forall rho k l1 l2, ksem rho k (l1 ++ l2) = kop k (ksem rho k l1) (ksem rho k l2).
Proof. intros rho [] l1 l2; [apply forallb_app | apply existsb_app]. Qed.

Lemma kop_assoc : forall k a b c, kop k a (kop k b c) = kop k (kop k a b) c.
Proof. intros [] a b c; [apply andb_assoc | apply orb_assoc]. Qed.

Lemma kop_ignore_l : forall rho k b, kop k (holds rho (ignore k)) b = b.
Proof. intros rho [] b; reflexivity. Qed.

Lemma kop_ignore_r : forall rho k b, kop k b (holds rho (ignore k)) = b.
Proof. intros rho [] b; [apply andb_true_r | apply orb_false_r]. Qed.

Lemma kop_accept_l : forall rho k b, kop k (holds rho (accept k)) b = holds rho (accept k).
Proof. intros rho [] b; reflexivity. Qed.

Lemma kop_accept_r : forall rho k a, kop k a (holds rho (accept k)) = holds rho (accept k).
Proof. intros rho [] a; [apply andb_false_r | apply orb_true_r]. Qed.

Lemma ksem_singleton : forall rho k c, ksem rho k [c] = holds rho c.
Proof. intros. rewrite ksem_cons, ksem_nil. apply kop_ignore_r. Qed.

Lemma ksem_In : forall rho k s y, In y s -> kop k (ksem rho k s) (holds rho y) = ksem rho k s.
Proof.
  intros rho k s y Hy. destruct k; simpl.
  - destruct (forallb (holds rho) s) eqn:F; [|reflexivity]. rewrite forallb_forall in F. apply F. exact Hy.
  - destruct (holds rho y) eqn:E; [|apply orb_false_r].
    rewrite orb_true_r. symmetry. apply existsb_exists. eauto.
Qed.

Lemma ksem_cadd : forall rho k c s, ksem rho k (cadd c s) = kop k (ksem rho k s) (holds rho c).
Proof.
  intros rho k c s. unfold cadd. destruct (cmem c s) eqn:E.
  - destruct (cmem_sound rho c s E) as [y [Hy Ey]]. rewrite <- Ey. symmetry. apply ksem_In. exact Hy.
  - rewrite ksem_app, ksem_singleton. reflexivity.
Qed.

Lemma ksem_complement : forall rho k s y c, In y s -> holds rho y = negb (holds rho c) ->
  kop k (ksem rho k s) (holds rho c) = holds rho (accept k).
Proof.
  intros rho k s y c Hy E. rewrite <- (ksem_In rho k s y Hy), E.
  destruct k, (ksem rho _ s), (holds rho c); reflexivity.
Qed.

Definition loop_sem (rho : nat -> bool) (k : kind) (r : cond + list cond) : bool :=
  match r with inl c => holds rho c | inr s => ksem rho k s end.

Lemma make_loop_sem : forall rho k args s,
  loop_sem rho k (make_loop k args s) = kop k (ksem rho k s) (ksem rho k args).
Proof.
  intros rho k args. induction args as [|arg rest IH]; intros s; cbn [make_loop].
  - rewrite ksem_nil. symmetry. apply kop_ignore_r.
  - rewrite ksem_cons. destruct (is_ignore k arg) eqn:Ei.
    + apply is_ignore_eq in Ei. subst arg. rewrite kop_ignore_l. apply IH.
    + destruct (is_accept k arg) eqn:Ea.
      * apply is_accept_eq in Ea. subst arg. rewrite kop_accept_l. symmetry. apply kop_accept_r.
      * destruct (cmem (NotC arg) s) eqn:Em.
        -- destruct (cmem_sound rho _ _ Em) as [y [Hy Ey]]. rewrite holds_NotC in Ey.
           rewrite kop_assoc, (ksem_complement rho k s y arg Hy Ey). symmetry. apply kop_accept_l.
        -- rewrite IH, ksem_cadd. symmetry. apply kop_assoc.
Qed.

Lemma holds_make : forall rho k args, holds rho (make k args) = ksem rho k args.
Proof.
  intros rho k args. unfold make. pose proof (make_loop_sem rho k args []) as H.
  rewrite ksem_nil, kop_ignore_l in H. rewrite <- H.
  destruct (make_loop k args []) as [c|[|c [|c' s]]]; cbn [loop_sem]; symmetry.
  - reflexivity.
  - apply ksem_nil.
  - apply ksem_singleton.
  - symmetry. apply holds_mk.
Qed.

Lemma holds_and2 : forall rho a b, holds rho (AndC [a; b]) = holds rho a && holds rho b.
Proof. intros. unfold AndC. rewrite holds_make. simpl. rewrite andb_true_r. reflexivity. Qed.

Lemma holds_or2 : forall rho a b, holds rho (OrC [a; b]) = holds rho a || holds rho b.
Proof. intros. unfold OrC. rewrite holds_make. simpl. rewrite orb_false_r. reflexivity. Qed.

Lemma dget_dset : forall A x y (v : A) l,
  dget x (dset y v l) = if Nat.eqb x y then Some v else dget x l.
Proof.
  intros A x y v l. induction l as [|[k w] t IH]; simpl.
  - reflexivity.
  - destruct (Nat.eqb y k) eqn:Eyk; simpl.
    + apply Nat.eqb_eq in Eyk. subst k. destruct (Nat.eqb x y); reflexivity.
    + rewrite IH. destruct (Nat.eqb x k) eqn:Exk; [|reflexivity].
      apply Nat.eqb_eq in Exk. subst k. rewrite Nat.eqb_sym, Eyk. reflexivity.
Qed.

Lemma dset_if : forall A (b : bool) k (v v' : A) l,
  (if b then dset k v l else dset k v' l) = dset k (if b then v else v') l.
Proof. intros A [] k v v' l; reflexivity. Qed.

Lemma dget_dset_same : forall A x (v : A) l, dget x (dset x v l) = Some v.
Proof. intros. rewrite dget_dset, Nat.eqb_refl. reflexivity. Qed.

Lemma dget_dset_other : forall A x y (v : A) l, x <> y -> dget x (dset y v l) = dget x l.
Proof. intros A x y v l H. apply Nat.eqb_neq in H. rewrite dget_dset, H. reflexivity. Qed.

Lemma dset_keys_in : forall A k (v : A) l k',
  In k' (map fst (dset k v l)) -> k' = k \/ In k' (map fst l).
Proof.
  intros A k v l k'. induction l as [|[k0 w] t IH]; simpl.
  - intros [H|[]]. auto.
  - destruct (Nat.eqb k k0); simpl; (intros [H|H]; [auto|]); [auto | destruct (IH H); auto].
Qed.

Lemma dset_keys_NoDup : forall A k (v : A) l,
  NoDup (map fst l) -> NoDup (map fst (dset k v l)).
Proof.
  intros A k v l. induction l as [|[k0 w] t IH]; simpl; intros H.
  - constructor; [intros []|constructor].
  - apply NoDup_cons_iff in H. destruct H as [Hn Ht]. destruct (Nat.eqb k k0) eqn:E; simpl.
    + apply Nat.eqb_eq in E. subst. constructor; auto.
    + constructor; auto. intros Hin. destruct (dset_keys_in _ _ _ _ _ Hin) as [E'|E']; auto.
      subst. rewrite Nat.eqb_refl in E. discriminate.
Qed.

Lemma dset_fresh : forall A k (v : A) l, ~ In k (map fst l) -> dset k v l = l ++ [(k, v)].
Proof.
  intros A k v l. induction l as [|[k0 w] t IH]; simpl; intros H; [reflexivity|].
  destruct (Nat.eqb k k0) eqn:E.
  - apply Nat.eqb_eq in E. destruct H. auto.
  - f_equal. apply IH. intros Hin. apply H. auto.
Qed.

Lemma dget_in : forall A k (v : A) l, dget k l = Some v -> In (k, v) l.
Proof.
  intros A k v l. induction l as [|[k0 w] t IH]; simpl; intros H; [discriminate|].
  destruct (Nat.eqb k k0) eqn:E; [|auto].
  apply Nat.eqb_eq in E. inversion H. subst. auto.
Qed.

Lemma dget_in_keys : forall A k (v : A) l, dget k l = Some v -> In k (map fst l).
Proof. intros A k v l H. apply dget_in in H. apply (in_map fst _ _ H). Qed.

Lemma dget_none_keys : forall A k (l : list (nat * A)), ~ In k (map fst l) -> dget k l = None.
Proof.
  intros A k l H. destruct (dget k l) eqn:E; auto. exfalso. apply H. eapply dget_in_keys; eauto.
Qed.

Lemma nmem_nadd : forall x y s, nmem x (nadd y s) = Nat.eqb x y || nmem x s.
Proof.
  intros x y s. unfold nadd. destruct (nmem y s) eqn:E.
  - destruct (Nat.eqb x y) eqn:Exy; auto. apply Nat.eqb_eq in Exy. subst. simpl. auto.
  - unfold nmem. rewrite existsb_app. simpl. rewrite orb_false_r. apply orb_comm.
Qed.

Lemma fold_inv : forall A B (P : B -> Prop) (step : B -> A -> B) l acc,
  P acc -> (forall acc a, In a l -> P acc -> P (step acc a)) -> P (fold_left step l acc).
Proof.
  intros A B P step l. induction l as [|a t IH]; intros acc H0 Hs; simpl; auto.
  apply IH.
  - apply Hs; simpl; auto.
  - intros acc' a' Hin. apply Hs. simpl. auto.
Qed.

Lemma fold_dset_NoDup : forall A B (step : list (nat * B) -> A -> list (nat * B)) l acc,
  (forall acc a, step acc a = acc \/ exists k v, step acc a = dset k v acc) ->
  NoDup (map fst acc) -> NoDup (map fst (fold_left step l acc)).
Proof.
  intros A B step l acc Hstep H. apply fold_inv; [exact H|].
  intros acc' a _ H'. destruct (Hstep acc' a) as [E|[k [v E]]]; rewrite E; [|apply dset_keys_NoDup]; exact H'.
Qed.

(* A loop [for n, v in l.items(): acc = step acc (n, v)] whose step only touches key n, and whose
   effect on key n depends only on the old entry of n. *)
Lemma fold_dget : forall A B (step : list (nat * B) -> nat * A -> list (nat * B))
                         (G : nat -> A -> option B -> option B),
  (forall acc n v x, x <> n -> dget x (step acc (n, v)) = dget x acc) ->
  (forall acc n v, dget n (step acc (n, v)) = G n v (dget n acc)) ->
  forall l acc x, NoDup (map fst l) ->
  dget x (fold_left step l acc) =
  match dget x l with
  | None => dget x acc
  | Some v => G x v (dget x acc)
  end.
Proof.
  intros A B step G Hother Hsame l. induction l as [|[n v] t IH]; intros acc x Hnd; simpl.
  - reflexivity.
  - apply NoDup_cons_iff in Hnd. destruct Hnd as [Hn Ht]. simpl in Hn. rewrite IH by assumption.
    destruct (Nat.eqb x n) eqn:E.
    + apply Nat.eqb_eq in E. subst x. rewrite (dget_none_keys _ _ _ Hn). apply Hsame.
    + apply Nat.eqb_neq in E. rewrite Hother by assumption. reflexivity.
Qed.

(* the special case [acc[n] = F n v] on distinct names: the loop builds the dict entry by entry *)
Lemma fold_dset_map : forall A B (step : list (nat * B) -> nat * A -> list (nat * B)) (F : nat -> A -> B),
  (forall acc nv, step acc nv = dset (fst nv) (F (fst nv) (snd nv)) acc) ->
  forall l acc, NoDup (map fst acc ++ map fst l) ->
  fold_left step l acc = acc ++ map (fun nv => (fst nv, F (fst nv) (snd nv))) l.
Proof.
  intros A B step F Hstep. induction l as [|[n v] t IH]; intros acc H; cbn [fold_left map fst snd] in *.
  - symmetry. apply app_nil_r.
  - rewrite Hstep, dset_fresh; cbn [fst snd].
    + rewrite IH, <- app_assoc; [reflexivity|]. rewrite map_app, <- app_assoc. exact H.
    + apply NoDup_remove_2 in H. intros Hin. apply H, in_or_app. left. exact Hin.
Qed.

Lemma dget_map : forall A B (F : nat -> A -> B) l x,
  dget x (map (fun nv => (fst nv, F (fst nv) (snd nv))) l) =
  match dget x l with
  | None => None
  | Some v => Some (F x v)
  end.
Proof.
  intros A B F l x. induction l as [|[n v] t IH]; simpl; [reflexivity|].
  destruct (Nat.eqb x n) eqn:E; [apply Nat.eqb_eq in E; subst; reflexivity | apply IH].
Qed.

(* value [val] is among the bindings of a variable whose own condition holds *)
Definition act (rho : nat -> bool) (bs : list binding) (val : nat) : bool :=
  existsb (fun b => Nat.eqb (bval b) val && holds rho (bcond b)) bs.

Definition wfvar (v : variable) : Prop := NoDup (map bval (vbindings v)).

Lemma act_exists : forall rho bs val,
  act rho bs val = true <-> exists b, In b bs /\ bval b = val /\ holds rho (bcond b) = true.
Proof.
  intros rho bs val. unfold act. rewrite existsb_exists. split.
  - intros [b [Hb E]]. apply andb_prop in E. destruct E as [E1 E2]. apply Nat.eqb_eq in E1. exists b. auto.
  - intros [b [Hb [E1 E2]]]. exists b. split; auto. rewrite E2. subst. rewrite Nat.eqb_refl. reflexivity.
Qed.

(* what var_with_condition does to one binding: the value stays, [c] is conjoined to the condition
   (nothing happens when [c] is TRUE) *)
Definition cw (c : cond) (b : binding) : binding :=
  match c with CT => b | _ => mkB (bval b) (AndC [bcond b; c]) end.

Lemma vwc_map : forall v c, var_with_condition v c = mkV (map (cw c) (vbindings v)) (vname v).
Proof. intros [l n] c. destruct c; try reflexivity. cbn. rewrite map_id. reflexivity. Qed.

Lemma bval_cw : forall c b, bval (cw c b) = bval b.
Proof. intros [] b; reflexivity. Qed.

Lemma holds_cw : forall rho c b, holds rho (bcond (cw c b)) = holds rho (bcond b) && holds rho c.
Proof. intros rho c b. destruct c; cbn [cw bcond]; try apply holds_and2. symmetry. apply andb_true_r. Qed.

Lemma vwc_values : forall v c, map bval (vbindings (var_with_condition v c)) = map bval (vbindings v).
Proof. intros v c. rewrite vwc_map. cbn [vbindings]. rewrite map_map. apply map_ext, bval_cw. Qed.

Lemma vwc_name : forall v c, vname (var_with_condition v c) = vname v.
Proof. intros v c. rewrite vwc_map. reflexivity. Qed.

Lemma vwc_wf : forall v c, wfvar v -> wfvar (var_with_condition v c).
Proof. intros v c H. unfold wfvar. rewrite vwc_values. exact H. Qed.

Lemma act_vwc : forall rho v c val,
  act rho (vbindings (var_with_condition v c)) val = act rho (vbindings v) val && holds rho c.
Proof.
  intros rho v c val. rewrite vwc_map. cbn [vbindings]. unfold act.
  induction (vbindings v) as [|b l IH]; simpl; [reflexivity|].
  rewrite IH, bval_cw, holds_cw, andb_orb_distrib_l, andb_assoc. reflexivity.
Qed.

Lemma bindings_eqb_act : forall rho l1 l2 val,
  bindings_eqb l1 l2 = true -> act rho l1 val = act rho l2 val.
Proof.
  intros rho l1. induction l1 as [|a t IH]; intros [|b t2] val H; simpl in *; try discriminate; auto.
  apply andb_prop in H. destruct H as [Hab Ht]. apply andb_prop in Hab.
  destruct Hab as [Ev Ec]. apply Nat.eqb_eq in Ev. rewrite Ev, (cond_eqb_sound rho _ _ Ec).
  f_equal. apply IH. exact Ht.
Qed.

Lemma var_eqb_act : forall rho v1 v2 val,
  var_eqb v1 v2 = true -> act rho (vbindings v1) val = act rho (vbindings v2) val.
Proof. intros rho v1 v2 val H. apply andb_prop in H. apply bindings_eqb_act, H. Qed.

Lemma bindings_eqb_values : forall l1 l2, bindings_eqb l1 l2 = true -> map bval l1 = map bval l2.
Proof.
  induction l1 as [|a t IH]; intros [|b t2] H; simpl in *; try discriminate; auto.
  apply andb_prop in H. destruct H as [Hab Ht]. apply andb_prop in Hab.
  destruct Hab as [Ev _]. apply Nat.eqb_eq in Ev. rewrite Ev. f_equal. auto.
Qed.

(* every binding condition of [v] implies [c] *)
Definition guarded (v : variable) (c : cond) : Prop :=
  forall rho val, act rho (vbindings v) val = true -> holds rho c = true.

Lemma guarded_vwc : forall v c, guarded (var_with_condition v c) c.
Proof. intros v c rho val H. rewrite act_vwc in H. apply andb_prop in H. apply H. Qed.

Lemma guarded_or_l : forall v a b, guarded v a -> guarded v (OrC [a; b]).
Proof. intros v a b H rho val Ha. rewrite holds_or2, (H rho val Ha). reflexivity. Qed.

Lemma guarded_or_r : forall v a b, guarded v b -> guarded v (OrC [a; b]).
Proof. intros v a b H rho val Ha. rewrite holds_or2, (H rho val Ha). apply orb_true_r. Qed.

(* the value -> condition dict of merge_into *)
Definition dsem (rho : nat -> bool) (d : list (nat * cond)) (val : nat) : bool :=
  match dget val d with
  | Some c => holds rho c
  | None => false
  end.

Definition mstep0 (d : list (nat * cond)) (b : binding) := dset (bval b) (bcond b) d.
Definition mstep1 (d : list (nat * cond)) (b : binding) :=
  match dget (bval b) d with
  | Some c => dset (bval b) (OrC [c; bcond b]) d
  | None => dset (bval b) (bcond b) d
  end.

Lemma merge_vars_unfold : forall cur var,
  merge_vars cur var =
  mkV (map (fun kc => mkB (fst kc) (snd kc))
           (fold_left mstep1 (vbindings var) (fold_left mstep0 (vbindings cur) []))) None.
Proof. reflexivity. Qed.

Lemma dsem_dset : forall rho d k c val,
  dsem rho (dset k c d) val = if Nat.eqb val k then holds rho c else dsem rho d val.
Proof. intros. unfold dsem. rewrite dget_dset. destruct (Nat.eqb val k); reflexivity. Qed.

Lemma act_cons : forall rho b bs val,
  act rho (b :: bs) val = Nat.eqb (bval b) val && holds rho (bcond b) || act rho bs val.
Proof. reflexivity. Qed.

(* on values that are distinct and not yet keys the first loop overwrites nothing: it acts as the second *)
Lemma mstep0_fresh : forall bs d, NoDup (map bval bs) -> (forall b, In b bs -> dget (bval b) d = None) ->
  fold_left mstep0 bs d = fold_left mstep1 bs d.
Proof.
  induction bs as [|b bs IH]; intros d Hnd Hd; cbn [fold_left]; [reflexivity|].
  apply NoDup_cons_iff in Hnd. destruct Hnd as [Hn Hnd'].
  assert (mstep1 d b = mstep0 d b) as E by (unfold mstep1; rewrite (Hd b (or_introl eq_refl)); reflexivity).
  rewrite E. apply IH; [exact Hnd'|]. intros b' Hb'. unfold mstep0.
  rewrite dget_dset_other; [apply Hd; right; exact Hb'|].
  intros Eq. apply Hn. rewrite <- Eq. apply in_map. exact Hb'.
Qed.

Lemma d1_sem : forall rho bs d val,
  dsem rho (fold_left mstep1 bs d) val = dsem rho d val || act rho bs val.
Proof.
  intros rho bs. induction bs as [|b bs IH]; intros d val; cbn [fold_left].
  - symmetry. apply orb_false_r.
  - rewrite IH, act_cons, orb_assoc. f_equal. rewrite (Nat.eqb_sym (bval b)).
    unfold mstep1, dsem at 2. destruct (dget (bval b) d) eqn:Eg; rewrite dsem_dset;
      (destruct (Nat.eqb val (bval b)) eqn:E; [apply Nat.eqb_eq in E; subst val | symmetry; apply orb_false_r]).
    + rewrite Eg. apply holds_or2.
    + rewrite Eg. reflexivity.
Qed.

Lemma act_of_dict : forall rho d val, NoDup (map fst d) ->
  act rho (map (fun kc => mkB (fst kc) (snd kc)) d) val = dsem rho d val.
Proof.
  intros rho d val. induction d as [|[k c] t IH]; intros Hnd; cbn [map].
  - reflexivity.
  - apply NoDup_cons_iff in Hnd. destruct Hnd as [Hn Ht]. simpl in Hn. rewrite act_cons, IH by assumption. unfold dsem. cbn [dget bval bcond fst snd].
    rewrite (Nat.eqb_sym val k). destruct (Nat.eqb k val) eqn:E; [|reflexivity].
    apply Nat.eqb_eq in E. subst k. rewrite (dget_none_keys _ _ _ Hn). apply orb_false_r.
Qed.

Lemma merge_vars_keys : forall cur var,
  NoDup (map fst (fold_left mstep1 (vbindings var) (fold_left mstep0 (vbindings cur) []))).
Proof.
  intros. apply fold_dset_NoDup; [|apply fold_dset_NoDup; [|constructor]]; intros acc b; right; unfold mstep1, mstep0.
  - destruct (dget (bval b) acc); eauto.
  - eauto.
Qed.

Lemma merge_vars_wf : forall cur var, wfvar (merge_vars cur var).
Proof.
  intros cur var. unfold wfvar. rewrite merge_vars_unfold. cbn [vbindings]. rewrite map_map.
  apply merge_vars_keys.
Qed.

Lemma act_merge_vars : forall rho cur var val, wfvar cur ->
  act rho (vbindings (merge_vars cur var)) val =
  act rho (vbindings cur) val || act rho (vbindings var) val.
Proof.
  intros rho cur var val Hwf. rewrite merge_vars_unfold. cbn [vbindings].
  rewrite act_of_dict by apply merge_vars_keys.
  rewrite d1_sem, mstep0_fresh, d1_sem; [reflexivity | exact Hwf | reflexivity].
Qed.

Lemma guarded_merge_vars : forall cur var c, wfvar cur ->
  guarded cur c -> guarded var c -> guarded (merge_vars cur var) c.
Proof.
  intros cur var c Hwf H1 H2 rho val H. rewrite act_merge_vars in H by exact Hwf.
  apply orb_prop in H. destruct H as [H|H]; [apply (H1 rho val H) | apply (H2 rho val H)].
Qed.

Definition Inv (s : state) : Prop :=
  NoDup (map fst (locals s)) /\
  (forall x v, dget x (locals s) = Some v -> wfvar v) /\
  (forall x v b rho, dget x (locals s) = Some v -> nmem x (wbc s) = false ->
                     In b (vbindings v) -> holds rho (bcond b) = true -> holds rho (scond s) = true).

(* Inv without the distinct-values clause (used to show that clause is necessary) *)
Definition Inv_weak (s : state) : Prop :=
  NoDup (map fst (locals s)) /\
  (forall x v b rho, dget x (locals s) = Some v -> nmem x (wbc s) = false ->
                     In b (vbindings v) -> holds rho (bcond b) = true -> holds rho (scond s) = true).

Lemma Inv_guarded : forall s x v, Inv s -> dget x (locals s) = Some v -> nmem x (wbc s) = false ->
  guarded v (scond s).
Proof.
  intros s x v [_ [_ Himp]] E Hn rho val Ha. apply act_exists in Ha. destruct Ha as [b [Hb [_ Hc]]].
  apply (Himp x v b rho E Hn Hb Hc).
Qed.

Lemma Inv_pointwise : forall s, NoDup (map fst (locals s)) ->
  (forall x v, dget x (locals s) = Some v ->
               wfvar v /\ (nmem x (wbc s) = false -> guarded v (scond s))) ->
  Inv s.
Proof.
  intros s N H. split; [exact N|]. split.
  - intros x v E. apply (H x v E).
  - intros x v b rho E Hn Hb Hc. apply (proj2 (H x v E) Hn rho (bval b)), act_exists. exists b. auto.
Qed.

(* the variable of a local with the block condition made explicit, as merge_into does *)
Definition expl (s : state) (x : nat) (v : variable) : variable :=
  if nmem x (wbc s) then var_with_condition v (scond s) else v.

Lemma expl_wf : forall s x v, wfvar v -> wfvar (expl s x v).
Proof. intros s x v H. unfold expl. destruct (nmem x (wbc s)); [apply vwc_wf|]; exact H. Qed.

Lemma expl_guarded : forall s x v, Inv s -> dget x (locals s) = Some v -> guarded (expl s x v) (scond s).
Proof.
  intros s x v I E. unfold expl. destruct (nmem x (wbc s)) eqn:M; [apply guarded_vwc|].
  apply (Inv_guarded s x v I E M).
Qed.

Lemma act_expl : forall rho s x v val,
  act rho (vbindings (expl s x v)) val = act rho (vbindings v) val && blk rho s x.
Proof.
  intros. unfold expl, blk. destruct (nmem x (wbc s)); [apply act_vwc | symmetry; apply andb_true_r].
Qed.

(* boolean reading of [vals] *)
Definition valb (rho : nat -> bool) (s : state) (x val : nat) : bool :=
  match dget x (locals s) with
  | None => false
  | Some v => act rho (vbindings v) val && blk rho s x
  end.

Lemma in_vals_iff : forall rho s x val, In val (vals rho s x) <-> valb rho s x val = true.
Proof.
  intros rho s x val. unfold vals, valb. destruct (dget x (locals s)) as [v|]; [|simpl; split; [contradiction|discriminate]].
  rewrite in_map_iff. split.
  - intros [b [Ev Hb]]. apply filter_In in Hb. destruct Hb as [Hb Hp]. apply andb_prop in Hp.
    destruct Hp as [Hc Hk]. rewrite Hk, andb_true_r. apply act_exists. exists b. auto.
  - intros H. apply andb_prop in H. destruct H as [Ha Hk]. apply act_exists in Ha.
    destruct Ha as [b [Hb [Ev Hc]]]. exists b. split; auto. apply filter_In. split; auto.
    rewrite Hc, Hk. reflexivity.
Qed.

(* under Inv the block condition guards every local, tracked or explicit *)
Lemma act_blk : forall rho s x v val, Inv s -> dget x (locals s) = Some v ->
  act rho (vbindings v) val && blk rho s x = act rho (vbindings v) val && holds rho (scond s).
Proof.
  intros rho s x v val I E. unfold blk. destruct (nmem x (wbc s)) eqn:M; [reflexivity|].
  destruct (act rho (vbindings v) val) eqn:Ha; [|reflexivity].
  rewrite (Inv_guarded s x v I E M rho val Ha). reflexivity.
Qed.

Lemma nmem_keys_fold : forall A (l : list (nat * A)) s x,
  nmem x (fold_left (fun s kv => nadd (fst kv) s) l s) = nmem x s || nmem x (map fst l).
Proof.
  intros A l. induction l as [|[k v] t IH]; intros s x; simpl; [symmetry; apply orb_false_r|].
  rewrite IH, nmem_nadd. destruct (Nat.eqb x k), (nmem x s); reflexivity.
Qed.

Lemma keys_set_mem : forall A (l : list (nat * A)) x, In x (map fst l) -> nmem x (keys_set l) = true.
Proof.
  intros A l x H. unfold keys_set. rewrite nmem_keys_fold. apply existsb_exists.
  exists x. split; [exact H | apply Nat.eqb_refl].
Qed.

(* BlockState.__init__ without locals_with_block_condition tracks every local *)
Lemma new_state_tracked : forall l c x v, dget x (locals (new_state l c None)) = Some v ->
  nmem x (wbc (new_state l c None)) = true.
Proof. intros l c x v H. apply keys_set_mem, (dget_in_keys _ _ _ _ H). Qed.

Lemma Inv_weak_init : forall l c, NoDup (map fst l) -> Inv_weak (new_state l c None).
Proof.
  intros l c Hnd. split; [exact Hnd|].
  intros x v b rho H Hn. rewrite (new_state_tracked l c x v H) in Hn. discriminate.
Qed.

Lemma Inv_new_state : forall l c,
  NoDup (map fst l) -> (forall x v, dget x l = Some v -> wfvar v) -> Inv (new_state l c None).
Proof.
  intros l c Hnd Hwf. split; [exact Hnd|]. split; [exact Hwf|].
  intros x v b rho H Hn. rewrite (new_state_tracked l c x v H) in Hn. discriminate.
Qed.

Lemma from_value_wf : forall v n, wfvar (from_value v n).
Proof. intros. unfold wfvar, from_value. simpl. constructor; auto. constructor. Qed.

(* the locals dict that [run (PInit l c)] and FrameBase.__init__ build *)
Lemma Inv_init_from_values : forall l c,
  Inv (new_state (fold_left (fun d xv => dset (fst xv) (from_value (snd xv) None) d) l []) c None).
Proof.
  intros l c. apply Inv_new_state.
  - apply fold_dset_NoDup; [eauto|constructor].
  - apply (fold_inv _ _ (fun d : list (nat * variable) => forall x v, dget x d = Some v -> wfvar v)).
    + discriminate.
    + intros acc a _ Ha x v. rewrite dget_dset. destruct (Nat.eqb x (fst a)); [|apply Ha].
      intros H. injection H as <-. apply from_value_wf.
Qed.

Lemma Inv_store_lemma : forall s x v, Inv s -> wfvar v -> Inv (store_local s x v).
Proof.
  intros s x v I Hv. pose proof I as [Hnd [Hwf _]]. apply Inv_pointwise; [apply dset_keys_NoDup, Hnd|].
  cbn [store_local locals wbc scond]. intros y w H. rewrite dget_dset in H. rewrite nmem_nadd.
  destruct (Nat.eqb y x).
  - injection H as <-. split; [exact Hv | discriminate].
  - split; [apply (Hwf y w H) | apply (Inv_guarded s y w I H)].
Qed.

Lemma load_local_wf : forall s x v, Inv s -> load_local s x = Some v -> wfvar v.
Proof.
  intros s x v [_ [Hwf _]] H. unfold load_local in H. destruct (dget x (locals s)) eqn:E; [|discriminate].
  inversion H. subst. apply (Hwf _ _ E).
Qed.

Lemma wc_locals : forall s c, NoDup (map fst (locals s)) ->
  locals (with_condition s c) =
  map (fun nv => (fst nv, if nmem (fst nv) (wbc s) then snd nv
                          else var_with_condition (snd nv) (AndC [scond s; c]))) (locals s).
Proof.
  intros s c Hnd. unfold with_condition. cbn [locals].
  apply (fold_dset_map _ _ _ (fun n v => if nmem n (wbc s) then v else var_with_condition v (AndC [scond s; c]))
                       (fun acc nv => dset_if _ _ _ _ _ acc) _ []).
  exact Hnd.
Qed.

Lemma wc_locals_get : forall s c x, NoDup (map fst (locals s)) ->
  dget x (locals (with_condition s c)) =
  match dget x (locals s) with
  | None => None
  | Some v => Some (if nmem x (wbc s) then v else var_with_condition v (AndC [scond s; c]))
  end.
Proof.
  intros s c x Hnd. rewrite wc_locals by exact Hnd.
  apply (dget_map _ _ (fun n v => if nmem n (wbc s) then v else var_with_condition v (AndC [scond s; c]))).
Qed.

Lemma wc_locals_keys : forall s c, NoDup (map fst (locals s)) ->
  map fst (locals (with_condition s c)) = map fst (locals s).
Proof. intros s c Hnd. rewrite wc_locals by exact Hnd. rewrite map_map. reflexivity. Qed.

Lemma Inv_with_condition_lemma : forall s c, Inv s -> Inv (with_condition s c).
Proof.
  intros s c [Hnd [Hwf _]]. apply Inv_pointwise; [rewrite wc_locals_keys; exact Hnd|].
  intros x v. rewrite wc_locals_get by exact Hnd.
  destruct (dget x (locals s)) as [v0|] eqn:E; [|discriminate]. intros H. injection H as <-.
  cbn [with_condition wbc scond]. destruct (nmem x (wbc s)).
  - split; [eauto | discriminate].
  - split; [apply vwc_wf; eauto | intros _; apply guarded_vwc].
Qed.

Lemma filter_map_ext : forall (p p' : binding -> bool) (f : binding -> binding) bs,
  (forall b, In b bs -> bval (f b) = bval b /\ p' (f b) = p b) ->
  map bval (filter p' (map f bs)) = map bval (filter p bs).
Proof.
  intros p p' f bs. induction bs as [|b t IH]; intros H; simpl; auto.
  destruct (H b (or_introl eq_refl)) as [Ev Ep]. rewrite Ep.
  destruct (p b); simpl; rewrite ?Ev, IH; auto; intros; apply H; simpl; auto.
Qed.

Lemma filter_guard : forall A (p p' : A -> bool) (g : bool) l,
  (forall a, In a l -> p' a = p a && g) -> filter p' l = if g then filter p l else [].
Proof.
  intros A p p' g l H. destruct g.
  - apply filter_ext_in. intros a Ha. rewrite (H a Ha). apply andb_true_r.
  - induction l as [|a t IH]; [reflexivity|]. simpl.
    rewrite (H a (or_introl eq_refl)), andb_false_r. apply IH. intros x Hx. apply H. right. exact Hx.
Qed.

Lemma state_with_condition_exact_lemma : forall rho s c x, Inv s ->
  vals rho (with_condition s c) x = (if holds rho c then vals rho s x else []) /\
  holds rho (scond (with_condition s c)) = holds rho (scond s) && holds rho c.
Proof.
  intros rho s c x [Hnd [_ Himp]]. split; [|apply holds_and2].
  unfold vals. rewrite wc_locals_get by exact Hnd.
  destruct (dget x (locals s)) as [v|] eqn:E; [|destruct (holds rho c); reflexivity].
  unfold blk. cbn [with_condition wbc scond]. rewrite holds_and2.
  destruct (nmem x (wbc s)) eqn:Ew.
  - (* tracked: only the block condition changes *)
    rewrite (filter_guard _ (fun b => holds rho (bcond b) && holds rho (scond s)) _ (holds rho c)).
    + destruct (holds rho c); reflexivity.
    + intros b _. apply andb_assoc.
  - (* explicit: every binding gets the combined condition; its old one implied the block condition *)
    rewrite vwc_map. cbn [vbindings].
    rewrite (filter_map_ext (fun b => holds rho (bcond b) && true && holds rho c)).
    + rewrite (filter_guard _ (fun b => holds rho (bcond b) && true) _ (holds rho c)) by reflexivity.
      destruct (holds rho c); reflexivity.
    + intros b Hb. split; [apply bval_cw|]. rewrite holds_cw, holds_and2, !andb_true_r.
      destruct (holds rho (bcond b)) eqn:Hc; [|reflexivity].
      rewrite (Himp x v b rho E Ew Hb Hc). reflexivity.
Qed.

Definition same_in (o : state) (name : nat) (var : variable) : bool :=
  match dget name (locals o) with
  | Some v' => var_eqb var v'
  | None => false
  end.

(* the first loop, separated into its effect on locals_ and on locals_with_block_condition *)
Definition m1_var (s o : state) (name : nat) (var : variable) : variable :=
  if same_in o name var then var else expl s name var.

Definition m1_locals_step (s o : state) (acc : list (nat * variable)) (nv : nat * variable) :=
  dset (fst nv) (m1_var s o (fst nv) (snd nv)) acc.
Definition m1_wbc_step (o : state) (w : list nat) (nv : nat * variable) :=
  if same_in o (fst nv) (snd nv) then nadd (fst nv) w else w.

Lemma merge_step1_split : forall s o acc nv,
  merge_step1 s o acc nv = (m1_locals_step s o (fst acc) nv, m1_wbc_step o (snd acc) nv).
Proof.
  intros s o acc [n v]. unfold merge_step1, m1_locals_step, m1_wbc_step, m1_var, expl. cbn [fst snd].
  change (match dget n (locals o) with Some v' => var_eqb v v' | None => false end) with (same_in o n v).
  destruct (same_in o n v); [reflexivity|]. destruct (nmem n (wbc s)); reflexivity.
Qed.

Lemma merge_loop1_split : forall s o l acc,
  fold_left (merge_step1 s o) l acc =
  (fold_left (m1_locals_step s o) l (fst acc), fold_left (m1_wbc_step o) l (snd acc)).
Proof.
  intros s o l. induction l as [|nv t IH]; intros acc; cbn [fold_left]; [destruct acc; reflexivity|].
  rewrite IH, merge_step1_split. reflexivity.
Qed.

Lemma m1_wbc_mem : forall o l w x, NoDup (map fst l) ->
  nmem x (fold_left (m1_wbc_step o) l w) =
  nmem x w || match dget x l with Some v => same_in o x v | None => false end.
Proof.
  intros o l. induction l as [|[n v] t IH]; intros w x Hnd; simpl.
  - rewrite orb_false_r. reflexivity.
  - apply NoDup_cons_iff in Hnd. destruct Hnd as [Hn Ht]. simpl in Hn. rewrite IH by assumption. unfold m1_wbc_step at 1. simpl.
    destruct (Nat.eqb x n) eqn:E.
    + apply Nat.eqb_eq in E. subst x. rewrite (dget_none_keys _ _ _ Hn), orb_false_r.
      destruct (same_in o n v).
      * rewrite nmem_nadd, Nat.eqb_refl. simpl. rewrite orb_true_r. reflexivity.
      * rewrite orb_false_r. reflexivity.
    + destruct (same_in o n v); [|reflexivity]. rewrite nmem_nadd, E. reflexivity.
Qed.

(* the second loop's effect on the entry of a name it visits *)
Definition m2_G (o : state) (w : list nat) (n : nat) (v : variable) (old : option variable)
  : option variable :=
  if nmem n w then old
  else Some (match old with
             | None => expl o n v
             | Some cur => merge_vars cur (expl o n v)
             end).

Lemma m2_locals_get : forall o w l acc x, NoDup (map fst l) ->
  dget x (fold_left (merge_step2 o w) l acc) =
  match dget x l with
  | None => dget x acc
  | Some v => m2_G o w x v (dget x acc)
  end.
Proof.
  intros o w. apply (fold_dget variable variable (merge_step2 o w) (m2_G o w)).
  - intros a n v y Hy. unfold merge_step2. destruct (nmem n w); auto.
    destruct (dget n a); apply dget_dset_other; exact Hy.
  - intros a n v. unfold merge_step2, m2_G, expl. destruct (nmem n w); auto.
    destruct (dget n a); apply dget_dset_same.
Qed.

Lemma merge_locals_keys : forall s o, NoDup (map fst (locals (merge_into s (Some o)))).
Proof.
  intros s o. unfold merge_into. cbn [locals]. rewrite merge_loop1_split. cbn [fst snd].
  apply fold_dset_NoDup; [|apply fold_dset_NoDup; [|constructor]].
  - intros acc [n v]. unfold merge_step2. destruct (nmem n _); auto. destruct (dget n acc); eauto.
  - intros acc a. unfold m1_locals_step. eauto.
Qed.

(* merge_into tracks a name exactly when both sides hold equal variables for it *)
Lemma merge_wbc_mem : forall s o x, NoDup (map fst (locals s)) ->
  nmem x (wbc (merge_into s (Some o))) =
  match dget x (locals s), dget x (locals o) with
  | Some v1, Some v2 => var_eqb v1 v2
  | _, _ => false
  end.
Proof.
  intros s o x Hnd. unfold merge_into. cbn [wbc]. rewrite merge_loop1_split. cbn [snd].
  rewrite m1_wbc_mem by exact Hnd. unfold same_in.
  destruct (dget x (locals s)); [destruct (dget x (locals o))|]; reflexivity.
Qed.

(* what merge_into leaves for a name: the variable itself when both sides hold equal ones; else the
   explicit copies, merged by value when both sides define the name *)
Lemma merge_locals_get : forall s o x,
  NoDup (map fst (locals s)) -> NoDup (map fst (locals o)) ->
  dget x (locals (merge_into s (Some o))) =
  match dget x (locals s), dget x (locals o) with
  | Some v1, Some v2 => Some (if var_eqb v1 v2 then v1 else merge_vars (expl s x v1) (expl o x v2))
  | Some v1, None => Some (expl s x v1)
  | None, Some v2 => Some (expl o x v2)
  | None, None => None
  end.
Proof.
  intros s o x H1 H2. pose proof (merge_wbc_mem s o x H1) as Hw. revert Hw.
  unfold merge_into. cbn [locals wbc]. rewrite merge_loop1_split. cbn [fst snd]. intros Hw.
  rewrite m2_locals_get by exact H2. unfold m2_G. rewrite Hw.
  rewrite (fold_dset_map _ _ _ (m1_var s o)) by (auto; exact H1). cbn [app]. rewrite dget_map. unfold m1_var, same_in.
  destruct (dget x (locals s)) as [v1|]; destruct (dget x (locals o)) as [v2|]; try reflexivity.
  destruct (var_eqb v1 v2); reflexivity.
Qed.

Lemma merge_scond : forall rho s o,
  holds rho (scond (merge_into s (Some o))) = holds rho (scond s) || holds rho (scond o).
Proof. intros. apply holds_or2. Qed.

Lemma merge_valb : forall rho s1 s2 x val, Inv s1 -> Inv s2 ->
  valb rho (merge_into s1 (Some s2)) x val = valb rho s1 x val || valb rho s2 x val.
Proof.
  intros rho s1 s2 x val I1 I2. pose proof I1 as [N1 [W1 _]]. pose proof I2 as [N2 _].
  unfold valb, blk at 1. rewrite merge_wbc_mem, merge_locals_get, merge_scond by assumption.
  destruct (dget x (locals s1)) as [v1|] eqn:E1; destruct (dget x (locals s2)) as [v2|] eqn:E2.
  - rewrite (act_blk rho s1 x v1 val I1 E1), (act_blk rho s2 x v2 val I2 E2).
    destruct (var_eqb v1 v2) eqn:Eq.
    + rewrite <- (var_eqb_act rho v1 v2 val Eq). apply andb_orb_distrib_r.
    + rewrite andb_true_r, act_merge_vars, !act_expl by (apply expl_wf; eauto).
      rewrite (act_blk rho s1 x v1 val I1 E1), (act_blk rho s2 x v2 val I2 E2). reflexivity.
  - rewrite andb_true_r, orb_false_r. apply act_expl.
  - rewrite andb_true_r. apply act_expl.
  - reflexivity.
Qed.

Lemma merge_union_lemma : forall rho s1 s2 x, Inv s1 -> Inv s2 ->
  (forall val, In val (vals rho (merge_into s1 (Some s2)) x) <->
               In val (vals rho s1 x) \/ In val (vals rho s2 x)) /\
  holds rho (scond (merge_into s1 (Some s2))) = holds rho (scond s1) || holds rho (scond s2).
Proof.
  intros rho s1 s2 x I1 I2. split; [|apply merge_scond].
  intros val. rewrite !in_vals_iff. rewrite merge_valb by assumption. apply orb_true_iff.
Qed.

Lemma merge_none_lemma : forall s, merge_into s None = s.
Proof. intros [l c w]. reflexivity. Qed.

Lemma Inv_merge_lemma : forall s1 s2, Inv s1 -> Inv s2 -> Inv (merge_into s1 (Some s2)).
Proof.
  intros s1 s2 I1 I2. pose proof I1 as [N1 [W1 _]]. pose proof I2 as [N2 [W2 _]].
  apply Inv_pointwise; [apply merge_locals_keys|].
  intros x v. rewrite merge_wbc_mem, merge_locals_get by assumption.
  destruct (dget x (locals s1)) as [v1|] eqn:E1; destruct (dget x (locals s2)) as [v2|] eqn:E2;
    [| | |discriminate]; intros H; injection H as <-.
  - destruct (var_eqb v1 v2); split; [eauto | discriminate | apply merge_vars_wf |].
    intros _. apply guarded_merge_vars; [apply expl_wf; eauto | apply guarded_or_l | apply guarded_or_r];
      apply expl_guarded; assumption.
  - split; [apply expl_wf; eauto | intros _; apply guarded_or_l, expl_guarded; assumption].
  - split; [apply expl_wf; eauto | intros _; apply guarded_or_r, expl_guarded; assumption].
Qed.


Lemma run_Inv_lemma : forall p s, run p = Some s -> Inv s.
Proof.
  induction p; intros s H; cbn [run] in H.
  - injection H as <-. apply Inv_init_from_values.
  - destruct (run p) as [s0|]; [|discriminate]. injection H as <-.
    apply Inv_store_lemma; auto. apply from_value_wf.
  - destruct (run p1) as [s0|]; [|discriminate]. destruct (run p2) as [t|]; [|discriminate].
    destruct (load_local t y) as [var|] eqn:El; [|discriminate]. injection H as <-.
    apply Inv_store_lemma; auto. apply (load_local_wf t y); auto.
  - destruct (run p) as [s0|]; [|discriminate]. injection H as <-.
    apply Inv_with_condition_lemma; auto.
  - destruct (run p1) as [s0|]; [|discriminate]. destruct (run p2) as [t|]; [|discriminate].
    injection H as <-. apply Inv_merge_lemma; auto.
  - destruct (run p) as [s0|]; [|discriminate]. rewrite merge_none_lemma in H. auto.
Qed.

(* hand-built: x -> (1 if a0 | 1 if a1), two bindings of the same value, to be merged with x -> 2
   (merge_union_needs_distinct_values in Props/C18.v; the harness runs the same objects) *)
Definition dup_s1 : state :=
  new_state [(0, mkV [mkB 1 (Atom 0); mkB 1 (Atom 1)] None)] CT None.
Definition dup_s2 : state := new_state [(0, from_value 2 None)] CT None.
Definition dup_rho (a : nat) : bool := Nat.eqb a 0.

(* hand-built: an explicitly conditioned local whose condition does not imply the block condition
   (with_condition_needs_implication in Props/C18.v) *)
Definition imp_s : state := mkS [(0, from_value 1 None)] (Atom 0) [].
Definition imp_rho (a : nat) : bool := Nat.eqb a 1.
