(* C18, the API of variables.py modelled in Flow/Api.v: what each outcome of get_atomic_value says,
   is_atomic and with_value characterised, and the state grow_s on which with_condition(TRUE) is not
   the identity.  The other specifications of Flow/Api.v's operations (has_atomic_value, with_name,
   load_local, store_local / get_locals, with_condition's shape) are short and are proved where they
   are stated, in Props/C18.v. *)
From Coq Require Import List Bool PeanoNat.
From PV Require Import Flow.Model Flow.Proofs Flow.Api.
Import ListNotations.

Lemma get_atomic_value_inv : forall v t,
  match get_atomic_value v t with
  | inl x => exists c, vbindings v = [mkB x c] /\ forall isinst, t = Some isinst -> isinst x = true
  | inr TooFew => vbindings v = []
  | inr TooMany => 2 <= length (vbindings v)
  | inr WrongType => exists b isinst, vbindings v = [b] /\ t = Some isinst /\ isinst (bval b) = false
  end.
Proof.
  intros v t. unfold get_atomic_value. destruct (vbindings v) as [|[bv bc] [|b2 rest]]; cbn [bval].
  - reflexivity.
  - destruct t as [f|]; [destruct (f bv) eqn:Ef|].
    + exists bc. split; [reflexivity|]. intros g Eg. injection Eg as <-. exact Ef.
    + exists (mkB bv bc), f. auto.
    + exists bc. split; [reflexivity | discriminate].
  - apply le_n_S, le_n_S, Nat.le_0_l.
Qed.

(* success: exactly one binding, its value is returned, and the type test (if any) accepts it *)
Lemma get_atomic_value_ok_lemma : forall v t x,
  get_atomic_value v t = inl x <->
  exists c, vbindings v = [mkB x c] /\ forall isinst, t = Some isinst -> isinst x = true.
Proof.
  intros v t x. split.
  - intros H. pose proof (get_atomic_value_inv v t) as G. rewrite H in G. exact G.
  - intros [c [E H]]. unfold get_atomic_value. rewrite E. cbn [bval].
    destruct t as [f|]; [rewrite (H f eq_refl)|]; reflexivity.
Qed.

Lemma is_atomic_spec_lemma : forall v t,
  is_atomic v t = true <->
  exists b, vbindings v = [b] /\ forall isinst, t = Some isinst -> isinst (bval b) = true.
Proof.
  intros v t. unfold is_atomic. destruct (vbindings v) as [|b [|b2 rest]].
  - split; [discriminate|]. intros [b0 [E _]]. discriminate.
  - destruct t as [f|]; split.
    + intros H. exists b. split; auto. intros g Eg. inversion Eg. subst. exact H.
    + intros [b' [E H]]. inversion E. subst. apply H. reflexivity.
    + intros _. exists b. split; auto. intros g Eg. discriminate.
    + reflexivity.
  - split; [discriminate|]. intros [b0 [E _]]. discriminate.
Qed.

Lemma with_value_spec_lemma : forall v x v',
  with_value v x = Some v' <->
  exists b, vbindings v = [b] /\ v' = mkV [mkB x (bcond b)] (vname v).
Proof.
  intros v x v'. unfold with_value. destruct (vbindings v) as [|b [|b2 rest]].
  - split; [discriminate|]. intros [b0 [E _]]. discriminate.
  - split.
    + intros H. inversion H. exists b. auto.
    + intros [b' [E H]]. inversion E. subst. reflexivity.
  - split; [discriminate|]. intros [b0 [E _]]. discriminate.
Qed.

(* quirk: explicit locals are conjoined with the COMBINED condition (block condition and c), so even
   with_condition(TRUE) is not the identity on a state with a non-TRUE condition: the term grows *)
Definition grow_s : state := mkS [(0, mkV [mkB 1 (CAnd [Atom 0; Atom 1])] None)] (Atom 0) [].
