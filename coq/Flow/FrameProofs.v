(* C18, frame_base.py: the frame stepping of Flow/Frame.v computes exactly the FORWARD-path semantics of
   Flow/Loop.v on every block graph with distinct ids (back edges, self loops, jumps to ids that are
   no block).  On an acyclic graph processed in topological order every path is forward
   (arrivesF_acyclic), which is how Props/C18.v gets the all-paths theorems for such graphs. *)
From Coq Require Import List Bool PeanoNat.
From PV Require Import Flow.Model Flow.Proofs Flow.Frame Flow.Loop.
Import ListNotations.

(* a state "denotes" a set A of environments under rho: its value sets are the values the
   environments give, and its block condition holds iff A is inhabited *)

Definition ovals (rho : nat -> bool) (os : option state) (x : nat) : list nat :=
  match os with Some s => vals rho s x | None => [] end.
Definition oreach (rho : nat -> bool) (os : option state) : bool :=
  match os with Some s => holds rho (scond s) | None => false end.

Definition SpecO (rho : nat -> bool) (os : option state) (A : env -> Prop) : Prop :=
  (forall x v, In v (ovals rho os x) <-> exists e, A e /\ dget x e = Some v) /\
  (oreach rho os = true <-> exists e, A e).

Definition Spec (rho : nat -> bool) (s : state) (A : env -> Prop) : Prop := SpecO rho (Some s) A.

Lemma SpecO_ext : forall rho os (A B : env -> Prop),
  SpecO rho os A -> (forall e, A e <-> B e) -> SpecO rho os B.
Proof.
  intros rho os A B [H1 H2] E. split.
  - intros x v. rewrite H1. split; intros [e [Ha Hd]]; exists e; split; auto; apply E; auto.
  - rewrite H2. split; intros [e Ha]; exists e; apply E; auto.
Qed.

Lemma SpecO_none : forall rho (A : env -> Prop), SpecO rho None A <-> forall e, ~ A e.
Proof.
  intros rho A. split.
  - intros [_ H] e Ha. discriminate (proj2 H (ex_intro _ e Ha)).
  - intros H. split.
    + intros x v. split; [intros [] | intros [e [Ha _]]; destruct (H e Ha)].
    + split; [discriminate | intros [e Ha]; destruct (H e Ha)].
Qed.

Lemma vals_store : forall rho s x v n y,
  vals rho (store_local s x (from_value v n)) y =
  if Nat.eqb y x then (if holds rho (scond s) then [v] else []) else vals rho s y.
Proof.
  intros rho s x v n y. unfold vals, store_local, blk. cbn [locals wbc scond].
  rewrite dget_dset, nmem_nadd. destruct (Nat.eqb y x) eqn:E.
  - cbn [orb from_value vbindings filter bcond bval holds map andb].
    destruct (holds rho (scond s)); reflexivity.
  - cbn [orb]. reflexivity.
Qed.

Lemma store_spec : forall rho s x v n A,
  Spec rho s A ->
  Spec rho (store_local s x (from_value v n)) (fun e' => exists e, A e /\ e' = dset x v e).
Proof.
  intros rho s x v n A [H1 H2]. unfold Spec, SpecO, ovals, oreach in *. split.
  - intros y val. rewrite vals_store. destruct (Nat.eqb y x) eqn:E.
    + apply Nat.eqb_eq in E. subst y. split.
      * intros Hin. destruct (holds rho (scond s)) eqn:Hh; [|destruct Hin].
        destruct Hin as [Hv|[]]. subst val. destruct (proj1 H2 eq_refl) as [e Ha].
        exists (dset x v e). split; [exists e; auto | apply dget_dset_same].
      * intros [e' [[e [Ha Ee]] Hd]]. subst e'. rewrite dget_dset_same in Hd. injection Hd as <-.
        rewrite (proj2 H2 (ex_intro _ e Ha)). left. reflexivity.
    + rewrite H1. split.
      * intros [e [Ha Hd]]. exists (dset x v e). split; [exists e; auto|]. rewrite dget_dset, E. exact Hd.
      * intros [e' [[e [Ha Ee]] Hd]]. subst e'. rewrite dget_dset, E in Hd. exists e. auto.
  - cbn [store_local scond]. rewrite H2. split.
    + intros [e Ha]. exists (dset x v e), e. auto.
    + intros [e' [e [Ha _]]]. exists e. exact Ha.
Qed.

Lemma run_stores_Inv : forall st s, Inv s -> Inv (run_stores st s).
Proof.
  induction st as [|[x v] t IH]; intros s HI; cbn [run_stores fold_left]; auto.
  apply IH. apply Inv_store_lemma; auto. apply from_value_wf.
Qed.

Lemma run_stores_spec : forall rho st s A,
  Spec rho s A ->
  Spec rho (run_stores st s) (fun e' => exists e, A e /\ e' = apply_stores st e).
Proof.
  intros rho st. induction st as [|[x v] t IH]; intros s A HS; cbn [run_stores apply_stores fold_left fst snd].
  - apply (SpecO_ext rho (Some s) A); auto. intros e. split; [eauto | intros [e0 [Ha E]]; subst; auto].
  - eapply SpecO_ext; [apply IH, store_spec, HS|]. intros e. split.
    + intros [e1 [[e0 [Ha E1]] E]]. subst. eauto.
    + intros [e0 [Ha E]]. eauto.
Qed.

Lemma with_spec : forall rho s c A,
  Inv s -> Spec rho s A -> Spec rho (with_condition s c) (fun e => holds rho c = true /\ A e).
Proof.
  intros rho s c A HI [H1 H2]. unfold Spec, SpecO, ovals, oreach in *. split.
  - intros x v. rewrite (proj1 (state_with_condition_exact_lemma rho s c x HI)).
    destruct (holds rho c).
    + rewrite H1. split; [intros [e [Ha Hd]] | intros [e [[_ Ha] Hd]]]; exists e; auto.
    + split; [intros [] | intros [e [[Hf _] _]]; discriminate].
  - rewrite (proj2 (state_with_condition_exact_lemma rho s c 0 HI)).
    destruct (holds rho c).
    + rewrite andb_true_r, H2. split; [intros [e Ha] | intros [e [_ Ha]]]; exists e; auto.
    + rewrite andb_false_r. split; [discriminate | intros [e [Hf _]]; discriminate].
Qed.

Definition oInv (os : option state) : Prop := forall s, os = Some s -> Inv s.

Lemma Inv_merge_opt : forall s1 os2, Inv s1 -> oInv os2 -> Inv (merge_into s1 os2).
Proof.
  intros s1 [s2|] I1 I2; [apply Inv_merge_lemma; auto | rewrite merge_none_lemma; exact I1].
Qed.

Lemma merge_spec : forall rho s1 os2 A1 A2,
  Inv s1 -> oInv os2 -> Spec rho s1 A1 -> SpecO rho os2 A2 ->
  Spec rho (merge_into s1 os2) (fun e => A1 e \/ A2 e).
Proof.
  intros rho s1 os2 A1 A2 I1 I2 S1 S2. destruct os2 as [s2|].
  - specialize (I2 s2 eq_refl). destruct S1 as [H1 H1'], S2 as [H2 H2'].
    unfold Spec, SpecO, ovals, oreach in *. split.
    + intros x v. rewrite (proj1 (merge_union_lemma rho s1 s2 x I1 I2)), H1, H2. split.
      * intros [[e [Ha Hd]]|[e [Ha Hd]]]; exists e; auto.
      * intros [e [[Ha|Ha] Hd]]; [left|right]; exists e; auto.
    + rewrite (proj2 (merge_union_lemma rho s1 s2 0 I1 I2)), orb_true_iff, H1', H2'. split.
      * intros [[e Ha]|[e Ha]]; exists e; auto.
      * intros [e [Ha|Ha]]; [left|right]; exists e; auto.
  - rewrite merge_none_lemma. apply (SpecO_ext rho (Some s1) A1 _ S1).
    intros e. split; [auto | intros [Ha|Ha]; [auto | destruct (proj1 (SpecO_none _ _) S2 e Ha)]].
Qed.

Lemma unique_pos : forall code p q b b',
  NoDup (map bid code) -> nth_error code p = Some b -> nth_error code q = Some b' ->
  bid b = bid b' -> p = q.
Proof.
  intros code p q b b' Hnd Hp Hq E. rewrite NoDup_nth_error in Hnd. apply Hnd.
  - rewrite map_length. apply nth_error_Some. congruence.
  - rewrite (map_nth_error bid _ _ Hp), (map_nth_error bid _ _ Hq). congruence.
Qed.

(* the id of a block is the id of no earlier block *)
Lemma fresh_pos : forall code p b, NoDup (map bid code) -> nth_error code p = Some b ->
  forall q b', q < p -> nth_error code q = Some b' -> bid b' <> bid b.
Proof.
  intros code p b ND Hp q b' Hq Hnq E. rewrite (unique_pos code q p b' b ND Hnq Hp E) in Hq.
  exact (Nat.lt_irrefl _ Hq).
Qed.

Lemma lt_succ_cases : forall p k, p < S k -> p < k \/ p = k.
Proof. intros p k H. apply Nat.lt_eq_cases, Nat.lt_succ_r, H. Qed.

Lemma nmem_cons : forall x y s, nmem x (y :: s) = Nat.eqb x y || nmem x s.
Proof. reflexivity. Qed.

(* wf_code: distinct ids, and every edge goes forward *)
Lemma fwd_spec : forall code seen, fwd seen code = true ->
  NoDup (map bid code) /\
  (forall b, In b code -> nmem (bid b) seen = false) /\
  (forall p b t, nth_error code p = Some b -> In t (targets (bterm b)) ->
     nmem t seen = false /\ fwd_edge code p t).
Proof.
  induction code as [|b0 rest IH]; intros seen H.
  - split; [constructor|]. split; [intros ? []|]. intros [|p] b t Hn; discriminate.
  - cbn [fwd] in H. apply andb_prop in H. destruct H as [H H3]. apply andb_prop in H. destruct H as [H1 H2].
    apply negb_true_iff in H1. rewrite forallb_forall in H2.
    destruct (IH _ H3) as [Hnd [Hseen Htg]].
    assert (forall x, nmem x (bid b0 :: seen) = false -> x <> bid b0 /\ nmem x seen = false) as Hcons.
    { intros x Hx. rewrite nmem_cons in Hx. apply orb_false_iff in Hx. destruct Hx as [Hne Hs].
      apply Nat.eqb_neq in Hne. auto. }
    split; [|split].
    + cbn [map]. constructor; auto. intros Hin. apply in_map_iff in Hin. destruct Hin as [b [E Hb]].
      destruct (Hcons _ (Hseen b Hb)) as [Hne _]. auto.
    + intros b [E|Hb]; [subst; auto | apply Hcons, Hseen, Hb].
    + intros p b t Hn Ht. destruct p as [|p]; cbn [nth_error] in Hn.
      * injection Hn as ->. specialize (H2 t Ht). apply negb_true_iff in H2.
        destruct (Hcons t H2) as [Hne Hs]. split; [exact Hs|].
        intros q b' Hq Hnq. apply Nat.le_0_r in Hq. subst q. injection Hnq as <-. auto.
      * destruct (Htg p b t Hn Ht) as [Hs Hfw]. destruct (Hcons t Hs) as [Hne Hs']. split; [exact Hs'|].
        intros [|q] b' Hq Hnq; cbn [nth_error] in Hnq.
        -- injection Hnq as <-. auto.
        -- apply (Hfw q b' (le_S_n _ _ Hq) Hnq).
Qed.

Lemma wf_NoDup : forall code, wf_code code = true -> NoDup (map bid code).
Proof. intros code H. apply (fwd_spec code [] H). Qed.

Lemma wf_forward : forall code p b t,
  wf_code code = true -> nth_error code p = Some b -> In t (targets (bterm b)) -> fwd_edge code p t.
Proof. intros code p b t H Hp Ht. apply (proj2 (proj2 (fwd_spec code [] H)) p b t Hp Ht). Qed.

Lemma edge_targets : forall rho t j, edge rho t j -> In j (targets t).
Proof.
  intros rho t j H. unfold edge in H. destruct t; simpl in *.
  - destruct H as [H|[]]. inversion H. auto.
  - destruct H as [H|[]]. inversion H. auto.
  - destruct H as [H|[H|[]]]; inversion H; auto.
  - destruct H.
Qed.

Section ArrivalsF.
  Variable code : list block.
  Variable init : list (nat * nat).
  Variable rho : nat -> bool.

  Lemma arrivesFK_mono : forall k k' j e,
    arrivesFK code init rho k j e -> k <= k' -> arrivesFK code init rho k' j e.
  Proof.
    intros k k' j e H Hle. induction H.
    - apply afk_entry. assumption.
    - eapply afk_step; eauto. eapply Nat.lt_le_trans; eauto.
  Qed.

  Lemma arrivesFK_arrivesK : forall k j e, arrivesFK code init rho k j e -> arrivesK code init rho k j e.
  Proof.
    intros k j e H. induction H.
    - apply ak_entry. assumption.
    - eapply ak_step; eauto.
  Qed.

  (* a forward path into the block at position p only leaves blocks at positions < p *)
  Lemma arrivesFK_restrict : forall k j e, arrivesFK code init rho k j e ->
    forall p b, nth_error code p = Some b -> bid b = j -> arrivesFK code init rho p j e.
  Proof.
    intros k j e H. induction H as [b0 H0 | q bq e j Hq Hnq Hsrc IH Hedge Hfwd]; intros p b Hp E.
    - apply afk_entry. assumption.
    - destruct (Nat.le_gt_cases p q) as [Hle|Hlt]; [destruct (Hfwd p b Hle Hp E)|].
      eapply afk_step; eauto. apply (arrivesFK_mono q); [apply (IH q bq Hnq eq_refl) | apply Nat.lt_le_incl, Hlt].
  Qed.

  Lemma arrivesFK_succ : forall k b j e, nth_error code k = Some b ->
    (arrivesFK code init rho (S k) j e <->
     arrivesFK code init rho k j e \/
     (In (true, j) (sem_outs rho (bterm b)) /\ fwd_edge code k j /\
      exists e0, arrivesFK code init rho k (bid b) e0 /\ e = apply_stores (bstores b) e0)).
  Proof.
    intros k b j e Hk. split.
    - intros H. inversion H as [b0 H0 | q bq e0 j' Hq Hnq Hsrc Hedge Hfwd]; subst.
      + left. apply afk_entry. assumption.
      + assert (arrivesFK code init rho q (bid bq) e0) as Hr by (eapply arrivesFK_restrict; eauto).
        destruct (lt_succ_cases _ _ Hq) as [Hq'|Hq'].
        * left. eapply afk_step; eauto. apply (arrivesFK_mono q); [exact Hr | apply Nat.lt_le_incl, Hq'].
        * subst q. rewrite Hk in Hnq. injection Hnq as <-. right. eauto.
    - intros [H|[Hedge [Hfwd [e0 [H E]]]]].
      + apply (arrivesFK_mono k); auto.
      + subst e. apply (afk_step code init rho (S k) k b e0 j); auto.
        apply (arrivesFK_mono k); auto.
  Qed.

  Lemma arrivesFK_zero : forall j e, arrivesFK code init rho 0 j e ->
    exists b, nth_error code 0 = Some b /\ j = bid b /\ e = init_env init.
  Proof.
    intros j e H. inversion H as [b0 H0 | q bq e0 j' Hq]; subst.
    - exists b0. auto.
    - destruct (Nat.nlt_0_r _ Hq).
  Qed.

  Lemma finalFK_succ : forall k b e', nth_error code k = Some b ->
    (finalFK code init rho (S k) e' <->
     finalFK code init rho k e' \/
     (exits (bterm b) = true /\
      exists e0, arrivesFK code init rho k (bid b) e0 /\ e' = apply_stores (bstores b) e0)).
  Proof.
    intros k b e' Hk. unfold finalFK. split.
    - intros [p [bp [e [Hp [Hn [Ha [Hx E]]]]]]].
      destruct (lt_succ_cases _ _ Hp) as [Hp'|Hp'].
      + left. exists p, bp, e. repeat split; assumption.
      + subst p. rewrite Hk in Hn. injection Hn as <-. right. eauto.
    - intros [[p [bp [e [Hp [Hn [Ha [Hx E]]]]]]]|[Hx [e0 [Ha E]]]].
      + exists p, bp, e. repeat split; auto.
      + exists k, b, e0. repeat split; auto.
  Qed.
End ArrivalsF.

(* on an acyclic graph in topological order every edge is forward: the two semantics coincide *)
Lemma arrivesF_acyclic : forall code init rho k j e,
  wf_code code = true -> (arrivesFK code init rho k j e <-> arrivesK code init rho k j e).
Proof.
  intros code init rho k j e WF. split; [apply arrivesFK_arrivesK|].
  intros H. induction H as [b0 H0 | p b e j Hp Hn Hsrc IH Hedge].
  - apply afk_entry. assumption.
  - eapply afk_step; eauto. apply (wf_forward code p b j WF Hn). eapply edge_targets. exact Hedge.
Qed.

Definition outs_of (t : term) (s : state) : list (state * nat) :=
  match t with
  | TFall n => [(s, n)]
  | TJump j => [(s, j)]
  | TCond a j n => [(with_condition s (NotC (Atom a)), j); (with_condition s (Atom a), n)]
  | TRet => []
  end.

Definition merge_all (st : list (nat * state)) (outs : list (state * nat)) : list (nat * state) :=
  fold_left (fun st sn => dset (snd sn) (merge_into (fst sn) (dget (snd sn) st)) st) outs st.

Lemma run_block_states : forall f b f', run_block f b = Some f' ->
  exists cur, dget (bid b) (fstates f) = Some cur /\
    fstates f' = merge_all (dset (bid b) (run_stores (bstores b) cur) (fstates f))
                           (outs_of (bterm b) (run_stores (bstores b) cur)) /\
    ffinal f' = if exits (bterm b) then Some (merge_into (run_stores (bstores b) cur) (ffinal f))
                else ffinal f.
Proof.
  intros f b f' H. unfold run_block in H. destruct (dget (bid b) (fstates f)) as [cur|]; [|discriminate].
  exists cur. split; auto. injection H as <-. destruct (bterm b); split; reflexivity.
Qed.

Lemma oInv_merge_step : forall st t s j,
  Inv s -> oInv (dget j st) -> oInv (dget j (dset t (merge_into s (dget t st)) st)).
Proof.
  intros st t s j Is Hj. rewrite dget_dset. destruct (Nat.eqb j t) eqn:E; [|exact Hj].
  apply Nat.eqb_eq in E. subst t. intros s' H. injection H as <-. apply Inv_merge_opt; assumption.
Qed.

Lemma merge_all_oInv : forall outs st j,
  (forall sn, In sn outs -> Inv (fst sn)) -> oInv (dget j st) -> oInv (dget j (merge_all st outs)).
Proof.
  induction outs as [|[s t] rest IH]; intros st j Ho Hj; cbn [merge_all fold_left]; auto.
  apply IH; [intros sn Hin; apply Ho; right; exact Hin|].
  apply oInv_merge_step; [apply (Ho (s, t)); left; reflexivity | exact Hj].
Qed.

Lemma outs_Inv : forall t s, Inv s -> forall sn, In sn (outs_of t s) -> Inv (fst sn).
Proof.
  intros t s HI sn Hin. destruct t; simpl in Hin.
  - destruct Hin as [E|[]]. subst. exact HI.
  - destruct Hin as [E|[]]. subst. exact HI.
  - destruct Hin as [E|[E|[]]]; subst; apply Inv_with_condition_lemma; exact HI.
  - destruct Hin.
Qed.

(* the states merged on leaving a block, next to the edges of the path semantics *)
Definition out_sem (rho : nat -> bool) (Aex : env -> Prop) (sn : state * nat) (en : bool * nat) : Prop :=
  snd sn = snd en /\ Inv (fst sn) /\ Spec rho (fst sn) (fun e => fst en = true /\ Aex e).

Lemma outs_sem : forall rho t s (Aex : env -> Prop),
  Inv s -> Spec rho s Aex -> Forall2 (out_sem rho Aex) (outs_of t s) (sem_outs rho t).
Proof.
  intros rho t s Aex HI HS.
  assert (Spec rho s (fun e => true = true /\ Aex e)) as HS'.
  { eapply SpecO_ext; eauto. intros e. tauto. }
  destruct t as [n|j|a j n|]; cbn [outs_of sem_outs].
  - constructor; [|constructor]. split; [reflexivity|]. split; assumption.
  - constructor; [|constructor]. split; [reflexivity|]. split; assumption.
  - constructor; [|constructor; [|constructor]];
      (split; [reflexivity|]; split; [apply Inv_with_condition_lemma, HI | apply with_spec; assumption]).
  - constructor.
Qed.

(* one merge, seen from block id j *)
Lemma merge_step_spec : forall rho st t s (B : env -> Prop) j A,
  oInv (dget j st) -> Inv s -> Spec rho s B -> SpecO rho (dget j st) A ->
  SpecO rho (dget j (dset t (merge_into s (dget t st)) st)) (fun e => A e \/ (t = j /\ B e)).
Proof.
  intros rho st t s B j A Hs Is Ss HA. rewrite dget_dset. destruct (Nat.eqb j t) eqn:E.
  - apply Nat.eqb_eq in E. subst t.
    eapply SpecO_ext; [apply (merge_spec rho s (dget j st) B A Is Hs Ss HA)|].
    intros e. split; [intros [Hb|Ha]; auto | intros [Ha|[_ Hb]]; auto].
  - apply Nat.eqb_neq in E. eapply SpecO_ext; [exact HA|].
    intros e. split; [auto | intros [Ha|[Et _]]; [exact Ha | destruct (E (eq_sym Et))]].
Qed.

Lemma merge_all_spec : forall rho (Aex : env -> Prop) outs sem,
  Forall2 (out_sem rho Aex) outs sem ->
  forall st j A, oInv (dget j st) -> SpecO rho (dget j st) A ->
  SpecO rho (dget j (merge_all st outs)) (fun e => A e \/ (In (true, j) sem /\ Aex e)).
Proof.
  intros rho Aex outs sem F. induction F as [|[s t] [en t'] outs sem [Et [Is Ss]] F IH]; intros st j A Hs HA.
  - eapply SpecO_ext; [exact HA|]. intros e. split; [auto | intros [Ha|[[] _]]; exact Ha].
  - cbn [fst snd] in *. subst t'. cbn [merge_all fold_left fst snd].
    eapply SpecO_ext; [apply IH; [apply oInv_merge_step; assumption | apply merge_step_spec; eassumption]|].
    intros e. split.
    + intros [[Ha|[<- [-> Hx]]]|[Hin Hx]];
        [left; exact Ha | right; split; [left; reflexivity | exact Hx] | right; split; [right; exact Hin | exact Hx]].
    + intros [Ha|[[E|Hin] Hx]]; [left; left; exact Ha | injection E as -> ->; left; right; auto | right; auto].
Qed.

Lemma init_locals_get : forall l x,
  dget x (init_locals l) = option_map (fun v => from_value v None) (dget x (init_env l)).
Proof.
  intros l x. unfold init_locals, init_env, apply_stores.
  assert (forall (d : list (nat * variable)) (e : env),
            dget x d = option_map (fun v => from_value v None) (dget x e) ->
            dget x (fold_left (fun d xv => dset (fst xv) (from_value (snd xv) None) d) l d) =
            option_map (fun v => from_value v None)
                       (dget x (fold_left (fun e xv => dset (fst xv) (snd xv) e) l e))) as G.
  { induction l as [|[y v] t IH]; intros d e H; simpl; auto.
    apply IH. rewrite !dget_dset. destruct (Nat.eqb x y); auto. }
  apply G. reflexivity.
Qed.

Lemma init_state_spec : forall init rho,
  Spec rho (new_state (init_locals init) CT None) (fun e => e = init_env init).
Proof.
  intros init rho. unfold Spec, SpecO, ovals, oreach. split.
  - intros x v. unfold vals, blk. cbn [new_state locals wbc scond holds].
    rewrite init_locals_get. destruct (dget x (init_env init)) as [v0|] eqn:E; cbn [option_map].
    + assert (nmem x (keys_set (init_locals init)) = true) as Hm.
      { apply keys_set_mem. eapply dget_in_keys. rewrite init_locals_get, E. reflexivity. }
      rewrite Hm. cbn. split.
      * intros [Hv|[]]. subst. exists (init_env init). auto.
      * intros [e [Ee Hd]]. subst e. rewrite E in Hd. inversion Hd. auto.
    + split; [intros []|]. intros [e [Ee Hd]]. subst e. rewrite E in Hd. discriminate.
  - cbn. split; [intros _; exists (init_env init); reflexivity | reflexivity].
Qed.

Lemma run_blocks_app : forall l1 l2 f,
  run_blocks (l1 ++ l2) f = match run_blocks l1 f with Some f' => run_blocks l2 f' | None => None end.
Proof.
  induction l1 as [|b t IH]; intros l2 f; simpl; auto.
  destruct (run_block f b); auto.
Qed.

Lemma firstn_succ : forall (l : list block) p b, nth_error l p = Some b -> firstn (S p) l = firstn p l ++ [b].
Proof.
  induction l as [|a t IH]; intros [|p] b H; simpl in *; try discriminate.
  - inversion H. reflexivity.
  - f_equal. apply IH. exact H.
Qed.

Section FrameL.
  Variable code : list block.
  Variable init : list (nat * nat).
  Hypothesis ND : NoDup (map bid code).

  (* j is the id of none of the first k blocks *)
  Definition fresh (k j : nat) : Prop := forall q b', q < k -> nth_error code q = Some b' -> bid b' <> j.

  (* after the first k blocks: the state recorded for any id that is not the id of a processed block
     satisfies Inv and denotes exactly the environments arriving there along enabled FORWARD paths
     through the processed blocks; the _FINAL state satisfies Inv and denotes the exit environments of
     the processed NO_NEXT blocks.  (States merged into processed blocks are never read again: nothing
     is claimed of them.) *)
  Definition InvL (k : nat) (f : frame) : Prop :=
    (forall j, fresh k j ->
       oInv (dget j (fstates f)) /\
       forall rho, SpecO rho (dget j (fstates f)) (arrivesFK code init rho k j)) /\
    oInv (ffinal f) /\
    (forall rho, SpecO rho (ffinal f) (finalFK code init rho k)).

  Lemma InvL_init : forall f, init_frame code init = Some f -> InvL 0 f.
  Proof.
    intros f H. unfold init_frame in H. destruct code as [|b0 rest] eqn:Ec; [discriminate|].
    injection H as <-. split; [|split].
    - intros j _. cbn [fstates dget]. destruct (Nat.eqb j (bid b0)) eqn:E.
      + apply Nat.eqb_eq in E. subst j. split; [intros s H; injection H as <-; apply Inv_init_from_values|].
        intros rho. eapply SpecO_ext; [apply init_state_spec|]. intros e. split.
        * intros Ee. subst e. apply (afk_entry _ _ _ _ b0). rewrite Ec. reflexivity.
        * intros Ha. apply arrivesFK_zero in Ha. destruct Ha as [b [_ [_ Ee]]]. exact Ee.
      + split; [discriminate|]. intros rho. apply SpecO_none. intros e Ha. apply arrivesFK_zero in Ha.
        destruct Ha as [b [Hb [Ej _]]]. rewrite Ec in Hb. injection Hb as <-. subst j.
        rewrite Nat.eqb_refl in E. discriminate.
    - discriminate.
    - intros rho. apply SpecO_none. intros e [p [b [e0 [Hp _]]]]. exact (Nat.nlt_0_r _ Hp).
  Qed.

  Lemma InvL_step : forall k f b f',
    InvL k f -> nth_error code k = Some b -> run_block f b = Some f' -> InvL (S k) f'.
  Proof.
    intros k f b f' [HS [HIf HF]] Hk Hrun.
    destruct (run_block_states _ _ _ Hrun) as [cur [Hcur [Hst Hfin]]].
    destruct (HS _ (fresh_pos code k b ND Hk)) as [Icur Scur]. rewrite Hcur in Scur.
    set (cur' := run_stores (bstores b) cur) in *.
    assert (Inv cur') as Icur' by (apply run_stores_Inv, (Icur _ Hcur)).
    set (Aex := fun rho e' => exists e, arrivesFK code init rho k (bid b) e /\ e' = apply_stores (bstores b) e).
    assert (forall rho, Spec rho cur' (Aex rho)) as Scur' by (intros rho; apply run_stores_spec, Scur).
    split; [|split].
    - (* an id fresh after k+1 blocks is not b's, was fresh before, and the edge from k to it is forward *)
      intros j Hj. rewrite Hst.
      assert (fwd_edge code k j) as Hfw by (intros q b' Hq; apply Hj, Nat.lt_succ_r, Hq).
      destruct (HS j) as [HIj HSj]; [intros q b' Hq; apply Hj, Nat.lt_lt_succ_r, Hq|].
      rewrite <- (dget_dset_other _ j (bid b) cur') in HIj, HSj
        by (intros E; apply (Hfw k b (le_n k) Hk); auto).
      split; [apply merge_all_oInv; [apply outs_Inv, Icur' | exact HIj]|].
      intros rho. eapply SpecO_ext.
      + apply (merge_all_spec rho _ _ _ (outs_sem rho (bterm b) cur' _ Icur' (Scur' rho)) _ j _ HIj (HSj rho)).
      + intros e. rewrite (arrivesFK_succ code init rho k b j e Hk). split.
        * intros [Ha|[Hin Hex]]; [left; exact Ha | right; split; [exact Hin | split; [exact Hfw | exact Hex]]].
        * intros [Ha|[Hin [_ Hex]]]; [left; exact Ha | right; split; assumption].
    - rewrite Hfin. destruct (exits (bterm b)); [|exact HIf].
      intros s Hs. injection Hs as <-. apply Inv_merge_opt; assumption.
    - intros rho. rewrite Hfin. destruct (exits (bterm b)) eqn:Ex.
      + eapply SpecO_ext; [apply (merge_spec rho cur' (ffinal f) _ _ Icur' HIf (Scur' rho) (HF rho))|].
        intros e. rewrite (finalFK_succ code init rho k b e Hk), Ex. split.
        * intros [H|H]; [right; split; [reflexivity | exact H] | left; exact H].
        * intros [H|[_ H]]; [right; exact H | left; exact H].
      + eapply SpecO_ext; [apply HF|].
        intros e. rewrite (finalFK_succ code init rho k b e Hk), Ex. split.
        * intros H. left. exact H.
        * intros [H|[H _]]; [exact H | discriminate].
  Qed.

  Lemma InvL_prefix : forall p f, p <= length code -> run_prefix code init p = Some f -> InvL p f.
  Proof.
    induction p as [|p IH]; intros f Hle H; unfold run_prefix in *;
      destruct (init_frame code init) as [f0|] eqn:E; try discriminate.
    - injection H as <-. apply InvL_init. exact E.
    - destruct (nth_error code p) as [b|] eqn:Hb; [|destruct (proj2 (nth_error_Some code p) Hle Hb)].
      rewrite (firstn_succ _ _ _ Hb), run_blocks_app in H.
      destruct (run_blocks (firstn p code) f0) as [f1|] eqn:E1; [|discriminate].
      cbn [run_blocks] in H. destruct (run_block f1 b) as [f2|] eqn:E2; [|discriminate]. injection H as <-.
      apply (InvL_step p f1 b); auto. apply IH; [apply Nat.lt_le_incl, Hle | reflexivity].
  Qed.

  (* what has been recorded for a block when its turn comes *)
  Lemma entry_spec : forall p b f, nth_error code p = Some b -> run_prefix code init p = Some f ->
    oInv (dget (bid b) (fstates f)) /\
    forall rho, SpecO rho (dget (bid b) (fstates f)) (arrivesF code init rho (bid b)).
  Proof.
    intros p b f Hb Ef.
    assert (p < length code) as Hp by (apply nth_error_Some; congruence).
    destruct (InvL_prefix p f (Nat.lt_le_incl _ _ Hp) Ef) as [H _].
    destruct (H _ (fresh_pos code p b ND Hb)) as [HI HS].
    split; [exact HI|]. intros rho. eapply SpecO_ext; [apply HS|].
    intros e. split.
    - intros Ha. apply (arrivesFK_mono _ _ _ p); [exact Ha | apply Nat.lt_le_incl, Hp].
    - intros Ha. apply (arrivesFK_restrict _ _ _ _ _ _ Ha p b Hb eq_refl).
  Qed.

  Lemma frame_loop_join_exact_lemma : forall p b s,
    nth_error code p = Some b -> entry_state code init p = Some s ->
    Inv s /\
    forall rho,
      (forall x v, In v (vals rho s x) <->
                   exists e, arrivesF code init rho (bid b) e /\ dget x e = Some v) /\
      (holds rho (scond s) = true <-> exists e, arrivesF code init rho (bid b) e).
  Proof.
    intros p b s Hb He. unfold entry_state in He.
    destruct (run_prefix code init p) as [f|] eqn:Ef; [|discriminate]. rewrite Hb in He.
    destruct (entry_spec p b f Hb Ef) as [HI HS]. rewrite He in HS. split; [apply (HI _ He) | exact HS].
  Qed.

  (* a block that some enabled forward path reaches has a recorded state when its turn comes *)
  Lemma frame_loop_reached_has_state_lemma : forall p b f rho e,
    nth_error code p = Some b -> run_prefix code init p = Some f ->
    arrivesF code init rho (bid b) e -> exists s, entry_state code init p = Some s.
  Proof.
    intros p b f rho e Hb Ef Ha. unfold entry_state. rewrite Ef, Hb.
    destruct (entry_spec p b f Hb Ef) as [_ HS]. specialize (HS rho).
    destruct (dget (bid b) (fstates f)) as [s|]; [eauto|].
    destruct (proj1 (SpecO_none _ _) HS e Ha).
  Qed.

End FrameL.

