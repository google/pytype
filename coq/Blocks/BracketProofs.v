(* C16: composition of the exception-table theorems (Blocks/ExcProofs.v) with the model of add_pop_block_targets
   (Blocks/Apbt.v): the opcode list built from the output of _add_setup_except is bracketed in the sense of
   [brk_ops], the bracket clause of [apbt_okb] (third hypothesis of apbt_total_on_bracketed_input). *)
From Coq Require Import List NArith Arith Bool Lia.
From PV Require Import Generated.C16_OpcodeFlags Blocks.Model Blocks.Proofs Blocks.ExcProofs Blocks.Apbt Blocks.ApbtProofs.
Import ListNotations.

Local Opaque flags_of.

(* every op of the table _add_setup_except returns is an original instruction, or a synthetic op whose class matches
   the class of its key (0 mod 4: SETUP_EXCEPT_311, 2 mod 4: POP_BLOCK) *)
Lemma exception_ops_shape_lemma : forall items entries out,
  wf_excb items entries = true -> add_setup_except entries items = Ok out ->
  forall h, In h out -> op_class items h.
Proof.
  intros items entries out H E h Hh. destruct (add_setup_except_spec _ _ _ H E) as [A [R [b [-> [I RR]]]]].
  apply in_app_or in Hh. destruct Hh as [Hh|Hh]; [exact (i_shape _ _ _ _ _ I h Hh) | left; split].
  - rewrite Forall_forall in RR. exact (RR h Hh).
  - rewrite (i_real _ _ _ _ _ I). apply in_or_app. right. exact Hh.
Qed.

Fixpoint brk_opc (cs : list N) (opened : bool) : bool :=
  match cs with
  | [] => true
  | c :: t => if N.eqb c op_SETUP_EXCEPT_311 then negb opened && brk_opc t true
              else if N.eqb c op_POP_BLOCK then opened && brk_opc t false
              else brk_opc t opened
  end.

Lemma brk_ops_opc : forall ops b, brk_ops ops b = brk_opc (map opc ops) b.
Proof.
  induction ops as [|o t IH]; intros b; [reflexivity|]. cbn [brk_ops map brk_opc]. unfold is_op.
  rewrite !IH. reflexivity.
Qed.

Definition class_agrees (h : xitem) : Prop :=
  ((x_key h mod 4 = 0)%N /\ x_opc h = op_SETUP_EXCEPT_311) \/
  ((x_key h mod 4 = 2)%N /\ x_opc h = op_POP_BLOCK) \/
  ((x_key h mod 4 = 1)%N /\ x_opc h <> op_SETUP_EXCEPT_311 /\ x_opc h <> op_POP_BLOCK).

Lemma brk_transfer : forall xs b, (forall h, In h xs -> class_agrees h) ->
  brk (map x_key xs) b = true -> brk_opc (map x_opc xs) b = true.
Proof.
  induction xs as [|x t IH]; intros b Hall H; [reflexivity|].
  cbn [map brk brk_opc] in *.
  assert (Ht : forall h, In h t -> class_agrees h) by (intros; apply Hall; right; auto).
  destruct (Hall x (or_introl eq_refl)) as [[K C]|[[K C]|[K [C1 C2]]]].
  - rewrite K in H. rewrite C. rewrite N.eqb_refl in *. apply andb_prop in H. destruct H as [H1 H2].
    rewrite H1. simpl. auto.
  - rewrite K in H. rewrite C. change (N.eqb 2 0) with false in H. rewrite N.eqb_refl in H.
    assert (E : N.eqb op_POP_BLOCK op_SETUP_EXCEPT_311 = false) by (apply N.eqb_neq; exact pop_ne_setup311).
    rewrite E, N.eqb_refl. apply andb_prop in H. destruct H as [H1 H2]. rewrite H1. simpl. auto.
  - rewrite K in H. change (N.eqb 1 0) with false in H. change (N.eqb 1 2) with false in H.
    apply N.eqb_neq in C1. apply N.eqb_neq in C2. rewrite C1, C2. auto.
Qed.

(* _make_opcode_list keeps the class sequence (python_version <> (3, 11): nothing is elided) *)
Lemma mol_loop_opc : forall minor, minor <> 11%N -> forall items acc o2i k,
  map opc (map fst (fst (mol_loop minor items acc o2i k))) = rev (map opc (map fst acc)) ++ map iopc items.
Proof.
  intros minor Hm. assert (Hne : forall it rest, should_elide minor it rest = false).
  { intros. unfold should_elide. apply N.eqb_neq in Hm. rewrite Hm. reflexivity. }
  induction items as [|it rest IH]; intros acc o2i k; cbn [mol_loop].
  - cbn [fst map]. rewrite app_nil_r, !map_rev. reflexivity.
  - rewrite Hne. rewrite IH. cbn [map fst opc]. 
    assert (E : map opc (map fst match acc with
                                  | [] => []
                                  | (p, pit) :: t => (set_next p (Some k), pit) :: t
                                  end) = map opc (map fst acc)).
    { destruct acc as [|[p pit] t]; reflexivity. }
    rewrite E. cbn [rev]. rewrite <- app_assoc. reflexivity.
Qed.

Lemma ajt_one_opc : forall n all o2i oi o', ajt_one n all o2i oi = Ok o' -> opc o' = opc (fst oi).
Proof.
  intros n all o2i [o it] o' H. unfold ajt_one in H. cbn [fst].
  destruct (ipreset it).
  - destruct (index_of_item n0 all); inversion H; reflexivity.
  - destruct (has_known_jump o); [|inversion H; reflexivity].
    destruct (iarg it); [|discriminate]. destruct (assocN n0 o2i); [|discriminate].
    destruct (N.to_nat n1 <? n); inversion H; reflexivity.
Qed.

Lemma map_res_opc : forall (f : instr * item -> res instr) l r,
  (forall a b, f a = Ok b -> opc b = opc (fst a)) -> map_res f l = Ok r -> map opc r = map opc (map fst l).
Proof.
  intros f. induction l as [|a t IH]; intros r Hf H; simpl in H.
  - inversion H. reflexivity.
  - destruct (f a) as [b|] eqn:Ea; [|discriminate]. simpl in H.
    destruct (map_res f t) as [bs|] eqn:Et; [|discriminate]. simpl in H. inversion H; subst.
    cbn [map]. rewrite (Hf _ _ Ea), (IH bs Hf eq_refl). reflexivity.
Qed.

Lemma build_ops_opc : forall minor items ops, minor <> 11%N ->
  build_ops minor items = Ok ops -> map opc ops = map iopc items.
Proof.
  intros minor items ops Hm H. unfold build_ops in H.
  pose proof (mol_loop_opc minor Hm items [] [] 0%N) as E.
  destruct (mol_loop minor items [] [] 0%N) as [all o2i]. cbn [fst] in E. simpl in E.
  rewrite <- E. eapply map_res_opc; [|exact H]. intros a b. apply ajt_one_opc.
Qed.

Lemma bracket_composition_lemma : forall items entries out minor its ops,
  wf_excb items entries = true ->
  (forall h, In h items -> x_opc h <> op_SETUP_EXCEPT_311 /\ x_opc h <> op_POP_BLOCK) ->
  add_setup_except entries items = Ok out ->
  minor <> 11%N -> map iopc its = map x_opc out -> build_ops minor its = Ok ops ->
  brk_ops ops false = true.
Proof.
  intros items entries out minor its ops Hwf Hnb Ha Hm Hcls Hb.
  rewrite brk_ops_opc, (build_ops_opc _ _ _ Hm Hb), Hcls.
  apply brk_transfer; [|exact (exception_ops_nested_lemma _ _ _ Hwf Ha)].
  intros h Hh. destruct (exception_ops_shape_lemma _ _ _ Hwf Ha h Hh) as [[K Hi]|[S|P]].
  - right. right. split; auto.
  - left. exact S.
  - right. left. exact P.
Qed.
