(* C16: lemmas about the model of blocks.add_pop_block_targets (Blocks/Apbt.v).
   The flag table flags_of is never unfolded.  The class ids op_X are only compared with each other (they are
   pairwise distinct for whatever table the translator regenerates: it numbers the classes consecutively). *)
From Coq Require Import List NArith Arith Bool Lia.
From PV Require Import Generated.C16_OpcodeFlags Blocks.Model Blocks.Proofs Blocks.FuelProofs Blocks.Apbt.
Import ListNotations.

Local Opaque flags_of.

Lemma is_op_excl : forall a b o, is_op a o = true -> a <> b -> is_op b o = false.
Proof.
  unfold is_op. intros a b o H Hne. apply N.eqb_eq in H. apply N.eqb_neq. congruence.
Qed.

Lemma pop_ne_setup311 : op_POP_BLOCK <> op_SETUP_EXCEPT_311.
Proof. unfold op_POP_BLOCK, op_SETUP_EXCEPT_311. discriminate. Qed.
Lemma raise_ne_setup311 : op_RAISE_VARARGS <> op_SETUP_EXCEPT_311.
Proof. unfold op_RAISE_VARARGS, op_SETUP_EXCEPT_311. discriminate. Qed.
Lemma raise_ne_pop : op_RAISE_VARARGS <> op_POP_BLOCK.
Proof. unfold op_RAISE_VARARGS, op_POP_BLOCK. discriminate. Qed.

Lemma op_at_nat : forall ops k, op_at ops (N.of_nat k) = nth_error ops k.
Proof. intros. unfold op_at. rewrite Nat2N.id. reflexivity. Qed.

Lemma op_at_lt : forall ops i o, op_at ops i = Some o -> N.to_nat i < length ops.
Proof. unfold op_at. intros ops i o H. apply nth_error_Some. congruence. Qed.

Lemma op_at_In : forall ops i o, op_at ops i = Some o -> In o ops.
Proof. unfold op_at. intros. eapply nth_error_In; eauto. Qed.

Lemma walk_prev_spec : forall ops fuel i su,
  walk_prev ops fuel i = Ok su -> In su ops /\ is_setup_except su = true.
Proof.
  induction fuel as [|f IH]; intros i su H; simpl in H; [discriminate|].
  destruct (op_at ops i) as [o|] eqn:Eo; [|discriminate].
  destruct (is_setup_except o) eqn:Es.
  - inversion H; subst. split; auto. eapply op_at_In; eauto.
  - destruct (prev o); [|discriminate]. eauto.
Qed.

Lemma walk_prev_err : forall ops fuel i e, walk_prev ops fuel i = Err e -> e = 45 \/ e = 47 \/ e = 48.
Proof.
  induction fuel as [|f IH]; intros i e H; cbn [walk_prev] in H; [injection H as <-; auto|].
  destruct (op_at ops i) as [o|]; [|injection H as <-; auto].
  destruct (is_setup_except o); [discriminate|].
  destruct (prev o); [exact (IH _ _ H) | injection H as <-; auto].
Qed.

Lemma find_except_spec : forall st b, find_except st = Some b -> In b st /\ is_setup_except b = true.
Proof.
  induction st as [|x st IH]; simpl; intros b H; [discriminate|].
  destruct (is_setup_except x) eqn:E.
  - inversion H; subst. auto.
  - destruct (IH _ H). auto.
Qed.

Lemma find_loop_spec : forall st b below, find_loop st = Some (b, below) ->
  exists pre, st = pre ++ b :: below.
Proof.
  induction st as [|x st IH]; simpl; intros b below H; [discriminate|].
  destruct (is_op op_SETUP_LOOP x).
  - inversion H; subst. exists []. reflexivity.
  - destruct (IH _ _ H) as [pre E]. exists (x :: pre). simpl. congruence.
Qed.

Definition poslist (n : nat) : list N := map N.of_nat (seq 0 n).

Lemma poslist_In : forall n i, N.to_nat i < n -> In i (poslist n).
Proof.
  intros n i H. unfold poslist. apply in_map_iff. exists (N.to_nat i). split; [apply N2Nat.id|].
  apply in_seq. lia.
Qed.

Lemma poslist_length : forall n, length (poslist n) = n.
Proof. intros. unfold poslist. rewrite map_length, seq_length. reflexivity. Qed.

Definition amu (n : nat) (s : ast) : nat := 2 * (n - length (a_seen s)) + length (a_todo s).

Definition blockop (ops : list instr) (s : instr) : Prop :=
  In s ops /\ (is_setup_except s || pushes_block s) = true.
Definition bt_ok (ops : list instr) (v : option N) : Prop :=
  forall t, v = Some t -> exists s, blockop ops s /\ target s = Some t.

(* what one iteration can do: at most one todo.append besides the successor; an error other than the fuel code; and
   block stacks, pushed and assigned, made of block-pushing opcodes of the list *)
Lemma apbt_case_spec : forall ops pxb i op st,
  match apbt_case ops pxb i op st with
  | Ok (st', pushes, asg) =>
    length pushes <= 1 /\
    (Forall (blockop ops) st -> In op ops ->
     Forall (blockop ops) st' /\ Forall (fun p => Forall (blockop ops) (snd p)) pushes /\
     match asg with Some v => bt_ok ops v | None => True end)
  | Err e => e <> 40
  end.
Proof.
  intros ops pxb i op st. unfold apbt_case.
  assert (Hsame : 0 <= 1 /\ (Forall (blockop ops) st -> In op ops ->
            Forall (blockop ops) st /\ Forall (fun p : option N * list instr => Forall (blockop ops) (snd p)) [] /\ True)) by auto.
  assert (Hbt : forall b, blockop ops b -> bt_ok ops (target b)) by (intros b Hb t Ht; exists b; auto).
  destruct (is_op op_POP_BLOCK op).
  { destruct st as [|b below]; [discriminate|]. split; [apply Nat.le_0_l|]. intros Hst _.
    apply Forall_cons_iff in Hst. destruct Hst as [Hb Hbelow]. auto. }
  destruct (is_op op_RAISE_VARARGS op).
  { destruct (find_except st) as [b|] eqn:Ef; [|exact Hsame]. split; [apply Nat.le_0_l|]. intros Hst _.
    apply find_except_spec in Ef. destruct Ef as [Hb _]. pose proof (proj1 (Forall_forall _ _) Hst b Hb). auto. }
  destruct (is_op op_BREAK_LOOP op).
  { destruct (find_loop st) as [[b below]|] eqn:Ef; [|exact Hsame].
    destruct (optN_eqb (target b) (Some i)); [discriminate|]. split; [apply le_n|]. intros Hst _.
    apply find_loop_spec in Ef. destruct Ef as [pre Ef]. pose proof Hst as Hst'. rewrite Ef in Hst'.
    apply Forall_app in Hst'. destruct Hst' as [_ Hst']. apply Forall_cons_iff in Hst'. destruct Hst' as [Hb Hbelow].
    auto. }
  destruct (is_setup_except op) eqn:Cs.
  { split; [apply le_n|]. intros Hst Hop. assert (blockop ops op) by (split; [exact Hop | rewrite Cs; reflexivity]). auto. }
  destruct (pushes_block op) eqn:Cp.
  { destruct (target op); [|discriminate]. split; [apply Nat.le_0_l|]. intros Hst Hop.
    assert (blockop ops op) by (split; [exact Hop | rewrite Cp; apply orb_true_r]). auto. }
  destruct (does_jump op && match target op with Some _ => true | None => false end); [|exact Hsame].
  destruct (memN i pxb); [|split; [apply le_n | auto]].
  destruct (target op) as [t|]; [|exact Hsame].
  destruct (walk_prev ops (S (length ops)) t) as [su|e] eqn:Ew; cbn [bind].
  - split; [apply le_n|]. intros Hst _. apply walk_prev_spec in Ew. destruct Ew as [W1 W2].
    assert (blockop ops su) by (split; [exact W1 | rewrite W2; reflexivity]).
    assert (Forall (blockop ops) (su :: st)) by auto. auto.
  - apply walk_prev_err in Ew. destruct Ew as [->|[->| ->]]; discriminate.
Qed.

(* seen holds distinct positions of the list (so the walk ends); every block stack, queued or assigned from, is made
   of block-pushing opcodes of the list *)
Record ainv (ops : list instr) (s : ast) : Prop := {
  af_nodup : NoDup (a_seen s);
  af_valid : forall i, In i (a_seen s) -> N.to_nat i < length ops;
  af_err : a_err s <> 40;
  aq_todo : forall x st, In (x, st) (a_todo s) -> Forall (blockop ops) st;
  aq_bt : forall i v, In (i, v) (a_bt s) -> bt_ok ops v
}.

Lemma astep_inv : forall ops pxb s, ainv ops s ->
  ainv ops (astep ops pxb s) /\
  (afin s = false -> amu (length ops) (astep ops pxb s) < amu (length ops) s).
Proof.
  intros ops pxb s I. pose proof I as [Ind Ival Ierr Itodo Ibt].
  assert (Hfail : forall e, e <> 40 -> ainv ops (afail s e)).
  { intros e He. constructor; cbn; auto. intros x st []. }
  unfold afin, astep, amu. destruct (a_todo s) as [|[[i|] st] rest]; [split; [exact I|] | |split; [apply Hfail; discriminate | cbn; lia]].
  { rewrite orb_true_r. discriminate. }
  assert (Irest : forall x s0, In (x, s0) rest -> Forall (blockop ops) s0) by (intros x s0 H; apply (Itodo x s0); right; exact H).
  destruct (memN i (a_seen s)) eqn:Es; [split; [constructor; assumption | cbn; lia]|]. apply memN_false in Es.
  destruct (op_at ops i) as [op|] eqn:Eo; [|split; [apply Hfail; discriminate | cbn; lia]].
  pose proof (apbt_case_spec ops pxb i op st) as Hc.
  destruct (apbt_case ops pxb i op st) as [[[st' pushes] asg]|e]; [|split; [apply Hfail, Hc | cbn; lia]].
  destruct Hc as [Lp Hc]. destruct (Hc (Itodo _ _ (or_introl eq_refl)) (op_at_In _ _ _ Eo)) as [Q1 [Q2 Q3]].
  rewrite Forall_forall in Q2.
  assert (Nd : NoDup (i :: a_seen s)) by (constructor; assumption).
  assert (Hv : forall j, In j (i :: a_seen s) -> N.to_nat j < length ops).
  { intros j [<-|Hj]; [exact (op_at_lt _ _ _ Eo) | exact (Ival j Hj)]. }
  (* the seen positions are distinct positions of the list *)
  assert (Ls : S (length (a_seen s)) <= length ops).
  { rewrite <- (poslist_length (length ops)). apply (NoDup_incl_length Nd). intros j Hj. apply poslist_In, Hv, Hj. }
  assert (Htodo1 : forall x s0, In (x, s0) (rev pushes ++ rest) -> Forall (blockop ops) s0).
  { intros x s0 H. apply in_app_or in H. destruct H as [H|H]; [apply in_rev in H; exact (Q2 _ H) | exact (Irest x s0 H)]. }
  assert (Hbt : forall j v, In (j, v) (match asg with Some v0 => (i, v0) :: a_bt s | None => a_bt s end) -> bt_ok ops v).
  { intros j v H. destruct asg as [v0|]; [|exact (Ibt j v H)].
    destruct H as [H|H]; [injection H as _ <-; exact Q3 | exact (Ibt j v H)]. }
  destruct (no_next op); [|destruct (next op)]; (split; [constructor; cbn; auto | cbn; rewrite app_length, rev_length; lia]).
  - intros x s0 [H|H]; [injection H as _ <-; exact Q1 | exact (Htodo1 x s0 H)].
  - discriminate.
Qed.

Definition astate0 : ast := mkA [(Some 0%N, [])] [] [] 0.

Lemma ainv_init : forall ops, ainv ops astate0.
Proof.
  intros. constructor; cbn; [constructor | intros i [] | discriminate | | intros i v []].
  intros x st [H|[]]. injection H as _ <-. constructor.
Qed.

Lemma apbt_fuel_enough : forall ops, amu (length ops) astate0 < 2 ^ apbt_fuel ops.
Proof.
  intros ops. unfold apbt_fuel. apply fuel_for_gt. unfold amu, astate0. cbn [a_seen a_todo length]. lia.
Qed.

Lemma apbt_run_inv : forall ops pxb, ainv ops (apbt_run ops pxb) /\ afin (apbt_run ops pxb) = true.
Proof.
  intros ops pxb. apply (run_terminates ast (astep ops pxb) afin (amu (length ops)) (ainv ops)).
  - intros s I Fn. destruct (astep_inv ops pxb s I) as [I' M]. auto.
  - apply ainv_init.
  - apply apbt_fuel_enough.
Qed.

Lemma apply_bt_length : forall bt ops pos, length (apply_bt bt ops pos) = length ops.
Proof. induction ops as [|o t IH]; intros pos; simpl; [reflexivity|]. rewrite IH. reflexivity. Qed.

Lemma apply_bt_nth : forall bt ops pos k o, nth_error ops k = Some o ->
  nth_error (apply_bt bt ops pos) k =
  Some (set_bt o (match assocN (pos + N.of_nat k) bt with Some v => v | None => None end)).
Proof.
  induction ops as [|a t IH]; intros pos k o H; [destruct k; discriminate|].
  destruct k; simpl in H.
  - inversion H; subst. simpl. rewrite N.add_0_r. reflexivity.
  - cbn [apply_bt nth_error]. rewrite (IH (pos + 1)%N k o H).
    replace (pos + N.of_nat (S k))%N with (pos + 1 + N.of_nat k)%N by lia. reflexivity.
Qed.

Lemma apply_bt_nth_inv : forall bt ops pos k o', nth_error (apply_bt bt ops pos) k = Some o' ->
  exists o, nth_error ops k = Some o /\
            o' = set_bt o (match assocN (pos + N.of_nat k) bt with Some v => v | None => None end).
Proof.
  intros bt ops pos k o' H.
  assert (Hk : k < length ops).
  { rewrite <- (apply_bt_length bt ops pos). apply nth_error_Some. congruence. }
  destruct (nth_error ops k) as [o|] eqn:E; [|apply nth_error_None in E; lia].
  exists o. split; auto. rewrite (apply_bt_nth bt ops pos k o E) in H. congruence.
Qed.

Lemma apbt_ok_shape : forall ops pxb ops',
  add_pop_block_targets ops pxb = Ok ops' -> ops' = apply_bt (a_bt (apbt_run ops pxb)) ops 0.
Proof.
  intros ops pxb ops' H. unfold add_pop_block_targets in H.
  destruct ops as [|o0 rest]; [inversion H; reflexivity|].
  destruct (a_err (apbt_run (o0 :: rest) pxb)); [|discriminate].
  destruct (afin (apbt_run (o0 :: rest) pxb)); [|discriminate].
  congruence.
Qed.

Lemma apbt_targets_lemma : forall ops pxb ops',
  add_pop_block_targets ops pxb = Ok ops' ->
  length ops' = length ops /\
  forall k o', nth_error ops' k = Some o' ->
    exists o, nth_error ops k = Some o /\ o' = set_bt o (block_target o') /\
      forall t, block_target o' = Some t ->
        exists s, In s ops /\ (is_setup_except s || pushes_block s) = true /\ target s = Some t.
Proof.
  intros ops pxb ops' H. apply apbt_ok_shape in H. subst ops'.
  pose proof (aq_bt _ _ (proj1 (apbt_run_inv ops pxb))) as Ibt.
  split; [apply apply_bt_length|].
  intros k o' Hk. apply apply_bt_nth_inv in Hk. destruct Hk as [o [Ho Eo']].
  exists o. split; auto.
  assert (Ebt : block_target o' = match assocN (0 + N.of_nat k) (a_bt (apbt_run ops pxb)) with Some v => v | None => None end)
    by (rewrite Eo'; reflexivity).
  split; [rewrite Ebt; exact Eo'|].
  intros t Ht. rewrite Ebt in Ht.
  destruct (assocN (0 + N.of_nat k) (a_bt (apbt_run ops pxb))) as [v|] eqn:Ea; [|discriminate].
  apply assocN_In_pair in Ea. destruct (Ibt _ _ Ea t Ht) as [s [[Hs1 Hs2] Hs3]]. exists s. auto.
Qed.

Lemma targets_apply_bt : forall bt ops pos, targets (apply_bt bt ops pos) = targets ops.
Proof.
  unfold targets. induction ops as [|o t IH]; intros pos; simpl; [reflexivity|]. rewrite IH. reflexivity.
Qed.

(* the output is a well-formed input of compute_order: the two block_target clauses of wf_opsb follow from
   well-formedness of the list handed to add_pop_block_targets *)
Lemma apbt_wf_lemma : forall ops pxb ops',
  wf_opsb ops = true -> add_pop_block_targets ops pxb = Ok ops' -> wf_opsb ops' = true.
Proof.
  intros ops pxb ops' Hwf H.
  destruct (apbt_targets_lemma _ _ _ H) as [Hlen Hnth].
  assert (Htg : targets ops' = targets ops).
  { rewrite (apbt_ok_shape _ _ _ H). apply targets_apply_bt. }
  unfold wf_opsb. rewrite Hlen, Htg. apply andb_true_intro. split.
  - rewrite (wf_links_ext ops' ops 0 (length ops) Hlen); [apply wf_opsb_links; exact Hwf|].
    intros i a b Ha Hb. destruct (Hnth i a Ha) as [o [Ho [Ea _]]]. rewrite Ho in Hb. inversion Hb; subst b.
    rewrite Ea. simpl. auto.
  - apply forallb_forall. intros o' Hin. apply In_nth_error in Hin. destruct Hin as [k Hk].
    destruct (Hnth k o' Hk) as [o [Ho [Ea Hbt]]].
    assert (Hino : In o ops) by (eapply nth_error_In; eauto).
    pose proof Hwf as Hwf'. unfold wf_opsb in Hwf'. apply andb_prop in Hwf'. destruct Hwf' as [_ Hall].
    rewrite forallb_forall in Hall. specialize (Hall o Hino).
    apply andb_prop in Hall. destruct Hall as [Hall _].
    apply andb_prop in Hall. destruct Hall as [Hall Hkj].
    apply andb_prop in Hall. destruct Hall as [Hall Hea].
    apply andb_prop in Hall. destruct Hall as [Htr _].
    assert (E1 : target o' = target o) by (rewrite Ea; reflexivity).
    assert (E2 : eaft o' = eaft o) by (rewrite Ea; reflexivity).
    assert (E3 : has_known_jump o' = has_known_jump o) by (rewrite Ea; reflexivity).
    rewrite E1, E2, E3, Htr, Hea, Hkj. simpl.
    destruct (block_target o') as [t|] eqn:Et; [|reflexivity].
    destruct (Hbt t eq_refl) as [s [Hs [_ Hst]]].
    assert (R : (N.to_nat t <? length ops) = true) by (apply Nat.ltb_lt; eapply wf_opsb_target; eauto).
    assert (M : memN t (targets ops) = true) by (apply memN_In; eapply targets_In; eauto).
    simpl. rewrite R, M. reflexivity.
Qed.

Definition flagstep (o : instr) (b : bool) : bool :=
  if is_op op_SETUP_EXCEPT_311 o then true else if is_op op_POP_BLOCK o then false else b.

Lemma inside_list_cons : forall o t b, inside_list (o :: t) b = b :: inside_list t (flagstep o b).
Proof. reflexivity. Qed.

Lemma inside_list_length : forall ops b, length (inside_list ops b) = length ops.
Proof. induction ops as [|a t IH]; intros b; [reflexivity|]. rewrite inside_list_cons. simpl. rewrite IH. reflexivity. Qed.

Lemma inside_list_S : forall ops b k o, nth_error ops k = Some o -> S k < length ops ->
  nth (S k) (inside_list ops b) false = flagstep o (nth k (inside_list ops b) false).
Proof.
  induction ops as [|a t IH]; intros b k o Hk Hl; [destruct k; discriminate|].
  rewrite inside_list_cons. destruct k.
  - simpl in Hk. inversion Hk; subst a. destruct t as [|a2 t2]; [simpl in Hl; lia|].
    rewrite inside_list_cons. reflexivity.
  - simpl in Hk. simpl in Hl. cbn [nth]. apply IH; auto. lia.
Qed.

Lemma brk_spec : forall ops b k o, brk_ops ops b = true -> nth_error ops k = Some o ->
  (is_op op_SETUP_EXCEPT_311 o = true -> nth k (inside_list ops b) false = false) /\
  (is_op op_SETUP_EXCEPT_311 o = false -> is_op op_POP_BLOCK o = true -> nth k (inside_list ops b) false = true).
Proof.
  induction ops as [|a t IH]; intros b k o Hb Hk; [destruct k; discriminate|].
  rewrite inside_list_cons. cbn [brk_ops] in Hb. destruct k; simpl in Hk.
  - inversion Hk; subst a. cbn [nth]. destruct (is_op op_SETUP_EXCEPT_311 o) eqn:E1.
    + apply andb_prop in Hb. destruct Hb as [Hb _]. apply negb_true_iff in Hb. split; [auto | discriminate].
    + destruct (is_op op_POP_BLOCK o) eqn:E2.
      * apply andb_prop in Hb. destruct Hb as [Hb _]. split; [discriminate | auto].
      * split; discriminate.
  - cbn [nth]. apply (IH (flagstep a b) k o); auto.
    unfold flagstep. destruct (is_op op_SETUP_EXCEPT_311 a); [apply andb_prop in Hb; tauto|].
    destruct (is_op op_POP_BLOCK a); [apply andb_prop in Hb; tauto | exact Hb].
Qed.

Lemma inside_true_before : forall ops b k, nth k (inside_list ops b) false = true ->
  b = true \/ exists j s, j < k /\ nth_error ops j = Some s /\ is_op op_SETUP_EXCEPT_311 s = true.
Proof.
  induction ops as [|a t IH]; intros b k H.
  - destruct k; simpl in H; discriminate.
  - rewrite inside_list_cons in H. destruct k; cbn [nth] in H; [auto|].
    destruct (IH _ _ H) as [E|[j [s [H1 [H2 H3]]]]].
    + unfold flagstep in E. destruct (is_op op_SETUP_EXCEPT_311 a) eqn:E1.
      * right. exists 0, a. split; [lia|]. split; auto.
      * destruct (is_op op_POP_BLOCK a); [discriminate | auto].
    + right. exists (S j), s. split; [lia|]. auto.
Qed.

Definition ok_clauses (all : list instr) (pxb : list N) (pos : N) (o : instr) : Prop :=
  is_op op_BREAK_LOOP o = false /\
  ((is_setup_except o || pushes_block o) = true -> exists t, target o = Some t) /\
  ((is_setup_except o || (does_jump o && negb (memN pos pxb))) = true ->
     inside_opt all (target o) = true -> inside all pos = true) /\
  (memN pos pxb = true -> does_jump o = true -> forall t, target o = Some t -> inside all t = true) /\
  (no_next o = false -> exists n, next o = Some n).

Lemma ok_from_spec : forall l all pxb pos k o,
  apbt_ok_from l all pxb pos = true -> nth_error l k = Some o -> ok_clauses all pxb (pos + N.of_nat k) o.
Proof.
  induction l as [|a t IH]; intros all pxb pos k o H Hk; [destruct k; discriminate|].
  cbn [apbt_ok_from] in H.
  apply andb_prop in H. destruct H as [H Hrest].
  destruct k; simpl in Hk.
  - inversion Hk; subst a. clear Hk. rewrite N.add_0_r.
    apply andb_prop in H. destruct H as [H c5].
    apply andb_prop in H. destruct H as [H c4].
    apply andb_prop in H. destruct H as [H c3].
    apply andb_prop in H. destruct H as [c1 c2].
    unfold ok_clauses. split; [apply negb_true_iff; exact c1|]. split; [|split; [|split]].
    + intros HX. rewrite HX in c2. simpl in c2. destruct (target o); [eauto | discriminate].
    + intros HX Hi. rewrite HX, Hi in c3. simpl in c3. exact c3.
    + intros Hm Hd t0 Ht. rewrite Hm, Hd, Ht in c4. simpl in c4. exact c4.
    + intros Hn. rewrite Hn in c5. simpl in c5. destruct (next o); [eauto | discriminate].
  - replace (pos + N.of_nat (S k))%N with (pos + 1 + N.of_nat k)%N by lia. apply IH; auto.
Qed.

Lemma walk_prev_total : forall ops, wf_links ops 0 (length ops) = true ->
  forall t fuel, t < length ops -> t < fuel ->
  (exists j s, j <= t /\ nth_error ops j = Some s /\ is_setup_except s = true) ->
  exists su, walk_prev ops fuel (N.of_nat t) = Ok su.
Proof.
  intros ops Hwf. induction t as [|t IH]; intros fuel Ht Hf [j [s [Hj [Hs Hss]]]];
    (destruct fuel as [|f]; [lia|]); cbn [walk_prev]; rewrite op_at_nat.
  - assert (j = 0) by lia. subst j. rewrite Hs, Hss. eauto.
  - destruct (nth_error ops (S t)) as [o|] eqn:Eo; [|apply nth_error_None in Eo; lia].
    destruct (is_setup_except o) eqn:Es; [eauto|].
    destruct (wf_links_spec _ _ _ Hwf _ _ Eo) as [_ [_ Hp]]. cbn [Nat.add popt] in Hp. rewrite Hp.
    apply IH; [lia | lia |]. exists j, s. split; auto.
    destruct (Nat.eq_dec j (S t)); [subst; congruence | lia].
Qed.

(* [inside] at a position given as a nat *)
Definition ins (ops : list instr) (k : nat) : bool := inside ops (N.of_nat k).

Lemma ins_nth : forall ops k, ins ops k = nth k (inside_list ops false) false.
Proof. intros. unfold ins, inside. rewrite Nat2N.id. reflexivity. Qed.

Definition item_ok (ops : list instr) (x : option N) (st : list instr) : Prop :=
  exists k, x = Some (N.of_nat k) /\ k < length ops /\ (ins ops k = true -> st <> []).

Record ainv_t (ops : list instr) (s : ast) : Prop := {
  at_err : a_err s = 0;
  at_todo : forall x st, In (x, st) (a_todo s) -> item_ok ops x st
}.

Lemma apbt_case_t : forall ops pxb k op st,
  wf_links ops 0 (length ops) = true ->
  (forall o t, In o ops -> target o = Some t -> N.to_nat t < length ops) ->
  brk_ops ops false = true ->
  nth_error ops k = Some op ->
  ok_clauses ops pxb (N.of_nat k) op ->
  (ins ops k = true -> st <> []) ->
  exists st' pushes asg,
    apbt_case ops pxb (N.of_nat k) op st = Ok (st', pushes, asg) /\
    (forall x s0, In (x, s0) pushes -> item_ok ops x s0) /\
    (flagstep op (ins ops k) = true -> st' <> []).
Proof.
  intros ops pxb k op st Hwf Htgt Hbrk Eo [C1 [C2 [C3 [C4 C5]]]] Hst.
  pose proof (nth_error_In _ _ Eo) as Hin.
  fold (ins ops k) in C3.
  destruct (brk_spec _ _ _ _ Hbrk Eo) as [B1 B2]. rewrite <- ins_nth in B1, B2.
  assert (Hitem : forall t s0, target op = Some t -> (inside ops t = true -> s0 <> []) -> item_ok ops (Some t) s0).
  { intros t s0 Ht Hs. exists (N.to_nat t). rewrite N2Nat.id. split; auto. split; [eapply Htgt; eauto|].
    unfold ins. rewrite N2Nat.id. exact Hs. }
  unfold apbt_case.
  destruct (is_op op_POP_BLOCK op) eqn:Cpop.
  { assert (S311 : is_op op_SETUP_EXCEPT_311 op = false) by (eapply is_op_excl; [exact Cpop | exact pop_ne_setup311]).
    specialize (B2 S311 eq_refl). destruct st as [|b below]; [exfalso; apply (Hst B2); reflexivity|].
    exists below, [], (Some (target b)). split; [reflexivity|]. split; [intros x s0 []|].
    unfold flagstep. rewrite S311, Cpop. discriminate. }
  destruct (is_op op_RAISE_VARARGS op) eqn:Craise.
  { assert (S311 : is_op op_SETUP_EXCEPT_311 op = false) by (eapply is_op_excl; [exact Craise | exact raise_ne_setup311]).
    assert (Hfs : flagstep op (ins ops k) = ins ops k) by (unfold flagstep; rewrite S311, Cpop; reflexivity).
    destruct (find_except st) as [b|]; eexists _, _, _; (split; [reflexivity|]); (split; [intros x s0 []|]);
      rewrite Hfs; exact Hst. }
  rewrite C1.
  destruct (is_setup_except op) eqn:Cs.
  { destruct (C2 eq_refl) as [h Eh].
    exists (op :: st), [(target op, st)], None. split; [reflexivity|]. split.
    - intros x s0 [E|[]]. inversion E; subst x s0. rewrite Eh. apply (Hitem h st Eh).
      intros Hi. apply Hst. apply C3; [reflexivity|]. rewrite Eh. exact Hi.
    - intros _. discriminate. }
  destruct (pushes_block op) eqn:Cp.
  { destruct (C2 eq_refl) as [h Eh]. rewrite Eh.
    exists (op :: st), [], None. split; [reflexivity|]. split; [intros x s0 [] | intros _; discriminate]. }
  assert (S311 : is_op op_SETUP_EXCEPT_311 op = false).
  { unfold is_setup_except in Cs. apply orb_false_elim in Cs. tauto. }
  assert (Hfs : flagstep op (ins ops k) = ins ops k) by (unfold flagstep; rewrite S311, Cpop; reflexivity).
  destruct (does_jump op) eqn:Cj; cbn [andb].
  2:{ exists st, [], None. split; [reflexivity|]. split; [intros x s0 [] | rewrite Hfs; exact Hst]. }
  destruct (target op) as [t|] eqn:Etg; cbv beta iota.
  2:{ exists st, [], None. split; [reflexivity|]. split; [intros x s0 [] | rewrite Hfs; exact Hst]. }
  destruct (memN (N.of_nat k) pxb) eqn:Epx.
  - pose proof (C4 eq_refl eq_refl t eq_refl) as Hit. unfold inside in Hit.
    pose proof (Htgt op t Hin Etg) as Ht.
    destruct (inside_true_before _ _ _ Hit) as [F|[j [s0 [Hj [Hs0 Hs1]]]]]; [discriminate|].
    assert (Hex : exists j s, j <= N.to_nat t /\ nth_error ops j = Some s /\ is_setup_except s = true).
    { exists j, s0. split; [lia|]. split; auto. unfold is_setup_except. rewrite Hs1. apply orb_true_r. }
    assert (Hfu : N.to_nat t < S (length ops)) by lia.
    destruct (walk_prev_total ops Hwf (N.to_nat t) (S (length ops)) Ht Hfu Hex) as [su Esu].
    rewrite N2Nat.id in Esu. rewrite Esu. cbn [bind].
    exists (su :: st), [(Some t, su :: st)], None. split; [reflexivity|]. split.
    + intros x s1 [E|[]]. inversion E; subst x s1. apply (Hitem t (su :: st) eq_refl). intros _. discriminate.
    + intros _. discriminate.
  - exists st, [(Some t, st)], None. split; [reflexivity|]. split.
    + intros x s1 [E|[]]. inversion E; subst x s1. apply (Hitem t st eq_refl).
      intros Hi. apply Hst. apply C3; [reflexivity|]. exact Hi.
    + rewrite Hfs. exact Hst.
Qed.

Lemma astep_t : forall ops pxb s,
  wf_links ops 0 (length ops) = true ->
  (forall o t, In o ops -> target o = Some t -> N.to_nat t < length ops) ->
  apbt_okb ops pxb = true ->
  ainv_t ops s -> ainv_t ops (astep ops pxb s).
Proof.
  intros ops pxb s Hwf Htgt Hok [Ie It].
  unfold apbt_okb in Hok. apply andb_prop in Hok. destruct Hok as [Hbrk Hfrom].
  unfold astep. destruct (a_todo s) as [|[x st] rest] eqn:Et.
  - constructor; [exact Ie | rewrite Et; intros x st []].
  - destruct (It x st (or_introl eq_refl)) as [k [Ex [Hk Hst]]]. subst x.
    assert (Hrest : forall x st, In (x, st) rest -> item_ok ops x st) by (intros; apply It; right; auto).
    destruct (memN (N.of_nat k) (a_seen s)); [constructor; simpl; auto|].
    rewrite op_at_nat. destruct (nth_error ops k) as [op|] eqn:Eo; [|apply nth_error_None in Eo; lia].
    pose proof (ok_from_spec _ _ _ 0%N k op Hfrom Eo) as Hc. rewrite N.add_0_l in Hc.
    destruct (apbt_case_t ops pxb k op st Hwf Htgt Hbrk Eo Hc Hst) as [st' [pushes [asg [Ec [Hp Hn]]]]].
    rewrite Ec.
    assert (Htodo1 : forall x s0, In (x, s0) (rev pushes ++ rest) -> item_ok ops x s0).
    { intros x s0 H. apply in_app_or in H. destruct H as [H|H]; [apply in_rev in H|]; auto. }
    destruct Hc as [_ [_ [_ [_ C5]]]].
    destruct (no_next op) eqn:Enn; [constructor; simpl; auto|].
    destruct (C5 eq_refl) as [nx Enx]. rewrite Enx.
    destruct (wf_links_spec _ _ _ Hwf _ _ Eo) as [_ [Hnext _]]. cbn [Nat.add] in Hnext. rewrite Enx in Hnext.
    destruct (S k <? length ops) eqn:Elt; [|discriminate]. apply Nat.ltb_lt in Elt. inversion Hnext; subst nx.
    constructor; simpl; auto. intros x s0 [H|H]; [|auto]. inversion H; subst.
    exists (S k). split; auto. split; auto.
    rewrite ins_nth, (inside_list_S ops false k op Eo Elt), <- ins_nth. exact Hn.
Qed.

Lemma apbt_total_lemma : forall ops pxb,
  wf_links ops 0 (length ops) = true ->
  (forall o t, In o ops -> target o = Some t -> N.to_nat t < length ops) ->
  apbt_okb ops pxb = true ->
  exists ops', add_pop_block_targets ops pxb = Ok ops'.
Proof.
  intros ops pxb Hwf Htgt Hok. unfold add_pop_block_targets. destruct ops as [|o0 rest]; [eauto|].
  remember (o0 :: rest) as ops eqn:Eops.
  assert (Hlen : 0 < length ops) by (rewrite Eops; simpl; lia).
  destruct (run_terminates ast (astep ops pxb) afin (amu (length ops)) (fun s => ainv ops s /\ ainv_t ops s))
    with (d := apbt_fuel ops) (s := astate0) as [[_ It] F].
  - intros s [I1 I2] Fn. destruct (astep_inv ops pxb s I1) as [I1' M]. split; auto.
    split; auto. apply astep_t; auto.
  - split; [apply ainv_init|]. constructor; [reflexivity|].
    intros x st [H|[]]. inversion H; subst x st. exists 0. split; auto. split; auto.
    rewrite ins_nth, Eops, inside_list_cons. cbn [nth]. discriminate.
  - apply apbt_fuel_enough.
  - change (run (astep ops pxb) afin (apbt_fuel ops) astate0) with (apbt_run ops pxb) in It, F.
    cbv zeta. rewrite (at_err _ _ It), F. eauto.
Qed.
