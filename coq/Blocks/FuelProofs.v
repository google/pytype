(* C16: the fuelled loops of Blocks/Model.v never run out of fuel, compute_predecessors is exact with respect to
   the edge relation, and the final assertion of order_nodes cannot fire.  All statements are for arbitrary
   graphs (any node list, any edge list), hence in particular for the graphs compute_order builds. *)
From Coq Require Import List NArith Arith Bool Lia Relations Sorted.
From PV Require Import Generated.C16_OpcodeFlags Blocks.Model Blocks.Proofs.
Import ListNotations.

Local Opaque flags_of.

Lemma run_measure : forall (S : Type) (step : S -> S) (fin : S -> bool) (mu : S -> nat) (P : S -> Prop),
  (forall s, P s -> fin s = false -> P (step s) /\ mu (step s) < mu s) ->
  forall d s, P s ->
    P (run step fin d s) /\ (fin (run step fin d s) = true \/ mu (run step fin d s) + 2 ^ d <= mu s).
Proof.
  intros S step fin mu P Hstep. induction d; intros s Hs.
  - cbn [run]. destruct (fin s) eqn:E.
    + split; auto.
    + destruct (Hstep s Hs E) as [H1 H2]. split; auto. right. cbn [Nat.pow]. lia.
  - cbn [run]. destruct (IHd s Hs) as [P1 H1].
    destruct (fin (run step fin d s)) eqn:E.
    + split; auto.
    + destruct H1 as [H1|H1]; [congruence|].
      destruct (IHd _ P1) as [P2 H2]. split; auto. destruct H2 as [H2|H2]; auto.
      right. cbn [Nat.pow]. lia.
Qed.

Lemma run_terminates : forall (S : Type) (step : S -> S) (fin : S -> bool) (mu : S -> nat) (P : S -> Prop),
  (forall s, P s -> fin s = false -> P (step s) /\ mu (step s) < mu s) ->
  forall d s, P s -> mu s < 2 ^ d ->
    P (run step fin d s) /\ fin (run step fin d s) = true.
Proof.
  intros S step fin mu P Hstep d s Hs Hmu.
  destruct (run_measure S step fin mu P Hstep d s Hs) as [H1 [H2|H2]]; split; auto. lia.
Qed.

Lemma fuel_for_gt : forall b m, (N.of_nat m <= b)%N -> m < 2 ^ fuel_for b.
Proof.
  intros b m H. unfold fuel_for.
  assert (E : N.of_nat (2 ^ S (N.to_nat (N.log2 b))) = (2 ^ N.succ (N.log2 b))%N).
  { rewrite Nat2N.inj_pow. change (N.of_nat 2) with 2%N. rewrite Nat2N.inj_succ, N2Nat.id. reflexivity. }
  destruct (N.eq_dec b 0) as [Hb|Hb].
  - subst b. assert (m = 0) by lia. subst m. apply Nat.neq_0_lt_0. apply Nat.pow_nonzero. discriminate.
  - assert (Hpos : (0 < b)%N) by lia.
    destruct (N.log2_spec b Hpos) as [_ H2].
    assert (G : (N.of_nat m < N.of_nat (2 ^ S (N.to_nat (N.log2 b))))%N) by (rewrite E; lia).
    lia.
Qed.

Definition sorted (l : list N) : Prop := StronglySorted N.lt l.

Lemma unionN_nil_l : forall b, unionN [] b = b.
Proof. destruct b; reflexivity. Qed.

Lemma unionN_nil_r : forall a, unionN a [] = a.
Proof. destruct a; reflexivity. Qed.

Lemma unionN_cons : forall x a y b,
  unionN (x :: a) (y :: b) =
  if N.ltb x y then x :: unionN a (y :: b)
  else if N.eqb x y then x :: unionN a b else y :: unionN (x :: a) b.
Proof. reflexivity. Qed.

Lemma unionN_In : forall a b x, In x (unionN a b) <-> In x a \/ In x b.
Proof.
  induction a as [|x0 a IHa]; intros b x.
  - rewrite unionN_nil_l. split; [right; assumption | intros [[]|H]; exact H].
  - induction b as [|y b IHb].
    + rewrite unionN_nil_r. split; [left; assumption | intros [H|[]]; exact H].
    + rewrite unionN_cons. destruct (N.ltb x0 y); [|destruct (N.eqb_spec x0 y) as [<-|_]]; cbn [In].
      * rewrite IHa. cbn [In]. symmetry. apply or_assoc.
      * rewrite IHa. split; [intros [H|[H|H]]; auto | intros [[H|H]|[H|H]]; auto].
      * rewrite IHb. split; (intros [H|[H|H]]; auto).
Qed.

Lemma unionN_sorted : forall a b, sorted a -> sorted b -> sorted (unionN a b).
Proof.
  unfold sorted. induction a as [|x0 a IHa]; intros b Ha Hb.
  - rewrite unionN_nil_l. exact Hb.
  - induction b as [|y b IHb].
    + rewrite unionN_nil_r. exact Ha.
    + rewrite unionN_cons.
      inversion Ha as [|? ? Ha1 Ha2]; subst. inversion Hb as [|? ? Hb1 Hb2]; subst.
      rewrite Forall_forall in Ha2, Hb2.
      destruct (N.ltb x0 y) eqn:E1; [|destruct (N.eqb x0 y) eqn:E2].
      * apply N.ltb_lt in E1. constructor; [apply IHa; auto|].
        apply Forall_forall. intros z Hz. apply unionN_In in Hz. destruct Hz as [Hz|[Hz|Hz]].
        -- apply Ha2; auto.
        -- subst. exact E1.
        -- specialize (Hb2 z Hz). lia.
      * apply N.eqb_eq in E2. subst y. constructor; [apply IHa; auto|].
        apply Forall_forall. intros z Hz. apply unionN_In in Hz. destruct Hz as [Hz|Hz]; auto.
      * apply N.ltb_ge in E1. apply N.eqb_neq in E2. constructor; [apply IHb; auto|].
        apply Forall_forall. intros z Hz. apply unionN_In in Hz. destruct Hz as [[Hz|Hz]|Hz].
        -- subst. lia.
        -- specialize (Ha2 z Hz). lia.
        -- apply Hb2; auto.
Qed.

Lemma sorted_NoDup : forall l, sorted l -> NoDup l.
Proof.
  unfold sorted. induction l as [|x l IH]; intros H; [constructor|].
  inversion H as [|? ? H1 H2]; subst. constructor; auto.
  intro F. rewrite Forall_forall in H2. specialize (H2 x F). lia.
Qed.

Lemma set_assoc_In : forall A k0 (v0 : A) l k v, In (k, v) (set_assoc k0 v0 l) -> (k, v) = (k0, v0) \/ In (k, v) l.
Proof.
  induction l as [|[k' v'] l IH]; simpl; intros k v H; [contradiction|].
  destruct (N.eqb k0 k') eqn:E; simpl in H.
  - destruct H as [H|H]; [left; congruence | right; right; exact H].
  - destruct H as [H|H]; [right; left; exact H|]. destruct (IH _ _ H); auto.
Qed.

Lemma assocN_set_same : forall A k (v v0 : A) l, assocN k l = Some v0 -> assocN k (set_assoc k v l) = Some v.
Proof.
  induction l as [|[k' v'] l IH]; simpl; intros H; [discriminate|].
  destruct (N.eqb k k') eqn:E; simpl.
  - rewrite N.eqb_refl. reflexivity.
  - rewrite E. auto.
Qed.

Lemma assocN_set_other : forall A k k0 (v : A) l, k <> k0 -> assocN k (set_assoc k0 v l) = assocN k l.
Proof.
  induction l as [|[k' v'] l IH]; simpl; intros H; [reflexivity|].
  destruct (N.eqb k0 k') eqn:E; simpl.
  - apply N.eqb_eq in E. subst k'. apply N.eqb_neq in H. rewrite H. reflexivity.
  - destruct (N.eqb k k'); auto.
Qed.

Fixpoint phi (V : nat) (m : list (N * list N)) : nat :=
  match m with
  | [] => 0
  | (_, ps) :: t => (V - length ps) + phi V t
  end.

Lemma phi_set_assoc : forall V k v v' m, assocN k m = Some v ->
  phi V (set_assoc k v' m) + (V - length v) = phi V m + (V - length v').
Proof.
  induction m as [|[k' w] m IH]; simpl; intros H; [discriminate|].
  destruct (N.eqb k k') eqn:E; simpl.
  - inversion H; subst. lia.
  - specialize (IH H). lia.
Qed.

Lemma phi_init : forall V l, phi V (map (fun n : N => (n, [n])) l) = length l * (V - 1).
Proof. induction l as [|x l IH]; simpl; [reflexivity|]. rewrite IH. lia. Qed.

Lemma nodupN_length : forall l seen, length (nodupN l seen) <= length l.
Proof.
  induction l as [|x l IH]; intros seen; simpl; [lia|].
  destruct (memN x seen); simpl; [specialize (IH seen) | specialize (IH (x :: seen))]; lia.
Qed.

Lemma filter_len_le : forall A (f : A -> bool) l, length (filter f l) <= length l.
Proof. induction l as [|x l IH]; simpl; [lia|]. destruct (f x); simpl; lia. Qed.

Lemma outgoing_length : forall es n, length (outgoing es n) <= length es.
Proof.
  intros es n. unfold outgoing. etransitivity; [apply nodupN_length|].
  rewrite map_length. apply filter_len_le.
Qed.

(* one unit of the leading component of a measure a * (E + 1) + q pays for E + 1 queue entries *)
Lemma mul_succ_le : forall a b E, a + 1 <= b -> a * (E + 1) + (E + 1) <= b * (E + 1).
Proof.
  intros a b E H. replace (a * (E + 1) + (E + 1)) with ((a + 1) * (E + 1)) by lia. apply Nat.mul_le_mono_r, H.
Qed.

Definition pmu (V E : nat) (s : pst) : nat :=
  (length (p_starts s) + phi V (p_map s)) * (E + 1) + length (p_todo s).

Record minv (nodes : list N) (es : list edge) (m : list (N * list N)) : Prop := {
  mi_keys : map fst m = nodes;
  mi_good : forall k ps, In (k, ps) m -> sorted ps /\ incl ps nodes;
  mi_sound : forall n ps x, In (n, ps) m -> In x ps -> reach es x n;
  (* every node is its own predecessor *)
  mi_self : forall n, In n nodes -> exists ps, assocN n m = Some ps /\ In n ps
}.

Definition propagated (m : list (N * list N)) (f n : N) : Prop :=
  exists fp np, assocN f m = Some fp /\ assocN n m = Some np /\ incl fp np.

Record pinv (nodes : list N) (es : list edge) (s : pst) : Prop := {
  pi_map : minv nodes es (p_map s);
  pi_err : p_err s = 0 \/ p_err s = 10;
  pi_todo : forall f n, In (f, n) (p_todo s) -> In (f, n) es /\ In f nodes;
  pi_starts : incl (p_starts s) nodes;
  (* completeness: every edge out of a node has been propagated, is queued, or its source has not been started *)
  pi_edges : p_err s = 0 -> forall f n, In (f, n) es -> In f nodes ->
             (In f (p_starts s) /\ ~ In f (p_disc s)) \/ In (f, n) (p_todo s) \/ propagated (p_map s) f n
}.

Definition pstate0 (nodes : list N) : pst := mkP (map (fun n => (n, [n])) nodes) [] nodes [] 0.

Lemma minv_init : forall nodes es, minv nodes es (map (fun n => (n, [n])) nodes).
Proof.
  intros nodes es. constructor.
  - rewrite map_map. apply map_id.
  - intros k ps H. apply in_map_iff in H. destruct H as [n [E H]]. injection E as <- <-. split.
    + repeat constructor.
    + intros x [<-|[]]. exact H.
  - intros n ps x H Hx. apply in_map_iff in H. destruct H as [n' [E H]]. injection E as <- <-.
    destruct Hx as [<-|[]]. apply rt_refl.
  - intros n H. exists [n]. split; [|left; reflexivity].
    induction nodes as [|x l IH]; [contradiction|]. cbn [map assocN]. destruct (N.eqb_spec n x) as [->|E].
    + reflexivity.
    + destruct H as [H|H]; [congruence | exact (IH H)].
Qed.

Lemma pinv_init : forall nodes es, pinv nodes es (pstate0 nodes).
Proof.
  intros nodes es. constructor; cbn.
  - apply minv_init.
  - left. reflexivity.
  - intros f n [].
  - apply incl_refl.
  - intros _ f n Hfn Hf. left. split; [exact Hf | intros []].
Qed.

(* predecessors[node] |= predecessors[from] along an edge from -> node *)
Lemma minv_union : forall nodes es m f0 n0 fp np,
  minv nodes es m -> In (f0, n0) es -> assocN f0 m = Some fp -> assocN n0 m = Some np ->
  minv nodes es (set_assoc n0 (unionN np fp) m).
Proof.
  intros nodes es m f0 n0 fp np [K G S Sf] Hedge Ef En.
  pose proof (assocN_In_pair _ _ _ _ En) as Hnp. pose proof (assocN_In_pair _ _ _ _ Ef) as Hfp.
  constructor.
  - rewrite set_assoc_keys. exact K.
  - intros k ps H. apply set_assoc_In in H. destruct H as [H|H]; [|exact (G k ps H)].
    injection H as -> ->. destruct (G _ _ Hnp) as [Snp Inp], (G _ _ Hfp) as [Sfp Ifp].
    split; [apply unionN_sorted; assumption|]. intros x Hx. apply unionN_In in Hx. destruct Hx; auto.
  - intros n ps x H Hx. apply set_assoc_In in H. destruct H as [H|H]; [|exact (S _ _ _ H Hx)].
    injection H as -> ->. apply unionN_In in Hx. destruct Hx as [Hx|Hx]; [exact (S _ _ _ Hnp Hx)|].
    apply rt_trans with f0; [exact (S _ _ _ Hfp Hx) | apply rt_step; exact Hedge].
  - intros n Hn. destruct (Sf n Hn) as [ps [H1 H2]]. destruct (N.eq_dec n n0) as [->|E].
    + exists (unionN np fp). split; [exact (assocN_set_same _ _ _ _ _ En)|]. apply unionN_In. left. congruence.
    + exists ps. rewrite assocN_set_other by exact E. auto.
Qed.

Lemma propagated_grow : forall m n0 np fp f n, assocN n0 m = Some np -> f <> n0 ->
  propagated m f n -> propagated (set_assoc n0 (unionN np fp) m) f n.
Proof.
  intros m n0 np fp f n En Hf [fp1 [np1 [H1 [H2 H3]]]]. destruct (N.eq_dec n n0) as [->|E].
  - exists fp1, (unionN np fp). rewrite assocN_set_other by exact Hf.
    split; [exact H1|]. split; [exact (assocN_set_same _ _ _ _ _ En)|].
    rewrite En in H2. injection H2 as <-. intros x Hx. apply unionN_In. left. exact (H3 x Hx).
  - exists fp1, np1. rewrite !assocN_set_other by assumption. auto.
Qed.

Lemma pstep_inv : forall nodes es s,
  pinv nodes es s -> pfin s = false ->
  pinv nodes es (pstep es s) /\ pmu (length nodes) (length es) (pstep es s) < pmu (length nodes) (length es) s.
Proof.
  intros nodes es s [Imap Ierr Itodo Istarts Iedges] Hfin.
  unfold pfin in Hfin. apply orb_false_elim in Hfin. destruct Hfin as [He Hq].
  apply negb_false_iff, Nat.eqb_eq in He. specialize (Iedges He).
  unfold pstep, pmu. destruct (p_todo s) as [|[f0 n0] rest] eqn:Etodo.
  - (* next start *)
    destruct (p_starts s) as [|st more] eqn:Est; [discriminate|].
    assert (Hmore : incl more nodes) by (intros x Hx; apply Istarts; right; exact Hx).
    destruct (memN st (p_disc s)) eqn:Ed.
    + apply memN_In in Ed. split; [constructor; cbn; [exact Imap | exact Ierr | intros f n [] | exact Hmore |] | cbn; lia].
      intros _ f n Hfn Hf. destruct (Iedges f n Hfn Hf) as [[[<-|H1] H2]|[[]|H]]; auto.
    + apply memN_false in Ed. split; [constructor; cbn; [exact Imap | exact Ierr | | exact Hmore |]|].
      * intros f n H. apply in_map_iff in H. destruct H as [n' [E H]]. injection E as <- <-.
        split; [apply outgoing_In; exact H | apply Istarts; left; reflexivity].
      * intros _ f n Hfn Hf. destruct (N.eq_dec f st) as [->|E].
        -- right. left. apply in_map, outgoing_In, Hfn.
        -- destruct (Iedges f n Hfn Hf) as [[[H1|H1] H2]|[[]|H]]; auto. congruence.
      * cbn. rewrite map_length. pose proof (outgoing_length es st). lia.
  - (* one queued edge *)
    destruct (Itodo f0 n0 (or_introl eq_refl)) as [Hedge Hf0].
    assert (Irest : forall f n, In (f, n) rest -> In (f, n) es /\ In f nodes) by (intros f n H; apply Itodo; right; exact H).
    assert (Hfail : pinv nodes es (mkP (p_map s) (p_disc s) (p_starts s) rest 10)).
    { constructor; cbn; [exact Imap | right; reflexivity | exact Irest | exact Istarts | discriminate]. }
    destruct (assocN n0 (p_map s)) as [np|] eqn:En; [|split; [exact Hfail | cbn; lia]].
    destruct (assocN f0 (p_map s)) as [fp|] eqn:Ef; [|split; [exact Hfail | cbn; lia]].
    destruct (mi_good _ _ _ Imap _ _ (assocN_In_pair _ _ _ _ En)) as [Snp Inp].
    pose proof (minv_union _ _ _ _ _ _ _ Imap Hedge Ef En) as Imap'.
    destruct (mi_good _ _ _ Imap' n0 (unionN np fp)) as [Su Iu].
    { apply assocN_In_pair. exact (assocN_set_same _ _ _ _ _ En). }
    assert (Hsub : incl np (unionN np fp)) by (intros x Hx; apply unionN_In; auto).
    pose proof (NoDup_incl_length (sorted_NoDup _ Snp) Hsub) as Hle.
    pose proof (NoDup_incl_length (sorted_NoDup _ Su) Iu) as HV.
    destruct (Nat.eqb_spec (length np) (length (unionN np fp))) as [El|El].
    + (* nothing new *)
      split; [constructor; cbn; [exact Imap | exact Ierr | exact Irest | exact Istarts |] | cbn; lia].
      intros _ f n Hfn Hf. destruct (Iedges f n Hfn Hf) as [H|[[H|H]|H]]; auto.
      injection H as <- <-. right. right. exists fp, np. split; [exact Ef|]. split; [exact En|].
      intros x Hx. apply (NoDup_length_incl (sorted_NoDup _ Snp) (l' := unionN np fp)); [lia | exact Hsub | apply unionN_In; auto].
    + (* the predecessor set grew *)
      split; [constructor; cbn; [exact Imap' | exact Ierr | | exact Istarts |]|].
      * intros f n H. apply in_app_or in H. destruct H as [H|H]; [exact (Irest f n H)|].
        apply in_map_iff in H. destruct H as [n' [E H]]. injection E as <- <-.
        split; [apply outgoing_In; exact H|]. rewrite <- (mi_keys _ _ _ Imap). exact (assocN_In _ _ _ _ En).
      * intros _ f n Hfn Hf. destruct (N.eq_dec f n0) as [->|E].
        -- right. left. apply in_or_app. right. apply in_map, outgoing_In, Hfn.
        -- destruct (Iedges f n Hfn Hf) as [[H1 H2]|[[H|H]|H]].
           ++ left. split; [exact H1|]. intros [F|F]; [congruence | contradiction].
           ++ injection H as <- <-. right. right. exists fp, (unionN np fp).
              rewrite assocN_set_other by exact E. split; [exact Ef|]. split; [exact (assocN_set_same _ _ _ _ _ En)|].
              intros x Hx. apply unionN_In. auto.
           ++ right. left. apply in_or_app. left. exact H.
           ++ right. right. exact (propagated_grow _ _ _ _ _ _ En E H).
      * cbn. rewrite app_length, map_length. pose proof (outgoing_length es n0) as Ho.
        pose proof (phi_set_assoc (length nodes) n0 np (unionN np fp) (p_map s) En) as Hphi.
        pose proof (mul_succ_le (length (p_starts s) + phi (length nodes) (set_assoc n0 (unionN np fp) (p_map s)))
                      (length (p_starts s) + phi (length nodes) (p_map s)) (length es)) as G.
        lia.
Qed.

Lemma pred_fuel_enough : forall nodes es, pmu (length nodes) (length es) (pstate0 nodes) < 2 ^ pred_fuel nodes es.
Proof.
  intros nodes es. unfold pred_fuel. apply fuel_for_gt. unfold pmu. cbn [pstate0 p_starts p_map p_todo length].
  rewrite phi_init, <- !Nat2N.inj_mul, <- (Nat2N.inj_add _ 1), <- Nat2N.inj_mul.
  set (V := length nodes). set (E := length es).
  assert (Hm : (V + V * (V - 1)) * (E + 1) + 0 <= V * V * (E + 1)).
  { rewrite Nat.add_0_r. apply Nat.mul_le_mono_r. destruct V; simpl; lia. }
  lia.
Qed.

Lemma pred_run_final : forall nodes es (Q : pst -> Prop),
  Q (pstate0 nodes) -> (forall s, pinv nodes es s -> Q s -> pfin s = false -> Q (pstep es s)) ->
  let s := run (pstep es) pfin (pred_fuel nodes es) (pstate0 nodes) in
  pinv nodes es s /\ Q s /\ pfin s = true.
Proof.
  intros nodes es Q Q0 Qstep. cbv zeta.
  destruct (run_terminates pst (pstep es) pfin (pmu (length nodes) (length es)) (fun s => pinv nodes es s /\ Q s))
    with (d := pred_fuel nodes es) (s := pstate0 nodes) as [[I HQ] F].
  - intros s [I HQ] F. destruct (pstep_inv nodes es s I F) as [I' M]. auto.
  - split; [apply pinv_init | exact Q0].
  - apply pred_fuel_enough.
  - auto.
Qed.

Lemma compute_predecessors_fuel_lemma : forall nodes es c,
  compute_predecessors nodes es = Err c -> c = 10.
Proof.
  intros nodes es c H. unfold compute_predecessors in H. fold (pstate0 nodes) in H.
  destruct (pred_run_final nodes es (fun _ => True) I (fun _ _ _ _ => I)) as [Iv [_ F]]. cbv zeta in Iv, F.
  destruct (pi_err _ _ _ Iv) as [E|E]; rewrite E in H.
  - rewrite F in H. discriminate.
  - injection H as <-. reflexivity.
Qed.

Lemma compute_predecessors_exact_lemma : forall nodes es pm,
  compute_predecessors nodes es = Ok pm ->
  map fst pm = nodes /\
  (forall n ps m, In (n, ps) pm -> In m ps -> In m nodes /\ reach es m n) /\
  (forall n, In n nodes -> exists ps, assocN n pm = Some ps /\ sorted ps /\
     forall m, In m ps <-> In m nodes /\ reach es m n) /\
  (forall x y, In x nodes -> reach es x y -> In y nodes).
Proof.
  intros nodes es pm H. unfold compute_predecessors in H. fold (pstate0 nodes) in H.
  destruct (pred_run_final nodes es (fun _ => True) I (fun _ _ _ _ => I)) as [Iv [_ F]]. cbv zeta in Iv, F.
  set (s := run (pstep es) pfin (pred_fuel nodes es) (pstate0 nodes)) in *.
  destruct (p_err s) eqn:Eerr; [|discriminate]. rewrite F in H. injection H as <-.
  destruct Iv as [[Ikeys Igood Isound Iself] _ _ _ Iedges]. specialize (Iedges Eerr).
  unfold pfin in F. rewrite Eerr in F. cbn [Nat.eqb negb orb] in F.
  destruct (p_todo s) eqn:Etodo; [|discriminate]. destruct (p_starts s) eqn:Est; [|discriminate].
  (* with nothing queued and nothing to start, every edge has been propagated; so along every path *)
  assert (Hcomp : forall m, In m nodes -> forall n, reach es m n ->
            exists ps, assocN n (p_map s) = Some ps /\ In m ps).
  { intros m Hm n Hr. apply clos_rt_rtn1 in Hr. induction Hr as [|y z Hyz Hr IH]; [exact (Iself m Hm)|].
    destruct IH as [py [H1 H2]].
    assert (Hy : In y nodes) by (rewrite <- Ikeys; exact (assocN_In _ _ _ _ H1)).
    destruct (Iedges y z Hyz Hy) as [[[] _]|[[]|[fp [np [G1 [G2 G3]]]]]].
    rewrite H1 in G1. injection G1 as <-. exists np. auto. }
  split; [exact Ikeys|]. split; [|split].
  - intros n ps m Hin Hm. split; [exact (proj2 (Igood _ _ Hin) m Hm) | exact (Isound _ _ _ Hin Hm)].
  - intros n Hn. destruct (Iself n Hn) as [ps [H1 H2]]. exists ps. split; [exact H1|].
    pose proof (assocN_In_pair _ _ _ _ H1) as Hin. destruct (Igood _ _ Hin) as [Hs Hi]. split; [exact Hs|].
    intros m. split.
    + intros Hm. split; [exact (Hi m Hm) | exact (Isound _ _ _ Hin Hm)].
    + intros [Hm Hr]. destruct (Hcomp m Hm n Hr) as [ps' [G1 G2]]. congruence.
  - intros x y Hx Hr. destruct (Hcomp x Hx y Hr) as [ps [G1 _]]. rewrite <- Ikeys. exact (assocN_In _ _ _ _ G1).
Qed.

Definition closed_edges (nodes : list N) (es : list edge) : Prop :=
  forall x y, In (x, y) es -> In x nodes -> In y nodes.

Lemma compute_predecessors_total_lemma : forall nodes es,
  closed_edges nodes es -> exists pm, compute_predecessors nodes es = Ok pm.
Proof.
  intros nodes es Hc. unfold compute_predecessors. fold (pstate0 nodes).
  destruct (pred_run_final nodes es (fun s => p_err s = 0)) as [_ [E F]]; [reflexivity | | cbv zeta in E, F; rewrite E, F; eauto].
  (* both ends of a queued edge are nodes, so both lookups succeed *)
  intros s Iv He _. unfold pstep. destruct (p_todo s) as [|[f0 n0] rest] eqn:Et.
  - destruct (p_starts s) as [|st more]; [exact He|]. destruct (memN st (p_disc s)); exact He.
  - destruct (pi_todo _ _ _ Iv f0 n0) as [H1 H2]; [rewrite Et; left; reflexivity|].
    pose proof (Hc _ _ H1 H2) as Hn0. rewrite <- (mi_keys _ _ _ (pi_map _ _ _ Iv)) in H2, Hn0.
    destruct (assocN_of_key _ _ _ Hn0) as [np En], (assocN_of_key _ _ _ H2) as [fp Ef].
    rewrite En, Ef. destruct (Nat.eqb (length np) (length (unionN np fp))); exact He.
Qed.

Lemma del_key_length : forall k q, In k (keys q) -> length (del_key k q) < length q.
Proof.
  unfold del_key, keys. induction q as [|e q IH]; simpl; intros H; [contradiction|].
  destruct (N.eqb (fst e) k) eqn:E; simpl.
  - pose proof (filter_len_le _ (fun e0 : N * list N => negb (N.eqb (fst e0) k)) q). lia.
  - destruct H as [H|H]; [apply N.eqb_neq in E; congruence|]. specialize (IH H). lia.
Qed.

Lemma enqueue_fold_length : forall pm seen outs q err q' err',
  fold_left (enqueue pm seen) outs (q, err) = (q', err') ->
  length q' <= length q + length outs /\ (err' = err \/ err' = 12).
Proof.
  induction outs as [|n outs IH]; intros q err q' err' H; simpl in H.
  - inversion H; subst. split; [simpl; lia | auto].
  - destruct (has_key n q).
    + destruct (IH _ _ _ _ H). split; [simpl; lia | auto].
    + destruct (assocN n pm).
      * destruct (IH _ _ _ _ H) as [H1 H2]. rewrite app_length in H1. simpl in *. split; [lia | auto].
      * destruct (IH _ _ _ _ H) as [H1 H2]. split; [simpl; lia|]. destruct H2; auto.
Qed.

(* no KeyError when every enqueued node has an entry *)
Lemma enqueue_fold_no_err : forall pm seen outs q, (forall y, In y outs -> In y (map fst pm)) ->
  snd (fold_left (enqueue pm seen) outs (q, 0)) = 0.
Proof.
  induction outs as [|y outs IH]; intros q Hy; [reflexivity|]. cbn [fold_left enqueue].
  assert (Hy' : forall z, In z outs -> In z (map fst pm)) by (intros z Hz; apply Hy; right; exact Hz).
  destruct (has_key y q); [exact (IH q Hy')|].
  destruct (assocN_of_key _ y pm (Hy y (or_introl eq_refl))) as [v ->]. exact (IH _ Hy').
Qed.

Definition omu (V E : nat) (s : ost) : nat :=
  (V - length (o_order s)) * (E + 1) + length (o_queue s).

Lemma ofin_false_pick : forall pick s, pick_ok pick -> ofin s = false -> In (pick (o_queue s)) (keys (o_queue s)).
Proof.
  intros pick s Hpick Hfin. apply Hpick. unfold ofin in Hfin. apply orb_false_elim in Hfin.
  destruct (o_queue s); [destruct Hfin; discriminate | discriminate].
Qed.

Lemma ostep_measure : forall pick root pm es s,
  pick_ok pick -> oinv root pm es s -> ofin s = false ->
  oinv root pm es (ostep pick pm es s) /\
  omu (length pm) (length es) (ostep pick pm es s) < omu (length pm) (length es) s.
Proof.
  intros pick root pm es s Hpick I Hfin.
  pose proof (ostep_inv pick root pm es s Hpick I Hfin) as I'. split; [exact I'|].
  pose proof (ofin_false_pick pick s Hpick Hfin) as Hnode.
  pose proof (del_key_length _ _ Hnode) as Ld.
  revert I'. unfold ostep, omu. set (node := pick (o_queue s)) in *.
  destruct (memN node (o_seen s)); [intros _; cbn; lia|].
  destruct (fold_left (enqueue pm (insertN node (o_seen s))) (outgoing es node)
              (map (fun e => (fst e, removeN node (snd e))) (del_key node (o_queue s)), o_err s)) as [q3 err'] eqn:Ef.
  destruct (enqueue_fold_length _ _ _ _ _ _ _ Ef) as [L1 _]. rewrite map_length in L1.
  pose proof (outgoing_length es node) as Lo. cbn. intros I'.
  (* the new order is duplicate-free and inside the node list, hence not longer than it *)
  assert (Lv : S (length (o_order s)) <= length pm).
  { rewrite <- (map_length fst pm). apply (NoDup_incl_length (oi_nodup _ _ _ _ I')).
    intros x Hx. apply (oi_nodes _ _ _ _ I'). left. exact Hx. }
  pose proof (mul_succ_le (length pm - S (length (o_order s))) (length pm - length (o_order s)) (length es)). lia.
Qed.

Lemma ostep_err : forall pick pm es s,
  o_err s = 0 \/ o_err s = 12 -> o_err (ostep pick pm es s) = 0 \/ o_err (ostep pick pm es s) = 12.
Proof.
  intros pick pm es s Herr. unfold ostep. destruct (memN (pick (o_queue s)) (o_seen s)); [exact Herr|].
  destruct (fold_left _ _ _) as [q3 err'] eqn:Ef.
  destruct (enqueue_fold_length _ _ _ _ _ _ _ Ef) as [_ [->| ->]]; [exact Herr | right; reflexivity].
Qed.

(* an outgoing edge of a scheduled node cannot leave the node list *)
Lemma ostep_no_err : forall pick root pm es s,
  pick_ok pick -> closed_edges (map fst pm) es -> oinv root pm es s -> ofin s = false ->
  o_err s = 0 -> o_err (ostep pick pm es s) = 0.
Proof.
  intros pick root pm es s Hpick Hc I Hfin He. pose proof (ofin_false_pick pick s Hpick Hfin) as Hnode.
  unfold ostep. set (node := pick (o_queue s)) in *. destruct (memN node (o_seen s)); [exact He|]. rewrite He.
  pose proof (enqueue_fold_no_err pm (insertN node (o_seen s)) (outgoing es node)
                (map (fun e => (fst e, removeN node (snd e))) (del_key node (o_queue s)))) as G.
  destruct (fold_left _ _ _) as [q3 err']. apply G.
  intros y Hy. apply outgoing_In in Hy. apply (Hc node y Hy), (oi_nodes _ _ _ _ I). right. exact Hnode.
Qed.

Lemma order_fuel_enough : forall nodes es, length nodes * (length es + 1) + 1 < 2 ^ order_fuel nodes es.
Proof.
  intros nodes es. unfold order_fuel. apply fuel_for_gt.
  rewrite Nat2N.inj_add, Nat2N.inj_mul, Nat2N.inj_add. simpl N.of_nat. lia.
Qed.

(* [Q]: any property that the initial state has and the steps keep, e.g. which error codes can occur *)
Lemma order_run_final : forall pick root rest es pm (Q : ost -> Prop),
  pick_ok pick -> compute_predecessors (root :: rest) es = Ok pm ->
  exists rp, assocN root pm = Some rp /\
    (Q (mkO [(root, rp)] [] [] 0) ->
     (forall s, oinv root pm es s -> Q s -> ofin s = false -> Q (ostep pick pm es s)) ->
     let s := run (ostep pick pm es) ofin (order_fuel (root :: rest) es) (mkO [(root, rp)] [] [] 0) in
     oinv root pm es s /\ Q s /\ ofin s = true).
Proof.
  intros pick root rest es pm Q Hpick Epm.
  destruct (compute_predecessors_exact_lemma _ _ _ Epm) as [Hkeys _].
  destruct (assocN_of_key _ root pm) as [rp Erp]; [rewrite Hkeys; left; reflexivity|].
  exists rp. split; [exact Erp|]. intros Q0 Qstep. cbv zeta.
  destruct (run_terminates ost (ostep pick pm es) ofin (omu (length pm) (length es))
              (fun s => oinv root pm es s /\ Q s)) with (d := order_fuel (root :: rest) es) (s := mkO [(root, rp)] [] [] 0)
    as [[I HQ] F].
  - intros s [I HQ] Fn. destruct (ostep_measure pick root pm es s Hpick I Fn) as [I' M]. auto.
  - split; [exact (oinv_init root pm es rp Erp) | exact Q0].
  - unfold omu. cbn [o_order o_queue length]. rewrite <- (map_length fst pm), Hkeys.
    pose proof (order_fuel_enough (root :: rest) es). lia.
  - auto.
Qed.

Local Opaque pred_fuel order_fuel.

Lemma nodupN_NoDup : forall l seen, NoDup (nodupN l seen).
Proof.
  induction l as [|x l IH]; intros seen; simpl; [constructor|].
  destruct (memN x seen); [apply IH|]. constructor; [|apply IH].
  intro F. apply nodupN_In in F. destruct F as [_ F]. apply F. left. reflexivity.
Qed.

Lemma nodupN_same_length : forall l1 l2, (forall x, In x l1 <-> In x l2) ->
  length (nodupN l1 []) = length (nodupN l2 []).
Proof.
  intros l1 l2 H. apply Nat.le_antisymm; apply NoDup_incl_length; try apply nodupN_NoDup.
  all: intros x Hx; apply nodupN_In in Hx; apply nodupN_In; split; [apply H; tauto | tauto].
Qed.

(* assert len(set(order) | dead) == len(set(nodes)): when the queue has run empty without a KeyError, the order
   holds exactly the nodes reachable from root, and a node is dead iff root is not among its predecessors, i.e. iff
   it is not reachable *)
Lemma order_assertion : forall root rest es pm s,
  compute_predecessors (root :: rest) es = Ok pm -> oinv root pm es s -> o_err s = 0 -> o_queue s = [] ->
  length (nodupN (rev (o_order s) ++ map fst (filter (fun e => negb (memN root (snd e))) pm)) []) =
  length (nodupN (root :: rest) []).
Proof.
  intros root rest es pm s Epm I E Eq.
  destruct (compute_predecessors_exact_lemma _ _ _ Epm) as [Hkeys [Hsound _]].
  destruct (oinv_final _ _ _ _ I E Eq) as [_ [_ [Hreach [Hnodes _]]]].
  apply nodupN_same_length. intros x. rewrite <- Hkeys, in_app_iff. split.
  - intros [Hx|Hx]; [exact (Hnodes x Hx)|].
    apply in_map_iff in Hx. destruct Hx as [e [<- Hx]]. apply filter_In in Hx. apply in_map, Hx.
  - intros Hx. destruct (assocN_of_key _ _ _ Hx) as [ps Hps]. apply assocN_In_pair in Hps.
    destruct (memN root ps) eqn:Em.
    + left. apply memN_In in Em. apply Hreach. exact (proj2 (Hsound _ _ _ Hps Em)).
    + right. apply (in_map fst _ (x, ps)), filter_In. split; [exact Hps | cbn [snd]; rewrite Em; reflexivity].
Qed.

(* what order_nodes can raise: only the KeyErrors of predecessor_map[n] (10 in compute_predecessors, 12 in the
   scheduling loop), i.e. never the fuel codes 11/15, never KeyError 13 and never the final assertion 14 *)
Lemma order_nodes_errors_lemma : forall pick nodes es c,
  pick_ok pick -> order_nodes_gen pick nodes es = Err c -> c = 10 \/ c = 12.
Proof.
  intros pick nodes es c Hpick H. unfold order_nodes_gen in H. destruct nodes as [|root rest]; [discriminate|].
  destruct (compute_predecessors (root :: rest) es) as [pm|c'] eqn:Epm; cbn [bind] in H.
  2:{ injection H as <-. left. exact (compute_predecessors_fuel_lemma _ _ _ Epm). }
  destruct (order_run_final pick root rest es pm (fun s => o_err s = 0 \/ o_err s = 12) Hpick Epm) as [rp [Erp Hrun]].
  rewrite Erp in H. destruct Hrun as [I [E F]]; [left; reflexivity | intros s _ Hs _; exact (ostep_err _ _ _ _ Hs) |].
  cbv zeta in I, E, F, H. set (s := run _ _ _ _) in *.
  destruct E as [E|E]; rewrite E in H; [|injection H as <-; right; reflexivity].
  exfalso. rewrite F in H. unfold ofin in F. rewrite E in F. cbn [Nat.eqb negb orb] in F.
  destruct (o_queue s) eqn:Eq; [|discriminate].
  rewrite (order_assertion root rest es pm s Epm I E Eq), Nat.eqb_refl in H. discriminate.
Qed.

(* the KeyErrors are impossible when no edge leaves the node list *)
Lemma order_nodes_total_lemma : forall pick nodes es,
  pick_ok pick -> closed_edges nodes es -> exists order, order_nodes_gen pick nodes es = Ok order.
Proof.
  intros pick nodes es Hpick Hc. unfold order_nodes_gen. destruct nodes as [|root rest]; [eauto|].
  destruct (compute_predecessors_total_lemma _ es Hc) as [pm Epm]. rewrite Epm. cbn [bind].
  destruct (compute_predecessors_exact_lemma _ _ _ Epm) as [Hkeys _]. rewrite <- Hkeys in Hc.
  destruct (order_run_final pick root rest es pm (fun s => o_err s = 0) Hpick Epm) as [rp [-> Hrun]].
  destruct Hrun as [I [E F]]; [reflexivity | intros s Is Hs Fn; exact (ostep_no_err _ _ _ _ _ Hpick Hc Is Fn Hs) |].
  cbv zeta in I, E, F |- *. set (s := run _ _ _ _) in *. rewrite E, F.
  unfold ofin in F. rewrite E in F. cbn [Nat.eqb negb orb] in F. destruct (o_queue s) eqn:Eq; [|discriminate].
  rewrite (order_assertion root rest es pm s Epm I E Eq), Nat.eqb_refl. eauto.
Qed.
