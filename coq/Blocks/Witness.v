(* C16 witnesses: concrete opcode lists (abstracted from what pytype builds for CPython 3.12, opcode classes
   by NAME so they survive a reordering of opcodes.py) and one evaluated fact about the first. *)
From Coq Require Import List NArith Arith Bool.
From PV Require Import Generated.C16_OpcodeFlags Blocks.Model.
Import ListNotations.

(* async def f(it):
     async for i in it:
       if i: continue
       g(i)                                                                                   *)
Definition async_for_continue : list instr :=
 [mkI 0 op_RETURN_GENERATOR None None None (Some 1) None;
 mkI 1 op_POP_TOP None None None (Some 2) (Some 0);
 mkI 2 op_RESUME None None None (Some 3) (Some 1);
 mkI 3 op_LOAD_FAST None None None (Some 4) (Some 2);
 mkI 4 op_GET_AITER None None None (Some 5) (Some 3);
 mkI 5 op_GET_ANEXT None None None (Some 6) (Some 4);
 mkI 6 op_LOAD_CONST None None None (Some 7) (Some 5);
 mkI 7 op_SEND (Some 11) None None (Some 8) (Some 6);
 mkI 8 op_YIELD_VALUE None None None (Some 9) (Some 7);
 mkI 9 op_RESUME None None None (Some 10) (Some 8);
 mkI 10 op_JUMP_BACKWARD_NO_INTERRUPT (Some 7) None None (Some 11) (Some 9);
 mkI 11 op_END_SEND None None None (Some 12) (Some 10);
 mkI 12 op_STORE_FAST None None None (Some 13) (Some 11);
 mkI 13 op_LOAD_FAST None None None (Some 14) (Some 12);
 mkI 14 op_POP_JUMP_IF_FALSE (Some 16) None None (Some 15) (Some 13);
 mkI 15 op_JUMP_BACKWARD (Some 5) None (Some 23) (Some 16) (Some 14);
 mkI 16 op_LOAD_GLOBAL None None None (Some 17) (Some 15);
 mkI 17 op_LOAD_FAST None None None (Some 18) (Some 16);
 mkI 18 op_CALL None None None (Some 19) (Some 17);
 mkI 19 op_POP_TOP None None None (Some 20) (Some 18);
 mkI 20 op_JUMP_BACKWARD (Some 5) None (Some 23) (Some 21) (Some 19);
 mkI 21 op_CLEANUP_THROW None None None (Some 22) (Some 20);
 mkI 22 op_JUMP_BACKWARD (Some 11) None None (Some 23) (Some 21);
 mkI 23 op_END_ASYNC_FOR None None None (Some 24) (Some 22);
 mkI 24 op_RETURN_CONST None None None (Some 25) (Some 23);
 mkI 25 op_CALL_INTRINSIC_1 None None None (Some 26) (Some 24);
 mkI 26 op_RERAISE None None None None (Some 25)]%N.

(* one evaluation of compute_order, down to a boolean *)
Lemma async_for_continue_dup :
  match compute_order true async_for_continue with
  | Ok r => has_dup (block_instrs (r_blocks r))
  | Err _ => false
  end = true.
Proof. vm_compute. reflexivity. Qed.

(* def f(xs):
     for x in xs:
       try: g(x)
       except ValueError: continue
     return 1                                                                                  *)
Definition loop_try_except : list instr :=
 [mkI 0 op_RESUME None None None (Some 1) None;
  mkI 1 op_LOAD_FAST None None None (Some 2) (Some 0);
  mkI 2 op_GET_ITER None None None (Some 3) (Some 1);
  mkI 3 op_FOR_ITER (Some 13) None None (Some 4) (Some 2);
  mkI 4 op_STORE_FAST None None None (Some 5) (Some 3);
  mkI 5 op_NOP None None None (Some 6) (Some 4);
  mkI 6 op_SETUP_EXCEPT_311 (Some 15) None None (Some 7) (Some 5);
  mkI 7 op_LOAD_GLOBAL None None None (Some 8) (Some 6);
  mkI 8 op_LOAD_FAST None None None (Some 9) (Some 7);
  mkI 9 op_CALL None None None (Some 10) (Some 8);
  mkI 10 op_POP_TOP None None None (Some 11) (Some 9);
  mkI 11 op_POP_BLOCK None (Some 15) None (Some 12) (Some 10);
  mkI 12 op_JUMP_BACKWARD (Some 3) None None (Some 13) (Some 11);
  mkI 13 op_END_FOR None None None (Some 14) (Some 12);
  mkI 14 op_RETURN_CONST None None None (Some 15) (Some 13);
  mkI 15 op_PUSH_EXC_INFO None None None (Some 16) (Some 14);
  mkI 16 op_LOAD_GLOBAL None None None (Some 17) (Some 15);
  mkI 17 op_CHECK_EXC_MATCH None None None (Some 18) (Some 16);
  mkI 18 op_POP_JUMP_IF_FALSE (Some 22) None None (Some 19) (Some 17);
  mkI 19 op_POP_TOP None None None (Some 20) (Some 18);
  mkI 20 op_POP_EXCEPT None None None (Some 21) (Some 19);
  mkI 21 op_JUMP_BACKWARD (Some 3) None None (Some 22) (Some 20);
  mkI 22 op_RERAISE None None None (Some 23) (Some 21);
  mkI 23 op_COPY None None None (Some 24) (Some 22);
  mkI 24 op_POP_EXCEPT None None None (Some 25) (Some 23);
  mkI 25 op_RERAISE None None None None (Some 24)]%N.

(* async def f(it):
     async for i in it:
       g(i)                                                                                    *)
Definition async_for_simple : list instr :=
 [mkI 0 op_RETURN_GENERATOR None None None (Some 1) None;
  mkI 1 op_POP_TOP None None None (Some 2) (Some 0);
  mkI 2 op_RESUME None None None (Some 3) (Some 1);
  mkI 3 op_LOAD_FAST None None None (Some 4) (Some 2);
  mkI 4 op_GET_AITER None None None (Some 5) (Some 3);
  mkI 5 op_GET_ANEXT None None None (Some 6) (Some 4);
  mkI 6 op_LOAD_CONST None None None (Some 7) (Some 5);
  mkI 7 op_SEND (Some 11) None None (Some 8) (Some 6);
  mkI 8 op_YIELD_VALUE None None None (Some 9) (Some 7);
  mkI 9 op_RESUME None None None (Some 10) (Some 8);
  mkI 10 op_JUMP_BACKWARD_NO_INTERRUPT (Some 7) None None (Some 11) (Some 9);
  mkI 11 op_END_SEND None None None (Some 12) (Some 10);
  mkI 12 op_STORE_FAST None None None (Some 13) (Some 11);
  mkI 13 op_LOAD_GLOBAL None None None (Some 14) (Some 12);
  mkI 14 op_LOAD_FAST None None None (Some 15) (Some 13);
  mkI 15 op_CALL None None None (Some 16) (Some 14);
  mkI 16 op_POP_TOP None None None (Some 17) (Some 15);
  mkI 17 op_JUMP_BACKWARD (Some 5) None (Some 20) (Some 18) (Some 16);
  mkI 18 op_CLEANUP_THROW None None None (Some 19) (Some 17);
  mkI 19 op_JUMP_BACKWARD (Some 11) None None (Some 20) (Some 18);
  mkI 20 op_END_ASYNC_FOR None None None (Some 21) (Some 19);
  mkI 21 op_RETURN_CONST None None None (Some 22) (Some 20);
  mkI 22 op_CALL_INTRINSIC_1 None None None (Some 23) (Some 21);
  mkI 23 op_RERAISE None None None None (Some 22)]%N.
