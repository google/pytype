(* C16 lemmas over Blocks/Model.v.  The per-opcode flag table is never unfolded: every statement holds
   for whatever table the translator regenerates. *)
From Coq Require Import List NArith Arith Bool Lia Relations FinFun.
From PV Require Import Generated.C16_OpcodeFlags Blocks.Model.
Import ListNotations.

Local Opaque flags_of.

Lemma memN_In : forall x l, memN x l = true <-> In x l.
Proof.
  unfold memN. intros x l. rewrite existsb_exists. split.
  - intros [y [Hy He]]. apply N.eqb_eq in He. subst. exact Hy.
  - intros H. exists x. split; [exact H | apply N.eqb_refl].
Qed.

Lemma memN_false : forall x l, memN x l = false <-> ~ In x l.
Proof. intros x l. rewrite <- memN_In. symmetry. apply not_true_iff_false. Qed.

Lemma run_inv : forall (S : Type) (step : S -> S) (fin : S -> bool) (P : S -> Prop),
  (forall s, P s -> fin s = false -> P (step s)) ->
  forall d s, P s -> P (run step fin d s).
Proof.
  intros S step fin P Hstep. induction d; intros s Hs; simpl.
  - destruct (fin s) eqn:E; auto.
  - destruct (fin (run step fin d s)) eqn:E; auto.
Qed.

(* the loops run with binary fuel derived from the input size; never unfold it here *)
Local Opaque pred_fuel order_fuel.

Definition popt (k : nat) : option N := match k with O => None | S p => Some (N.of_nat p) end.

Lemma optN_eqb_eq : forall a b, optN_eqb a b = true <-> a = b.
Proof.
  destruct a, b; simpl; try (split; congruence).
  rewrite N.eqb_eq. split; congruence.
Qed.

Definition link_ok (n pos : nat) (o : instr) : Prop :=
  idx o = N.of_nat pos /\
  next o = (if S pos <? n then Some (N.of_nat (S pos)) else None) /\
  prev o = popt pos.

Lemma wf_links_cons : forall o t pos n,
  wf_links (o :: t) pos n = true <-> link_ok n pos o /\ wf_links t (S pos) n = true.
Proof.
  intros o t pos n. unfold link_ok, popt. simpl. split.
  - intros H. apply andb_prop in H. destruct H as [H Ht]. apply andb_prop in H. destruct H as [H Hp].
    apply andb_prop in H. destruct H as [Hi Hn]. apply N.eqb_eq in Hi. apply optN_eqb_eq in Hn, Hp. auto.
  - intros [[Hi [Hn Hp]] Ht]. rewrite Hi, Hn, Hp, Ht, N.eqb_refl.
    rewrite !(proj2 (optN_eqb_eq _ _) eq_refl). reflexivity.
Qed.

Lemma wf_links_spec : forall ops pos n,
  wf_links ops pos n = true ->
  forall i o, nth_error ops i = Some o ->
    idx o = N.of_nat (pos + i) /\
    next o = (if S (pos + i) <? n then Some (N.of_nat (S (pos + i))) else None) /\
    prev o = popt (pos + i).
Proof.
  induction ops as [|a t IH]; intros pos n H i o Hi; [destruct i; discriminate|].
  apply wf_links_cons in H. destruct H as [Ha Ht]. destruct i; simpl in Hi.
  - injection Hi as <-. rewrite Nat.add_0_r. exact Ha.
  - rewrite <- Nat.add_succ_comm. exact (IH _ _ Ht i o Hi).
Qed.

Lemma wf_links_ext : forall l1 l2 pos n,
  length l1 = length l2 ->
  (forall i a b, nth_error l1 i = Some a -> nth_error l2 i = Some b ->
      idx a = idx b /\ next a = next b /\ prev a = prev b) ->
  wf_links l1 pos n = wf_links l2 pos n.
Proof.
  induction l1 as [|a l1 IH]; intros [|b l2] pos n Hl H; simpl in *; try discriminate; auto.
  destruct (H 0 a b eq_refl eq_refl) as [Hi [Hn Hp]]. rewrite Hi, Hn, Hp. f_equal.
  apply IH; [lia|]. intros i x y Hx Hy. apply (H (S i)); auto.
Qed.

Lemma wf_links_app : forall l1 l2 pos n,
  wf_links (l1 ++ l2) pos n = wf_links l1 pos n && wf_links l2 (pos + length l1) n.
Proof.
  induction l1 as [|a l1 IH]; intros l2 pos n; simpl.
  - rewrite Nat.add_0_r. reflexivity.
  - rewrite IH, Nat.add_succ_comm, andb_assoc. reflexivity.
Qed.

(* the length matters only to the last instruction *)
Lemma wf_links_inner : forall l pos n m,
  pos + length l < n -> pos + length l < m -> wf_links l pos n = wf_links l pos m.
Proof.
  induction l as [|a l IH]; intros pos n m Hn Hm; simpl in *; [reflexivity|].
  rewrite (IH (S pos) n m) by lia.
  rewrite (proj2 (Nat.ltb_lt (S pos) n)), (proj2 (Nat.ltb_lt (S pos) m)) by lia. reflexivity.
Qed.

Definition linked (l : list instr) : Prop := wf_links l 0 (length l) = true.

Lemma linked_idx_lt : forall ops o, linked ops -> In o ops -> N.to_nat (idx o) < length ops.
Proof.
  intros ops o H Hin. apply In_nth_error in Hin. destruct Hin as [i Hi].
  destruct (wf_links_spec _ _ _ H i o Hi) as [E _]. simpl in E. rewrite E, Nnat.Nat2N.id.
  apply nth_error_Some. congruence.
Qed.

(* one turn of the loop of _make_opcode_list: prev_op.next = op, op.prev = prev_op *)
Lemma linked_snoc : forall l p c k,
  k = S (length l) -> linked (l ++ [p]) ->
  linked (l ++ [set_next p (Some (N.of_nat k)); mkI (N.of_nat k) c None None None None (Some (idx p))]).
Proof.
  unfold linked. intros l p c k -> H. rewrite app_length, wf_links_app in *.
  apply andb_true_iff in H. destruct H as [Hl Hp]. apply wf_links_cons in Hp.
  destruct Hp as [[Hi [_ Hv]] _]. cbn [Nat.add length] in *.
  apply andb_true_iff. split.
  - rewrite <- Hl. apply wf_links_inner; simpl; lia.
  - apply wf_links_cons. split; [|apply wf_links_cons; split; [|reflexivity]].
    + split; [exact Hi|]. split; [|exact Hv]. simpl.
      rewrite (proj2 (Nat.ltb_lt _ _)) by lia. reflexivity.
    + split; [reflexivity|]. split; simpl.
      * rewrite (proj2 (Nat.ltb_ge _ _)) by lia. reflexivity.
      * rewrite Hi. reflexivity.
Qed.

Lemma mol_loop_linked : forall minor items acc o2i,
  linked (rev (map fst acc)) ->
  linked (map fst (fst (mol_loop minor items acc o2i (N.of_nat (length acc))))).
Proof.
  induction items as [|it rest IH]; intros acc o2i H; simpl.
  - rewrite map_rev. exact H.
  - destruct (should_elide minor it rest); [apply IH; exact H|].
    replace (N.of_nat (length acc) + 1)%N with (N.of_nat (S (length acc))) by lia.
    destruct acc as [|[p pit] t].
    + apply (IH [_]). reflexivity.
    + apply (IH (_ :: _ :: t)). cbn [map fst rev] in *. rewrite <- app_assoc.
      apply linked_snoc; [|exact H]. rewrite rev_length, map_length. reflexivity.
Qed.

Lemma make_opcode_list_links : forall minor items,
  let ops := make_opcode_list minor items in wf_links ops 0 (length ops) = true.
Proof. intros minor items. apply (mol_loop_linked minor items [] []). reflexivity. Qed.

Lemma mol_loop_no_target : forall minor items acc o2i k,
  Forall (fun oi => target (fst oi) = None) acc ->
  Forall (fun oi => target (fst oi) = None) (fst (mol_loop minor items acc o2i k)).
Proof.
  induction items as [|it rest IH]; intros acc o2i k H; simpl.
  - apply Forall_rev. exact H.
  - destruct (should_elide minor it rest); apply IH; [exact H|].
    constructor; [reflexivity|]. destruct H as [|[p pit] t Hp Ht]; constructor; assumption.
Qed.

Lemma index_of_item_In : forall k all t,
  index_of_item k all = Some t -> exists oi, In oi all /\ idx (fst oi) = t.
Proof.
  induction all as [|[o it] all IH]; simpl; intros t H; [discriminate|].
  destruct (N.eqb (ioff it) k).
  - injection H as <-. exists (o, it). auto.
  - destruct (IH t H) as [oi [Hin Hi]]. exists oi. auto.
Qed.

Lemma map_res_length : forall A B (f : A -> res B) l r, map_res f l = Ok r -> length r = length l.
Proof.
  induction l; simpl; intros r H.
  - inversion H. reflexivity.
  - destruct (f a); simpl in H; try discriminate. destruct (map_res f l) eqn:E; simpl in H; try discriminate.
    inversion H. simpl. f_equal. apply IHl. reflexivity.
Qed.

Lemma map_res_nth : forall A B (f : A -> res B) l r, map_res f l = Ok r ->
  forall i b, nth_error r i = Some b -> exists a, nth_error l i = Some a /\ f a = Ok b.
Proof.
  induction l; simpl; intros r H i b Hi.
  - inversion H; subst. destruct i; discriminate.
  - destruct (f a) eqn:Ea; simpl in H; try discriminate.
    destruct (map_res f l) eqn:E; simpl in H; try discriminate.
    inversion H; subst. destruct i; simpl in Hi.
    + inversion Hi; subst. exists a. split; auto.
    + eapply IHl; eauto.
Qed.

Lemma ajt_one_inv : forall n all o2i o it o',
  ajt_one n all o2i (o, it) = Ok o' ->
  (o' = o /\ has_known_jump o = false) \/
  exists t, o' = set_target o (Some t) /\ (N.to_nat t < n \/ exists k, index_of_item k all = Some t).
Proof.
  intros n all o2i o it o' H. unfold ajt_one in H. destruct (ipreset it) as [k|].
  - destruct (index_of_item k all) as [t|] eqn:E; [|discriminate]. injection H as <-. eauto 6.
  - destruct (has_known_jump o); [|injection H as <-; auto].
    destruct (iarg it) as [a|]; [|discriminate]. destruct (assocN a o2i) as [t|]; [|discriminate].
    destruct (N.to_nat t <? n) eqn:E; [|discriminate]. apply Nat.ltb_lt in E. injection H as <-. eauto.
Qed.

Lemma build_ops_wf : forall minor items ops,
  build_ops minor items = Ok ops ->
  wf_links ops 0 (length ops) = true /\
  (forall o t, In o ops -> target o = Some t -> N.to_nat t < length ops).
Proof.
  intros minor items ops H. unfold build_ops in H.
  pose proof (make_opcode_list_links minor items) as HL.
  pose proof (mol_loop_no_target minor items [] [] 0%N (Forall_nil _)) as HT.
  unfold make_opcode_list in HL. destruct (mol_loop minor items [] [] 0%N) as [all o2i]. simpl in HL, HT.
  pose proof (map_res_length _ _ _ _ _ H) as Hlen. rewrite map_length, <- Hlen in HL.
  split.
  - rewrite <- HL. apply wf_links_ext; [rewrite map_length; exact Hlen|].
    intros i a b Ha Hb. destruct (map_res_nth _ _ _ _ _ H i a Ha) as [[o it] [Hn Hf]].
    rewrite nth_error_map, Hn in Hb. injection Hb as <-.
    destruct (ajt_one_inv _ _ _ _ _ _ Hf) as [[-> _] | [t [-> _]]]; auto.
  - intros o t Hin Ht. apply In_nth_error in Hin. destruct Hin as [i Hi].
    destruct (map_res_nth _ _ _ _ _ H i o Hi) as [[o0 it] [Hn Hf]].
    destruct (ajt_one_inv _ _ _ _ _ _ Hf) as [[-> _] | [t' [-> [Hlt | [k Hk]]]]].
    + apply nth_error_In in Hn. rewrite Forall_forall in HT. apply HT in Hn. simpl in Hn. congruence.
    + injection Ht as <-. rewrite Hlen. exact Hlt.
    + injection Ht as <-. destruct (index_of_item_In _ _ _ Hk) as [oi [Hin <-]].
      rewrite Hlen, <- (map_length fst all). apply linked_idx_lt.
      * unfold linked. rewrite map_length, <- Hlen. exact HL.
      * apply in_map. exact Hin.
Qed.

Definition block_wf (b : block) : Prop := exists o c, code b = o :: c /\ bid b = idx o.

Definition pending (m : smode) : list instr :=
  match m with MNormal => [] | MYield _ acc => rev acc | MTail _ acc => rev acc end.

Definition flat (bl : list block) : list instr := concat (map code (rev bl)).

(* every instruction consumed so far, in order *)
Definition content (st : sst) : list instr :=
  flat (s_blocks st) ++ rev (s_cur st) ++ pending (s_mode st).

Lemma flat_Block : forall c bl, flat (Block c :: bl) = flat bl ++ c.
Proof. intros. unfold flat. simpl. rewrite map_app, concat_app. simpl. rewrite app_nil_r. reflexivity. Qed.

(* [e] says which ops end a block: those waiting in [s_cur] do not *)
Record split_inv (e : instr -> bool) (st : sst) : Prop := {
  si_blocks : Forall block_wf (s_blocks st);
  si_mode : s_mode st <> MNormal -> s_cur st = [];
  si_tail : forall s acc, s_mode st = MTail s acc -> acc <> [];
  si_open : Forall (fun o => e o = false) (s_cur st)
}.

Lemma split_inv_normal : forall e bl cur p es err,
  Forall block_wf bl -> Forall (fun o => e o = false) cur -> split_inv e (mkS bl cur p es MNormal err).
Proof. intros. constructor; simpl; [assumption | congruence | discriminate | assumption]. Qed.

Lemma Block_ok : forall o c, block_wf (Block (o :: c)).
Proof. intros. exists o, c. split; reflexivity. Qed.

Lemma Block_rev_ok : forall o l, block_wf (Block (rev (o :: l))).
Proof. intros. simpl. destruct (rev l); apply Block_ok. Qed.

Lemma split_normal_content : forall v ops tg st op,
  let e := ends_block v ops tg in
  s_mode st = MNormal -> split_inv e st ->
  content (split_normal v ops tg st op) = content st ++ [op] /\ split_inv e (split_normal v ops tg st op).
Proof.
  intros v ops tg [bl cur p es m err] op e Hm [Hb _ _ Ho]. simpl in *. subst m.
  assert (Hy : forall bl p es err, Forall block_wf bl -> split_inv e (mkS bl [] p es (MYield (idx op) []) err)).
  { intros. constructor; simpl; [assumption | reflexivity | discriminate | constructor]. }
  unfold split_normal, content. simpl. destruct (v && is_op op_SEND op).
  - (* SEND closes the running block, if any, and is a block of its own *)
    destruct cur as [|c0 cur].
    + destruct p; simpl; rewrite flat_Block, !app_nil_r.
      all: split; [reflexivity | apply Hy; constructor; [apply Block_ok | exact Hb]].
    + simpl. rewrite !flat_Block, !app_nil_r, <- !app_assoc. split; [reflexivity|].
      apply Hy. constructor; [apply Block_ok|]. constructor; [apply Block_rev_ok | exact Hb].
  - fold e. destruct (e op) eqn:Ee; simpl.
    + rewrite flat_Block, !app_nil_r, <- !app_assoc. split; [reflexivity|].
      apply split_inv_normal; constructor; [apply Block_rev_ok | exact Hb].
    + rewrite !app_nil_r, <- app_assoc. split; [reflexivity|].
      apply split_inv_normal; [exact Hb | constructor; assumption].
Qed.

Lemma close_yield_content : forall e st s acc,
  s_cur st = [] -> acc <> [] -> Forall block_wf (s_blocks st) ->
  content (close_yield st s acc) = flat (s_blocks st) ++ rev acc /\
  split_inv e (close_yield st s acc) /\ s_mode (close_yield st s acc) = MNormal.
Proof.
  intros e st s acc Hc Hacc Hb. unfold close_yield, content. simpl. rewrite flat_Block, app_nil_r.
  split; [reflexivity|]. split; [|reflexivity].
  apply split_inv_normal; constructor; [|exact Hb]. destruct acc as [|a acc]; [congruence|]. apply Block_rev_ok.
Qed.

Lemma split_step_content : forall v ops tg st op,
  let e := ends_block v ops tg in
  split_inv e st ->
  content (split_step v ops tg st op) = content st ++ [op] /\ split_inv e (split_step v ops tg st op).
Proof.
  intros v ops tg st op e Hinv. unfold split_step. destruct (s_mode st) as [|s acc|s acc] eqn:Hm.
  - apply split_normal_content; auto.
  - assert (Hc : s_cur st = []) by (apply (si_mode _ _ Hinv); congruence).
    destruct (is_op op_JUMP_BACKWARD_NO_INTERRUPT op); unfold content; simpl; rewrite Hm, Hc; simpl.
    all: rewrite <- app_assoc; split; [reflexivity|].
    all: constructor; simpl;
      [ apply (si_blocks _ _ Hinv) | reflexivity | intros s' acc' E; inversion E; discriminate | constructor ].
  - assert (Hc : s_cur st = []) by (apply (si_mode _ _ Hinv); congruence).
    assert (Ha : acc <> []) by (eapply (si_tail _ _ Hinv); eauto).
    assert (E0 : content st = flat (s_blocks st) ++ rev acc) by (unfold content; rewrite Hm, Hc; reflexivity).
    destruct (is_op op_CLEANUP_THROW op).
    + destruct (close_yield_content e st s (op :: acc) Hc ltac:(discriminate) (si_blocks _ _ Hinv)) as [E1 [E2 _]].
      split; [|exact E2]. rewrite E1, E0, <- app_assoc. reflexivity.
    + destruct (close_yield_content e st s acc Hc Ha (si_blocks _ _ Hinv)) as [E1 [E2 E3]].
      destruct (split_normal_content v ops tg _ op E3 E2) as [F1 F2].
      split; [|exact F2]. rewrite F1, E1, E0. reflexivity.
Qed.

Lemma split_init_inv : forall e, split_inv e split_init.
Proof. intros e. apply split_inv_normal; constructor. Qed.

Lemma split_fold_content : forall v ops tg l st,
  let e := ends_block v ops tg in
  split_inv e st ->
  content (fold_left (split_step v ops tg) l st) = content st ++ l /\
  split_inv e (fold_left (split_step v ops tg) l st).
Proof.
  intros v ops tg l st e. revert st. induction l as [|op l IH]; intros st Hinv; simpl.
  - rewrite app_nil_r. auto.
  - destruct (split_step_content v ops tg st op Hinv) as [E I].
    destruct (IH _ I) as [E' I']. split; [|exact I']. rewrite E', E, <- app_assoc. reflexivity.
Qed.

Lemma linked_last_next : forall l o, linked (l ++ [o]) -> next o = None.
Proof.
  unfold linked. intros l o H. rewrite wf_links_app, andb_true_iff in H. destruct H as [_ H].
  apply wf_links_cons in H. destruct H as [[_ [H _]] _].
  rewrite app_length, (Nat.add_comm (length l)), Nat.ltb_irrefl in H. exact H.
Qed.

Lemma split_partition_lemma : forall v ops bs es,
  linked ops -> split_bytecode v ops = Ok (bs, es) ->
  concat (map code bs) = ops /\ Forall block_wf bs.
Proof.
  intros v ops bs es Hl H. unfold split_bytecode in H.
  destruct (split_fold_content v ops (targets ops) ops split_init (split_init_inv _)) as [E [Hb _ _ Ho]].
  destruct (fold_left (split_step v ops (targets ops)) ops split_init) as [bl cur p e m err].
  unfold content in E. simpl in *. destruct m; try discriminate. destruct err; try discriminate.
  injection H as <- <-. split; [|apply Forall_rev; exact Hb].
  destruct cur as [|c cur]; [simpl in E; rewrite app_nil_r in E; exact E|].
  (* the op waiting in [s_cur] would be the last of the list, and that one (op.next is None) ends its block *)
  exfalso. apply Forall_inv in Ho. simpl in E. rewrite app_nil_r, app_assoc in E. rewrite <- E in Hl.
  unfold ends_block in Ho. rewrite (linked_last_next _ _ Hl), !orb_true_r in Ho. discriminate.
Qed.

(* SEND-free code: no block has an op with [ends_block] before its last one, so every jump target starts a block.
   [e] says which ops end a block; the list lemmas below need nothing else of [ends_block] *)
Definition shape (e : instr -> bool) (b : block) : Prop :=
  exists c l, code b = c ++ [l] /\ Forall (fun o => e o = false) c.

Definition heads (bs : list block) (o : instr) : Prop := exists b c, In b bs /\ code b = o :: c.

Lemma heads_cons : forall b bs o, heads bs o -> heads (b :: bs) o.
Proof. intros b bs o [b' [c [Hin Hc]]]. exists b', c. split; [right|]; assumption. Qed.

Lemma heads_first : forall e bs o l,
  Forall (shape e) bs -> concat (map code bs) = o :: l -> heads bs o.
Proof.
  intros e [|b bs] o l Hs H; [discriminate|]. inversion Hs as [|? ? [c [x [E _]]] _]; subst.
  simpl in H. rewrite E in H. exists b.
  destruct c as [|a c]; injection H as -> _.
  - exists []. split; [left; reflexivity | exact E].
  - exists (c ++ [x]). split; [left; reflexivity | exact E].
Qed.

Lemma shape_split : forall (e : instr -> bool) c l rest l1 o1 o2 l2,
  Forall (fun o => e o = false) c -> e o1 = true ->
  (c ++ [l]) ++ rest = l1 ++ o1 :: o2 :: l2 ->
  rest = o2 :: l2 \/ exists l1', rest = l1' ++ o1 :: o2 :: l2.
Proof.
  induction c as [|a c IH]; intros l rest l1 o1 o2 l2 Hc He H; destruct l1 as [|a' l1]; simpl in H.
  - injection H as _ H. left. exact H.
  - injection H as _ H. right. exists l1. exact H.
  - injection H as -> _. inversion Hc; congruence.
  - injection H as _ H. inversion Hc; subst. eapply IH; eauto.
Qed.

Lemma shape_boundary : forall e bs l1 o1 o2 l2,
  Forall (shape e) bs ->
  concat (map code bs) = l1 ++ o1 :: o2 :: l2 ->
  e o1 = true -> heads bs o2.
Proof.
  induction bs as [|b bs IH]; intros l1 o1 o2 l2 Hs Hc He; [destruct l1; discriminate|].
  inversion Hs as [|? ? [c [l [Ecode Hcf]]] Hbs]; subst. simpl in Hc. rewrite Ecode in Hc.
  apply heads_cons. destruct (shape_split _ _ _ _ _ _ _ _ Hcf He Hc) as [E | [l1' E]].
  - exact (heads_first e bs o2 l2 Hbs E).
  - exact (IH l1' o1 o2 l2 Hbs E He).
Qed.

Definition nosend (v : bool) (ops : list instr) : Prop :=
  forall o, In o ops -> (v && is_op op_SEND o) = false.

Lemma split_step_plain : forall v ops tg st op,
  s_mode st = MNormal -> (v && is_op op_SEND op) = false ->
  split_step v ops tg st op =
  if ends_block v ops tg op
  then let b := Block (rev (op :: s_cur st)) in
       mkS (b :: s_blocks st) [] (Some (bid b)) (s_edges st) MNormal (s_err st)
  else mkS (s_blocks st) (op :: s_cur st) (s_prev st) (s_edges st) MNormal (s_err st).
Proof. intros v ops tg st op Hm Hs. unfold split_step, split_normal. rewrite Hm, Hs. reflexivity. Qed.

Lemma split_plain_fold : forall v ops tg l st es err,
  let e := ends_block v ops tg in
  s_mode st = MNormal -> s_edges st = es -> s_err st = err -> nosend v l ->
  Forall (shape e) (s_blocks st) -> Forall (fun o => e o = false) (s_cur st) ->
  let st' := fold_left (split_step v ops tg) l st in
  s_mode st' = MNormal /\ Forall (shape e) (s_blocks st') /\ s_edges st' = es /\ s_err st' = err.
Proof.
  intros v ops tg l st es err e. revert st.
  induction l as [|op l IH]; intros st Hm Hes Herr Hns Hb Hc; simpl; [auto|].
  assert (Hns' : nosend v l) by (intros o Ho; apply Hns; right; exact Ho).
  rewrite split_step_plain by (auto; apply Hns; left; reflexivity).
  fold e. destruct (e op) eqn:Ee; apply IH; simpl; auto.
  constructor; [|exact Hb]. exists (rev (s_cur st)), op. split; [reflexivity | apply Forall_rev; exact Hc].
Qed.

Lemma split_plain_total : forall v ops,
  nosend v ops ->
  exists bs, split_bytecode v ops = Ok (bs, []) /\ Forall (shape (ends_block v ops (targets ops))) bs.
Proof.
  intros v ops Hns. unfold split_bytecode.
  destruct (split_plain_fold v ops (targets ops) ops split_init [] 0 eq_refl eq_refl eq_refl Hns
              (Forall_nil _) (Forall_nil _)) as [A [B [D E]]].
  rewrite A, E, D. eexists. split; [reflexivity | apply Forall_rev; exact B].
Qed.

Lemma split_plain_shape : forall v ops bs es,
  nosend v ops -> split_bytecode v ops = Ok (bs, es) ->
  Forall (shape (ends_block v ops (targets ops))) bs /\ es = [].
Proof.
  intros v ops bs es Hns H. destruct (split_plain_total v ops Hns) as [bs' [E Hs]].
  rewrite H in E. injection E as -> ->. auto.
Qed.

Lemma wf_opsb_links : forall ops, wf_opsb ops = true -> wf_links ops 0 (length ops) = true.
Proof. intros ops H. unfold wf_opsb in H. apply andb_prop in H. tauto. Qed.

Lemma wf_opsb_target : forall ops o t, wf_opsb ops = true -> In o ops -> target o = Some t ->
  N.to_nat t < length ops.
Proof.
  intros ops o t H Hin Ht. unfold wf_opsb in H. apply andb_prop in H. destruct H as [_ H].
  rewrite forallb_forall in H. specialize (H o Hin). rewrite Ht in H.
  repeat (apply andb_prop in H; destruct H as [H ?]). simpl in H. apply Nat.ltb_lt. exact H.
Qed.

Lemma targets_In : forall ops o t, In o ops -> target o = Some t -> In t (targets ops).
Proof.
  intros ops o t Hin Ht. unfold targets. apply in_flat_map. exists o. split; auto.
  rewrite Ht. left. reflexivity.
Qed.

(* with the GET_ANEXT exemption harmless, the op before a jump target ends its block *)
Lemma anext_ok_ends : forall v ops o t,
  anext_okb ops = true -> In o ops -> next o = Some t -> In t (targets ops) ->
  ends_block v ops (targets ops) o = true.
Proof.
  intros v ops o t Han Hin Hn Ht. unfold anext_okb in Han. rewrite forallb_forall in Han.
  specialize (Han o Hin). apply memN_In in Ht. unfold ends_block. rewrite Hn in *. rewrite Ht in *.
  destruct (opc_at_is ops op_GET_ANEXT (Some t)); simpl in *.
  - rewrite Han. reflexivity.
  - apply orb_true_r.
Qed.

Lemma targets_start_blocks_lemma : forall v ops bs es,
  wf_opsb ops = true -> anext_okb ops = true -> nosend v ops ->
  split_bytecode v ops = Ok (bs, es) ->
  forall o t, In o ops -> target o = Some t ->
  exists b ot c, In b bs /\ nth_error ops (N.to_nat t) = Some ot /\ code b = ot :: c /\ bid b = t /\ idx ot = t.
Proof.
  intros v ops bs es Hwf Han Hns Hsp o t Hin Ht.
  pose proof (wf_opsb_links _ Hwf) as Hl.
  destruct (split_partition_lemma v ops bs es Hl Hsp) as [Hcat Hok].
  destruct (split_plain_shape v ops bs es Hns Hsp) as [Hsh _].
  pose proof (wf_opsb_target _ _ _ Hwf Hin Ht) as Hr.
  destruct (nth_error ops (N.to_nat t)) as [ot|] eqn:Eot; [|apply nth_error_None in Eot; lia].
  destruct (wf_links_spec _ _ _ Hl _ _ Eot) as [Hidx _]. simpl in Hidx. rewrite Nnat.N2Nat.id in Hidx.
  assert (G : heads bs ot).
  { destruct (nth_error_split _ _ Eot) as [l1 [l2 [Eops Hlen]]].
    destruct l1 as [|o1 l1 _] using rev_ind.
    - (* the first op heads the first block *)
      rewrite <- Hcat in Eops. exact (heads_first _ bs ot l2 Hsh Eops).
    - rewrite <- app_assoc in Eops. simpl in Eops. rewrite app_length, Nat.add_comm in Hlen.
      assert (Ho1 : nth_error ops (length l1) = Some o1).
      { rewrite Eops, nth_error_app2, Nat.sub_diag by lia. reflexivity. }
      destruct (wf_links_spec _ _ _ Hl _ _ Ho1) as [_ [Hnx _]]. cbn [Nat.add] in Hnx. simpl in Hlen.
      rewrite Hlen, (proj2 (Nat.ltb_lt _ _)), Nnat.N2Nat.id in Hnx by exact Hr.
      rewrite <- Hcat in Eops. apply (shape_boundary _ bs l1 o1 ot l2 Hsh Eops).
      apply anext_ok_ends with t; auto.
      + rewrite <- Hcat, Eops. apply in_elt.
      + eapply targets_In; eauto. }
  destruct G as [b [c [Hb Hc]]]. exists b, ot, c. repeat split; auto.
  rewrite Forall_forall in Hok. destruct (Hok b Hb) as [o' [c' [E1 E2]]].
  rewrite Hc in E1. injection E1 as <- _. rewrite E2. exact Hidx.
Qed.

Definition edge_rel (es : list edge) (x y : N) : Prop := In (x, y) es.
Definition reach (es : list edge) : N -> N -> Prop := clos_refl_trans N (edge_rel es).
Definition keys (q : queue) : list N := map fst q.
Definition pick_ok (pick : queue -> N) : Prop := forall q, q <> [] -> In (pick q) (keys q).

Lemma nodupN_In : forall l seen y, In y (nodupN l seen) <-> In y l /\ ~ In y seen.
Proof.
  induction l as [|x l IH]; intros seen y; simpl.
  - tauto.
  - destruct (memN x seen) eqn:E.
    + rewrite IH. apply memN_In in E. split.
      * intros [H1 H2]. auto.
      * intros [[H1|H1] H2]; [subst; contradiction | auto].
    + apply memN_false in E. simpl. rewrite IH. simpl. split.
      * intros [H|[H1 H2]]; [subst; auto | split; auto].
      * intros [[H1|H1] H2]; [auto|].
        destruct (N.eq_dec x y); [auto|]. right. split; auto. intros [F|F]; auto.
Qed.

Lemma outgoing_In : forall es x y, In y (outgoing es x) <-> In (x, y) es.
Proof.
  intros es x y. unfold outgoing. rewrite nodupN_In, in_map_iff. split.
  - intros [[[a b] [E H]] _]. simpl in E. subst b. apply filter_In in H. destruct H as [H1 H2].
    simpl in H2. apply N.eqb_eq in H2. subst. exact H1.
  - intros H. split; [|intros []]. exists (x, y). split; auto. apply filter_In. split; auto.
    simpl. apply N.eqb_refl.
Qed.

Lemma has_key_In : forall k q, has_key k q = true <-> In k (keys q).
Proof.
  intros k q. induction q as [|e q IH]; simpl; [split; [discriminate | contradiction]|].
  rewrite orb_true_iff, N.eqb_eq, IH. reflexivity.
Qed.

Lemma del_key_In : forall k q x, In x (keys (del_key k q)) <-> In x (keys q) /\ x <> k.
Proof.
  intros k q x. unfold del_key, keys. rewrite !in_map_iff. split.
  - intros [e [H1 H2]]. apply filter_In in H2. destruct H2 as [H2 H3]. split; [exists e; auto|].
    apply negb_true_iff, N.eqb_neq in H3. congruence.
  - intros [[e [H1 H2]] H3]. exists e. split; auto. apply filter_In. split; auto.
    apply negb_true_iff, N.eqb_neq. congruence.
Qed.

Lemma keys_map_snd : forall (f : N * list N -> list N) q, keys (map (fun e => (fst e, f e)) q) = keys q.
Proof. intros. unfold keys. rewrite map_map. simpl. reflexivity. Qed.

Lemma assocN_In_pair : forall A k (l : list (N * A)) v, assocN k l = Some v -> In (k, v) l.
Proof.
  induction l as [|[k' v'] l IH]; simpl; intros v H; [discriminate|].
  destruct (N.eqb k k') eqn:E.
  - apply N.eqb_eq in E. inversion H; subst. auto.
  - right. auto.
Qed.

Lemma assocN_of_key : forall A k (l : list (N * A)), In k (map fst l) -> exists v, assocN k l = Some v.
Proof.
  induction l as [|[k' v'] l IH]; simpl; intros H; [contradiction|].
  destruct (N.eqb k k') eqn:E; [eauto|]. destruct H as [H|H]; [|auto].
  apply N.eqb_neq in E. congruence.
Qed.

Lemma assocN_In : forall A k (l : list (N * A)) v, assocN k l = Some v -> In k (map fst l).
Proof. intros A k l v H. exact (in_map fst _ _ (assocN_In_pair _ _ _ _ H)). Qed.

Lemma enqueue_step : forall pm seen q err n q1 e1,
  enqueue pm seen (q, err) n = (q1, e1) ->
  (forall k, In k (keys q) -> In k (keys q1)) /\
  (forall k, In k (keys q1) -> In k (keys q) \/ (k = n /\ In k (map fst pm))) /\
  (e1 = 0 -> err = 0 /\ In n (keys q1)).
Proof.
  intros pm seen q err n q1 e1 H. unfold enqueue in H. destruct (has_key n q) eqn:Ek.
  - injection H as <- <-. apply has_key_In in Ek. auto.
  - destruct (assocN n pm) as [p|] eqn:Ep; injection H as <- <-.
    + apply assocN_In in Ep. unfold keys. rewrite map_app. simpl. split; [|split].
      * intros k Hk. apply in_or_app. auto.
      * intros k Hk. apply in_app_or in Hk. destruct Hk as [Hk|[<-|[]]]; auto.
      * intros He. split; [exact He | apply in_elt].
    + split; [auto|]. split; [auto|]. discriminate.
Qed.

Lemma enqueue_fold : forall pm seen outs q err q' err',
  fold_left (enqueue pm seen) outs (q, err) = (q', err') ->
  (forall k, In k (keys q) -> In k (keys q')) /\
  (forall k, In k (keys q') -> In k (keys q) \/ (In k outs /\ In k (map fst pm))) /\
  (err' = 0 -> err = 0 /\ forall y, In y outs -> In y (keys q')).
Proof.
  induction outs as [|n outs IH]; intros q err q' err' H; cbn [fold_left] in H.
  - injection H as <- <-. split; [auto|]. split; [auto|]. intros He. split; [exact He | intros y []].
  - destruct (enqueue pm seen (q, err) n) as [q1 e1] eqn:E1.
    destruct (enqueue_step _ _ _ _ _ _ _ E1) as [A1 [B1 C1]]. destruct (IH _ _ _ _ H) as [A [B C]].
    split; [auto|]. split.
    + intros k Hk. destruct (B k Hk) as [Hq|[Ho Hp]]; [|right; split; [right|]; assumption].
      destruct (B1 k Hq) as [?|[-> ?]]; [left; assumption | right; split; [left; reflexivity | assumption]].
    + intros He. destruct (C He) as [C2 C3]. destruct (C1 C2) as [C4 C5]. split; [exact C4|].
      intros y [<-|Hy]; auto.
Qed.

Fixpoint pf_rev (root : N) (es : list edge) (ro : list N) : Prop :=
  match ro with
  | [] => True
  | b :: earlier => ((earlier = [] /\ b = root) \/ exists p, In p earlier /\ In (p, b) es) /\ pf_rev root es earlier
  end.

Record oinv (root : N) (pm : list (N * list N)) (es : list edge) (s : ost) : Prop := {
  oi_nodup : NoDup (o_order s);
  oi_seen : forall x, In x (o_seen s) <-> In x (o_order s);
  oi_reach : forall x, In x (o_order s) \/ In x (keys (o_queue s)) -> reach es root x;
  oi_closed : o_err s = 0 ->
              (In root (o_seen s) \/ In root (keys (o_queue s))) /\
              forall x y, In x (o_order s) -> In (x, y) es -> In y (o_seen s) \/ In y (keys (o_queue s));
  oi_pf : pf_rev root es (o_order s);
  oi_qpred : forall k, In k (keys (o_queue s)) ->
             (o_order s = [] /\ k = root) \/ exists p, In p (o_order s) /\ In (p, k) es;
  oi_init : o_order s = [] -> keys (o_queue s) = [root];
  oi_nodes : forall k, In k (o_order s) \/ In k (keys (o_queue s)) -> In k (map fst pm)
}.

Lemma insertN_In : forall x n l, In x (insertN n l) <-> In x (n :: l).
Proof.
  induction l as [|y t IH]; simpl; [reflexivity|].
  destruct (N.ltb n y); [reflexivity|]. destruct (N.eqb_spec n y) as [->|_]; simpl.
  - split; [intros [H|H] | intros [H|[H|H]]]; auto.
  - rewrite IH. simpl. split; intros [H|[H|H]]; auto.
Qed.

Lemma ostep_inv : forall pick root pm es s,
  pick_ok pick -> oinv root pm es s -> ofin s = false -> oinv root pm es (ostep pick pm es s).
Proof.
  intros pick root pm es [q order seen err] Hpick I Hfin. simpl in Hfin.
  unfold ofin in Hfin. apply orb_false_elim in Hfin. destruct Hfin as [He Hq].
  assert (Hnode : In (pick q) (keys q)).
  { apply Hpick. destruct q; discriminate. }
  clear He Hq. unfold ostep. cbn [o_queue o_order o_seen o_err]. set (node := pick q) in *. set (q1 := del_key node q).
  assert (Hq1 : forall k, In k (keys q1) <-> In k (keys q) /\ k <> node) by (intro; apply del_key_In).
  assert (Hsub : forall k, In k (keys q1) -> In k (keys q)) by (intros k H; apply Hq1 in H; apply H).
  assert (Hrest : forall k, In k (keys q) -> k <> node -> In k (keys q1)) by (intros; apply Hq1; auto).
  destruct I as [Ind Iseen Ireach Iclosed Ipf Iqp Iinit Inodes]. simpl in *.
  destruct (memN node seen) eqn:Es.
  - (* already seen: just dropped from the queue *)
    apply memN_In in Es.
    assert (Hkeep : forall y, In y seen \/ In y (keys q) -> In y seen \/ In y (keys q1)).
    { intros y [H|H]; [auto|]. destruct (N.eq_dec y node) as [->|E]; auto. }
    constructor; cbn [o_queue o_order o_seen o_err].
    + exact Ind.
    + exact Iseen.
    + intros x [H|H]; apply Ireach; auto.
    + intros He'. destruct (Iclosed He') as [Hr Hc]. split; [exact (Hkeep _ Hr)|].
      intros x y Hx Hxy. exact (Hkeep _ (Hc x y Hx Hxy)).
    + exact Ipf.
    + intros k Hk. apply Iqp. auto.
    + intros Ho. apply Iseen in Es. rewrite Ho in Es. destruct Es.
    + intros k [H|H]; apply Inodes; auto.
  - (* scheduled: appended to the order, its successors queued *)
    apply memN_false in Es.
    destruct (fold_left (enqueue pm (insertN node seen)) (outgoing es node)
                (map (fun e => (fst e, removeN node (snd e))) q1, err)) as [q3 err'] eqn:Ef.
    destruct (enqueue_fold _ _ _ _ _ _ _ Ef) as [A [B C]]. clear Ef.
    rewrite keys_map_snd in A, B.
    assert (Hkeep : forall y, In y seen \/ In y (keys q) ->
                              In y (insertN node seen) \/ In y (keys q3)).
    { intros y. rewrite insertN_In. simpl. intros [H|H]; [auto|].
      destruct (N.eq_dec node y) as [E|E]; auto. }
    constructor; cbn [o_queue o_order o_seen o_err].
    + constructor; [|exact Ind]. intro F. apply Es. apply Iseen. exact F.
    + intros x. rewrite insertN_In. simpl. rewrite Iseen. reflexivity.
    + intros x [[<-|H]|H]; [apply Ireach; auto ..|].
      destruct (B x H) as [H'|[H' _]]; [apply Ireach; auto|].
      apply rt_trans with node; [apply Ireach; auto|]. apply rt_step. apply outgoing_In. exact H'.
    + intros He'. destruct (C He') as [He0 Hout]. destruct (Iclosed He0) as [Hr Hc]. split; [exact (Hkeep _ Hr)|].
      intros x y [Hx|Hx] Hxy.
      * subst x. right. apply Hout. apply outgoing_In. exact Hxy.
      * exact (Hkeep _ (Hc x y Hx Hxy)).
    + split; [|exact Ipf]. destruct (Iqp node Hnode) as [[H1 H2]|H]; [left; split; assumption | right; exact H].
    + intros k Hk. right. destruct (B k Hk) as [H|[H _]].
      * destruct (Iqp k (Hsub k H)) as [[H1 H2]|[p [Hp Hpk]]].
        -- (* the queue of the first turn holds the root only, and that is [node] *)
           exfalso. rewrite (Iinit H1) in Hnode. destruct Hnode as [Hnode|[]].
           apply Hq1 in H. destruct H as [_ H]. congruence.
        -- exists p. split; [right; exact Hp | exact Hpk].
      * exists node. split; [left; reflexivity|]. apply outgoing_In. exact H.
    + discriminate.
    + intros k [[<-|H]|H]; [apply Inodes; auto ..|].
      destruct (B k H) as [H'|[_ H']]; auto.
Qed.

Lemma oinv_init : forall root pm es rp, assocN root pm = Some rp -> oinv root pm es (mkO [(root, rp)] [] [] 0).
Proof.
  intros root pm es rp Hrp. constructor; simpl; auto.
  - constructor.
  - tauto.
  - intros x [[]|[Hx|[]]]. subst. apply rt_refl.
  - intros k [Hk|[]]. left. auto.
  - intros k [[]|[Hk|[]]]. subst. eapply assocN_In; eauto.
Qed.

Lemma pf_rev_head : forall root es ro, pf_rev root es ro -> ro <> [] -> exists l, rev ro = root :: l.
Proof.
  induction ro as [|b earlier IH]; intros H Hne; [congruence|].
  simpl in H. destruct H as [Hb Hr]. destruct earlier as [|e earlier'].
  - destruct Hb as [[_ Hb]|[p [[] _]]]. subst. exists []. reflexivity.
  - destruct (IH Hr ltac:(discriminate)) as [l Hl]. exists (l ++ [b]).
    change (rev (b :: e :: earlier')) with (rev (e :: earlier') ++ [b]). rewrite Hl. reflexivity.
Qed.

Lemma pf_rev_inside : forall root es later b earlier,
  pf_rev root es (later ++ b :: earlier) -> earlier <> [] -> exists p, In p earlier /\ In (p, b) es.
Proof.
  induction later as [|x later IH]; simpl; intros b earlier [H Hr] Hne.
  - destruct H as [[He _]|H]; [contradiction | exact H].
  - exact (IH b earlier Hr Hne).
Qed.

Lemma pf_rev_positional : forall root es ro, pf_rev root es ro ->
  forall l1 b l2, rev ro = l1 ++ b :: l2 -> l1 <> [] -> exists p, In p l1 /\ In (p, b) es.
Proof.
  intros root es ro H l1 b l2 E Hne. apply (f_equal (@rev N)) in E.
  rewrite rev_involutive, rev_app_distr in E. simpl in E. rewrite <- app_assoc in E. subst ro.
  destruct (pf_rev_inside root es (rev l2) b (rev l1) H) as [p [Hp Hpb]].
  - intro F. apply Hne. rewrite <- (rev_involutive l1), F. reflexivity.
  - exists p. split; [apply in_rev; exact Hp | exact Hpb].
Qed.

Lemma set_assoc_keys : forall A k (v : A) l, map fst (set_assoc k v l) = map fst l.
Proof.
  induction l as [|[k' v'] l IH]; simpl; auto. destruct (N.eqb k k') eqn:E; simpl.
  - apply N.eqb_eq in E. subst. reflexivity.
  - rewrite IH. reflexivity.
Qed.

Lemma pstep_keys : forall es s, map fst (p_map (pstep es s)) = map fst (p_map s).
Proof.
  intros es s. unfold pstep. destruct (p_todo s) as [|[f n] rest].
  - destruct (p_starts s) as [|st more]; [reflexivity|]. destruct (memN st (p_disc s)); reflexivity.
  - destruct (assocN n (p_map s)) as [np|]; [|reflexivity]. destruct (assocN f (p_map s)) as [fp|]; [|reflexivity].
    destruct (length np =? length (unionN np fp)); [reflexivity | apply set_assoc_keys].
Qed.

Lemma compute_predecessors_keys : forall nodes es pm,
  compute_predecessors nodes es = Ok pm -> map fst pm = nodes.
Proof.
  intros nodes es pm H. unfold compute_predecessors in H.
  set (s0 := mkP (map (fun n => (n, [n])) nodes) [] nodes [] 0) in *.
  assert (P : map fst (p_map (run (pstep es) pfin (pred_fuel nodes es) s0)) = nodes).
  { apply (run_inv _ (pstep es) pfin (fun s => map fst (p_map s) = nodes)).
    - intros s Hs _. rewrite pstep_keys. exact Hs.
    - simpl. rewrite map_map. apply map_id. }
  destruct (p_err (run (pstep es) pfin (pred_fuel nodes es) s0)); try discriminate.
  destruct (pfin (run (pstep es) pfin (pred_fuel nodes es) s0)); try discriminate.
  injection H as <-. exact P.
Qed.

Lemma oinv_final : forall root pm es s,
  oinv root pm es s -> o_err s = 0 -> o_queue s = [] ->
  NoDup (rev (o_order s)) /\
  (exists tl, rev (o_order s) = root :: tl) /\
  (forall b, In b (rev (o_order s)) <-> reach es root b) /\
  (forall b, In b (rev (o_order s)) -> In b (map fst pm)) /\
  (forall l1 b l2, rev (o_order s) = l1 ++ b :: l2 -> l1 <> [] -> exists p, In p l1 /\ In (p, b) es).
Proof.
  intros root pm es s [Ind Iseen Ireach Iclosed Ipf Iqp Iinit Inodes] Eerr Eq.
  rewrite Eq in *. destruct (Iclosed Eerr) as [[Hr|[]] Hc]. apply Iseen in Hr.
  split; [apply NoDup_rev; exact Ind|].
  split; [apply pf_rev_head with es; [exact Ipf | intro F; rewrite F in Hr; exact Hr]|].
  split; [|split].
  - intros b. rewrite <- in_rev. split.
    + intros Hb. apply Ireach. left. exact Hb.
    + intros Hb. apply clos_rt_rtn1 in Hb. induction Hb as [|y z Hyz Hb IH]; [exact Hr|].
      destruct (Hc y z IH Hyz) as [Hz|[]]. apply Iseen. exact Hz.
  - intros b Hb. apply in_rev in Hb. apply Inodes. left. exact Hb.
  - apply pf_rev_positional with root. exact Ipf.
Qed.

Lemma order_nodes_gen_inv : forall pick root rest es order,
  pick_ok pick ->
  order_nodes_gen pick (root :: rest) es = Ok order ->
  exists pm s, map fst pm = root :: rest /\ oinv root pm es s /\ o_err s = 0 /\ o_queue s = [] /\
               order = rev (o_order s).
Proof.
  intros pick root rest es order Hpick H. unfold order_nodes_gen in H.
  destruct (compute_predecessors (root :: rest) es) as [pm|] eqn:Epm; [|discriminate].
  cbn [bind] in H. destruct (assocN root pm) as [rp|] eqn:Erp; [|discriminate].
  assert (I : oinv root pm es (run (ostep pick pm es) ofin (order_fuel (root :: rest) es) (mkO [(root, rp)] [] [] 0))).
  { apply run_inv; [|exact (oinv_init root pm es rp Erp)].
    intros s Hs Hf. apply ostep_inv; auto. }
  set (s := run (ostep pick pm es) ofin (order_fuel (root :: rest) es) (mkO [(root, rp)] [] [] 0)) in *.
  destruct (o_err s) eqn:Eerr; [|discriminate].
  destruct (ofin s) eqn:Efin; [|discriminate].
  match type of H with (if ?c then _ else _) = _ => destruct c; [|discriminate] end.
  injection H as <-.
  unfold ofin in Efin. rewrite Eerr in Efin. simpl in Efin.
  destruct (o_queue s) as [|e q] eqn:Eq; [|discriminate].
  exists pm, s. split; [exact (compute_predecessors_keys _ _ _ Epm) | auto].
Qed.

(* the concrete priority of order_nodes, min over (len(predecessors), node.id), picks a queued node *)
Lemma pick_min_from_In : forall q best, In (pick_min_from best q) (best :: q).
Proof.
  induction q as [|e q IH]; intros best; simpl; auto.
  destruct (IH (if prio_lt e best then e else best)) as [H|H]; auto.
  destruct (prio_lt e best); auto.
Qed.

Ltac inv_bind H :=
  match type of H with
  | bind ?x _ = Ok _ => let E := fresh "E" in destruct x eqn:E; cbn [bind] in H; [|discriminate]
  end.

Lemma compute_order_gen_inv : forall pick v ops r,
  compute_order_gen pick v ops = Ok r ->
  order_nodes_gen pick (map bid (r_blocks r)) (r_edges r) = Ok (r_order r) /\
  (exists fm, first_op_map (r_blocks r) [] = Ok fm) /\
  exists bs0 es0 su, split_bytecode v ops = Ok (bs0, es0) /\
    (if v then remove_jmp_to_get_anext_and_merge (remove_jump_back_block ops bs0) es0
     else Ok (mkSu bs0 es0 [] [])) = Ok su /\ r_blocks r = su_blocks su.
Proof.
  intros pick v ops r H. unfold compute_order_gen in H.
  inv_bind H. destruct a as [bs0 es0]. inv_bind H. inv_bind H. inv_bind H. inv_bind H.
  injection H as <-. simpl. split; [exact E3|]. split; [eauto|].
  exists bs0, es0, a. auto.
Qed.

Lemma first_op_map_nonempty : forall bs acc fm, first_op_map bs acc = Ok fm -> Forall (fun b => code b <> []) bs.
Proof.
  induction bs as [|b bs IH]; intros acc fm H; simpl in H; [constructor|].
  destruct (code b) eqn:E; [discriminate|]. constructor; [congruence | eauto].
Qed.

Lemma has_dup_not_NoDup : forall l, has_dup l = true -> ~ NoDup l.
Proof.
  induction l as [|x l IH]; simpl; intros H Hn; [discriminate|].
  inversion Hn; subst. apply orb_prop in H. destruct H as [H|H].
  - apply memN_In in H. contradiction.
  - apply IH; auto.
Qed.

Lemma wf_links_idx_seq : forall ops pos n, wf_links ops pos n = true ->
  map idx ops = map N.of_nat (seq pos (length ops)).
Proof.
  induction ops as [|o ops IH]; intros pos n H; simpl; [reflexivity|].
  apply wf_links_cons in H. destruct H as [[Hi _] Ht]. rewrite Hi. f_equal. exact (IH _ _ Ht).
Qed.

Lemma wf_links_NoDup : forall ops, linked ops -> NoDup (map idx ops).
Proof.
  intros ops H. rewrite (wf_links_idx_seq _ _ _ H).
  apply Injective_map_NoDup; [|apply seq_NoDup].
  intros a b E. apply Nnat.Nat2N.inj. exact E.
Qed.

Lemma has_flag_opc : forall o o' m, opc o' = opc o -> has_flag o' m = has_flag o m.
Proof. intros o o' m E. unfold has_flag. rewrite E. reflexivity. Qed.

Lemma indices_consistent_lemma : forall minor items ops,
  build_ops minor items = Ok ops ->
  forall i o, nth_error ops i = Some o ->
    idx o = N.of_nat i /\
    next o = (if S i <? length ops then Some (N.of_nat (S i)) else None) /\
    prev o = (match i with O => None | S p => Some (N.of_nat p) end) /\
    (forall t, target o = Some t -> N.to_nat t < length ops) /\
    (has_known_jump o = true -> exists t, target o = Some t).
Proof.
  intros minor items ops H i o Hi.
  destruct (build_ops_wf _ _ _ H) as [Hl Ht].
  destruct (wf_links_spec _ _ _ Hl i o Hi) as [A [B C]].
  split; [exact A|]. split; [exact B|]. split; [exact C|]. split.
  - intros t E. eapply Ht; eauto. eapply nth_error_In; eauto.
  - unfold build_ops in H. destruct (mol_loop minor items [] [] 0%N) as [all o2i].
    destruct (map_res_nth _ _ _ _ _ H i o Hi) as [[o0 it] [_ Hf]].
    destruct (ajt_one_inv _ _ _ _ _ _ Hf) as [[-> E] | [t [-> _]]].
    + congruence.
    + intros _. exists t. reflexivity.
Qed.

Lemma split_partition_full : forall v ops bs es,
  wf_opsb ops = true -> split_bytecode v ops = Ok (bs, es) ->
  concat (map code bs) = ops /\ Forall block_wf bs /\ NoDup (block_instrs bs).
Proof.
  intros v ops bs es Hwf H. pose proof (wf_opsb_links _ Hwf) as Hl.
  destruct (split_partition_lemma v ops bs es Hl H) as [A B].
  split; [exact A|]. split; [exact B|]. unfold block_instrs. rewrite A. apply wf_links_NoDup. exact Hl.
Qed.

Lemma filter_all : forall A (f : A -> bool) l, (forall x, In x l -> f x = true) -> filter f l = l.
Proof.
  induction l as [|a l IH]; intros H; simpl; auto. rewrite (H a (or_introl eq_refl)). f_equal.
  apply IH. intros; apply H; right; auto.
Qed.

Lemma delete_positions_nil : forall A (l : list A) pos, delete_positions [] l pos = l.
Proof. induction l; intros; simpl; auto. f_equal. apply IHl. Qed.

Lemma map_res_Ok : forall A B (f : A -> res B) (g : A -> B) l,
  (forall a, In a l -> f a = Ok (g a)) -> map_res f l = Ok (map g l).
Proof.
  induction l as [|a l IH]; intros H; simpl; [reflexivity|].
  rewrite (H a (or_introl eq_refl)), IH by (intros; apply H; right; assumption). reflexivity.
Qed.

Definition plain_block (b : block) : Prop :=
  forall o, In o (code b) -> is_op op_CLEANUP_THROW o = false /\ eaft o = None.

Lemma plain_not_jump_back : forall ops b, plain_block b -> is_jump_back_block ops b = false.
Proof.
  intros ops b H. unfold is_jump_back_block. destruct (rev (code b)) as [|last [|snd rest]] eqn:E; auto.
  assert (Hin : In snd (code b)). { apply in_rev. rewrite E. right. left. reflexivity. }
  destruct (H snd Hin) as [Hc _]. rewrite Hc. rewrite andb_false_r. reflexivity.
Qed.

Lemma merge_list_plain : forall all bs pos, Forall plain_block bs -> merge_list_of all bs pos = Ok [].
Proof.
  induction bs as [|b bs IH]; intros pos H; simpl; auto.
  inversion H as [|? ? Hb Hbs]; subst.
  rewrite (map_res_Ok _ _ _ (fun _ => None)) by (intros o Ho; rewrite (proj2 (Hb o Ho)); reflexivity).
  cbn [bind]. rewrite (IH (S pos) Hbs). cbn [bind].
  f_equal. rewrite app_nil_r. induction (code b); simpl; auto.
Qed.

Lemma retarget_plain : forall bs rt, Forall (fun b => code b <> []) bs ->
  fold_left (retarget_step []) bs (Ok rt) = Ok rt.
Proof.
  induction bs as [|b bs IH]; intros rt H; simpl; auto. inversion H; subst.
  destruct (rev (code b)) eqn:E.
  - exfalso. apply (f_equal (@rev _)) in E. rewrite rev_involutive in E. simpl in E. auto.
  - destruct (eff_target rt i); simpl; apply IH; auto.
Qed.

Lemma surgery_plain : forall ops bs es,
  Forall plain_block bs -> Forall (fun b => code b <> []) bs ->
  remove_jmp_to_get_anext_and_merge (remove_jump_back_block ops bs) es = Ok (mkSu bs es [] []).
Proof.
  intros ops bs es Hp Hne.
  assert (E : remove_jump_back_block ops bs = bs).
  { unfold remove_jump_back_block. apply filter_all. intros b Hb. rewrite Forall_forall in Hp.
    rewrite plain_not_jump_back; auto. }
  rewrite E. unfold remove_jmp_to_get_anext_and_merge. rewrite merge_list_plain by exact Hp.
  cbn [bind fold_left map m_blocks m_map m_edges m_processed]. rewrite delete_positions_nil.
  rewrite retarget_plain by exact Hne. cbn [bind]. rewrite rev_involutive. reflexivity.
Qed.

Lemma plainb_spec : forall ops, plainb ops = true ->
  forall o, In o ops -> is_op op_SEND o = false /\ is_op op_CLEANUP_THROW o = false /\ eaft o = None.
Proof.
  intros ops H o Ho. unfold plainb in H. rewrite forallb_forall in H. specialize (H o Ho).
  apply andb_prop in H. destruct H as [H H3]. apply andb_prop in H. destruct H as [H1 H2].
  apply negb_true_iff in H1, H2. destruct (eaft o); [discriminate|]. auto.
Qed.

Lemma plainb_nosend : forall v ops, plainb ops = true -> nosend v ops.
Proof. intros v ops H o Ho. destruct (plainb_spec _ H o Ho) as [E _]. rewrite E. apply andb_false_r. Qed.

Lemma block_wf_nonempty : forall bs, Forall block_wf bs -> Forall (fun b => code b <> []) bs.
Proof. intros bs. apply Forall_impl. intros b [o [c [E _]]]. congruence. Qed.

Lemma in_blocks : forall (bs : list block) b o, In b bs -> In o (code b) -> In o (concat (map code bs)).
Proof. intros bs b o Hb Ho. apply in_concat. exists (code b). split; [apply in_map|]; assumption. Qed.

Lemma plain_split : forall v ops bs es,
  wf_opsb ops = true -> plainb ops = true -> split_bytecode v ops = Ok (bs, es) ->
  es = [] /\ Forall (fun b => code b <> []) bs /\
  (if v then remove_jmp_to_get_anext_and_merge (remove_jump_back_block ops bs) []
   else Ok (mkSu bs [] [] [])) = Ok (mkSu bs [] [] []).
Proof.
  intros v ops bs es Hwf Hpl Hs.
  destruct (split_plain_shape v ops bs es (plainb_nosend v ops Hpl) Hs) as [_ Ees].
  destruct (split_partition_lemma v ops bs es (wf_opsb_links _ Hwf) Hs) as [Hcat Hok].
  apply block_wf_nonempty in Hok. split; [exact Ees|]. split; [exact Hok|].
  destruct v; [|reflexivity]. apply surgery_plain; [|exact Hok].
  apply Forall_forall. intros b Hb o Ho. apply (plainb_spec _ Hpl). rewrite <- Hcat. eapply in_blocks; eauto.
Qed.

Lemma compute_order_plain : forall pick v ops r,
  wf_opsb ops = true -> plainb ops = true ->
  compute_order_gen pick v ops = Ok r ->
  split_bytecode v ops = Ok (r_blocks r, []) /\ r_retarget r = [].
Proof.
  intros pick v ops r Hwf Hpl H. unfold compute_order_gen in H.
  inv_bind H. destruct a as [bs0 es0].
  destruct (plain_split v ops bs0 es0 Hwf Hpl E) as [-> [_ Esu]].
  rewrite Esu in H. cbn [bind su_blocks su_edges su_processed su_retarget] in H.
  inv_bind H. inv_bind H. inv_bind H. injection H as <-. simpl. auto.
Qed.

Lemma plain_targets_lemma : forall pick v ops r,
  wf_opsb ops = true -> anext_okb ops = true -> plainb ops = true ->
  compute_order_gen pick v ops = Ok r ->
  forall o t, In o ops -> target o = Some t ->
  exists b ot c, In b (r_blocks r) /\ nth_error ops (N.to_nat t) = Some ot /\
                 code b = ot :: c /\ bid b = t /\ idx ot = t.
Proof.
  intros pick v ops r Hwf Han Hpl H. destruct (compute_order_plain _ _ _ _ Hwf Hpl H) as [Hs _].
  exact (targets_start_blocks_lemma v ops _ _ Hwf Han (plainb_nosend v ops Hpl) Hs).
Qed.

Definition blocks_in (ops : list instr) (bs : list block) : Prop :=
  forall b, In b bs -> incl (code b) ops.

Lemma split_blocks_in : forall v ops bs es, split_bytecode v ops = Ok (bs, es) -> blocks_in ops bs.
Proof.
  intros v ops bs es H. unfold split_bytecode in H.
  destruct (split_fold_content v ops (targets ops) ops split_init (split_init_inv _)) as [E _].
  set (st := fold_left (split_step v ops (targets ops)) ops split_init) in *.
  destruct (s_mode st); try discriminate. destruct (s_err st); try discriminate.
  injection H as <- _. intros b Hb o Ho. change ops with (content split_init ++ ops). rewrite <- E.
  apply in_or_app. left. eapply in_blocks; eauto.
Qed.

Lemma upd_In : forall A i (y : A) l x, In x (upd i y l) -> x = y \/ In x l.
Proof.
  induction i; intros y [|h t] x H; simpl in H; auto.
  - destruct H; auto. right. right. auto.
  - destruct H as [H|H]; [right; left; auto|]. destruct (IHi _ _ _ H); auto. right. right. auto.
Qed.

Lemma delete_positions_In : forall A del (l : list A) pos x, In x (delete_positions del l pos) -> In x l.
Proof.
  induction l as [|a l IH]; intros pos x H; simpl in H; auto.
  destruct (existsb (Nat.eqb pos) del).
  - right. eapply IH; eauto.
  - destruct H; [left; auto | right; eapply IH; eauto].
Qed.

Lemma nth_error_upd_same : forall A i (y : A) l, i < length l -> nth_error (upd i y l) i = Some y.
Proof.
  induction i; intros y [|h t] H; simpl in *; try lia; auto. apply IHi. lia.
Qed.

Lemma nth_error_upd_other : forall A i j (y : A) l, i <> j -> nth_error (upd i y l) j = nth_error l j.
Proof.
  induction i; intros j y [|h t] H; simpl; auto.
  - destruct j; [congruence | reflexivity].
  - destruct j; auto. simpl. apply IHi. congruence.
Qed.

Lemma upd_upd : forall A i (y z : A) l, upd i z (upd i y l) = upd i z l.
Proof. induction i; intros y z [|h t]; simpl; auto. f_equal. apply IHi. Qed.

(* a merge step that does not raise: block bi loses its last op (the jump back) and gains the code of block mi *)
Lemma merge_step_Ok : forall st bi mi st',
  merge_step (Ok st) (bi, mi) = Ok st' ->
  exists b r jb m,
    nth_error (m_blocks st) bi = Some b /\ code b = r ++ [jb] /\
    nth_error (upd bi (set_code b r) (m_blocks st)) mi = Some m /\
    m_blocks st' = upd bi (set_code b (r ++ code m)) (m_blocks st).
Proof.
  intros st bi mi st' H. unfold merge_step in H. cbn [bind] in H.
  destruct (nth_error (m_blocks st) bi) as [b|] eqn:Eb; [|discriminate].
  destruct (rev (code b)) as [|jb r] eqn:Er; [discriminate|]. cbv zeta in H.
  destruct (nth_error (upd bi (set_code b (rev r)) (m_blocks st)) mi) as [m|] eqn:Em; [|discriminate].
  rewrite upd_upd in H.
  destruct (nth_error (upd bi (set_code b (rev r ++ code m)) (m_blocks st)) mi) as [m2|]; [|discriminate].
  destruct (code m2); [discriminate|]. injection H as <-.
  exists b, (rev r), jb, m. split; [reflexivity|]. split; [|split; [exact Em | reflexivity]].
  rewrite <- (rev_involutive (code b)), Er. reflexivity.
Qed.

Lemma merge_step_in : forall ops st p st',
  merge_step (Ok st) p = Ok st' -> blocks_in ops (m_blocks st) -> blocks_in ops (m_blocks st').
Proof.
  intros ops st [bi mi] st' H Hin.
  destruct (merge_step_Ok _ _ _ _ H) as [b [r [jb [m [Eb [Ec [Em ->]]]]]]].
  assert (Hr : incl r ops).
  { intros o Ho. apply (Hin b (nth_error_In _ _ Eb)). rewrite Ec. apply in_or_app. left. exact Ho. }
  assert (Hm : incl (code m) ops).
  { apply nth_error_In, upd_In in Em. destruct Em as [->|Em]; [exact Hr | exact (Hin m Em)]. }
  intros x Hx. apply upd_In in Hx. destruct Hx as [->|Hx]; [|exact (Hin x Hx)].
  apply incl_app; assumption.
Qed.

(* once a merge step has raised, the rest of the loop does not run *)
Lemma merge_fold_Err : forall ml c, fold_left merge_step ml (Err c) = Err c.
Proof. induction ml as [|p ml IH]; intros c; [reflexivity | exact (IH c)]. Qed.

Lemma merge_fold_in : forall ops ml st st',
  fold_left merge_step ml (Ok st) = Ok st' -> blocks_in ops (m_blocks st) -> blocks_in ops (m_blocks st').
Proof.
  induction ml as [|p ml IH]; intros st st' H Hin; cbn [fold_left] in H.
  - injection H as <-. exact Hin.
  - destruct (merge_step (Ok st) p) as [st1|c] eqn:E; [|rewrite merge_fold_Err in H; discriminate].
    eapply IH; eauto. eapply merge_step_in; eauto.
Qed.

Lemma surgery_blocks_in : forall ops bs es su,
  remove_jmp_to_get_anext_and_merge bs es = Ok su -> blocks_in ops bs -> blocks_in ops (su_blocks su).
Proof.
  intros ops bs es su H Hin. unfold remove_jmp_to_get_anext_and_merge in H.
  inv_bind H. inv_bind H. inv_bind H. injection H as <-. simpl.
  intros b Hb. apply delete_positions_In in Hb.
  exact (merge_fold_in ops _ _ _ E0 Hin b Hb).
Qed.

Lemma instructions_from_ops_lemma : forall pick v ops r,
  compute_order_gen pick v ops = Ok r ->
  forall b o, In b (r_blocks r) -> In o (code b) -> In o ops.
Proof.
  intros pick v ops r H b o Hb Ho.
  destruct (compute_order_gen_inv _ _ _ _ H) as [_ [_ [bs0 [es0 [su [Hs [Hsu Hr]]]]]]].
  pose proof (split_blocks_in _ _ _ _ Hs) as H0.
  assert (G : blocks_in ops (su_blocks su)).
  { destruct v.
    - eapply surgery_blocks_in; eauto. intros x Hx. apply H0.
      unfold remove_jump_back_block in Hx. apply filter_In in Hx. tauto.
    - injection Hsu as <-. exact H0. }
  rewrite Hr in Hb. exact (G b Hb o Ho).
Qed.

Lemma first_op_map_total : forall bs acc,
  Forall (fun b => code b <> []) bs ->
  exists fm, first_op_map bs acc = Ok fm /\
    (forall kv, In kv acc -> In kv fm) /\
    (forall b o c, In b bs -> code b = o :: c -> In (idx o, bid b) fm).
Proof.
  induction bs as [|b bs IH]; intros acc H; simpl.
  - exists acc. repeat split; auto. intros b o c [].
  - inversion H as [|? ? Hb Hbs]; subst. destruct (code b) as [|o c] eqn:E; [congruence|].
    destruct (IH ((idx o, bid b) :: acc) Hbs) as [fm [E1 [E2 E3]]].
    exists fm. split; [exact E1|]. split.
    + intros kv Hkv. apply E2. right. exact Hkv.
    + intros b' o' c' [Hb'|Hb'] Ec.
      * subst b'. rewrite E in Ec. inversion Ec; subst. apply E2. left. reflexivity.
      * eapply E3; eauto.
Qed.

Lemma eff_target_nil : forall o, eff_target [] o = target o.
Proof. reflexivity. Qed.

Definition is_ok {A} (r : res A) : Prop := exists a, r = Ok a.

Lemma connect_target_ok : forall fm from t st,
  (forall x, t = Some x -> exists b, assocN x fm = Some b) ->
  is_ok st -> is_ok (connect_target fm from t st).
Proof.
  intros fm from t st H [e ->]. unfold connect_target. cbn [bind]. destruct t as [x|]; [|exists e; reflexivity].
  destruct (H x eq_refl) as [b ->]. eexists; reflexivity.
Qed.

Lemma connect_loop_ok : forall fm bs st,
  (forall b o x, In b bs -> In o (code b) -> (target o = Some x \/ block_target o = Some x) ->
                 exists b', assocN x fm = Some b') ->
  Forall (fun b => code b <> []) bs ->
  is_ok st -> is_ok (connect_loop fm [] [] bs st).
Proof.
  induction bs as [|b t IH]; intros st Hres Hne Hst; simpl; [exact Hst|].
  inversion Hne as [|? ? Hb Ht]; subst.
  destruct (code b) as [|first c] eqn:Ec; [congruence|].
  destruct (rev (first :: c)) as [|last r] eqn:Er; [simpl in Er; destruct (rev c); discriminate|].
  assert (Hlast : In last (code b)).
  { rewrite Ec. apply in_rev. rewrite Er. left. reflexivity. }
  assert (Hfirst : In first (code b)) by (rewrite Ec; left; reflexivity).
  assert (Hb0 : In b (b :: t)) by (left; reflexivity).
  apply IH; [intros b' o x Hb'; exact (Hres b' o x (or_intror Hb')) | exact Ht |].
  (* the three lookups in first_op_to_block, innermost first *)
  apply connect_target_ok; [intros x Hx; exact (Hres b last x Hb0 Hlast (or_intror Hx))|].
  apply connect_target_ok; [intros x Hx; exact (Hres b last x Hb0 Hlast (or_introl Hx))|].
  apply connect_target_ok; [intros x Hx; exact (Hres b first x Hb0 Hfirst (or_introl Hx))|].
  destruct t; [exact Hst|]. destruct (negb (no_next last)); [|exact Hst].
  destruct Hst as [e ->]. eexists; reflexivity.
Qed.

Lemma connect_loop_total : forall fm bs e,
  (forall b o x, In b bs -> In o (code b) -> (target o = Some x \/ block_target o = Some x) ->
                 exists b', assocN x fm = Some b') ->
  Forall (fun b => code b <> []) bs ->
  exists e', connect_loop fm [] [] bs (Ok e) = Ok e'.
Proof. intros fm bs e Hres Hne. apply connect_loop_ok; [exact Hres | exact Hne | exists e; reflexivity]. Qed.

Lemma in_targets : forall ops t, In t (targets ops) -> exists o, In o ops /\ target o = Some t.
Proof.
  intros ops t H. unfold targets in H. apply in_flat_map in H. destruct H as [o [Ho Ht]].
  exists o. split; auto. destruct (target o); simpl in Ht; [|contradiction]. destruct Ht as [Ht|[]]. congruence.
Qed.

Lemma wf_opsb_block_target : forall ops o t, wf_opsb ops = true -> In o ops -> block_target o = Some t ->
  In t (targets ops).
Proof.
  intros ops o t H Hin Ht. unfold wf_opsb in H. apply andb_prop in H. destruct H as [_ H].
  rewrite forallb_forall in H. specialize (H o Hin). rewrite Ht in H.
  apply andb_prop in H. destruct H as [_ H]. apply memN_In. exact H.
Qed.

Lemma plain_connect_total_lemma : forall v ops,
  wf_opsb ops = true -> anext_okb ops = true -> plainb ops = true ->
  exists bs fm es,
    split_bytecode v ops = Ok (bs, []) /\
    (if v then remove_jmp_to_get_anext_and_merge (remove_jump_back_block ops bs) []
     else Ok (mkSu bs [] [] [])) = Ok (mkSu bs [] [] []) /\
    first_op_map bs [] = Ok fm /\
    connect_loop fm [] [] bs (Ok []) = Ok es.
Proof.
  intros v ops Hwf Han Hpl. pose proof (plainb_nosend v ops Hpl) as Hns.
  destruct (split_plain_total v ops Hns) as [bs [Hs _]]. exists bs.
  destruct (plain_split v ops bs [] Hwf Hpl Hs) as [_ [Hne Hsu]].
  destruct (split_partition_lemma v ops bs [] (wf_opsb_links _ Hwf) Hs) as [Hcat _].
  destruct (first_op_map_total bs [] Hne) as [fm [Hfm [_ Hfm2]]].
  destruct (connect_loop_total fm bs []) as [es Hes]; [|exact Hne|exists fm, es; auto].
  (* every target and block target is a jump target, so it heads a block *)
  intros b o x Hb Ho Hx.
  assert (Hin : In o ops) by (rewrite <- Hcat; eapply in_blocks; eauto).
  assert (Ht : exists o', In o' ops /\ target o' = Some x).
  { destruct Hx as [Hx|Hx]; [eauto|]. apply in_targets. eapply wf_opsb_block_target; eauto. }
  destruct Ht as [o' [Ho' Ht']].
  destruct (targets_start_blocks_lemma v ops bs [] Hwf Han Hns Hs o' x Ho' Ht')
    as [b' [ot [c [Hb' [_ [Hc [_ Hi]]]]]]].
  apply assocN_of_key, (in_map fst _ (x, bid b')). rewrite <- Hi. eapply Hfm2; eauto.
Qed.

Definition cnt (x : N) (l : list instr) : nat := count_occ N.eq_dec (map idx l) x.

Lemma cnt_app : forall x a b, cnt x (a ++ b) = cnt x a + cnt x b.
Proof. intros. unfold cnt. rewrite map_app, count_occ_app. reflexivity. Qed.

(* occurrences of x in the blocks that survive deleting the positions in D *)
Fixpoint live (x : N) (D : list nat) (bs : list block) (pos : nat) : nat :=
  match bs with
  | [] => 0
  | b :: t => (if existsb (Nat.eqb pos) D then 0 else cnt x (code b)) + live x D t (S pos)
  end.

Lemma live_spec : forall x D bs pos,
  live x D bs pos = cnt x (concat (map code (delete_positions D bs pos))).
Proof.
  induction bs as [|b t IH]; intros pos; simpl; auto.
  destruct (existsb (Nat.eqb pos) D); simpl.
  - apply IH.
  - rewrite cnt_app, IH. reflexivity.
Qed.

Lemma existsb_eqb_In : forall p D, existsb (Nat.eqb p) D = true <-> In p D.
Proof.
  intros. rewrite existsb_exists. split.
  - intros [y [H1 H2]]. apply Nat.eqb_eq in H2. subst. exact H1.
  - intros H. exists p. split; auto. apply Nat.eqb_refl.
Qed.

Lemma live_upd : forall x D bs pos i b b',
  nth_error bs i = Some b -> ~ In (pos + i) D ->
  live x D (upd i b' bs) pos + cnt x (code b) = live x D bs pos + cnt x (code b').
Proof.
  induction bs as [|h t IH]; intros pos i b b' Hn Hd; [destruct i; discriminate|].
  destruct i; simpl in *.
  - injection Hn as ->. rewrite Nat.add_0_r in Hd.
    destruct (existsb (Nat.eqb pos) D) eqn:E; [apply existsb_eqb_In in E; contradiction|]. lia.
  - specialize (IH (S pos) i b b' Hn). replace (S pos + i) with (pos + S i) in IH by lia.
    specialize (IH Hd). lia.
Qed.

Lemma existsb_snoc : forall p D d, existsb (Nat.eqb p) (D ++ [d]) = existsb (Nat.eqb p) D || (p =? d).
Proof. intros. rewrite existsb_app. simpl. rewrite orb_false_r. reflexivity. Qed.

Lemma live_snoc_lt : forall x D d t p, d < p -> live x (D ++ [d]) t p = live x D t p.
Proof.
  induction t as [|h t IH]; intros p Hp; simpl; [reflexivity|].
  rewrite existsb_snoc, (proj2 (Nat.eqb_neq p d)), orb_false_r, IH by lia. reflexivity.
Qed.

Lemma live_del : forall x D bs pos m b,
  nth_error bs m = Some b -> ~ In (pos + m) D ->
  live x (D ++ [pos + m]) bs pos + cnt x (code b) = live x D bs pos.
Proof.
  induction bs as [|h t IH]; intros pos m b Hn Hd; [destruct m; discriminate|].
  destruct m; simpl in *; rewrite existsb_snoc.
  - injection Hn as ->. rewrite Nat.add_0_r in *. rewrite Nat.eqb_refl, orb_true_r.
    destruct (existsb (Nat.eqb pos) D) eqn:E; [apply existsb_eqb_In in E; contradiction|].
    rewrite live_snoc_lt by lia. lia.
  - rewrite (proj2 (Nat.eqb_neq pos (pos + S m))), orb_false_r by lia.
    specialize (IH (S pos) m b Hn). replace (S pos + m) with (pos + S m) in IH by lia.
    specialize (IH Hd). lia.
Qed.

Lemma merge_step_live : forall x st bi mi st' D,
  merge_step (Ok st) (bi, mi) = Ok st' ->
  bi <> mi -> ~ In bi D -> ~ In mi D ->
  live x (D ++ [mi]) (m_blocks st') 0 <= live x D (m_blocks st) 0.
Proof.
  intros x st bi mi st' D H Hne Hbi Hmi.
  destruct (merge_step_Ok _ _ _ _ H) as [b [r [jb [m [Eb [Ec [Em ->]]]]]]].
  rewrite nth_error_upd_other in Em by exact Hne.
  pose proof (live_upd x D _ 0 bi b (set_code b (r ++ code m)) Eb Hbi) as L1.
  rewrite <- (nth_error_upd_other _ bi mi (set_code b (r ++ code m))) in Em by exact Hne.
  pose proof (live_del x D _ 0 mi m Em Hmi) as L2.
  simpl in L1, L2. rewrite Ec, !cnt_app in L1. lia.
Qed.

Definition simple (ml : list (nat * nat)) : Prop :=
  NoDup (map snd ml) /\ forall a, In a (map fst ml) -> ~ In a (map snd ml).

(* [done] are the merges already made: their second components are the positions to delete *)
Lemma merge_fold_live : forall x rest done st st',
  fold_left merge_step rest (Ok st) = Ok st' ->
  simple (done ++ rest) ->
  live x (map snd (done ++ rest)) (m_blocks st') 0 <= live x (map snd done) (m_blocks st) 0.
Proof.
  induction rest as [|[bi mi] rest IH]; intros done st st' H Hs; cbn [fold_left] in H.
  - injection H as <-. rewrite app_nil_r. lia.
  - destruct (merge_step (Ok st) (bi, mi)) as [st1|c] eqn:E; [|rewrite merge_fold_Err in H; discriminate].
    pose proof Hs as [Nd Hf]. rewrite map_app in Nd. simpl in Nd.
    assert (Hin : In bi (map fst (done ++ (bi, mi) :: rest))) by (rewrite map_app; apply in_elt).
    assert (Hmi : ~ In mi (map snd done)).
    { intro F. apply (NoDup_remove_2 _ _ _ Nd). apply in_or_app. left. exact F. }
    assert (Hbi : ~ In bi (map snd done)).
    { intro F. apply (Hf bi Hin). rewrite map_app. apply in_or_app. left. exact F. }
    assert (Hne : bi <> mi) by (intros ->; apply (Hf mi Hin); rewrite map_app; apply in_elt).
    pose proof (merge_step_live x st bi mi st1 _ E Hne Hbi Hmi) as L.
    specialize (IH (done ++ [(bi, mi)]) st1 st' H). rewrite <- app_assoc in IH. specialize (IH Hs).
    replace (map snd (done ++ [(bi, mi)])) with (map snd done ++ [mi]) in IH by (rewrite map_app; reflexivity).
    simpl in IH. lia.
Qed.

Lemma nodup_natb_NoDup : forall l, nodup_natb l = true -> NoDup l.
Proof.
  induction l as [|x l IH]; simpl; intros H; constructor.
  - apply andb_prop in H. destruct H as [H _]. apply negb_true_iff in H. intro F.
    apply existsb_eqb_In in F. congruence.
  - apply IH. apply andb_prop in H. tauto.
Qed.

Lemma simple_mergesb_spec : forall ml, simple_mergesb ml = true -> simple ml.
Proof.
  intros ml H. unfold simple_mergesb in H. apply andb_prop in H. destruct H as [H H3].
  apply andb_prop in H. destruct H as [_ H2]. split; [apply nodup_natb_NoDup; exact H2|].
  intros a Ha F. rewrite forallb_forall in H3. specialize (H3 a Ha). apply negb_true_iff in H3.
  apply existsb_eqb_In in F. congruence.
Qed.

Lemma filter_cnt_le : forall x (f : block -> bool) bs,
  cnt x (concat (map code (filter f bs))) <= cnt x (concat (map code bs)).
Proof.
  induction bs as [|b bs IH]; simpl; auto. destruct (f b); simpl; rewrite !cnt_app; lia.
Qed.

Lemma simple_merge_nodup_lemma : forall pick v ops r,
  wf_opsb ops = true -> merge_simpleb ops = true ->
  compute_order_gen pick v ops = Ok r -> NoDup (block_instrs (r_blocks r)).
Proof.
  intros pick v ops r Hwf Hsim H.
  destruct (compute_order_gen_inv _ _ _ _ H) as [_ [_ [bs0 [es0 [su [Hs [Hsu Hr]]]]]]].
  destruct (split_partition_full _ _ _ _ Hwf Hs) as [Hcat [_ Hnd]].
  rewrite Hr. destruct v.
  2:{ injection Hsu as <-. exact Hnd. }
  unfold merge_simpleb in Hsim. rewrite Hs in Hsim.
  set (bs1 := remove_jump_back_block ops bs0) in *.
  unfold remove_jmp_to_get_anext_and_merge in Hsu.
  destruct (merge_list_of bs1 bs1 0) as [ml|] eqn:Eml; [|discriminate]. cbn [bind] in Hsu.
  inv_bind Hsu. inv_bind Hsu. injection Hsu as <-. simpl.
  apply simple_mergesb_spec in Hsim.
  unfold block_instrs. apply (NoDup_count_occ N.eq_dec). intros x.
  change (cnt x (concat (map code (delete_positions (map snd ml) (m_blocks a) 0))) <= 1).
  rewrite <- live_spec.
  pose proof (merge_fold_live x ml [] _ a E Hsim) as L. simpl in L.
  assert (L0 : live x [] bs1 0 <= 1).
  { rewrite live_spec. simpl.
    assert (G : delete_positions [] bs1 0 = bs1) by apply delete_positions_nil. rewrite G.
    unfold bs1, remove_jump_back_block.
    eapply Nat.le_trans; [apply filter_cnt_le|].
    unfold block_instrs in Hnd. apply (NoDup_count_occ N.eq_dec). exact Hnd. }
  lia.
Qed.
