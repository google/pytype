(* C16: lemmas about the model of opcodes.py _add_setup_except / _add_exception_block (Blocks/Model.v).
   Keys: a real instruction at byte offset o has key 2*o+1; offsets are even (wordcode), so real keys are 1 mod 4,
   the synthetic SETUP_EXCEPT_311 keys (key_of start - 1) are 0 mod 4 and the POP_BLOCK keys (last key + 1) are
   2 mod 4: the three kinds can never collide. *)
From Coq Require Import List NArith Arith Bool Lia Sorted ZifyN.
From PV Require Import Generated.C16_OpcodeFlags Blocks.Model.
Import ListNotations.
Local Open Scope N_scope.

Definition kodd (it : xitem) : bool := N.odd (x_key it).
Definition keven (it : xitem) : bool := negb (kodd it).
Definition key_class (c : N) (it : xitem) : Prop := x_key it mod 4 = c.
Definition real_item : xitem -> Prop := key_class 1.
Definition lt_all (L : list xitem) (k : N) : Prop := forall h, In h L -> x_key h < k.
Definition key_sorted (l : list xitem) : Prop := StronglySorted N.lt (map x_key l).

Lemma odd_mod4 : forall k, N.odd k = N.odd (k mod 4).
Proof. intros k. rewrite (N.div_mod' k 4) at 1. rewrite N.odd_add, N.odd_mul. apply xorb_false_l. Qed.

Lemma kodd_class : forall it c, key_class c it -> kodd it = N.odd c.
Proof. intros it c H. unfold kodd. rewrite odd_mod4, H. reflexivity. Qed.

Lemma keven_class : forall it c, key_class c it -> keven it = N.even c.
Proof. intros it c H. unfold keven. rewrite (kodd_class it c H). apply N.negb_odd. Qed.

Lemma real_gap : forall a b, a mod 4 = 1 -> b mod 4 = 1 -> a < b -> a + 4 <= b.
Proof. intros. lia. Qed.

Lemma setup_key_class : forall o, key_of o mod 4 = 1 -> (key_of o - 1) mod 4 = 0.
Proof. unfold key_of. intros. lia. Qed.

Lemma pop_key_class : forall k, k mod 4 = 1 -> (k + 1) mod 4 = 2.
Proof. intros. lia. Qed.

Lemma filter_kodd_real : forall l, Forall real_item l -> filter kodd l = l.
Proof.
  induction 1 as [|h t Hh _ IH]; cbn [filter]; [reflexivity|].
  rewrite (kodd_class h 1 Hh), IH. reflexivity.
Qed.

Lemma filter_keven_real : forall l, Forall real_item l -> filter keven l = [].
Proof.
  induction 1 as [|h t Hh _ IH]; cbn [filter]; [reflexivity|].
  rewrite (keven_class h 1 Hh). exact IH.
Qed.

Lemma sorted_app_iff : forall l1 l2, key_sorted (l1 ++ l2) <->
  key_sorted l1 /\ key_sorted l2 /\ forall a b, In a l1 -> In b l2 -> x_key a < x_key b.
Proof.
  unfold key_sorted. induction l1 as [|h t IH]; intros l2; cbn [app map].
  - split; [intros H; repeat split; [constructor | exact H | intros a b []] | tauto].
  - split.
    + intros H. apply StronglySorted_inv in H. destruct H as [Hs Hf]. apply IH in Hs. destruct Hs as [A [B C]].
      rewrite map_app, Forall_app in Hf. destruct Hf as [Hf1 Hf2]. repeat split; [constructor; auto | exact B |].
      intros a b [Ha|Ha] Hb; [|exact (C a b Ha Hb)].
      subst a. rewrite Forall_forall in Hf2. apply Hf2, in_map, Hb.
    + intros [H1 [H2 H]]. apply StronglySorted_inv in H1. destruct H1 as [Hs Hf]. constructor.
      * apply IH. repeat split; auto. intros a b Ha. apply H. right. exact Ha.
      * rewrite map_app, Forall_app. split; [exact Hf|]. apply Forall_forall. intros k Hk.
        apply in_map_iff in Hk. destruct Hk as [b [E Hb]]. subst k. apply H; [left; reflexivity | exact Hb].
Qed.

Lemma sorted_cons_iff : forall a l, key_sorted (a :: l) <-> key_sorted l /\ forall b, In b l -> x_key a < x_key b.
Proof.
  intros a l. rewrite (sorted_app_iff [a] l). split.
  - intros [_ [B C]]. split; [exact B|]. intros b Hb. apply C; [left; reflexivity | exact Hb].
  - intros [B C]. repeat split; [repeat constructor | exact B |]. intros x b [Hx|[]]. subst x. apply C.
Qed.

Lemma sorted_keysb_sorted : forall l, sorted_keysb l = true -> key_sorted l.
Proof.
  intros l H. apply Sorted_StronglySorted; [exact N.lt_trans|].
  induction l as [|a t IH]; [constructor|]. cbn [sorted_keysb] in H. apply andb_prop in H. destruct H as [H1 H2].
  constructor; [exact (IH H2)|]. destruct t as [|b t]; constructor. apply N.ltb_lt, H1.
Qed.

Lemma sorted_key_inj : forall l a b, key_sorted l -> In a l -> In b l -> x_key a = x_key b -> a = b.
Proof.
  induction l as [|h t IH]; intros a b Hs Ha Hb E; [contradiction|].
  apply sorted_cons_iff in Hs. destruct Hs as [Hs' Hlt]. destruct Ha as [Ha|Ha], Hb as [Hb|Hb]; subst; auto.
  - specialize (Hlt b Hb). lia.
  - specialize (Hlt a Ha). lia.
Qed.

Lemma sorted_elt : forall X a Y, key_sorted (X ++ a :: Y) ->
  lt_all X (x_key a) /\ (forall h, In h Y -> x_key a < x_key h).
Proof.
  intros X a Y Hs. apply sorted_app_iff in Hs. destruct Hs as [_ [H2 H3]]. apply sorted_cons_iff in H2. split.
  - intros h Hh. apply H3; [exact Hh | left; reflexivity].
  - apply H2.
Qed.

Lemma sorted_split : forall l x, key_sorted l -> In x l ->
  exists l1 l2, l = l1 ++ x :: l2 /\ lt_all l1 (x_key x) /\ (forall h, In h l2 -> x_key x < x_key h).
Proof.
  intros l x Hs Hin. apply in_split in Hin. destruct Hin as [l1 [l2 E]]. exists l1, l2. split; [exact E|].
  subst l. exact (sorted_elt _ _ _ Hs).
Qed.

Lemma sorted_insert : forall L1 L2 it, key_sorted (L1 ++ L2) -> lt_all L1 (x_key it) ->
  (forall h, In h L2 -> x_key it < x_key h) -> key_sorted (L1 ++ it :: L2).
Proof.
  intros L1 L2 it Hs H1 H2. apply sorted_app_iff in Hs. destruct Hs as [A [B C]].
  apply sorted_app_iff. repeat split; [exact A | apply sorted_cons_iff; auto |].
  intros a b Ha [Hb|Hb]; [subst; apply H1; exact Ha | apply C; assumption].
Qed.

Lemma sorted_insert_after : forall L1 a L2 it, key_sorted (L1 ++ a :: L2) -> x_key a < x_key it ->
  (forall h, In h L2 -> x_key it < x_key h) -> key_sorted (L1 ++ a :: it :: L2).
Proof.
  intros L1 a L2 it Hs Ha H2. pose proof (proj1 (sorted_elt _ _ _ Hs)) as H1.
  change (key_sorted (L1 ++ [a] ++ it :: L2)). change (key_sorted (L1 ++ [a] ++ L2)) in Hs. rewrite app_assoc in *.
  apply sorted_insert; [exact Hs | | exact H2].
  intros h Hh. apply in_app_or in Hh. destruct Hh as [Hh|[Hh|[]]]; [specialize (H1 h Hh); lia | subst h; exact Ha].
Qed.

(* offset_to_op[k] = op when that keeps the table sorted *)
Lemma put_x_sorted : forall it L1 L2, key_sorted (L1 ++ it :: L2) -> put_x it (L1 ++ L2) = L1 ++ it :: L2.
Proof.
  induction L1 as [|h t IH]; intros L2 Hs; cbn [app put_x] in *; apply sorted_cons_iff in Hs; destruct Hs as [Hs Hlt].
  - destruct L2 as [|h t]; [reflexivity|]. cbn [put_x].
    rewrite (proj2 (N.ltb_lt _ _) (Hlt h (or_introl eq_refl))). reflexivity.
  - pose proof (Hlt it (in_elt it t L2)) as E.
    rewrite (proj2 (N.ltb_ge _ _)), (proj2 (N.eqb_neq _ _)) by lia. f_equal. exact (IH L2 Hs).
Qed.

Lemma put_x_after : forall it L1 a L2, key_sorted (L1 ++ a :: it :: L2) -> put_x it (L1 ++ a :: L2) = L1 ++ a :: it :: L2.
Proof.
  intros it L1 a L2 Hs. change (key_sorted (L1 ++ [a] ++ it :: L2)) in Hs. rewrite app_assoc in Hs.
  change (put_x it (L1 ++ [a] ++ L2) = L1 ++ [a] ++ it :: L2). rewrite !app_assoc. exact (put_x_sorted _ _ _ Hs).
Qed.

Lemma find_x_Some : forall k l it, find_x k l = Some it -> In it l /\ x_key it = k.
Proof.
  unfold find_x. intros k l it H. apply find_some in H. destruct H as [H1 H2]. apply N.eqb_eq in H2. auto.
Qed.

Lemma find_x_None : forall k l, find_x k l = None -> forall it, In it l -> x_key it <> k.
Proof. unfold find_x. intros k l H it Hin. apply N.eqb_neq. exact (find_none _ _ H it Hin). Qed.

Lemma find_x_In : forall l it, key_sorted l -> In it l -> find_x (x_key it) l = Some it.
Proof.
  intros l it Hs Hin. destruct (find_x (x_key it) l) as [x|] eqn:E.
  - apply find_x_Some in E. destruct E as [E1 E2]. f_equal. exact (sorted_key_inj l x it Hs E1 Hin E2).
  - exfalso. exact (find_x_None _ _ E it Hin eq_refl).
Qed.

(* max(i for i in offset_to_op if i < k) *)
Lemma max_key_below_snoc : forall k l h, max_key_below k (l ++ [h]) =
  if x_key h <? k then Some match max_key_below k l with Some a => N.max a (x_key h) | None => x_key h end
  else max_key_below k l.
Proof. intros k l h. unfold max_key_below. rewrite fold_left_app. reflexivity. Qed.

Lemma max_key_below_spec : forall k l,
  match max_key_below k l with
  | Some m => (exists it, In it l /\ x_key it = m) /\ m < k /\ forall it, In it l -> x_key it < k -> x_key it <= m
  | None => forall it, In it l -> k <= x_key it
  end.
Proof.
  intros k. induction l as [|h l IH] using rev_ind; [intros it []|].
  assert (Hin : forall it, In it (l ++ [h]) -> In it l \/ it = h).
  { intros it Hit. apply in_app_or in Hit. destruct Hit as [Hit|[Hit|[]]]; auto. }
  rewrite max_key_below_snoc. destruct (N.ltb_spec (x_key h) k) as [E|E].
  - destruct (max_key_below k l) as [a|].
    + destruct IH as [[x [Hx1 Hx2]] [Hlt Hmax]]. repeat split.
      * destruct (N.max_spec a (x_key h)) as [[_ M]|[_ M]]; rewrite M.
        -- exists h. split; [apply in_elt | reflexivity].
        -- exists x. split; [apply in_or_app; left; exact Hx1 | exact Hx2].
      * lia.
      * intros it Hit Hk. destruct (Hin it Hit) as [Hl|Hl]; [specialize (Hmax it Hl Hk) | subst it]; lia.
    + repeat split.
      * exists h. split; [apply in_elt | reflexivity].
      * exact E.
      * intros it Hit Hk. destruct (Hin it Hit) as [Hl|Hl]; [specialize (IH it Hl) | subst it]; lia.
  - destruct (max_key_below k l) as [a|].
    + destruct IH as [[x [Hx1 Hx2]] [Hlt Hmax]]. repeat split.
      * exists x. split; [apply in_or_app; left; exact Hx1 | exact Hx2].
      * exact Hlt.
      * intros it Hit Hk. destruct (Hin it Hit) as [Hl|Hl]; [exact (Hmax it Hl Hk) | subst it; lia].
    + intros it Hit. destruct (Hin it Hit) as [Hl|Hl]; [exact (IH it Hl) | subst it; exact E].
Qed.

(* the key the POP_BLOCK follows: e.end if it is in the table, else the largest key below it; either way the
   largest key <= k, which exists as soon as some key is <= k *)
Lemma end_key_spec : forall k l s, In s l -> x_key s <= k ->
  exists lst, In lst l /\ x_key lst <= k /\ (forall it, In it l -> x_key it <= k -> x_key it <= x_key lst) /\
    match find_x k l with Some _ => Some k | None => max_key_below k l end = Some (x_key lst).
Proof.
  intros k l s Hs Hk. destruct (find_x k l) as [x|] eqn:E.
  - apply find_x_Some in E. destruct E as [Hx Kx]. exists x. rewrite Kx. repeat split; auto. lia.
  - pose proof (find_x_None _ _ E) as NK. pose proof (max_key_below_spec k l) as M.
    destruct (max_key_below k l) as [m|].
    + destruct M as [[x [Hx Kx]] [Mlt Mmax]]. exists x. rewrite Kx. repeat split; auto; [lia|].
      intros it Hit Hle. apply Mmax; [exact Hit|]. specialize (NK it Hit). lia.
    + exfalso. specialize (M s Hs). specialize (NK s Hs). lia.
Qed.

Lemma brk_real : forall k t o, k mod 4 = 1 -> brk (k :: t) o = brk t o.
Proof. intros k t o H. cbn [brk]. rewrite H. reflexivity. Qed.

Lemma brk_app_real : forall l o rest, Forall real_item l -> brk (map x_key l ++ rest) o = brk rest o.
Proof.
  induction 1 as [|h t Hh _ IH]; cbn [map app]; [reflexivity|]. rewrite (brk_real _ _ _ Hh). exact IH.
Qed.

Lemma brk_open : forall k t, k mod 4 = 0 -> brk (k :: t) false = brk t true.
Proof. intros k t H. cbn [brk]. rewrite H. reflexivity. Qed.

Lemma brk_close : forall k t, k mod 4 = 2 -> brk (k :: t) true = brk t false.
Proof. intros k t H. cbn [brk]. rewrite H. reflexivity. Qed.

Lemma brk_app_closed : forall l1 l2 o, brk l1 o = true -> brk (l1 ++ l2) o = brk l2 false.
Proof.
  induction l1 as [|k t IH]; intros l2 o H; cbn [app brk] in *.
  - destruct o; [discriminate | reflexivity].
  - destruct (k mod 4 =? 0); [|destruct (k mod 4 =? 2)]; try (apply IH; exact H).
    all: apply andb_prop in H; destruct H as [H1 H2]; rewrite H1; apply IH; exact H2.
Qed.

Definition setup_op (e : exc_entry) (s : xitem) : xitem :=
  mkX (key_of (e_start e) - 1) op_SETUP_EXCEPT_311 (x_line s) (Some (key_of (e_target e))).
Definition pop_op (lst : xitem) : xitem := mkX (x_key lst + 1) op_POP_BLOCK (x_line lst) None.

(* The table is L ++ s :: M, s the op at e.start, everything from s on still original, and the keys of L leave room
   for the SETUP_EXCEPT_311.  Then the call succeeds: the SETUP goes directly before s, the POP_BLOCK directly after
   lst, the last op at or before e.end, which is s or lies behind it. *)
Lemma add_exception_block_at : forall L s M e t,
  key_sorted (L ++ s :: M) -> Forall real_item (s :: M) ->
  x_key s = key_of (e_start e) -> lt_all L (key_of (e_start e) - 1) ->
  In t (L ++ s :: M) -> x_key t = key_of (e_target e) -> e_start e <= e_end e ->
  exists W lst Rd, s :: M = W ++ lst :: Rd /\
    x_key lst <= key_of (e_end e) /\
    (forall it, In it (L ++ s :: M) -> x_key it <= key_of (e_end e) -> x_key it <= x_key lst) /\
    lt_all (L ++ setup_op e s :: W) (x_key lst) /\
    (forall r, In r Rd -> x_key lst + 4 <= x_key r) /\
    key_sorted ((L ++ setup_op e s :: W) ++ lst :: pop_op lst :: Rd) /\
    add_exception_block (L ++ s :: M) e = Ok ((L ++ setup_op e s :: W) ++ lst :: pop_op lst :: Rd).
Proof.
  intros L s M e t Hsort Hreal Ks HL Ht Kt Hse. set (S := setup_op e s).
  assert (KS : x_key S < x_key s) by (rewrite Ks; unfold S, setup_op, key_of; cbn [x_key]; lia).
  assert (SM : key_sorted (s :: M)) by (apply sorted_app_iff in Hsort; apply Hsort).
  assert (ST1 : key_sorted (L ++ S :: s :: M)).
  { apply sorted_insert; [exact Hsort | exact HL |]. apply sorted_cons_iff in SM.
    intros h [Hh|Hh]; [subst h; exact KS | specialize (proj2 SM h Hh); lia]. }
  assert (IT1 : forall x, In x (L ++ s :: M) -> In x (L ++ S :: s :: M)).
  { intros x Hx. apply in_app_or in Hx. apply in_or_app. destruct Hx; [left | right; right]; assumption. }
  destruct (end_key_spec (key_of (e_end e)) (L ++ S :: s :: M) s) as [lst [Hl [Klst [Mlst Eend]]]].
  { apply IT1, in_elt. }
  { rewrite Ks. unfold key_of. lia. }
  assert (HlM : In lst (s :: M)).
  { assert (x_key s <= x_key lst) by (apply Mlst; [apply IT1, in_elt | rewrite Ks; unfold key_of; lia]).
    apply in_app_or in Hl. destruct Hl as [Hl|[Hl|Hl]]; [specialize (HL lst Hl); lia | subst lst; lia | exact Hl]. }
  destruct (sorted_split (s :: M) lst SM HlM) as [W [Rd [EW [_ GRd]]]]. exists W, lst, Rd.
  assert (ET1 : L ++ S :: s :: M = (L ++ S :: W) ++ lst :: Rd) by (rewrite EW, <- app_assoc; reflexivity).
  assert (GE : forall r, In r Rd -> x_key lst + 4 <= x_key r).
  { rewrite EW in Hreal. apply Forall_app in Hreal. destruct Hreal as [_ Hreal]. rewrite Forall_forall in Hreal.
    intros r Hr. exact (real_gap _ _ (Hreal lst (or_introl eq_refl)) (Hreal r (or_intror Hr)) (GRd r Hr)). }
  assert (ST2 : key_sorted ((L ++ S :: W) ++ lst :: pop_op lst :: Rd)).
  { apply sorted_insert_after; [rewrite <- ET1; exact ST1 | cbn [pop_op x_key]; lia |].
    intros r Hr. specialize (GE r Hr). cbn [pop_op x_key]. lia. }
  repeat split; [exact EW | exact Klst | intros it Hit; apply Mlst, IT1, Hit | | exact GE | exact ST2 |].
  { rewrite ET1 in ST1. apply (sorted_elt _ _ _ ST1). }
  unfold add_exception_block. rewrite <- Ks, (find_x_In _ s Hsort (in_elt s L M)), Ks. fold (setup_op e s). fold S.
  rewrite (put_x_sorted S L (s :: M) ST1).
  rewrite <- Kt, (find_x_In _ t ST1 (IT1 t Ht)).
  rewrite Eend, (find_x_In _ lst ST1 Hl). fold (pop_op lst). f_equal.
  rewrite ET1. exact (put_x_after _ _ _ _ ST2).
Qed.

Definition is_last (items : list xitem) (e : exc_entry) (k : N) : Prop :=
  k <= key_of (e_end e) /\ forall it, In it items -> x_key it <= key_of (e_end e) -> x_key it <= k.

Definition entry_ok (items A : list xitem) (e : exc_entry) : Prop :=
  (exists l1 s l2, A = l1 ++ setup_op e s :: s :: l2 /\ In s items /\ x_key s = key_of (e_start e)) /\
  (exists l1 lst l2, A = l1 ++ lst :: pop_op lst :: l2 /\ In lst items /\ is_last items e (x_key lst)).

Lemma entry_ok_app : forall items A X e, entry_ok items A e -> entry_ok items (A ++ X) e.
Proof.
  intros items A X e [[l1 [s [l2 [E H]]]] [m1 [lst [m2 [E' H']]]]]. split.
  - exists l1, s, (l2 ++ X). split; [|exact H]. rewrite E, <- app_assoc. reflexivity.
  - exists m1, lst, (m2 ++ X). split; [|exact H']. rewrite E', <- app_assoc. reflexivity.
Qed.

Definition op_class (items : list xitem) (h : xitem) : Prop :=
  (real_item h /\ In h items) \/
  (x_key h mod 4 = 0 /\ x_opc h = op_SETUP_EXCEPT_311) \/
  (x_key h mod 4 = 2 /\ x_opc h = op_POP_BLOCK).

(* the invariant of the loop of _add_setup_except: the table is A ++ R, A = the part already finished (with its
   synthetic ops), R = a suffix of the original table *)
Record inv (items A R : list xitem) (b : N) (done : list exc_entry) : Prop := {
  i_real : items = filter kodd A ++ R;
  i_sorted : key_sorted (A ++ R);
  i_bound : forall h, In h A -> x_key h <= 2 * b;
  (* the key before an original op is still free *)
  i_gap : forall h r, In h A -> In r R -> x_key h + 1 < x_key r;
  i_brk : brk (map x_key A) false = true;
  i_done : forall e, In e done -> entry_ok items A e;
  i_count : length (filter keven A) = (2 * length done)%nat;
  i_shape : forall h, In h A -> op_class items h
}.

Lemma inv_init : forall items, key_sorted items -> inv items [] items 0 [].
Proof.
  intros items H. constructor; try reflexivity; try exact H; intros h; [intros [] | intros r [] | intros [] | intros []].
Qed.

Lemma inv_weaken : forall items A R b b' done, inv items A R b done -> b <= b' -> inv items A R b' done.
Proof.
  intros items A R b b' done [H1 H2 H3 H4 H5 H6 H7 H8] Hb. constructor; auto.
  intros h Hh. specialize (H3 h Hh). lia.
Qed.

Lemma inv_in_table : forall items A R b done x, inv items A R b done -> In x items -> In x (A ++ R).
Proof.
  intros items A R b done x I H. rewrite (i_real _ _ _ _ _ I) in H. apply in_app_or in H. apply in_or_app.
  destruct H as [H|H]; [left; apply filter_In in H; apply H | right; exact H].
Qed.

Lemma inv_R_real : forall items A R b done, Forall real_item items -> inv items A R b done -> Forall real_item R.
Proof. intros items A R b done Hr I. rewrite (i_real _ _ _ _ _ I) in Hr. apply Forall_app in Hr. apply Hr. Qed.

Lemma cons_eq_app_elt : forall (s : xitem) M W x Rd l,
  s :: M = W ++ x :: Rd -> exists Y, W ++ x :: l = s :: Y.
Proof. intros s M [|w W] x Rd l E; injection E as -> _; eexists; reflexivity. Qed.

Lemma add_exception_block_step : forall items A R b done e s t,
  Forall real_item items -> inv items A R b done ->
  b <= e_start e -> e_start e <= e_end e ->
  In s items -> x_key s = key_of (e_start e) -> In t items -> x_key t = key_of (e_target e) ->
  exists A' R', add_exception_block (A ++ R) e = Ok (A' ++ R') /\ inv items A' R' (e_end e + 1) (done ++ [e]).
Proof.
  intros items A R b done e s t Hreal I Hb Hse Hs Hks Ht Hkt.
  pose proof (inv_R_real _ _ _ _ _ Hreal I) as RealR. pose proof (fun x => inv_in_table _ _ _ _ _ x I) as ItT.
  apply ItT in Ht. destruct I as [I1 I2 I3 I4 I5 I6 I7 I8].
  assert (HsR : In s R).
  { rewrite I1 in Hs. apply in_app_or in Hs. destruct Hs as [Hs|Hs]; [exfalso | exact Hs].
    apply filter_In in Hs. specialize (I3 s (proj1 Hs)). unfold key_of in Hks. clear - I3 Hks Hb. lia. }
  assert (SR : key_sorted R) by (apply sorted_app_iff in I2; apply I2).
  destruct (sorted_split R s SR HsR) as [Ra [M [ER [LRa _]]]]. subst R.
  apply Forall_app in RealR. destruct RealR as [RealRa RealM].
  rewrite app_assoc in I2, Ht, ItT |- *.
  destruct (add_exception_block_at (A ++ Ra) s M e t I2 RealM Hks) as [W [lst [Rd [EM [Klst [Mlst [LT [GE [ST2 Eq]]]]]]]]];
    [| exact Ht | exact Hkt | exact Hse |].
  { intros h Hh. rewrite <- Hks. apply in_app_or in Hh. destruct Hh as [Hh|Hh].
    - specialize (I4 h s Hh (in_elt s Ra M)). clear - I4. lia.
    - rewrite Forall_forall in RealRa. pose proof (real_gap _ _ (RealRa h Hh) (Forall_inv RealM) (LRa h Hh)) as G.
      clear - G. lia. }
  pose proof (Forall_inv RealM) as Rs.
  rewrite EM in RealM. apply Forall_app in RealM. destruct RealM as [RealW RealM].
  apply Forall_cons_iff in RealM. destruct RealM as [Rl RealRd].
  set (S := setup_op e s) in *. set (P := pop_op lst) in *.
  assert (CS : key_class 0 S) by (apply setup_key_class; rewrite <- Hks; exact Rs).
  assert (CP : key_class 2 P) by (apply pop_key_class; exact Rl).
  assert (LE : forall h, In h (((A ++ Ra) ++ S :: W) ++ [lst; P]) -> x_key h <= x_key lst + 1).
  { intros h Hh. apply in_app_or in Hh. destruct Hh as [Hh|[<-|[<-|[]]]];
      [apply N.lt_le_incl, N.lt_lt_add_r, LT, Hh | apply N.le_add_r | apply N.le_refl]. }
  exists (((A ++ Ra) ++ S :: W) ++ [lst; P]), Rd. rewrite <- (app_assoc _ [lst; P] Rd). split; [exact Eq|].
  assert (Ereal : items = filter kodd (((A ++ Ra) ++ S :: W) ++ [lst; P]) ++ Rd).
  { rewrite !filter_app. cbn [filter].
    rewrite (kodd_class S 0 CS), (kodd_class lst 1 Rl), (kodd_class P 2 CP), (filter_kodd_real Ra RealRa), (filter_kodd_real W RealW).
    rewrite I1, EM, <- !app_assoc. reflexivity. }
  constructor.
  - exact Ereal.
  - rewrite <- (app_assoc _ [lst; P] Rd). exact ST2.
  - intros h Hh. specialize (LE h Hh). unfold key_of in Klst. clear - LE Klst. lia.
  - intros h r Hh Hr. specialize (LE h Hh). specialize (GE r Hr). clear - LE GE. lia.
  - rewrite !map_app. cbn [map]. rewrite <- !app_assoc, (brk_app_closed _ _ _ I5), brk_app_real by assumption.
    cbn [app]. rewrite (brk_open _ _ CS), brk_app_real by assumption. cbn [app]. rewrite (brk_real _ _ _ Rl). exact (brk_close _ _ CP).
  - intros e' He'. apply in_app_or in He'. destruct He' as [He'|[He'|[]]].
    + rewrite <- !app_assoc. apply entry_ok_app, I6, He'.
    + subst e'. split.
      * destruct (cons_eq_app_elt _ _ _ _ _ [P] EM) as [Y EY].
        exists (A ++ Ra), s, Y. split; [|split; [exact Hs | exact Hks]].
        rewrite <- EY, <- (app_assoc (A ++ Ra)). reflexivity.
      * assert (Hl : In lst items).
        { rewrite I1, EM. apply in_or_app. right. apply in_or_app. right. apply in_elt. }
        exists ((A ++ Ra) ++ S :: W), lst, []. split; [reflexivity | split; [exact Hl | split; [exact Klst|]]].
        intros it Hit. apply Mlst, ItT, Hit.
  - rewrite !filter_app. cbn [filter].
    rewrite (keven_class S 0 CS), (keven_class lst 1 Rl), (keven_class P 2 CP), (filter_keven_real Ra RealRa),
      (filter_keven_real W RealW).
    rewrite !app_length, I7. cbn [N.even length]. clear. lia.
  - (* an original op of the new A is among the odd keys of the new table, hence in items *)
    intros h Hh. assert (Hr : real_item h -> op_class items h).
    { intros Hr. left. split; [exact Hr|]. rewrite Ereal. apply in_or_app. left. apply filter_In.
      split; [exact Hh | exact (kodd_class h 1 Hr)]. }
    rewrite Forall_forall in RealRa, RealW. rewrite !in_app_iff in Hh. cbn [In] in Hh.
    destruct Hh as [[[Hh|Hh]|[<-|Hh]]|[<-|[<-|[]]]]; auto.
    + right. left. split; [exact CS | reflexivity].
    + right. right. split; [exact CP | reflexivity].
Qed.

Definition entry_keys_ok (items : list xitem) (e : exc_entry) : Prop :=
  (exists s, In s items /\ x_key s = key_of (e_start e)) /\
  (exists t, In t items /\ x_key t = key_of (e_target e)).

Lemma loop_inv : forall items, key_sorted items -> Forall real_item items ->
  forall entries seen A R b done,
  inv items A R b done -> bounded_fromb b entries = true ->
  (forall e, In e entries -> entry_keys_ok items e) ->
  exists A' R' b', add_setup_except_loop entries seen (A ++ R) = Ok (A' ++ R') /\
                   inv items A' R' b' (done ++ kept_loop entries seen items).
Proof.
  intros items Hsorted Hreal. induction entries as [|e rest IH]; intros seen A R b done I Hb Hk.
  - exists A, R, b. cbn [kept_loop]. rewrite app_nil_r. split; [reflexivity | exact I].
  - cbn [bounded_fromb] in Hb. apply andb_prop in Hb. destruct Hb as [Hb Hb3]. apply andb_prop in Hb.
    destruct Hb as [Hb1 Hb2]. apply N.leb_le in Hb1, Hb2.
    destruct (Hk e (or_introl eq_refl)) as [[s [Hs Ks]] [t [Ht Kt]]].
    assert (Hk' : forall e', In e' rest -> entry_keys_ok items e') by (intros; apply Hk; right; assumption).
    (* both the current table and the original one find s and t *)
    assert (F : forall x, In x items -> find_x (x_key x) (A ++ R) = Some x /\ find_x (x_key x) items = Some x).
    { intros x Hx. split; apply find_x_In; [apply (i_sorted _ _ _ _ _ I) | exact (inv_in_table _ _ _ _ _ x I Hx) | | ];
        assumption. }
    cbn [add_setup_except_loop kept_loop].
    rewrite <- Kt, (proj1 (F t Ht)), (proj2 (F t Ht)), <- Ks, (proj1 (F s Hs)), (proj2 (F s Hs)).
    assert (Iw : inv items A R (e_end e + 1) done) by (apply (inv_weaken _ _ _ b); [exact I | lia]).
    destruct (memN (x_opc t) ignored_exception_targets); [exact (IH seen A R _ done Iw Hb3 Hk')|].
    destruct (negb (e_lasti e) && negb (memN (x_line s) seen)); [|exact (IH seen A R _ done Iw Hb3 Hk')].
    destruct (add_exception_block_step items A R b done e s t Hreal I Hb1 Hb2 Hs Ks Ht Kt) as [A1 [R1 [E1 I1]]].
    rewrite E1. cbn [bind].
    destruct (IH (x_line s :: seen) A1 R1 _ (done ++ [e]) I1 Hb3 Hk') as [A' [R' [b' [E2 I2]]]].
    exists A', R', b'. rewrite <- app_assoc in I2. split; [exact E2 | exact I2].
Qed.

Lemma wf_excb_spec : forall items entries, wf_excb items entries = true ->
  key_sorted items /\ Forall real_item items /\ bounded_fromb 0 entries = true /\
  forall e, In e entries -> entry_keys_ok items e.
Proof.
  intros items entries H. unfold wf_excb in H. rewrite !andb_true_iff, !forallb_forall in H.
  destruct H as [[[H1 H2] H3] H4]. repeat split; [exact (sorted_keysb_sorted _ H1) | | exact H4 | | ].
  - apply Forall_forall. intros x Hx. apply N.eqb_eq, H2, Hx.
  - specialize (H3 e H). apply andb_prop in H3. destruct H3 as [A _]. apply existsb_exists in A.
    destruct A as [s [Hs Ks]]. exists s. split; [exact Hs | apply N.eqb_eq, Ks].
  - specialize (H3 e H). apply andb_prop in H3. destruct H3 as [_ B]. apply existsb_exists in B.
    destruct B as [t [Ht Kt]]. exists t. split; [exact Ht | apply N.eqb_eq, Kt].
Qed.

Lemma add_setup_except_spec : forall items entries out,
  wf_excb items entries = true -> add_setup_except entries items = Ok out ->
  exists A R b, out = A ++ R /\ inv items A R b (kept_entries entries items) /\ Forall real_item R.
Proof.
  intros items entries out H E. destruct (wf_excb_spec _ _ H) as [Hs [Hr [Hb Hk]]].
  destruct (loop_inv items Hs Hr entries [] [] items 0 [] (inv_init items Hs) Hb Hk) as [A [R [b [E' I]]]].
  exists A, R, b. unfold add_setup_except in E. cbn [app] in E'. rewrite E in E'. injection E' as ->.
  split; [reflexivity | split; [exact I | exact (inv_R_real _ _ _ _ _ Hr I)]].
Qed.

Lemma exception_ops_nested_lemma : forall items entries out,
  wf_excb items entries = true -> add_setup_except entries items = Ok out ->
  brk (map x_key out) false = true.
Proof.
  intros items entries out H E. destruct (add_setup_except_spec _ _ _ H E) as [A [R [b [-> [I RR]]]]].
  rewrite map_app, (brk_app_closed _ _ _ (i_brk _ _ _ _ _ I)), <- (app_nil_r (map x_key R)). exact (brk_app_real R _ [] RR).
Qed.
