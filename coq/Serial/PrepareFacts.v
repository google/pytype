(* SerializeAst's preparation for the schema of the live node classes (Generated/C12_Schema.v).
   The table check [prep_tbl_ok] - the regenerated schema's field names and hooks line up with the grammar's
   productions and with Canon.Model's sort/reset tables - is decided by computation, so a renamed, re-ordered or
   re-typed field breaks this file.  Then the domain [unit_ok] of the property theorems, and a worked instance. *)
From Coq Require Import List String Ascii ZArith Bool Arith.
From PV Require Import Serial.Model Serial.Proofs Serial.Grammar Serial.GrammarProofs Serial.Ast Serial.AstProofs.
From PV Require Import Serial.Prepare Serial.PrepareProofs Generated.C12_Schema Serial.SchemaFacts.
From PV Require Canon.Model.
Import ListNotations.
Local Open Scope string_scope.
Local Open Scope list_scope.

Lemma prep_tbl_pytd : prep_tbl_ok pytd_schema pytd_grammar = true.
Proof. vm_compute. reflexivity. Qed.

(* the domain: a unit whose class pointers, once cleared, leave a unit of the dialect G whose unions are what
   _FlattenTypes leaves - before and after canonical ordering of their members *)
Definition unit_ok (R : reprs) (hv : hvariant) (u : value) : bool :=
  gen_b pytd_grammar (clear_ptrs u) (GNt NUnit) &&
  hooks_all pytd_schema hv (clear_ptrs u) &&
  sets_okb R pytd_schema hv (clear_ptrs u).

Lemma unit_ok_elim R hv u : unit_ok R hv u = true ->
  gen_b pytd_grammar (clear_ptrs u) (GNt NUnit) = true /\ hooks_all pytd_schema hv (clear_ptrs u) = true /\
  sets_okb R pytd_schema hv (clear_ptrs u) = true.
Proof.
  unfold unit_ok. intros H. apply andb_true_iff in H. destruct H as [H H3].
  apply andb_true_iff in H. destruct H as [H1 H2]. auto.
Qed.

Lemma prepared_in_dialect_pytd R hv u src md : unit_ok R hv u = true ->
  in_G (prepare R pytd_schema u src md) = true /\
  hooks_all pytd_schema hv (prepare R pytd_schema u src md) = true.
Proof.
  intros H. destruct (unit_ok_elim R hv u H) as [H1 [H2 H3]]. split.
  - exact (prepare_in_G R pytd_schema hv prep_tbl_pytd u src md H1 H3).
  - exact (prepare_hooks R pytd_schema hv prep_tbl_pytd u src md H2 H3).
Qed.

Lemma prepared_ast_pytd R u src md :
  sast_ast (prepare R pytd_schema u src md) = canon_s R pytd_schema (clear_ptrs u).
Proof. unfold prepare, prepared_unit, sast_ast. apply clear_cache_canon. Qed.

(* a worked instance: two classes out of order, a resolved class pointer, a union out of order *)
Definition ex_reprs : reprs :=
  mkReprs (fun s => String.append "'" (String.append s "'")) (fun _ => "0") (fun _ s => (s, s)) (fun _ _ => ("f", "f"))
          (fun _ => ("p", "p")) (fun _ => ("o", "o", "o")).

Definition ex_cls (n : string) (bases : list value) : value :=
  VStruct "Class" [VStr n; VTuple []; VTuple bases; VTuple []; VTuple []; VTuple []; VTuple []; VNone; VTuple [];
                   VDict [] []].
Definition ex_raw_unit : value :=
  VStruct "TypeDeclUnit"
    [VStr "m";
     VTuple [VStruct "Constant" [VStr "m.x";
                                 VStruct "UnionType" [VTuple [VStruct "NamedType" [VStr "pkg.str"];
                                                              VStruct "ClassType" [VStr "m.A"; VStr "ptr-to-A"]]];
                                 VNone]];
     VTuple [];
     VTuple [ex_cls "m.B" [VStruct "ClassType" [VStr "m.A"; VStr "ptr-to-A"]]; ex_cls "m.A" []];
     VTuple []; VTuple [VStruct "Alias" [VStr "m.al"; VStruct "LateType" [VStr "other.mod.T"; VBool false]]];
     VDict [] []].

Example ex_prepare_ok :
  unit_ok ex_reprs HvFixed ex_raw_unit = true /\ unit_ok ex_reprs HvOrig ex_raw_unit = true /\
  gen_b pytd_grammar ex_raw_unit (GNt NUnit) = false /\
  sast_ast (prepare ex_reprs pytd_schema ex_raw_unit None []) <> clear_ptrs ex_raw_unit.
Proof. repeat split; try (vm_compute; reflexivity). vm_compute. intros H. discriminate H. Qed.

Example ex_prepare_result :
  prepare ex_reprs pytd_schema ex_raw_unit (Some "m.py") ["x"] =
  let ct := VStruct "ClassType" [VStr "m.A"; VNone] in
  let cls n bases := VStruct "Class" [VStr n; VTuple []; VTuple bases; VTuple []; VTuple []; VTuple []; VTuple [];
                                      VNone; VTuple []; VDict [] []] in
  VStruct "SerializableAst"
    [VStruct "TypeDeclUnit"
       [VStr "m";
        VTuple [VStruct "Constant" [VStr "m.x"; VStruct "UnionType" [VTuple [ct; VStruct "NamedType" [VStr "pkg.str"]]];
                                    VNone]];
        VTuple []; VTuple [cls "m.A" []; cls "m.B" [ct]]; VTuple [];
        VTuple [VStruct "Alias" [VStr "m.al"; VStruct "LateType" [VStr "other.mod.T"; VBool false]]];
        VDict [] []];
     VList [VTuple [VStr "m"; VSet [VStr "A"]]; VTuple [VStr "pkg"; VSet [VStr "str"]]];
     VList [VTuple [VStr "other.mod"; VSet [VStr "T"]]];
     VStr "m.py"; VList [VStr "x"]; VList [ct; ct]].
Proof. vm_compute. reflexivity. Qed.
