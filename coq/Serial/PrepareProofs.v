(* SerializeAst's preparation (Serial/Prepare.v): the bridge [canon_s] = Canon.Model's [canon] through the
   translation [to_c]; the dialect G and the codec's __post_init__ fixpoints are closed under canonical ordering
   and under the whole preparation; ClearLookupCache, CollectDependencies and ProcessAst's re-linking. *)
From Coq Require Import List String Ascii ZArith Bool Arith Lia Permutation.
From PV Require Import Serial.Model Serial.Proofs Serial.Grammar Serial.GrammarProofs Serial.Ast Serial.AstProofs.
From PV Require Import Serial.Prepare.
From PV Require Canon.Model Canon.SortLemmas Canon.Proofs.
Import ListNotations.
Local Open Scope string_scope.
Local Open Scope list_scope.

Module CM := PV.Canon.Model.
Module CP := PV.Canon.Proofs.
Module CS := PV.Canon.SortLemmas.

Lemma map_filter_comm {A B} (f : A -> B) (p : B -> bool) l :
  map f (filter (fun y => p (f y)) l) = filter p (map f l).
Proof. induction l as [|x t IH]; simpl; auto. destruct (p (f x)); simpl; now rewrite IH. Qed.

Lemma map_flat_map_comm {A B} (h : A -> B) (f : A -> list A) (g : B -> list B) l :
  (forall t, map h (f t) = g (h t)) -> map h (flat_map f l) = flat_map g (map h l).
Proof. intros H. induction l as [|t l IH]; simpl; auto. now rewrite map_app, H, IH. Qed.

Lemma combine_map_combine {A B C} (ns : list A) (g : list B) (h : A * B -> C) :
  combine ns (map h (combine ns g)) = map (fun p => (fst p, h p)) (combine ns g).
Proof.
  revert g. induction ns as [|n ns IH]; intros [|x g]; simpl; auto. now rewrite IH.
Qed.

Lemma combine_map_r {A B C} (ns : list A) (g : list B) (f : B -> C) :
  combine ns (map f g) = map (fun p => (fst p, f (snd p))) (combine ns g).
Proof. revert g. induction ns as [|n ns IH]; intros [|x g]; simpl; auto. now rewrite IH. Qed.

Section Bridge.
  Context (R : reprs) (S : schema).
  Notation to_c := (to_c R S).
  Notation canon_s := (canon_s R S).

  Lemma is_ct_other c fs : String.eqb c "ClassType" = false -> is_ct c fs = None.
  Proof. unfold is_ct. now intros ->. Qed.

  Lemma is_ct_some c fs n p : is_ct c fs = Some (n, p) -> c = "ClassType" /\ fs = [VStr n; p].
  Proof.
    unfold is_ct. destruct (String.eqb_spec c "ClassType") as [->|]; [|discriminate].
    destruct fs as [|a t]; [discriminate|]. destruct a; try discriminate.
    destruct t as [|q t]; [discriminate|]. destruct t; [|discriminate].
    intros H. injection H as -> ->. auto.
  Qed.

  (* what a value is translated to: a tuple to a tuple, a ClassType to a ClassType, any other struct to a node,
     everything else to an atom *)
  Lemma to_c_cases v :
    match v with
    | VTuple l => to_c v = CM.VTup (map to_c l)
    | VStruct c fs =>
        match is_ct c fs with
        | Some (n, _) => exists q, to_c v = CM.VClassType n q
        | None => to_c v = CM.VNode c (combine (field_names S c) (map to_c fs))
        end
    | _ => exists c s r, to_c v = CM.VAtom c s r
    end.
  Proof.
    destruct v as [|b|z|z|s|e s|e z|l|l|l|ks vs|c fs]; cbn [Prepare.to_c]; eauto;
      try (destruct (r_opaque R _) as [[? ?] ?]; eauto).
    - destruct ks, vs; try (destruct (r_opaque R _) as [[? ?] ?]); unfold CM.empty_dict; eauto.
    - destruct (is_ct c fs) as [[n []]|]; eauto.
  Qed.

  (* hence a case distinction on the translation is one on the value *)
  Lemma match_to_c_tup {A} (F : list CM.value -> A) (D : A) x :
    match to_c x with CM.VTup m => F m | _ => D end =
    match x with VTuple m => F (map to_c m) | _ => D end.
  Proof.
    pose proof (to_c_cases x) as H.
    destruct x as [| | | | | | |l|l|l|ks vs|c fs]; try (destruct H as (? & ? & ? & ->); reflexivity).
    - now rewrite H.
    - destruct (is_ct c fs) as [[n p]|]; [destruct H as [q ->] | rewrite H]; reflexivity.
  Qed.

  Lemma match_to_c_node {A} (F : string -> list (string * CM.value) -> A) (D : A) x :
    match to_c x with CM.VNode c fs => F c fs | _ => D end =
    match x with
    | VStruct c fs => match is_ct c fs with
                      | Some _ => D
                      | None => F c (combine (field_names S c) (map to_c fs))
                      end
    | _ => D
    end.
  Proof.
    pose proof (to_c_cases x) as H.
    destruct x as [| | | | | | |l|l|l|ks vs|c fs]; try (destruct H as (? & ? & ? & ->); reflexivity).
    - now rewrite H.
    - destruct (is_ct c fs) as [[n p]|]; [destruct H as [q ->] | rewrite H]; reflexivity.
  Qed.

  Lemma to_c_tup_inv x m' : to_c x = PV.Canon.Model.VTup m' -> exists m, x = VTuple m /\ m' = map to_c m.
  Proof.
    intros H.
    assert (E : match to_c x with CM.VTup m => Some m | _ => None end = Some m') by now rewrite H.
    rewrite match_to_c_tup in E. destruct x; try discriminate E. injection E as <-. eauto.
  Qed.

  Lemma sfield_bridge n names fs :
    CM.field n (combine names (map to_c fs)) = option_map to_c (sfield n names fs).
  Proof.
    revert fs. induction names as [|m names IH]; intros [|v fs]; simpl; auto.
    destruct (String.eqb n m); auto.
  Qed.

  Lemma sort_bridge l : map to_c (sort_s R S l) = CM.sort_vals (map to_c l).
  Proof. apply (CS.sort_map to_c CM.node_lt). Qed.

  Lemma flatten_bridge l : map to_c (flatten_s S l) = CM.flatten (map to_c l).
  Proof.
    apply map_flat_map_comm. intros t. rewrite match_to_c_node.
    destruct t as [| | | | | | | | | | |c fs]; try reflexivity.
    destruct (is_ct c fs) as [[n p]|] eqn:E.
    - apply is_ct_some in E. destruct E as [-> ->]. reflexivity.
    - destruct (CM.is_setof c); [|reflexivity]. rewrite sfield_bridge.
      destruct (sfield "type_list" (field_names S c) fs) as [x|]; [|reflexivity].
      cbn [option_map]. rewrite match_to_c_tup. destruct x; reflexivity.
  Qed.

  Lemma dedup_bridge l : map to_c (dedup_s R S l) = CM.dedup (map to_c l).
  Proof.
    induction l as [|x t IH]; simpl; auto. f_equal. rewrite <- IH.
    apply (map_filter_comm to_c (fun y => negb (CM.veqb (to_c x) y))).
  Qed.

  Lemma post_init_bridge l : map to_c (post_init_s R S l) = CM.post_init (map to_c l).
  Proof. unfold post_init_s, CM.post_init. now rewrite dedup_bridge, flatten_bridge. Qed.

  Lemma tup_case (f : list value -> list value) (g : list CM.value -> list CM.value) v :
    (forall l, map to_c (f l) = g (map to_c l)) ->
    to_c (match v with VTuple l => VTuple (f l) | _ => v end) =
    match to_c v with CM.VTup l => CM.VTup (g l) | _ => to_c v end.
  Proof.
    intros H. rewrite match_to_c_tup. destruct v; try reflexivity. cbn [Prepare.to_c]. now rewrite H.
  Qed.

  Lemma sort_tup_bridge v : to_c (sort_tup_s R S v) = CM.sort_tup (to_c v).
  Proof. apply (tup_case (sort_s R S) CM.sort_vals). apply sort_bridge. Qed.

  Lemma post_tup_bridge v : to_c (post_tup_s R S v) = CM.post_tup (to_c v).
  Proof. apply (tup_case (post_init_s R S) CM.post_init). apply post_init_bridge. Qed.

  Lemma tr_flags_bridge a b c d v :
    to_c (tr_flags_s R S a b c d v) = CM.tr_flags a b c d (to_c v).
  Proof.
    unfold tr_flags_s, CM.tr_flags.
    destruct a, b, c, d; rewrite ?post_tup_bridge, ?sort_tup_bridge, ?post_tup_bridge; reflexivity.
  Qed.

  Lemma tr_bridge c pc n v : to_c (tr_s R S c pc n v) = CM.tr c pc n (to_c v).
  Proof. unfold tr_s, CM.tr. apply tr_flags_bridge. Qed.

  Lemma visited_not_ct c : CM.mem c CM.visit_class_names = true -> String.eqb c "ClassType" = false.
  Proof.
    intros H. destruct (String.eqb c "ClassType") eqn:E; auto.
    apply String.eqb_eq in E. subst c. vm_compute in H. discriminate.
  Qed.

  Lemma tr_fields_bridge c names g :
    combine names (map to_c (tr_fields_s R S c names g)) = CM.tr_fields c (combine names (map to_c g)).
  Proof.
    unfold tr_fields_s, CM.tr_fields, preserve_s.
    rewrite map_map, (combine_map_combine names g (fun p => to_c (tr_s R S c _ (fst p) (snd p)))).
    rewrite (combine_map_r names g to_c), map_map. apply map_ext. intros [n x]. cbn [fst snd].
    now rewrite tr_bridge, <- (combine_map_r names g to_c).
  Qed.

  Lemma to_c_struct c fs :
    to_c (VStruct c fs) =
    match is_ct c fs with
    | Some (n, VNone) => CM.VClassType n None
    | Some (n, p) => CM.VClassType n (Some (r_ptr R p))
    | None => CM.VNode c (combine (field_names S c) (map to_c fs))
    end.
  Proof. reflexivity. Qed.

  (* the bridge between the two models of CanonicalOrderingVisitor *)
  Theorem canon_bridge : forall v, to_c (canon_s v) = CM.canon (to_c v).
  Proof.
    induction v as [|b|z|z|s|e s|e z|l IH|l IH|l IH|ks vs IH|c fs IH] using value_ind'; cbn [Prepare.canon_s];
      try (match goal with |- to_c ?v = _ => destruct (to_c_cases v) as (? & ? & ? & ->) end; reflexivity).
    - cbn [Prepare.to_c CM.canon]. f_equal. rewrite !map_map.
      apply map_ext_in. rewrite Forall_forall in IH. exact IH.
    - rewrite (to_c_struct c fs). destruct (is_ct c fs) as [[n p]|] eqn:E.
      + rewrite to_c_struct, E. destruct p; reflexivity.
      + cbn [CM.canon]. destruct (CM.mem c CM.visit_class_names) eqn:Ev.
        * rewrite to_c_struct, (is_ct_other _ _ (visited_not_ct _ Ev)), tr_fields_bridge, <- combine_map_r. do 3 f_equal.
          rewrite !map_map. apply map_ext_in. rewrite Forall_forall in IH. exact IH.
        * now rewrite to_c_struct, E.
  Qed.
End Bridge.

(* closure of the dialect and of the __post_init__ fixpoints under canonical ordering *)
Lemma forallb_perm {A} (f : A -> bool) l l' : Permutation l l' -> forallb f l = true -> forallb f l' = true.
Proof.
  intros P H. rewrite forallb_forall in *. intros x Hx. apply H. eapply Permutation_in; [symmetry|]; eauto.
Qed.

Lemma fop_perm {A} (Rel : A -> A -> Prop) (Hsym : forall x y, Rel x y -> Rel y x) l l' :
  Permutation l l' -> ForallOrdPairs Rel l -> ForallOrdPairs Rel l'.
Proof.
  induction 1; intros F; auto.
  - inversion F; subst. constructor; auto. eapply Permutation_Forall; eauto.
  - inversion F as [|? ? Hy Fy]; subst. inversion Fy as [|? ? Hx Fx]; subst.
    inversion Hy; subst. constructor; [constructor; auto|constructor; auto].
Qed.

Section Closure.
  Context (R : reprs) (S : schema) (hv : hvariant).
  Notation canon_s := (canon_s R S).
  Notation sets_ok := (sets_okb R S hv).

  Definition SepP (l : list value) : Prop := ForallOrdPairs (fun x y => sep_pair R S hv x y = true) l.

  Lemma sep_pair_sym x y : sep_pair R S hv x y = true -> sep_pair R S hv y x = true.
  Proof.
    unfold sep_pair. intros H. repeat (apply andb_true_iff in H; destruct H as [H ?]).
    repeat (apply andb_true_iff; split); auto.
  Qed.

  Lemma sepb_sound l : sepb R S hv l = true -> SepP l.
  Proof.
    induction l as [|x t IH]; simpl; intros H; [constructor|].
    apply andb_true_iff in H. destruct H as [H1 H2].
    constructor; [apply Forall_forall; rewrite forallb_forall in H1; auto | now apply IH].
  Qed.

  Lemma SepP_perm l l' : Permutation l l' -> SepP l -> SepP l'.
  Proof. apply fop_perm. apply sep_pair_sym. Qed.

  Lemma sep_same x y : sep_pair R S hv x y = true -> same S hv x y = false /\ veq_s R S x y = false.
  Proof.
    unfold sep_pair. intros H. repeat (apply andb_true_iff in H; destruct H as [H ?]).
    apply negb_true_iff in H. apply negb_true_iff in H1. auto.
  Qed.

  (* _FlattenTypes (both models of it) leaves such a member list alone *)
  Lemma flat_splice l : forallb (flat_memb S) l = true ->
    flat_map (fun t => match t with
                       | VStruct c [VTuple tl] => if is_setlike S c then tl else [t]
                       | _ => [t]
                       end) l = l.
  Proof.
    induction l as [|t l IH]; simpl; auto. intros H. apply andb_true_iff in H. destruct H as [H1 H2].
    rewrite (IH H2). destruct t as [| | | | | | | | | | |c fs]; auto.
    simpl in H1. apply andb_true_iff in H1. destruct H1 as [_ H1]. apply negb_true_iff in H1. rewrite H1.
    destruct fs as [|[] [|? ?]]; reflexivity.
  Qed.

  Lemma flat_flatten_s l : forallb (flat_memb S) l = true -> flatten_s S l = l.
  Proof.
    unfold flatten_s. induction l as [|t l IH]; simpl; auto. intros H. apply andb_true_iff in H.
    destruct H as [H1 H2]. rewrite (IH H2). destruct t as [| | | | | | | | | | |c fs]; auto.
    simpl in H1. apply andb_true_iff in H1. destruct H1 as [H1 _]. apply negb_true_iff in H1. now rewrite H1.
  Qed.

  Lemma fdedup_sep l : SepP l -> fdedup S hv l = l.
  Proof.
    unfold fdedup.
    assert (G : forall l acc, SepP l ->
               (forall y x, In y acc -> In x l -> same S hv y x = false) ->
               fold_left (fun acc x => if existsb (fun y => same S hv y x) acc then acc else acc ++ [x]) l acc
               = acc ++ l).
    { clear l. induction l as [|x t IH]; intros acc F Hacc; simpl; [now rewrite app_nil_r|].
      inversion F as [|? ? Hx Ft]; subst.
      assert (E : existsb (fun y => same S hv y x) acc = false).
      { apply not_true_is_false. intros E. apply existsb_exists in E. destruct E as [y [Hy E]].
        rewrite (Hacc y x Hy (or_introl eq_refl)) in E. discriminate. }
      rewrite E, IH; auto.
      - now rewrite <- app_assoc.
      - intros y z Hy Hz. apply in_app_or in Hy. destruct Hy as [Hy|[<-|[]]].
        + apply Hacc; auto. now right.
        + rewrite Forall_forall in Hx. apply (sep_same _ _ (Hx z Hz)). }
    intros F. apply (G l [] F). intros y x [].
  Qed.

  Lemma dedup_s_sep l : SepP l -> dedup_s R S l = l.
  Proof.
    induction 1 as [|x t Hx Ft IH]; simpl; auto. rewrite IH. f_equal.
    apply CP.filter_all. intros y Hy. rewrite Forall_forall in Hx.
    destruct (sep_same _ _ (Hx y Hy)) as [_ E]. now rewrite E.
  Qed.

  Lemma flatten_types_id l : forallb (flat_memb S) l = true -> SepP l -> flatten_types S hv l = l.
  Proof. intros Hf Hs. unfold flatten_types. rewrite (flat_splice l Hf). now apply fdedup_sep. Qed.

  Lemma post_init_s_id l : forallb (flat_memb S) l = true -> SepP l -> post_init_s R S l = l.
  Proof. intros Hf Hs. unfold post_init_s. rewrite (flat_flatten_s l Hf). now apply dedup_s_sep. Qed.

  Lemma sort_s_perm l : Permutation (sort_s R S l) l.
  Proof. apply CS.sort_perm. Qed.

  (* what CanonicalOrderingVisitor leaves in the type_list of a union / intersection *)
  Definition set_result (c : string) (ml : list value) : list value :=
    if String.eqb c "UnionType" then sort_s R S ml else ml.

  Lemma tr_fields_set c ml : CM.is_setof c = true ->
    forallb (flat_memb S) ml = true -> SepP ml ->
    tr_fields_s R S c ["type_list"] [VTuple ml] = [VTuple (set_result c ml)].
  Proof.
    intros Hc Hf Hs. unfold tr_fields_s, set_result. cbn [combine map fst snd].
    apply CP.is_setof_cases in Hc. destruct Hc as [-> | ->].
    - unfold tr_s. change (CM.is_setof "UnionType" && ("type_list" =? "type_list")) with true.
      change (CM.sorts "UnionType" _ "type_list") with true.
      change ("UnionType" =? "UnionType") with true.
      unfold tr_flags_s. cbn [post_tup_s sort_tup_s]. rewrite (post_init_s_id ml Hf Hs).
      rewrite post_init_s_id; auto.
      + eapply forallb_perm; [symmetry; apply sort_s_perm|auto].
      + eapply SepP_perm; [symmetry; apply sort_s_perm|auto].
    - unfold tr_s. change (CM.is_setof "IntersectionType" && ("type_list" =? "type_list")) with true.
      change (CM.sorts "IntersectionType" _ "type_list") with false.
      change (CM.resets "IntersectionType" "type_list") with false.
      unfold tr_flags_s. cbn [post_tup_s]. now rewrite (post_init_s_id ml Hf Hs).
  Qed.

  Lemma set_result_perm c ml : Permutation (set_result c ml) ml.
  Proof. unfold set_result. destruct (String.eqb c "UnionType"); [apply sort_s_perm|reflexivity]. Qed.

  (* on the other visited classes a field is sorted, reset, or kept *)
  Lemma tr_s_plain c pc n x : CM.is_setof c = false ->
    tr_s R S c pc n x = if CM.sorts c pc n then sort_tup_s R S x
                        else if CM.resets c n then VDict [] [] else x.
  Proof.
    intros Hc. unfold tr_s, tr_flags_s. rewrite Hc. cbn [andb].
    destruct (String.eqb_spec c "UnionType") as [->|_]; [discriminate Hc | reflexivity].
  Qed.

  Hypothesis Htbl : prep_tbl_ok S pytd_grammar = true.

  Lemma class_tbl c : CM.mem c CM.visit_class_names = true -> class_tbl_ok S pytd_grammar c = true.
  Proof.
    intros Hc. pose proof Htbl as H. unfold prep_tbl_ok in H.
    do 3 (apply andb_true_iff in H; destruct H as [H _]).
    rewrite forallb_forall in H. apply H. unfold CM.mem in Hc. apply existsb_exists in Hc.
    destruct Hc as [x [Hx E]]. apply String.eqb_eq in E. now subst.
  Qed.

  Lemma class_tbl_set c : CM.mem c CM.visit_class_names = true ->
    CM.is_setof c = true ->
    exists si, lookup S c = Some si /\ hook_is_flatten (s_hook si) = true /\ field_names S c = ["type_list"].
  Proof.
    intros Ev Es. pose proof (class_tbl c Ev) as T. unfold class_tbl_ok in T. unfold field_names.
    destruct (lookup S c) as [si|].
    - rewrite Es in T. exists si. apply andb_prop in T. destruct T as [T _].
      apply andb_prop in T. destruct T as [T Tn]. apply andb_prop in T. destruct T as [Th _].
      destruct (map fd_name (s_fields si)) as [|nm [|? ?]]; try discriminate. apply String.eqb_eq in Tn. subst. auto.
    - apply CP.is_setof_cases in Es. destruct Es as [-> | ->]; cbv in T; discriminate T.
  Qed.

  Lemma class_tbl_prod c shapes : CM.mem c CM.visit_class_names = true ->
    assoc c pytd_prods = Some shapes ->
    List.length (field_names S c) = List.length shapes /\
    forallb (fun ng => field_tbl_ok c (fst ng) (snd ng)) (combine (field_names S c) shapes) = true /\
    (CM.is_setof c = true -> exists g', shapes = [GTup g']).
  Proof.
    intros Ev Ea. pose proof (class_tbl c Ev) as T. unfold class_tbl_ok in T. unfold field_names.
    change (prods pytd_grammar) with pytd_prods in T. rewrite Ea in T.
    destruct (lookup S c) as [si|]; [|discriminate]. apply andb_prop in T. destruct T as [_ T].
    apply andb_prop in T. destruct T as [T T3]. apply andb_prop in T. destruct T as [T1 T2].
    apply Nat.eqb_eq in T1. repeat split; auto. intros Es. rewrite Es in T3.
    destruct shapes as [|[] [|? ?]]; try discriminate. eauto.
  Qed.

  Lemma gen_tuple_perm l l' sh : shape_sortable sh = true -> Permutation l l' ->
    gen (VTuple l) sh = true -> gen (VTuple l') sh = true.
  Proof.
    intros Hs P. destruct sh as [| | | |sh|?|g'|?|? ?| | |?|?|?]; try discriminate Hs.
    - destruct sh; try discriminate Hs.
      rewrite !gen_opt_eq, !gen_tup_eq. cbn [gen_atom orb]. now apply forallb_perm.
    - rewrite !gen_tup_eq. now apply forallb_perm.
  Qed.

  Lemma gen_tr_field c pc n x sh : CM.is_setof c = false -> field_tbl_ok c n sh = true ->
    gen x sh = true -> gen (tr_s R S c pc n x) sh = true.
  Proof.
    intros Hc Ht Hg. rewrite (tr_s_plain c pc n x Hc).
    unfold field_tbl_ok in Ht. apply andb_prop in Ht. destruct Ht as [T1 T2].
    destruct (CM.sorts c pc n) eqn:Es.
    - assert (Hs : shape_sortable sh = true).
      { destruct pc; rewrite Es in T1; [rewrite orb_true_r in T1|]; exact T1. }
      destruct x; auto. cbn [sort_tup_s].
      apply (gen_tuple_perm l); [exact Hs | symmetry; apply sort_s_perm | exact Hg].
    - destruct (CM.resets c n); auto.
      destruct sh; try discriminate. apply gen_emptydict.
  Qed.

  Lemma gen_fields_tr c pc : CM.is_setof c = false ->
    forall names vals shapes,
    List.length names = List.length shapes ->
    forallb (fun ng => field_tbl_ok c (fst ng) (snd ng)) (combine names shapes) = true ->
    gen_fields (fun x g => gen x g) vals shapes = true ->
    gen_fields (fun x g => gen x g) (map (fun p => tr_s R S c pc (fst p) (snd p)) (combine names vals)) shapes = true.
  Proof.
    intros Hc. induction names as [|n ns IH]; intros vals shapes Hl Ht Hg.
    - destruct shapes; try discriminate. destruct vals; try discriminate. reflexivity.
    - destruct shapes as [|sh shs]; try discriminate. destruct vals as [|v vs]; try discriminate.
      simpl in Ht. apply andb_prop in Ht. destruct Ht as [T1 T2].
      rewrite gen_fields_cons in Hg. apply andb_prop in Hg. destruct Hg as [G1 G2].
      cbn [combine map fst snd]. rewrite gen_fields_cons. apply andb_true_intro. split.
      + now apply gen_tr_field.
      + apply IH; auto.
  Qed.

  Lemma gen_fields_map (f : value -> value) fs : forall shapes,
    Forall (fun x => forall g, gen x g = true -> sets_ok x = true -> gen (f x) g = true) fs ->
    forallb sets_ok fs = true ->
    gen_fields (fun x g => gen x g) fs shapes = true ->
    gen_fields (fun x g => gen x g) (map f fs) shapes = true.
  Proof.
    induction fs as [|v fs IH]; intros [|sh shs] HF Hs Hg; try discriminate; auto.
    inversion HF; subst. simpl in Hs. apply andb_prop in Hs. destruct Hs as [S1 S2].
    rewrite gen_fields_cons in Hg. apply andb_prop in Hg. destruct Hg as [G1 G2].
    cbn [map]. rewrite gen_fields_cons. apply andb_true_intro. split; auto.
  Qed.

  (* what the hypothesis says at a union / intersection *)
  Lemma sets_ok_set c fs : is_ct c fs = None -> CM.mem c CM.visit_class_names = true ->
    CM.is_setof c = true -> sets_ok (VStruct c fs) = true ->
    exists l, fs = [VTuple l] /\ forallb sets_ok l = true /\ map canon_s l <> [] /\
              forallb (flat_memb S) (map canon_s l) = true /\ SepP (map canon_s l).
  Proof.
    intros E Ev Es H. cbn [sets_okb] in H. rewrite E, Ev, Es in H.
    apply andb_prop in H. destruct H as [H1 H2].
    destruct (single_tuple_inv _ _ _ _ H2) as [l ->]; [discriminate|].
    exists l. split; auto. cbn [forallb] in H1. rewrite andb_true_r in H1. split; auto.
    cbv zeta in H2. destruct (map canon_s l) as [|m ml] eqn:Em; try discriminate.
    apply andb_prop in H2. destruct H2 as [H2 H3]. split; [discriminate|]. split; auto.
    now apply sepb_sound.
  Qed.

  Theorem canon_gen : forall v g, gen v g = true -> sets_ok v = true -> gen (canon_s v) g = true.
  Proof.
    induction v as [|b|z|z|s|e s|e z|l IH|l IH|l IH|ks vs IH|c fs IH] using value_ind';
      intros g Hg Hs; try exact Hg.
    - (* tuple *)
      cbn [Prepare.canon_s]. cbn [sets_okb] in Hs. rewrite forallb_forall in Hs. rewrite Forall_forall in IH.
      apply (gen_tuple_items _ _ _ Hg). auto.
    - (* struct: the same production, its fields rebuilt *)
      cbn [Prepare.canon_s]. destruct (is_ct c fs) as [[? ?]|] eqn:E; [exact Hg|].
      destruct (CM.mem c CM.visit_class_names) eqn:Ev; [|exact Hg].
      apply (gen_struct_fields _ _ _ _ Hg). intros shapes Ea Hf.
      destruct (class_tbl_prod c shapes Ev Ea) as (Tl & Tf & Ts).
      destruct (CM.is_setof c) eqn:Es.
      + destruct (sets_ok_set c fs E Ev Es Hs) as [l [-> [Hl [_ [Hfl Hsp]]]]].
        destruct (class_tbl_set c Ev Es) as (_ & _ & _ & ->). destruct (Ts eq_refl) as [g' ->].
        cbn [map Prepare.canon_s]. rewrite (tr_fields_set c (map canon_s l) Es Hfl Hsp).
        rewrite gen_fields_cons in *. apply andb_prop in Hf. destruct Hf as [Hf _]. rewrite andb_true_r.
        apply (gen_tuple_perm (map canon_s l)); [reflexivity | symmetry; apply set_result_perm |].
        inversion IH as [|? ? IHt _]. exact (IHt _ Hf Hl).
      + unfold tr_fields_s. apply gen_fields_tr; auto.
        cbn [sets_okb] in Hs. rewrite E, Ev, Es in Hs. apply andb_prop in Hs. destruct Hs as [Hs _].
        apply gen_fields_map; auto.
  Qed.

  Lemma hook_ok_none si fs : hook_is_none (s_hook si) = true -> hook_ok S hv si fs = true.
  Proof. unfold hook_ok, post. destruct (s_hook si); try discriminate. intros _. apply list_veqb_refl. Qed.

  Lemma hook_ok_flatten si l : hook_is_flatten (s_hook si) = true -> l <> [] ->
    forallb (flat_memb S) l = true -> SepP l -> hook_ok S hv si [VTuple l] = true.
  Proof.
    intros Hh Hne Hf Hs. unfold hook_ok, post. destruct (s_hook si); try discriminate.
    rewrite (flatten_types_id l Hf Hs). destruct l; [contradiction|]. apply list_veqb_refl.
  Qed.

  Lemma hooks_sort_tup x : hooks_all S hv x = true -> hooks_all S hv (sort_tup_s R S x) = true.
  Proof.
    destruct x; auto. cbn [sort_tup_s hooks_all]. apply forallb_perm. symmetry. apply sort_s_perm.
  Qed.

  Theorem canon_hooks : forall v, hooks_all S hv v = true -> sets_ok v = true ->
    hooks_all S hv (canon_s v) = true.
  Proof.
    induction v as [|b|z|z|s|e s|e z|l IH|l IH|l IH|ks vs IH|c fs IH] using value_ind';
      intros Hh Hs; try exact Hh.
    - cbn [Prepare.canon_s hooks_all] in *. cbn [sets_okb] in Hs.
      rewrite Forall_forall in IH. rewrite forallb_forall in Hh, Hs. apply forallb_map_in. auto.
    - cbn [Prepare.canon_s]. destruct (is_ct c fs) as [[? ?]|] eqn:E; [exact Hh|].
      destruct (CM.mem c CM.visit_class_names) eqn:Ev; [|exact Hh].
      cbn [hooks_all] in Hh. apply andb_prop in Hh. destruct Hh as [H1 H2].
      destruct (CM.is_setof c) eqn:Es.
      + destruct (sets_ok_set c fs E Ev Es Hs) as [l [-> [Hl [Hne [Hfl Hsp]]]]].
        destruct (class_tbl_set c Ev Es) as (si & El & Th & ->).
        inversion IH as [|? ? IHt _]. cbn [forallb] in H1. rewrite andb_true_r in H1.
        pose proof (IHt H1 Hl) as Hall. cbn [Prepare.canon_s hooks_all] in Hall.
        cbn [map Prepare.canon_s]. rewrite (tr_fields_set c (map canon_s l) Es Hfl Hsp).
        pose proof (Permutation_sym (set_result_perm c (map canon_s l))) as Hp.
        cbn [hooks_all forallb]. rewrite El, (forallb_perm _ _ _ Hp Hall). cbn [andb].
        apply hook_ok_flatten; auto.
        * intros E0. rewrite E0 in Hp. now apply Permutation_sym, Permutation_nil in Hp.
        * now apply (forallb_perm _ _ _ Hp).
        * now apply (SepP_perm _ _ Hp).
      + cbn [sets_okb] in Hs. rewrite E, Ev, Es in Hs. apply andb_prop in Hs. destruct Hs as [Hs Hn].
        cbn [hooks_all]. apply andb_true_intro. split.
        * unfold tr_fields_s. rewrite forallb_forall. intros x Hx. apply in_map_iff in Hx.
          destruct Hx as [[n y] [<- Hy]]. cbn [fst snd]. rewrite (tr_s_plain c _ n y Es).
          apply in_combine_r in Hy. apply in_map_iff in Hy. destruct Hy as [y0 [<- Hy0]].
          rewrite Forall_forall in IH. rewrite forallb_forall in H1, Hs.
          destruct (CM.sorts c _ n); [apply hooks_sort_tup; auto|].
          destruct (CM.resets c n); auto.
        * unfold hook_none_b in Hn. destruct (lookup S c) as [si|]; auto. now apply hook_ok_none.
  Qed.
End Closure.

(* the other preparation steps *)
Section Steps.
  Context (R : reprs) (S : schema) (hv : hvariant).
  Notation canon_s := (canon_s R S).
  Notation sets_ok := (sets_okb R S hv).

  Lemma clc_cases c : mem_str c clc_names = true -> c = "Class" \/ c = "TypeDeclUnit".
  Proof.
    unfold clc_names. simpl. intros H. apply orb_true_iff in H. destruct H as [H|H].
    - left. now apply String.eqb_eq.
    - rewrite orb_false_r in H. right. now apply String.eqb_eq.
  Qed.

  Lemma clear_cache_sort_tup y : clear_cache S y = y -> clear_cache S (sort_tup_s R S y) = sort_tup_s R S y.
  Proof.
    destruct y as [|b|z|z|s|e s|e z|l|l|l|ks vs|c fs]; auto. cbn [sort_tup_s clear_cache]. intros H. injection H as Hm. f_equal.
    apply CP.map_fixed. intros x Hx. apply (CP.map_fixed_inv _ _ Hm).
    eapply Permutation_in; [apply sort_s_perm|exact Hx].
  Qed.

  Lemma clear_cache_struct c fs : mem_str c clc_names = true ->
    clear_cache S (VStruct c fs) =
    VStruct c (map (fun p => if String.eqb (fst p) "_name2item" then VDict [] [] else clear_cache S (snd p))
                   (combine (field_names S c) fs)).
  Proof.
    intros Hc. cbn [clear_cache]. rewrite Hc. f_equal. generalize (field_names S c).
    induction fs as [|f fs IH]; intros [|n ns]; cbn [combine map fst snd]; auto. now rewrite IH.
  Qed.

  (* VisitClass / VisitTypeDeclUnit built fresh nodes, whose lookup cache is empty *)
  Theorem clear_cache_canon : forall v, clear_cache S (canon_s v) = canon_s v.
  Proof.
    induction v as [|b|z|z|s|e s|e z|l IH|l IH|l IH|ks vs IH|c fs IH] using value_ind'; try reflexivity.
    - cbn [Prepare.canon_s clear_cache]. f_equal. rewrite map_map. apply map_ext_in.
      rewrite Forall_forall in IH. exact IH.
    - cbn [Prepare.canon_s]. destruct (is_ct c fs) as [[n p]|] eqn:E.
      { apply is_ct_some in E. destruct E as [-> ->]. reflexivity. }
      destruct (mem_str c clc_names) eqn:Ec.
      2: { destruct (CM.mem c CM.visit_class_names); cbn [clear_cache]; now rewrite Ec. }
      pose proof (clc_cases c Ec) as Hc.
      assert (Ev : CM.mem c CM.visit_class_names = true) by (destruct Hc as [-> | ->]; reflexivity).
      assert (Hset : CM.is_setof c = false) by (destruct Hc as [-> | ->]; reflexivity).
      assert (Hrs : forall pc y, tr_s R S c pc "_name2item" y = VDict [] [])
        by (intros pc y; rewrite (tr_s_plain R S c pc _ y Hset); destruct Hc as [-> | ->]; reflexivity).
      rewrite Ev, (clear_cache_struct _ _ Ec). f_equal. unfold tr_fields_s.
      rewrite combine_map_combine, map_map. apply map_ext_in. intros [n y] Hy. cbn [fst snd].
      apply in_combine_r, in_map_iff in Hy. destruct Hy as [x [<- Hx]].
      rewrite Forall_forall in IH. destruct (String.eqb_spec n "_name2item") as [->|_]; [now rewrite Hrs|].
      rewrite (tr_s_plain R S c _ n _ Hset).
      destruct (CM.sorts c _ n); [now apply clear_cache_sort_tup, IH|].
      destruct (CM.resets c n); auto.
  Qed.

  Lemma sinsert_u_lb y x t : String.ltb y x = true -> sorted_strict (y :: t) = true ->
    sorted_strict (y :: sinsert_u x t) = true.
  Proof.
    revert y. induction t as [|z t IH]; intros y Hyx Hs.
    - simpl. now rewrite Hyx.
    - rewrite sorted_strict_cons in Hs. apply andb_prop in Hs. destruct Hs as [Hyz Hs]. cbn [sinsert_u].
      destruct (String.eqb x z) eqn:E1; [now rewrite sorted_strict_cons, Hyz|].
      destruct (String.leb x z) eqn:E2; rewrite sorted_strict_cons.
      + now rewrite Hyx, sorted_strict_cons, (leb_neq_ltb _ _ E2 E1).
      + rewrite Hyz. apply IH; auto using leb_false_ltb.
  Qed.

  Lemma sinsert_u_sorted x l : sorted_strict l = true -> sorted_strict (sinsert_u x l) = true.
  Proof.
    destruct l as [|z t]; intros Hs; [reflexivity|]. cbn [sinsert_u].
    destruct (String.eqb x z) eqn:E1; auto.
    destruct (String.leb x z) eqn:E2.
    - now rewrite sorted_strict_cons, (leb_neq_ltb _ _ E2 E1).
    - apply sinsert_u_lb; auto using leb_false_ltb.
  Qed.

  Lemma dep_insert_wf m b d : deps_wf d = true -> deps_wf (dep_insert m b d) = true.
  Proof.
    unfold deps_wf. induction d as [|[m' bs] t IH]; intros H; [reflexivity|].
    cbn [dep_insert]. simpl in H. apply andb_prop in H. destruct H as [H1 H2].
    destruct (String.eqb m m').
    - simpl. now rewrite (sinsert_u_sorted b bs H1), H2.
    - destruct (String.ltb m m'); simpl; [now rewrite H1, H2|]. now rewrite H1, IH.
  Qed.

  Lemma deps_of_wf late ns : deps_wf (deps_of late ns) = true.
  Proof.
    unfold deps_of. assert (G : forall d, deps_wf d = true ->
      deps_wf (fold_left (fun d p => if Bool.eqb (fst p) late then process_name (snd p) d else d) ns d) = true).
    { induction ns as [|p ns IH]; intros d Hd; auto. simpl. apply IH.
      destruct (Bool.eqb (fst p) late); auto. unfold process_name.
      destruct (rpartition_dot (snd p)) as [[mn bn]|]; auto.
      destruct (String.eqb mn ""); auto. now apply dep_insert_wf. }
    now apply G.
  Qed.

  Lemma hooks_deps d : hooks_all S hv (deps_value d) = true.
  Proof.
    unfold deps_value. cbn [hooks_all]. apply forallb_forall. intros x Hx. apply in_map_iff in Hx.
    destruct Hx as [[m ss] [<- _]]. cbn [hooks_all forallb fst snd]. rewrite andb_true_r.
    apply forallb_forall. intros y Hy. apply in_map_iff in Hy. destruct Hy as [s [<- _]]. reflexivity.
  Qed.

  Lemma hooks_class_types : forall v, hooks_all S hv v = true ->
    forallb (hooks_all S hv) (class_types v) = true.
  Proof.
    induction v as [|b|z|z|s|e s|e z|l IH|l IH|l IH|ks vs IH|c fs IH] using value_ind'; intros H; try reflexivity.
    - cbn [class_types]. cbn [hooks_all] in H. rewrite Forall_forall in IH. rewrite forallb_forall in *.
      intros x Hx. apply in_flat_map in Hx. destruct Hx as [y [Hy Hx]].
      specialize (IH y Hy (H y Hy)). rewrite forallb_forall in IH. auto.
    - cbn [class_types]. destruct (String.eqb c "ClassType").
      + cbn [forallb]. now rewrite H.
      + cbn [hooks_all] in H. apply andb_prop in H. destruct H as [H _].
        rewrite Forall_forall in IH. rewrite forallb_forall in *.
        intros x Hx. apply in_flat_map in Hx. destruct Hx as [y [Hy Hx]].
        specialize (IH y Hy (H y Hy)). rewrite forallb_forall in IH. auto.
  Qed.

  Lemma mem_str_map {A} (f : A -> string) x l : In x l -> mem_str (f x) (map f l) = true.
  Proof.
    induction l as [|y t IH]; intros []; simpl.
    - subst. now rewrite String.eqb_refl.
    - rewrite IH; auto. apply orb_true_r.
  Qed.

  (* SerializableAst.__post_init__ keeps the found ClassTypes whose name is among the given ones *)
  Lemma filter_own_names found : filter (fun c => mem_str (ct_name c) (map ct_name found)) found = found.
  Proof. apply CP.filter_all. intros y Hy. now apply mem_str_map. Qed.

  Hypothesis Htbl : prep_tbl_ok S pytd_grammar = true.
  Notation prepare := (prepare R S).

  Theorem prepare_in_G u src md :
    gen (clear_ptrs u) (GNt NUnit) = true -> sets_ok (clear_ptrs u) = true ->
    in_G (prepare u src md) = true.
  Proof.
    intros Hg Hs. unfold in_G, Prepare.prepare, prepared_unit. rewrite clear_cache_canon.
    pose proof (canon_gen R S hv Htbl _ _ Hg Hs) as Hu.
    struct_ NSast "SerializableAst".
    - exact Hu.
    - apply deps_gen. apply deps_of_wf.
    - apply deps_gen. apply deps_of_wf.
    - apply gen_ostr.
    - apply gen_list_map. intros. apply gen_str.
    - apply gen_list. apply forallb_forall. intros c Hc.
      pose proof (class_types_are_gen _ _ Hu) as HF. rewrite Forall_forall in HF. auto.
  Qed.

  (* the wrapper: its __post_init__ recomputes field 5 (class_type_nodes) from field 0 (ast) *)
  Lemma sast_tbl : exists si, lookup S "SerializableAst" = Some si /\ s_hook si = HClassTypes /\
    field_index "ast" (s_fields si) = Some 0%nat /\ field_index "class_type_nodes" (s_fields si) = Some 5%nat.
  Proof.
    pose proof Htbl as T. unfold prep_tbl_ok in T. apply andb_prop in T. destruct T as [_ T].
    destruct (lookup S "SerializableAst") as [si|]; [|discriminate]. exists si.
    destruct (s_hook si); try discriminate.
    destruct (field_index "ast" (s_fields si)) as [[|?]|]; try discriminate.
    destruct (field_index "class_type_nodes" (s_fields si)) as [[|[|[|[|[|[|?]]]]]]|]; try discriminate.
    auto.
  Qed.

  Theorem prepare_hooks u src md :
    hooks_all S hv (clear_ptrs u) = true -> sets_ok (clear_ptrs u) = true ->
    hooks_all S hv (prepare u src md) = true.
  Proof.
    intros Hh Hs. unfold Prepare.prepare, prepared_unit. rewrite clear_cache_canon.
    pose proof (canon_hooks R S hv Htbl _ Hh Hs) as Hu.
    set (a := canon_s (clear_ptrs u)) in *.
    cbn [hooks_all forallb]. rewrite Hu, !hooks_deps.
    assert (E1 : hooks_all S hv (ostr src) = true) by (destruct src; reflexivity).
    assert (E2 : forallb (hooks_all S hv) (map VStr md) = true) by now apply forallb_map_in.
    rewrite E1, E2, (hooks_class_types a Hu). cbn [andb].
    destruct sast_tbl as (si & -> & Hk & Ha & Hc). unfold hook_ok, post. rewrite Hk, Ha, Hc.
    cbn [nth set_nth]. rewrite filter_own_names. destruct (class_types a); apply list_veqb_refl.
  Qed.

  Lemma map_opt_some_map {A B} (f : A -> option B) (h : A -> A) (k : B -> A) l l' :
    Forall (fun x => forall y, f x = Some y -> k y = h x) l ->
    map_opt f l = Some l' -> map k l' = map h l.
  Proof.
    revert l'. induction l as [|x t IH]; intros l' HF H.
    - inversion H. reflexivity.
    - rewrite map_opt_cons in H. inversion HF; subst.
      destruct (f x) as [y|] eqn:E; try discriminate. destruct (map_opt f t) as [r|]; try discriminate.
      inversion H; subst. simpl. f_equal; auto.
  Qed.

  (* X, D and P stay abstract, so that this case analysis is made once, on small terms *)
  Lemma unresolved_ct_match {A} (X : string -> A) (D : A) (P : A -> Prop) fs :
    P D -> (forall n, fs = [VStr n; VNone] -> P (X n)) ->
    P (match fs with [VStr n; VNone] => X n | _ => D end).
  Proof.
    intros HD HX. destruct fs as [|a t]; [exact HD|]. destruct a; try exact HD.
    destruct t as [|q t]; [exact HD|]. destruct q; try exact HD. destruct t; [|exact HD]. now apply HX.
  Qed.

  Theorem relink_only_pointers resolve : forall v v',
    relink resolve v = Some v' -> clear_ptrs v' = clear_ptrs v.
  Proof.
    induction v as [|b|z|z|s|e s|e z|l IH|l IH|l IH|ks vs IH|c fs IH] using value_ind'; intros v' H;
      try (injection H as <-; reflexivity).
    - cbn [relink] in H. destruct (map_opt (relink resolve) l) as [l'|] eqn:E; [|discriminate].
      injection H as <-. cbn [clear_ptrs]. f_equal. eapply map_opt_some_map; eauto.
    - destruct (String.eqb_spec c "ClassType") as [->|Ect].
      + (* re-linking fills an unresolved pointer and changes nothing else *)
        cbn in H. revert H.
        apply (unresolved_ct_match
                 (fun n => match resolve n with Some p => Some (VStruct "ClassType" [VStr n; p]) | None => None end)
                 (Some (VStruct "ClassType" fs))
                 (fun r => r = Some v' -> clear_ptrs v' = clear_ptrs (VStruct "ClassType" fs))).
        * intros H. now injection H as <-.
        * intros n -> H. destruct (resolve n); [now injection H as <- | discriminate].
      + apply String.eqb_neq in Ect. cbn [relink] in H. unfold relink_names in H. rewrite Ect in H.
        destruct (mem_str c ccp_names) eqn:Ec; [|now injection H as <-].
        destruct (map_opt (relink resolve) fs) as [fs'|] eqn:E; [|discriminate].
        injection H as <-. cbn [clear_ptrs]. rewrite Ec, !(is_ct_other _ _ Ect). f_equal.
        eapply map_opt_some_map; eauto.
  Qed.
End Steps.
