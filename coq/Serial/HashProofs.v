(* node equality implies equal hashes, as one law over the side conditions [side]; it covers the
   fixed __hash__ and, between nodes whose unions list their members in hash order, the unchanged one. *)
From Coq Require Import List String Ascii ZArith Bool Arith Lia Permutation.
From PV Require Import Serial.Model Serial.Proofs.
Import ListNotations.
Local Open Scope string_scope.
Local Open Scope list_scope.

(* insertion sort over a total order: permutations sort to the same list *)
Section Sorting.
  Variable A : Type.
  Variable leb : A -> A -> bool.
  Hypothesis leb_total : forall a b, leb a b = true \/ leb b a = true.
  Hypothesis leb_antisym : forall a b, leb a b = true -> leb b a = true -> a = b.
  Hypothesis leb_trans : forall a b c, leb a b = true -> leb b c = true -> leb a c = true.

  Fixpoint insert (x : A) (l : list A) : list A :=
    match l with
    | [] => [x]
    | y :: t => if leb x y then x :: l else y :: insert x t
    end.
  Definition sort (l : list A) : list A := fold_right insert [] l.

  Inductive ssorted : list A -> Prop :=
  | ss_nil : ssorted []
  | ss_cons x l : Forall (fun y => leb x y = true) l -> ssorted l -> ssorted (x :: l).

  Lemma insert_perm x l : Permutation (x :: l) (insert x l).
  Proof.
    induction l as [|y t IH]; simpl; auto.
    destruct (leb x y); auto.
    eapply perm_trans; [apply perm_swap|]. now constructor.
  Qed.

  Lemma insert_sorted x l : ssorted l -> ssorted (insert x l).
  Proof.
    induction 1 as [|y t Hy Ht IH]; simpl.
    - constructor; constructor.
    - destruct (leb x y) eqn:E.
      + constructor; [|now constructor].
        constructor; auto. eapply Forall_impl; [|exact Hy]. intros z Hz. eapply leb_trans; eauto.
      + constructor; auto.
        eapply Permutation_Forall; [apply insert_perm|].
        constructor; auto. destruct (leb_total x y); congruence.
  Qed.

  Lemma sort_perm l : Permutation l (sort l).
  Proof.
    induction l as [|x t IH]; simpl; auto.
    eapply perm_trans; [|apply insert_perm]. now constructor.
  Qed.

  Lemma sort_sorted l : ssorted (sort l).
  Proof. induction l; simpl; [constructor | now apply insert_sorted]. Qed.

  Lemma leb_refl a : leb a a = true.
  Proof. destruct (leb_total a a); auto. Qed.

  Lemma sorted_perm_eq : forall l1 l2, ssorted l1 -> ssorted l2 -> Permutation l1 l2 -> l1 = l2.
  Proof.
    induction l1 as [|a t1 IH]; intros l2 H1 H2 P.
    - apply Permutation_nil in P. now subst.
    - destruct l2 as [|b t2].
      + apply Permutation_sym, Permutation_nil in P. discriminate.
      + inversion H1 as [|? ? Fa Sa]. inversion H2 as [|? ? Fb Sb]. subst.
        assert (Hab : leb a b = true).
        { assert (In b (a :: t1)) by (eapply Permutation_in; [apply Permutation_sym; exact P | now left]).
          destruct H as [->|H]; [apply leb_refl|]. rewrite Forall_forall in Fa. auto. }
        assert (Hba : leb b a = true).
        { assert (In a (b :: t2)) by (eapply Permutation_in; [exact P | now left]).
          destruct H as [->|H]; [apply leb_refl|]. rewrite Forall_forall in Fb. auto. }
        assert (a = b) by (apply leb_antisym; auto). subst b.
        f_equal. apply IH; auto. eapply Permutation_cons_inv; eauto.
  Qed.

  Lemma sort_perm_eq l l' : Permutation l l' -> sort l = sort l'.
  Proof.
    intros P. apply sorted_perm_eq; try apply sort_sorted.
    eapply perm_trans; [apply Permutation_sym, sort_perm|].
    eapply perm_trans; [exact P | apply sort_perm].
  Qed.

  Fixpoint nsorted (l : list A) : bool :=
    match l with
    | [] => true
    | x :: t => match t with [] => true | y :: _ => leb x y && nsorted t end
    end.

  Lemma nsorted_ssorted l : nsorted l = true -> ssorted l.
  Proof.
    induction l as [|x t IH]; intros H; [constructor|].
    simpl in H. destruct t as [|y t'].
    - constructor; constructor.
    - apply andb_true_iff in H. destruct H as [Hxy Ht]. specialize (IH Ht).
      constructor; auto. inversion IH as [|? ? Fy Sy]. subst.
      constructor; auto. eapply Forall_impl; [|exact Fy]. intros z Hz. eapply leb_trans; eauto.
  Qed.
End Sorting.

Lemma lex_leb_cons x a y b :
  lex_leb (x :: a) (y :: b) = match Z.compare x y with Lt => true | Eq => lex_leb a b | Gt => false end.
Proof. cbn [lex_leb]. unfold Z.ltb. rewrite Z.eqb_compare. now destruct (x ?= y)%Z. Qed.

Lemma lex_total : forall a b, lex_leb a b = true \/ lex_leb b a = true.
Proof.
  induction a as [|x a IH]; intros [|y b]; [now left | now left | now right |].
  rewrite !lex_leb_cons, (Z.compare_antisym x y). destruct (x ?= y)%Z; simpl; auto.
Qed.

Lemma lex_antisym : forall a b, lex_leb a b = true -> lex_leb b a = true -> a = b.
Proof.
  induction a as [|x a IH]; intros [|y b]; try discriminate; auto.
  rewrite !lex_leb_cons, (Z.compare_antisym x y). destruct (Z.compare_spec x y); try discriminate.
  intros. subst. f_equal. auto.
Qed.

Lemma lex_trans : forall a b c, lex_leb a b = true -> lex_leb b c = true -> lex_leb a c = true.
Proof.
  induction a as [|x a IH]; intros [|y b] [|z c]; try discriminate; auto.
  rewrite !lex_leb_cons.
  destruct (Z.compare_spec x y), (Z.compare_spec y z), (Z.compare_spec x z); try discriminate; try lia; eauto.
Qed.

Lemma ksort_is_sort l : ksort l = sort (list Z) lex_leb l.
Proof. reflexivity. Qed.

Lemma ksort_perm_eq l l' : Permutation l l' -> ksort l = ksort l'.
Proof.
  rewrite !ksort_is_sort. apply sort_perm_eq.
  - apply lex_total. - apply lex_antisym. - apply lex_trans.
Qed.

Lemma ksorted_is_nsorted l : ksorted l = nsorted (list Z) lex_leb l.
Proof. reflexivity. Qed.

Lemma ksorted_perm_eq l l' : ksorted l = true -> ksorted l' = true -> Permutation l l' -> l = l'.
Proof.
  rewrite !ksorted_is_nsorted. intros H1 H2.
  apply (sorted_perm_eq (list Z) lex_leb lex_total lex_antisym);
    apply nsorted_ssorted; auto; apply lex_trans.
Qed.

Lemma toks_eqb_eq a b : toks_eqb a b = true -> a = b.
Proof.
  apply list_eqb_eq. apply Forall_forall. intros x _ y H. now apply Z.eqb_eq.
Qed.

Lemma toks_eqb_refl a : toks_eqb a a = true.
Proof. induction a; simpl; auto. unfold toks_eqb in *. simpl. now rewrite Z.eqb_refl. Qed.

Lemma nodup_toks_NoDup l : nodup_toks l = true -> NoDup l.
Proof.
  induction l as [|x t IH]; simpl; intros H; constructor.
  - apply andb_true_iff in H. destruct H as [H _]. apply negb_true_iff in H.
    intros Hin. assert (existsb (toks_eqb x) t = true); [|congruence].
    apply existsb_exists. exists x. split; auto. apply toks_eqb_refl.
  - apply IH. apply andb_true_iff in H. tauto.
Qed.

(* side conditions of the law: members of a union hash differently (what dict.fromkeys leaves, up to
   collisions); for the unchanged hash additionally: members listed in hash order *)
Definition side (S : schema) (hv : hvariant) (v : value) : Prop :=
  members_hash_distinct S hv v = true /\ (hv = HvOrig -> members_hash_sorted S hv v = true).

Lemma side_forall S hv (l : list value) :
  forallb (members_hash_distinct S hv) l = true ->
  (hv = HvOrig -> forallb (members_hash_sorted S hv) l = true) ->
  Forall (side S hv) l.
Proof.
  intros H1 H2. apply Forall_forall. intros x Hx. split.
  - rewrite forallb_forall in H1. auto.
  - intros E. specialize (H2 E). rewrite forallb_forall in H2. auto.
Qed.

Lemma side_tuple S hv l : side S hv (VTuple l) -> Forall (side S hv) l.
Proof. intros [H1 H2]. apply side_forall; auto. Qed.

Lemma side_struct S hv c fs : side S hv (VStruct c fs) -> Forall (side S hv) fs.
Proof.
  intros [H1 H2]. simpl in *. apply andb_true_iff in H1. destruct H1 as [H1 _].
  apply side_forall; auto. intros E. specialize (H2 E). apply andb_true_iff in H2. tauto.
Qed.

Lemma list_eqb_hk S hv (l : list value) :
  Forall (fun a => forall b, side S hv a -> side S hv b -> node_eqb S hv a b = true -> hk S hv a = hk S hv b) l ->
  forall l', Forall (side S hv) l -> Forall (side S hv) l' ->
  list_eqb (fun x y => node_eqb S hv x y) l l' = true ->
  map (hk S hv) l = map (hk S hv) l' /\ List.length l = List.length l'.
Proof.
  induction 1 as [|x t Hx Ht IH]; intros [|y t'] Sa Sb He; simpl in He; try discriminate; auto.
  apply andb_true_iff in He. destruct He as [He1 He2].
  inversion Sa as [|? ? Sx St]. inversion Sb as [|? ? Sy St']. subst.
  destruct (IH t') as [E1 E2]; auto. simpl. split; [f_equal; auto | lia].
Qed.

(* a mask is read head by head, a missing head standing for true *)
Lemma mask_eqb_cons e x t y t' m :
  mask_eqb e (x :: t) (y :: t') m = (if hd true m then e x y else true) && mask_eqb e t t' (tl m).
Proof. destruct m as [|[] m]; reflexivity. Qed.

Lemma mask_concat_cons h k t : mask_concat h (k :: t) = (if hd true h then k else [1%Z]) ++ mask_concat (tl h) t.
Proof. destruct h as [|[] h]; reflexivity. Qed.

Lemma mask_le_inv h m : mask_le h m = true ->
  (hd true h = true -> hd true m = true) /\ mask_le (tl h) (tl m) = true.
Proof.
  destruct m as [|eb m]; [now split|]. destruct h as [|hb h]; cbn [mask_le hd tl]; intros H;
    apply andb_true_iff in H; destruct H as [H1 H2]; split; auto. now destruct hb.
Qed.

Lemma mask_eqb_hk S hv (l : list value) :
  Forall (fun a => forall b, side S hv a -> side S hv b -> node_eqb S hv a b = true -> hk S hv a = hk S hv b) l ->
  forall l' m h, Forall (side S hv) l -> Forall (side S hv) l' ->
  mask_le h m = true ->
  mask_eqb (fun x y => node_eqb S hv x y) l l' m = true ->
  mask_concat h (map (hk S hv) l) = mask_concat h (map (hk S hv) l') /\ List.length l = List.length l'.
Proof.
  induction 1 as [|x t Hx Ht IH]; intros [|y t'] m h Sa Sb Hle He; try discriminate He; auto.
  rewrite mask_eqb_cons in He. apply andb_true_iff in He. destruct He as [He1 He2].
  destruct (mask_le_inv _ _ Hle) as [Hhd Htl].
  destruct (IH t' (tl m) (tl h)) as [E1 E2]; eauto using Forall_inv_tail.
  cbn [map List.length]. rewrite !mask_concat_cons, E1, E2. split; [|reflexivity]. f_equal.
  destruct (hd true h); [|reflexivity]. rewrite (Hhd eq_refl) in He1.
  apply Hx; auto; [exact (Forall_inv Sa) | exact (Forall_inv Sb)].
Qed.

(* frozenset(a.type_list) == frozenset(b.type_list), with members that hash differently, makes the two
   lists of member hashes permutations of each other *)
Lemma set_eq_perm S hv (la lb : list value) :
  nodup_toks (map (hk S hv) la) = true -> nodup_toks (map (hk S hv) lb) = true ->
  Nat.eqb (List.length la) (List.length lb) = true ->
  forallb (fun x => existsb (fun y => toks_eqb (hk S hv x) (hk S hv y) && node_eqb S hv x y) lb) la = true ->
  Permutation (map (hk S hv) la) (map (hk S hv) lb).
Proof.
  intros Na Nb Hlen Hsub.
  apply NoDup_Permutation_bis.
  - now apply nodup_toks_NoDup.
  - rewrite !map_length. apply Nat.eqb_eq in Hlen. lia.
  - intros k Hk. apply in_map_iff in Hk. destruct Hk as [x [<- Hx]].
    rewrite forallb_forall in Hsub. specialize (Hsub x Hx).
    apply existsb_exists in Hsub. destruct Hsub as [y [Hy Hxy]].
    apply andb_true_iff in Hxy. destruct Hxy as [Hk _]. apply toks_eqb_eq in Hk.
    rewrite Hk. now apply in_map.
Qed.

Lemma schema_hash_ok_lookup S c si :
  schema_hash_ok S = true -> lookup S c = Some si -> sinfo_hash_ok si = true.
Proof. apply (assoc_forallb (fun cs => sinfo_hash_ok (snd cs))). Qed.

Theorem eq_hash_general : forall S hv, schema_hash_ok S = true ->
  forall a b, side S hv a -> side S hv b -> node_eqb S hv a b = true -> hk S hv a = hk S hv b.
Proof.
  intros S hv Hok. induction a using value_ind'; intros bb Sa Sb He; destruct bb; try discriminate He; simpl in He.
  - reflexivity.
  - apply Bool.eqb_prop in He. now subst.
  - apply Z.eqb_eq in He. subst. reflexivity.
  - apply Z.eqb_eq in He. subst. reflexivity.
  - apply Z.eqb_eq in He. now subst.
  - apply Z.eqb_eq in He. now subst.
  - apply String.eqb_eq in He. now subst.
  - apply andb_true_iff in He. destruct He as [H1 H2].
    apply String.eqb_eq in H1. apply String.eqb_eq in H2. now subst.
  - apply andb_true_iff in He. destruct He as [H1 H2].
    apply String.eqb_eq in H1. apply Z.eqb_eq in H2. now subst.
  - (* tuple *)
    destruct (list_eqb_hk S hv l H l0) as [E1 E2]; auto; try (eapply side_tuple; eauto).
    simpl. rewrite E1, E2. reflexivity.
  - reflexivity.
  - reflexivity.
  - reflexivity.
  - (* struct *)
    apply andb_true_iff in He. destruct He as [Hc He]. apply String.eqb_eq in Hc. subst c0.
    destruct (lookup S c) as [si|] eqn:Hl; try discriminate.
    pose proof (schema_hash_ok_lookup S c si Hok Hl) as Hsi. unfold sinfo_hash_ok in Hsi.
    simpl. rewrite Hl.
    destruct (s_eq si) as [m| |] eqn:Eeq; try discriminate.
    + (* field-wise *)
      destruct (s_hash si) as [h| | |] eqn:Eh; try discriminate; try reflexivity.
      destruct (mask_eqb_hk S hv fs H fs0 m h) as [E1 E2]; auto; try (eapply side_struct; eauto).
      rewrite E1, E2. reflexivity.
    + (* set-like *)
      destruct (s_hash si) eqn:Eh; try discriminate.
      destruct (single_tuple_inv _ _ _ _ He) as [l ->]; [discriminate|]. cbv iota in He.
      destruct (single_tuple_inv _ _ _ _ He) as [l0 ->]; [discriminate|]. cbv iota in He.
      apply andb_true_iff in He. destruct He as [Hlen Hsub].
      destruct Sa as [Da Oa]. destruct Sb as [Db Ob]. simpl in Da, Db, Oa, Ob.
      rewrite Hl, Eh in *.
      apply andb_true_iff in Da. destruct Da as [_ Da].
      apply andb_true_iff in Db. destruct Db as [_ Db].
      pose proof (set_eq_perm S hv l l0 Da Db Hlen Hsub) as P.
      apply Nat.eqb_eq in Hlen.
      destruct hv.
      * (* unchanged: hash(type_list); equal only because both lists are in hash order *)
        specialize (Oa eq_refl). specialize (Ob eq_refl).
        apply andb_true_iff in Oa. destruct Oa as [_ Oa].
        apply andb_true_iff in Ob. destruct Ob as [_ Ob].
        rewrite (ksorted_perm_eq _ _ Oa Ob P), Hlen. reflexivity.
      * (* fixed: hash(frozenset(type_list)) *)
        rewrite (ksort_perm_eq _ _ P), Hlen. reflexivity.
Qed.
