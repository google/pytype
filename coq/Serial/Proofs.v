(* generic facts about the codec model (no dependence on the generated schema). *)
From Coq Require Import List String Ascii ZArith Bool Arith Lia Permutation.
From PV Require Import Serial.Model.
Import ListNotations.
Local Open Scope string_scope.
Local Open Scope list_scope.

Section ValueInd.
  Variable P : value -> Prop.
  Hypothesis HNone : P VNone.
  Hypothesis HBool : forall b, P (VBool b).
  Hypothesis HInt : forall z, P (VInt z).
  Hypothesis HFloat : forall z, P (VFloat z).
  Hypothesis HStr : forall s, P (VStr s).
  Hypothesis HEnumS : forall e s, P (VEnumS e s).
  Hypothesis HEnumI : forall e z, P (VEnumI e z).
  Hypothesis HTuple : forall l, Forall P l -> P (VTuple l).
  Hypothesis HList : forall l, Forall P l -> P (VList l).
  Hypothesis HSet : forall l, Forall P l -> P (VSet l).
  Hypothesis HDict : forall ks vs, Forall P vs -> P (VDict ks vs).
  Hypothesis HStruct : forall c fs, Forall P fs -> P (VStruct c fs).

  Fixpoint value_ind' (v : value) : P v :=
    let all := fix all (l : list value) : Forall P l :=
                 match l with
                 | [] => Forall_nil P
                 | x :: t => Forall_cons x (value_ind' x) (all t)
                 end in
    match v with
    | VNone => HNone
    | VBool b => HBool b
    | VInt z => HInt z
    | VFloat z => HFloat z
    | VStr s => HStr s
    | VEnumS e s => HEnumS e s
    | VEnumI e z => HEnumI e z
    | VTuple l => HTuple l (all l)
    | VList l => HList l (all l)
    | VSet l => HSet l (all l)
    | VDict ks vs => HDict ks vs (all vs)
    | VStruct c fs => HStruct c fs (all fs)
    end.
End ValueInd.

Lemma list_eqb_eq {A} (e : A -> A -> bool) (l : list A) :
  Forall (fun x => forall y, e x y = true -> x = y) l ->
  forall l', list_eqb e l l' = true -> l = l'.
Proof.
  induction 1 as [|x t Hx Ht IH]; intros [|y t'] H; simpl in H; try discriminate; auto.
  apply andb_true_iff in H. destruct H as [H1 H2].
  f_equal; auto.
Qed.

Lemma string_list_eqb_eq (l l' : list string) : list_eqb String.eqb l l' = true -> l = l'.
Proof.
  apply list_eqb_eq. apply Forall_forall. intros x _ y H. now apply String.eqb_eq.
Qed.

Lemma veqb_eq : forall a b, veqb a b = true -> a = b.
Proof.
  induction a using value_ind'; intros [] Hq; simpl in Hq; try discriminate.
  - reflexivity.
  - f_equal. now apply Bool.eqb_prop.
  - f_equal. now apply Z.eqb_eq.
  - f_equal. now apply Z.eqb_eq.
  - f_equal. now apply String.eqb_eq.
  - apply andb_true_iff in Hq. destruct Hq as [H1 H2].
    apply String.eqb_eq in H1. apply String.eqb_eq in H2. now subst.
  - apply andb_true_iff in Hq. destruct Hq as [H1 H2].
    apply String.eqb_eq in H1. apply Z.eqb_eq in H2. now subst.
  - f_equal. eapply list_eqb_eq; eauto.
  - f_equal. eapply list_eqb_eq; eauto.
  - f_equal. eapply list_eqb_eq; eauto.
  - apply andb_true_iff in Hq. destruct Hq as [H1 H2].
    apply string_list_eqb_eq in H1. subst. f_equal. eapply list_eqb_eq; eauto.
  - apply andb_true_iff in Hq. destruct Hq as [H1 H2].
    apply String.eqb_eq in H1. subst. f_equal. eapply list_eqb_eq; eauto.
Qed.

Lemma list_veqb_eq : forall l l', list_eqb (fun x y => veqb x y) l l' = true -> l = l'.
Proof.
  intros l l'. apply list_eqb_eq. apply Forall_forall. intros x _ y. apply veqb_eq.
Qed.

Lemma veqb_refl : forall v, veqb v v = true.
Proof.
  assert (L : forall l, Forall (fun x => veqb x x = true) l -> list_eqb (fun x y => veqb x y) l l = true).
  { induction 1; simpl; auto. now rewrite H, IHForall. }
  induction v as [|b|z|z|s|e s|e z|l IH|l IH|l IH|ks vs IH|c fs IH] using value_ind'; simpl; auto.
  - apply Bool.eqb_reflx.
  - apply Z.eqb_refl.
  - apply Z.eqb_refl.
  - apply String.eqb_refl.
  - now rewrite !String.eqb_refl.
  - now rewrite String.eqb_refl, Z.eqb_refl.
  - rewrite (L _ IH). rewrite andb_true_r.
    induction ks; simpl; auto. now rewrite String.eqb_refl.
  - now rewrite String.eqb_refl, (L _ IH).
Qed.

Lemma list_veqb_refl l : list_eqb veqb l l = true.
Proof. induction l; simpl; auto. now rewrite veqb_refl, IHl. Qed.

Lemma map_opt_cons {A B} (f : A -> option B) x t :
  map_opt f (x :: t) = match f x, map_opt f t with Some y, Some r => Some (y :: r) | _, _ => None end.
Proof. reflexivity. Qed.

Lemma map_opt_map {A B} (enc : A -> B) (dec : B -> option A) (l : list A) :
  Forall (fun x => dec (enc x) = Some x) l -> map_opt dec (map enc l) = Some l.
Proof.
  induction 1 as [|x t Hx Ht IH]; auto.
  simpl map. rewrite map_opt_cons, Hx, IH. reflexivity.
Qed.

Lemma map_opt_ext_in {A B} (f g : A -> option B) (l : list A) :
  (forall x, In x l -> f x = g x) -> map_opt f l = map_opt g l.
Proof.
  induction l as [|x t IH]; intros H; auto.
  rewrite !map_opt_cons. rewrite (H x (or_introl eq_refl)).
  rewrite IH; auto. intros y Hy. apply H. now right.
Qed.

(* F and D stay abstract, so that this case analysis is made once, on small terms *)
Lemma single_tuple_inv {A} (F : list value -> A) (D : A) fs r :
  match fs with [VTuple l] => F l | _ => D end = r -> r <> D -> exists l, fs = [VTuple l].
Proof. destruct fs as [|[] [|? ?]]; intros H N; try (now elim N); eauto. Qed.

Lemma ltb_leb s1 s2 : String.ltb s1 s2 = true -> String.leb s1 s2 = true.
Proof. unfold String.ltb, String.leb. destruct (String.compare s1 s2); auto; discriminate. Qed.

Lemma ltb_neq s1 s2 : String.ltb s1 s2 = true -> String.eqb s1 s2 = false.
Proof.
  unfold String.ltb. intros H. apply String.eqb_neq. intros ->.
  pose proof (String.compare_antisym s2 s2) as A.
  destruct (String.compare s2 s2); [discriminate H | discriminate A | discriminate H].
Qed.

Lemma leb_neq_ltb s1 s2 : String.leb s1 s2 = true -> String.eqb s1 s2 = false -> String.ltb s1 s2 = true.
Proof.
  unfold String.leb, String.ltb. destruct (String.compare s1 s2) eqn:C; try discriminate; auto.
  apply String.compare_eq_iff in C. subst. now rewrite String.eqb_refl.
Qed.

Lemma leb_false_ltb s1 s2 : String.leb s1 s2 = false -> String.ltb s2 s1 = true.
Proof.
  unfold String.leb, String.ltb. rewrite (String.compare_antisym s1 s2).
  now destruct (String.compare s2 s1).
Qed.

Lemma sorted_strict_cons x y t : sorted_strict (x :: y :: t) = String.ltb x y && sorted_strict (y :: t).
Proof. reflexivity. Qed.

Lemma sset_sorted : forall l, sorted_strict l = true -> sset l = l.
Proof.
  induction l as [|x t IH]; intros H; auto.
  simpl in H. destruct t as [|y t'].
  - reflexivity.
  - apply andb_true_iff in H. destruct H as [H1 H2].
    unfold sset in *. simpl fold_right. simpl fold_right in IH. rewrite (IH H2).
    simpl. rewrite (ltb_neq _ _ H1), (ltb_leb _ _ H1). reflexivity.
Qed.

Lemma strs_of_map : forall l ss, strs_of l = Some ss -> l = map VStr ss.
Proof.
  induction l as [|x t IH]; intros ss H; simpl in H.
  - inversion H. reflexivity.
  - destruct x; try discriminate. destruct (strs_of t) as [r|]; try discriminate.
    inversion H. subst. simpl. f_equal. now apply IH.
Qed.

Lemma strs_of_map_VStr : forall ss, strs_of (map VStr ss) = Some ss.
Proof. induction ss as [|s t IH]; simpl; auto. now rewrite IH. Qed.

Lemma msort_sorted : forall ss, sorted_strict ss = true -> msort (map MStr ss) = map MStr ss.
Proof.
  induction ss as [|x t IH]; intros H; auto.
  simpl in H. destruct t as [|y t'].
  - reflexivity.
  - apply andb_true_iff in H. destruct H as [H1 H2].
    unfold msort in *. simpl fold_right. simpl fold_right in IH. rewrite (IH H2).
    simpl. rewrite (ltb_leb _ _ H1). reflexivity.
Qed.

Lemma assoc_app {A} k (l1 l2 : list (string * A)) :
  assoc k (l1 ++ l2) = match assoc k l1 with Some a => Some a | None => assoc k l2 end.
Proof.
  induction l1 as [|[k' a] t IH]; simpl; auto. destruct (String.eqb k k'); auto.
Qed.

Lemma assoc_none_notin {A} k (l : list (string * A)) : mem_str k (map fst l) = false -> assoc k l = None.
Proof.
  induction l as [|[k' a] t IH]; simpl; auto. intros H.
  apply orb_false_iff in H. destruct H as [H1 H2]. rewrite H1. auto.
Qed.

Lemma assoc_rev_nodup {A} k (l : list (string * A)) :
  nodup_str (map fst l) = true -> assoc k (rev l) = assoc k l.
Proof.
  induction l as [|[k' a] t IH]; simpl; auto. intros H.
  apply andb_true_iff in H. destruct H as [H1 H2].
  rewrite assoc_app, (IH H2). simpl.
  destruct (String.eqb k k') eqn:E.
  - apply String.eqb_eq in E. subst k'.
    apply negb_true_iff in H1. rewrite (assoc_none_notin _ _ H1). reflexivity.
  - destruct (assoc k t); reflexivity.
Qed.

Lemma mem_str_in s l : mem_str s l = true <-> In s l.
Proof.
  induction l as [|x t IH]; simpl.
  - split; [discriminate | tauto].
  - rewrite orb_true_iff, IH, String.eqb_eq. split; intros [H|H]; auto.
Qed.

Lemma find_field_in flds : nodup_str (map fd_name flds) = true ->
  forall fd, In fd flds -> find_field (fd_name fd) flds = Some fd.
Proof.
  induction flds as [|g t IH]; simpl; intros H fd Hin; [tauto|].
  apply andb_true_iff in H. destruct H as [H1 H2].
  destruct Hin as [->|Hin].
  - now rewrite String.eqb_refl.
  - destruct (String.eqb (fd_name fd) (fd_name g)) eqn:E.
    + apply String.eqb_eq in E. apply negb_true_iff in H1.
      assert (In (fd_name g) (map fd_name t)) by (rewrite <- E; now apply in_map).
      apply mem_str_in in H. congruence.
    + auto.
Qed.

Lemma find_field_notin k flds : mem_str k (map fd_name flds) = false -> find_field k flds = None.
Proof.
  induction flds as [|g t IH]; simpl; auto. intros H.
  apply orb_false_iff in H. destruct H as [H1 H2]. rewrite H1. auto.
Qed.

Lemma enc_fields_cons enc omit v fs fd flds :
  enc_fields enc omit (v :: fs) (fd :: flds) =
  if omit && is_default fd v then enc_fields enc omit fs flds
  else (fd_name fd, enc v) :: enc_fields enc omit fs flds.
Proof. reflexivity. Qed.

Lemma dec_entries_cons dec flds k x t :
  dec_entries dec flds ((k, x) :: t) =
  match find_field k flds with
  | None => dec_entries dec flds t
  | Some fd => match dec (fd_ty fd) x, dec_entries dec flds t with
               | Some v, Some r => Some ((k, v) :: r)
               | _, _ => None
               end
  end.
Proof. reflexivity. Qed.

Section Fields.
  Variable cf : value -> fty -> bool.
  Variable omit : bool.

  (* the (name, value) pairs that are written *)
  Fixpoint kept (fs : list value) (flds : list field) : list (string * value) :=
    match fs, flds with
    | v :: fs', fd :: flds' =>
        if omit && is_default fd v then kept fs' flds' else (fd_name fd, v) :: kept fs' flds'
    | _, _ => []
    end.

  Lemma kept_keys_incl : forall fs flds k, In k (map fst (kept fs flds)) -> In k (map fd_name flds).
  Proof.
    induction fs as [|v fs IH]; intros [|fd flds] k H; simpl in *; try tauto.
    destruct (omit && is_default fd v); simpl in *.
    - right. eauto.
    - destruct H; [left; auto | right; eauto].
  Qed.

  Lemma kept_nodup : forall fs flds, nodup_str (map fd_name flds) = true ->
    nodup_str (map fst (kept fs flds)) = true.
  Proof.
    induction fs as [|v fs IH]; intros [|fd flds] H; simpl in *; auto.
    apply andb_true_iff in H. destruct H as [H1 H2].
    destruct (omit && is_default fd v); simpl; auto.
    rewrite (IH _ H2), andb_true_r.
    apply negb_true_iff. apply negb_true_iff in H1.
    destruct (mem_str (fd_name fd) (map fst (kept fs flds))) eqn:E; auto.
    apply mem_str_in in E. apply kept_keys_incl in E. apply mem_str_in in E. congruence.
  Qed.

  Lemma dec_entries_kept enc dec : forall all fs flds,
    nodup_str (map fd_name all) = true -> incl flds all ->
    Forall (fun v => forall f, cf v f = true -> dec f (enc v) = Some v) fs ->
    conf_fields cf fs flds = true ->
    dec_entries dec all (enc_fields enc omit fs flds) = Some (kept fs flds).
  Proof.
    intros all fs. induction fs as [|v fs IH]; intros [|fd flds] Hnd Hincl HF Hc; try discriminate Hc; auto.
    inversion HF as [|? ? Hv HF']. subst.
    cbn [conf_fields] in Hc. apply andb_true_iff in Hc. destruct Hc as [Hc1 Hc2].
    assert (Hincl' : incl flds all) by (intros x Hx; apply Hincl; now right).
    rewrite enc_fields_cons. cbn [kept]. destruct (omit && is_default fd v); [now apply IH|].
    rewrite dec_entries_cons, (find_field_in all Hnd fd) by (apply Hincl; now left).
    now rewrite (Hv _ Hc1), IH.
  Qed.

  Lemma assemble_kept_gen : forall fs flds entries,
    nodup_str (map fd_name flds) = true ->
    conf_fields cf fs flds = true ->
    (forall fd, In fd flds -> assoc (fd_name fd) entries = assoc (fd_name fd) (kept fs flds)) ->
    map_opt (fun fd => match assoc (fd_name fd) entries with Some v => Some v | None => fd_default fd end) flds
    = Some fs.
  Proof.
    induction fs as [|v fs IH]; intros [|fd flds] entries Hnd Hc Hent; simpl in Hc; try discriminate; auto.
    apply andb_true_iff in Hc. destruct Hc as [_ Hc].
    simpl in Hnd. apply andb_true_iff in Hnd. destruct Hnd as [Hn1 Hn2].
    rewrite map_opt_cons.
    assert (Htail : forall g, In g flds ->
              assoc (fd_name g) entries = assoc (fd_name g) (kept fs flds)).
    { intros g Hg. rewrite (Hent g (or_intror Hg)). simpl.
      destruct (omit && is_default fd v); auto. simpl.
      destruct (String.eqb (fd_name g) (fd_name fd)) eqn:E; auto.
      apply String.eqb_eq in E. apply negb_true_iff in Hn1.
      assert (In (fd_name fd) (map fd_name flds)) by (rewrite <- E; now apply in_map).
      apply mem_str_in in H. congruence. }
    rewrite (IH flds entries Hn2 Hc Htail).
    rewrite (Hent fd (or_introl eq_refl)). simpl.
    destruct (omit && is_default fd v) eqn:Eo.
    - (* omitted: not among the written keys, so the default is taken, and it equals v *)
      assert (assoc (fd_name fd) (kept fs flds) = None) as ->.
      { apply assoc_none_notin. apply negb_true_iff in Hn1.
        destruct (mem_str (fd_name fd) (map fst (kept fs flds))) eqn:E; auto.
        apply mem_str_in in E. apply kept_keys_incl in E. apply mem_str_in in E. congruence. }
      apply andb_true_iff in Eo. destruct Eo as [_ Ed]. unfold is_default in Ed.
      destruct (fd_default fd) as [d|]; try discriminate.
      apply veqb_eq in Ed. now subst.
    - simpl. rewrite String.eqb_refl. reflexivity.
  Qed.

  Lemma assemble_kept : forall fs flds,
    nodup_str (map fd_name flds) = true ->
    conf_fields cf fs flds = true ->
    assemble flds (kept fs flds) = Some fs.
  Proof.
    intros fs flds Hnd Hc. unfold assemble.
    rewrite (map_opt_ext_in _ (fun fd => match assoc (fd_name fd) (kept fs flds) with
                                          | Some v => Some v | None => fd_default fd end)).
    - apply assemble_kept_gen; auto.
    - intros fd _. unfold assoc_last. rewrite assoc_rev_nodup; auto. now apply kept_nodup.
  Qed.
End Fields.

Lemma decode_any_encode S : forall v, conforms_any v = true -> decode_any (encode S v) = v.
Proof.
  induction v using value_ind'; intros Hc; simpl in Hc; try discriminate; try reflexivity.
  - (* list *)
    simpl. f_equal. rewrite map_map.
    rewrite forallb_forall in Hc. rewrite Forall_forall in H.
    rewrite <- (map_id l) at 2. apply map_ext_in. intros x Hx. apply H; auto.
  - (* dict *)
    destruct ks; try discriminate. destruct vs; try discriminate.
    simpl. destruct (deterministic S); reflexivity.
Qed.

(* [decode] first resolves the declared type at the kind of the value.  What it does at the resolved type f0 is the
   inner match of the Fixpoint in Model.v, which has no name there; it is repeated here under one, so that a
   statement about one f0 mentions [decode_at S hv f0 m] and not the whole match. *)
Definition decode_at S hv (f0 : fty) (m : mval) : option value :=
  match f0, m with
  | FAny, _ => Some (decode_any m)
  | FNone, MNil => Some VNone
  | FBool, MBool b => Some (VBool b)
  | FInt, MInt z => Some (VInt z)
  | FStr, MStr s => Some (VStr s)
  | FEnum e, MStr s =>
      match assoc e (enums S) with
      | Some (EStr vals) => if mem_str s vals then Some (VEnumS e s) else None
      | _ => None
      end
  | FEnum e, MInt z =>
      match assoc e (enums S) with
      | Some (EFlag mask) => match decode_flag mask z with Some z' => Some (VEnumI e z') | None => None end
      | _ => None
      end
  | FTupleOf g, MArr l =>
      match map_opt (fun x => decode S hv g x) l with Some vs => Some (VTuple vs) | None => None end
  | FListOf g, MArr l =>
      match map_opt (fun x => decode S hv g x) l with Some vs => Some (VList vs) | None => None end
  | FSetOf g, MArr l =>
      match map_opt (fun x => decode S hv g x) l with
      | Some vs => match strs_of vs with
                   | Some ss => Some (VSet (map VStr (sset ss)))
                   | None => None
                   end
      | None => None
      end
  | FPair g h, MArr [a; b] =>
      match decode S hv g a, decode S hv h b with
      | Some x, Some y => Some (VTuple [x; y])
      | _, _ => None
      end
  | FDictOf g h, MMap kvs =>
      match g with
      | FStr =>
          match map_opt (fun kv => decode S hv h (snd kv)) kvs with
          | Some vs => Some (VDict (map fst kvs) vs)
          | None => None
          end
      | _ => None
      end
  | FStruct c, MMap kvs => dec_struct S hv (fun g x => decode S hv g x) c kvs
  | FUnion cs, MMap kvs =>
      match pick_class S cs kvs with
      | Some c => dec_struct S hv (fun g x => decode S hv g x) c kvs
      | None => None
      end
  | _, _ => None
  end.

Lemma decode_unfold S hv f m :
  decode S hv f m = match resolve S f (mkind m) with None => None | Some f0 => decode_at S hv f0 m end.
Proof. destruct m; reflexivity. Qed.

(* likewise the inner match of [conforms] *)
Definition conforms_at S hv (f0 : fty) (v : value) : bool :=
  match f0, v with
  | FAny, _ => conforms_any v
  | FNone, VNone => true
  | FBool, VBool _ => true
  | FInt, VInt z => in_range z
  | FStr, VStr _ => true
  | FEnum e, VEnumS e' s =>
      String.eqb e e' &&
      match assoc e (enums S) with Some (EStr vals) => mem_str s vals | _ => false end
  | FEnum e, VEnumI e' z =>
      String.eqb e e' &&
      match assoc e (enums S) with Some (EFlag mask) => (Z.leb 0 z && Z.leb z mask)%Z | _ => false end
  | FTupleOf g, VTuple l => forallb (fun x => conforms S hv x g) l
  | FListOf g, VList l => forallb (fun x => conforms S hv x g) l
  | FSetOf g, VSet l =>
      forallb (fun x => conforms S hv x g) l &&
      match strs_of l with Some ss => sorted_strict ss | None => false end
  | FPair g h, VTuple [a; b] => conforms S hv a g && conforms S hv b h
  | FDictOf FStr _, VDict [] [] => true
  | FStruct _, VStruct c fs | FUnion _, VStruct c fs =>
      class_ok S f0 c &&
      match lookup S c with
      | None => false
      | Some si => conf_fields (fun x g => conforms S hv x g) fs (s_fields si) && hook_ok S hv si fs
      end
  | _, _ => false
  end.

Lemma conforms_unfold S hv v f :
  conforms S hv v f = match resolve S f (vkind v) with None => false | Some f0 => conforms_at S hv f0 v end.
Proof. destruct v; reflexivity. Qed.

Lemma conforms_struct S hv c fs f : conforms S hv (VStruct c fs) f = true ->
  exists f0 si, resolve S f KMap = Some f0 /\ class_ok S f0 c = true /\ lookup S c = Some si /\
                conf_fields (fun x g => conforms S hv x g) fs (s_fields si) = true /\ hook_ok S hv si fs = true.
Proof.
  rewrite conforms_unfold. cbn [vkind]. destruct (resolve S f KMap) as [f0|]; [|discriminate].
  intros H. exists f0.
  assert (H' : class_ok S f0 c &&
               match lookup S c with
               | None => false
               | Some si => conf_fields (fun x g => conforms S hv x g) fs (s_fields si) && hook_ok S hv si fs
               end = true)
    by (destruct f0 as [| | | | |g|g|g|g|g h|g h|cs|c0|e|al]; try discriminate H; [destruct g; discriminate H | exact H..]).
  apply andb_true_iff in H'. destruct H' as [Hck H']. destruct (lookup S c) as [si|]; [|discriminate].
  apply andb_true_iff in H'. destruct H' as [Hcf Hhk]. now exists si.
Qed.

Lemma encode_struct S c fs si : lookup S c = Some si ->
  encode S (VStruct c fs) = MMap (tag_entry S si ++ enc_fields (fun x => encode S x) (s_omit si) fs (s_fields si)).
Proof. intros H. cbn [encode]. now rewrite H. Qed.

(* resolve only looks at the msgpack kind, and encode keeps it *)
Lemma mkind_encode S hv v f : conforms S hv v f = true -> mkind (encode S v) = vkind v.
Proof.
  destruct v; intros H; try reflexivity; try (cbn [encode]; destruct (deterministic S); reflexivity).
  destruct (conforms_struct _ _ _ _ _ H) as (f0 & si & _ & _ & Hl & _). now rewrite (encode_struct _ _ _ _ Hl).
Qed.

Lemma assoc_forallb {A} (p : string * A -> bool) k l a :
  forallb p l = true -> assoc k l = Some a -> p (k, a) = true.
Proof.
  induction l as [|[k' a'] t IH]; simpl; [discriminate|]. intros H E.
  apply andb_true_iff in H. destruct H as [H1 H2].
  destruct (String.eqb_spec k k') as [->|_]; [now injection E as <- | auto].
Qed.

Lemma schema_wf_lookup S c si :
  schema_wf S = true -> lookup S c = Some si -> sinfo_wf S c si = true.
Proof.
  unfold schema_wf. intros H. apply andb_true_iff in H.
  apply (assoc_forallb (fun cs => sinfo_wf S (fst cs) (snd cs))), H.
Qed.

Lemma dec_struct_roundtrip S hv c fs si :
  schema_wf S = true -> lookup S c = Some si ->
  Forall (fun v => forall f, conforms S hv v f = true -> decode S hv f (encode S v) = Some v) fs ->
  conf_fields (fun x g => conforms S hv x g) fs (s_fields si) = true ->
  hook_ok S hv si fs = true ->
  dec_struct S hv (fun g x => decode S hv g x) c
    (tag_entry S si ++ enc_fields (fun x => encode S x) (s_omit si) fs (s_fields si)) = Some (VStruct c fs).
Proof.
  intros Hwf Hl HF Hc Hh.
  pose proof (schema_wf_lookup S c si Hwf Hl) as Hs. unfold sinfo_wf in Hs.
  apply andb_true_iff in Hs. destruct Hs as [Hs _].
  apply andb_true_iff in Hs. destruct Hs as [Hnd Htf].
  unfold dec_struct. rewrite Hl.
  (* the tag entry: accepted by tag_ok, skipped by dec_entries since the tag field is no field *)
  assert (Htag : forall rest, tag_ok S si (tag_entry S si ++ rest) = true /\
            dec_entries (fun g x => decode S hv g x) (s_fields si) (tag_entry S si ++ rest) =
            dec_entries (fun g x => decode S hv g x) (s_fields si) rest).
  { intros rest. unfold tag_ok, tag_entry. destruct (s_tag si) as [t|]; [|now split].
    rewrite andb_true_r in Htf. apply negb_true_iff in Htf.
    cbn [app assoc]. now rewrite dec_entries_cons, (find_field_notin _ _ Htf), !String.eqb_refl. }
  destruct (Htag (enc_fields (fun x => encode S x) (s_omit si) fs (s_fields si))) as [-> ->].
  rewrite (dec_entries_kept (fun x g => conforms S hv x g) _ _ _ (s_fields si)); auto using incl_refl.
  rewrite (assemble_kept _ _ _ _ Hnd Hc).
  unfold hook_ok in Hh. destruct (post S hv si fs) as [fs'|]; [|discriminate].
  apply list_veqb_eq in Hh. now subst.
Qed.

Lemma pick_class_encode S cs c si rest :
  lookup S c = Some si -> class_ok S (FUnion cs) c = true ->
  pick_class S cs (tag_entry S si ++ rest) = Some c.
Proof.
  intros Hl Hc. unfold class_ok, tag_of in Hc. rewrite Hl in Hc.
  unfold pick_class, tag_entry. destruct (s_tag si) as [t|]; [|discriminate].
  cbn [app assoc]. rewrite String.eqb_refl. fold (tag_of S) in *.
  destruct (find _ cs) as [c'|]; [|discriminate]. apply String.eqb_eq in Hc. now subst.
Qed.

Lemma map_opt_decode S hv g (l : list value) :
  Forall (fun v => forall f, conforms S hv v f = true -> decode S hv f (encode S v) = Some v) l ->
  forallb (fun x => conforms S hv x g) l = true ->
  map_opt (fun x => decode S hv g x) (map (encode S) l) = Some l.
Proof.
  intros IH Hc. apply map_opt_map. rewrite forallb_forall in Hc. rewrite Forall_forall in *. auto.
Qed.

Theorem roundtrip_lemma : forall S hv, schema_wf S = true ->
  forall v f, conforms S hv v f = true -> decode S hv f (encode S v) = Some v.
Proof.
  intros S hv Hwf. induction v as [|b|z|z|s|e s|e z|l IH|l IH|l IH|ks vs IH|c fs IH] using value_ind'; intros f Hc.
  12: { (* struct: the declared type is the class itself or a union that selects it by its tag *)
    destruct (conforms_struct _ _ _ _ _ Hc) as (f0 & si & Er & Hck & Hl & Hcf & Hhk).
    rewrite (encode_struct _ _ _ _ Hl), decode_unfold. cbn [mkind]. rewrite Er.
    destruct f0; try discriminate Hck; cbn [decode_at].
    - rewrite (pick_class_encode _ _ _ _ _ Hl Hck). now apply dec_struct_roundtrip.
    - apply String.eqb_eq in Hck. subst. now apply dec_struct_roundtrip. }
  (* otherwise: the resolved type f0 that accepts v, then decode at f0 *)
  all: pose proof (mkind_encode _ _ _ _ Hc) as Ek; rewrite conforms_unfold in Hc;
    destruct (resolve S f _) as [f0|] eqn:Er; [|discriminate];
    destruct f0 as [| | | | |g|g|g|g|g h|kt h|cs|c0|e0|al]; try discriminate Hc; try (destruct kt; discriminate Hc);
    rewrite decode_unfold, Ek, Er; cbn [encode decode_at]; try reflexivity.
  - (* str enum *)
    apply andb_true_iff in Hc. destruct Hc as [He Hm]. apply String.eqb_eq in He. subst e0.
    destruct (assoc e (enums S)) as [[vals|mask]|]; try discriminate. now rewrite Hm.
  - (* flag *)
    apply andb_true_iff in Hc. destruct Hc as [He Hm]. apply String.eqb_eq in He. subst e0.
    destruct (assoc e (enums S)) as [[vals|mask]|]; try discriminate.
    unfold decode_flag. now rewrite Hm.
  - (* tuple *) now rewrite map_opt_decode.
  - (* pair *)
    destruct l as [|a [|b [|? ?]]]; try discriminate.
    apply andb_true_iff in Hc. destruct Hc as [Ha Hb].
    inversion IH as [|? ? Pa IH']. inversion IH' as [|? ? Pb _].
    cbn [map]. now rewrite (Pa _ Ha), (Pb _ Hb).
  - (* list at Any *) f_equal. exact (decode_any_encode S (VList l) Hc).
  - (* list *) now rewrite map_opt_decode.
  - (* set of str, listed in order: neither the encoder's sort nor the decoder's set construction moves anything *)
    apply andb_true_iff in Hc. destruct Hc as [Hall Hs].
    destruct (strs_of l) as [ss|] eqn:Ess; [|discriminate].
    assert (Henc : (if deterministic S then msort (map (encode S) l) else map (encode S) l) = map (encode S) l).
    { destruct (deterministic S); auto. rewrite (strs_of_map _ _ Ess), map_map. now apply msort_sorted. }
    rewrite Henc, map_opt_decode, Ess, (sset_sorted _ Hs), <- (strs_of_map _ _ Ess); auto.
  - (* dict at Any *) f_equal. exact (decode_any_encode S (VDict ks vs) Hc).
  - (* the empty dict *)
    destruct kt; try discriminate. destruct ks; try discriminate. destruct vs; try discriminate.
    cbn [map combine]. destruct (deterministic S); reflexivity.
Qed.

Corollary reencode_stable_lemma : forall S hv, schema_wf S = true ->
  forall v f, conforms S hv v f = true ->
  option_map (encode S) (decode S hv f (encode S v)) = Some (encode S v).
Proof. intros S hv Hwf v f Hc. now rewrite (roundtrip_lemma S hv Hwf v f Hc). Qed.
