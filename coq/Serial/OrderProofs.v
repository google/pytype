(* with order="deterministic" the bytes do not depend on the iteration order of any set (of str: the only sets the model decodes). *)
From Coq Require Import List String Ascii ZArith NArith Bool Arith Lia Permutation.
From PV Require Import Serial.Model Serial.Proofs Serial.HashProofs.
Import ListNotations.
Local Open Scope string_scope.
Local Open Scope list_scope.

Lemma ascii_cmp a b : Ascii.compare a b = N.compare (N_of_ascii a) (N_of_ascii b).
Proof. reflexivity. Qed.

Lemma string_leb_trans : forall a b c, String.leb a b = true -> String.leb b c = true -> String.leb a c = true.
Proof.
  unfold String.leb.
  induction a as [|x a IH]; intros [|y b] [|z c]; simpl; auto; try discriminate.
  rewrite !ascii_cmp.
  destruct (N.compare_spec (N_of_ascii x) (N_of_ascii y)) as [E1|L1|G1];
    destruct (N.compare_spec (N_of_ascii y) (N_of_ascii z)) as [E2|L2|G2];
    destruct (N.compare_spec (N_of_ascii x) (N_of_ascii z)) as [E3|L3|G3];
    auto; try discriminate; try lia.
  apply IH.
Qed.

Lemma ssort_is_sort l : ssort l = sort string String.leb l.
Proof. reflexivity. Qed.

Lemma ssort_perm_eq l l' : Permutation l l' -> ssort l = ssort l'.
Proof.
  rewrite !ssort_is_sort. apply sort_perm_eq.
  - apply String.leb_total. - apply String.leb_antisym. - apply string_leb_trans.
Qed.

Lemma ssort_idem l : ssort (ssort l) = ssort l.
Proof.
  apply ssort_perm_eq. apply Permutation_sym. rewrite ssort_is_sort. apply sort_perm.
Qed.

Lemma minsert_MStr x l : minsert (MStr x) (map MStr l) = map MStr (sinsert x l).
Proof.
  induction l as [|y t IH]; simpl; auto.
  destruct (String.leb x y); simpl; auto. now rewrite IH.
Qed.

Lemma msort_MStr l : msort (map MStr l) = map MStr (ssort l).
Proof.
  induction l as [|x t IH]; simpl; auto.
  unfold msort, ssort in *. simpl. rewrite IH. apply minsert_MStr.
Qed.

Lemma list_veqb_vcanon (l : list value) :
  Forall (fun v => forall d, set_free d = true -> veqb (vcanon v) d = veqb v d) l ->
  forall l', forallb set_free l' = true ->
  list_eqb (fun x y => veqb x y) (map vcanon l) l' = list_eqb (fun x y => veqb x y) l l'.
Proof.
  induction 1 as [|x t Hx Ht IH]; intros [|y t'] Hd; simpl; auto.
  simpl in Hd. apply andb_true_iff in Hd. destruct Hd as [Hy Ht'].
  now rewrite (Hx y Hy), (IH t' Ht').
Qed.

Lemma veqb_vcanon : forall v d, set_free d = true -> veqb (vcanon v) d = veqb v d.
Proof.
  induction v using value_ind'; intros d Hd; simpl; auto.
  - (* tuple *) destruct d; auto. now apply list_veqb_vcanon.
  - (* list *) destruct d; auto. now apply list_veqb_vcanon.
  - (* set: a set-free default is no set *)
    destruct d; try (destruct (strs_of l); reflexivity). discriminate Hd.
  - (* dict *) destruct d; auto. f_equal. now apply list_veqb_vcanon.
  - (* struct *) destruct d; auto. f_equal. now apply list_veqb_vcanon.
Qed.

Lemma defaults_set_free_lookup S c si fd :
  defaults_set_free S = true -> lookup S c = Some si -> In fd (s_fields si) ->
  match fd_default fd with Some d => set_free d = true | None => True end.
Proof.
  intros H Hl Hin.
  pose proof (assoc_forallb _ _ _ _ H Hl) as Hs. cbn [snd] in Hs.
  rewrite forallb_forall in Hs. specialize (Hs fd Hin). destruct (fd_default fd); auto.
Qed.

Lemma enc_fields_vcanon S omit : forall fs flds,
  (forall fd, In fd flds -> match fd_default fd with Some d => set_free d = true | None => True end) ->
  Forall (fun v => encode S (vcanon v) = encode S v) fs ->
  enc_fields (fun x => encode S x) omit (map vcanon fs) flds = enc_fields (fun x => encode S x) omit fs flds.
Proof.
  induction fs as [|v fs IH]; intros [|fd flds] Hd HF; auto.
  inversion HF as [|? ? Hv HF']. subst.
  assert (Hdef : is_default fd (vcanon v) = is_default fd v).
  { unfold is_default. pose proof (Hd fd (or_introl eq_refl)) as Hfd.
    destruct (fd_default fd) as [d|]; auto. now apply veqb_vcanon. }
  cbn [map]. rewrite !enc_fields_cons, Hdef, Hv, IH; auto. intros g Hg. apply Hd. now right.
Qed.

Lemma map_encode_vcanon S (l : list value) :
  Forall (fun v => sets_of_strs v = true -> encode S (vcanon v) = encode S v) l ->
  forallb sets_of_strs l = true ->
  map (encode S) (map vcanon l) = map (encode S) l.
Proof.
  induction 1 as [|x t Hx Ht IH]; simpl; auto. intros Hs.
  apply andb_true_iff in Hs. destruct Hs as [H1 H2]. rewrite Hx, IH; auto.
Qed.

Theorem encode_vcanon_lemma : forall S, deterministic S = true -> defaults_set_free S = true ->
  forall v, sets_of_strs v = true -> encode S (vcanon v) = encode S v.
Proof.
  intros S Hdet Hdf. induction v using value_ind'; intros Hs; simpl in Hs; simpl vcanon; auto.
  - simpl. f_equal. now apply map_encode_vcanon.
  - simpl. f_equal. now apply map_encode_vcanon.
  - (* set *)
    destruct (strs_of l) as [ss|] eqn:Ess; try discriminate.
    pose proof (strs_of_map _ _ Ess) as El. subst l.
    simpl. rewrite Hdet. rewrite !map_map. simpl.
    change (map (fun x : string => MStr x) (ssort ss)) with (map MStr (ssort ss)).
    change (map (fun x : string => MStr x) ss) with (map MStr ss).
    rewrite !msort_MStr, ssort_idem. reflexivity.
  - simpl. rewrite map_encode_vcanon; auto.
  - (* struct *)
    simpl. destruct (lookup S c) as [si|] eqn:Hl; auto. f_equal. f_equal.
    apply enc_fields_vcanon.
    + intros fd Hfd. eapply defaults_set_free_lookup; eauto.
    + rewrite forallb_forall in Hs. rewrite Forall_forall in H. apply Forall_forall.
      intros x Hx. apply H; auto.
Qed.

Corollary encode_order_independent_lemma : forall S, deterministic S = true -> defaults_set_free S = true ->
  forall v v', sets_of_strs v = true -> sets_of_strs v' = true -> vcanon v = vcanon v' ->
  encode S v = encode S v'.
Proof.
  intros S Hd Hf v v' Hs Hs' E.
  rewrite <- (encode_vcanon_lemma S Hd Hf v Hs), <- (encode_vcanon_lemma S Hd Hf v' Hs'), E. reflexivity.
Qed.

Lemma vcanon_set_perm ss ss' : Permutation ss ss' -> vcanon (VSet (map VStr ss)) = vcanon (VSet (map VStr ss')).
Proof.
  intros P. simpl. rewrite !strs_of_map_VStr. now rewrite (ssort_perm_eq _ _ P).
Qed.
