(* C01 — soundness of the abstract interpreter (both modes) with respect to the concrete evaluator:
   every concrete run is simulated by one world of the abstract run. *)
From Coq Require Import List ZArith Arith Bool Lia.
From PV Require Import Vm.Model Vm.Lemmas Vm.TypesProofs.
Import ListNotations.
Open Scope nat_scope.

Section ExprInd.
  Variable P : expr -> Prop.
  Hypothesis HInt : forall z, P (EInt z).
  Hypothesis HFloat : forall k, P (EFloat k).
  Hypothesis HStr : forall k, P (EStr k).
  Hypothesis HBytes : forall k, P (EBytes k).
  Hypothesis HBool : forall b, P (EBool b).
  Hypothesis HNone : P ENone.
  Hypothesis HName : forall x, P (EName x).
  Hypothesis HList : forall es, Forall P es -> P (EList es).
  Hypothesis HTuple : forall es, Forall P es -> P (ETuple es).
  Hypothesis HSet : forall es, Forall P es -> P (ESet es).
  Hypothesis HDict : forall ks vs, Forall P ks -> Forall P vs -> P (EDict ks vs).
  Hypothesis HNot : forall e, P e -> P (ENot e).
  Hypothesis HIsNone : forall e, P e -> P (EIsNone e).
  Hypothesis HIsNotNone : forall e, P e -> P (EIsNotNone e).
  Hypothesis HIsInst : forall e c, P e -> P (EIsInst e c).
  Hypothesis HAnd : forall a b, P a -> P b -> P (EAnd a b).
  Hypothesis HOr : forall a b, P a -> P b -> P (EOr a b).
  Hypothesis HIf : forall c a b, P c -> P a -> P b -> P (EIf c a b).
  Hypothesis HCall : forall f es, Forall P es -> P (ECall f es).
  Hypothesis HSub : forall e i, P e -> P i -> P (ESub e i).

  Fixpoint expr_ind' (e : expr) : P e :=
    let fl := (fix fl (l : list expr) : Forall P l :=
                 match l with [] => Forall_nil _ | x :: l' => Forall_cons x (expr_ind' x) (fl l') end) in
    match e with
    | EInt z => HInt z | EFloat k => HFloat k | EStr k => HStr k | EBytes k => HBytes k
    | EBool b => HBool b | ENone => HNone | EName x => HName x
    | EList es => HList es (fl es) | ETuple es => HTuple es (fl es) | ESet es => HSet es (fl es)
    | EDict ks vs => HDict ks vs (fl ks) (fl vs)
    | ENot a => HNot a (expr_ind' a)
    | EIsNone a => HIsNone a (expr_ind' a)
    | EIsNotNone a => HIsNotNone a (expr_ind' a)
    | EIsInst a c => HIsInst a c (expr_ind' a)
    | EAnd a b => HAnd a b (expr_ind' a) (expr_ind' b)
    | EOr a b => HOr a b (expr_ind' a) (expr_ind' b)
    | EIf c a b => HIf c a b (expr_ind' c) (expr_ind' a) (expr_ind' b)
    | ECall f es => HCall f es (fl es)
    | ESub a i => HSub a i (expr_ind' a) (expr_ind' i)
    end.
End ExprInd.

Section StmtInd.
  Variable P : stmt -> Prop.
  Hypothesis HAssign : forall x e, P (SAssign x e).
  Hypothesis HIf : forall c th el, Forall P th -> Forall P el -> P (SIf c th el).
  Hypothesis HPass : P SPass.
  Hypothesis HReturn : forall e, P (SReturn e).

  Fixpoint stmt_ind' (s : stmt) : P s :=
    let fl := (fix fl (l : list stmt) : Forall P l :=
                 match l with [] => Forall_nil _ | x :: l' => Forall_cons x (stmt_ind' x) (fl l') end) in
    match s with
    | SAssign x e => HAssign x e
    | SIf c th el => HIf c th el (fl th) (fl el)
    | SPass => HPass
    | SReturn e => HReturn e
    end.
End StmtInd.

Definition fmatch (s : store) (fr : frame) : Prop :=
  forall x v, slook s x = Some v -> exists a, flookup x fr = Some a /\ gamma a v.

Definition wmatch (locs : option (list name)) (st : cstate) (w : world) : Prop :=
  match locs with
  | None => exists fr, w = [fr] /\ fmatch (cg st) fr
  | Some _ => exists fr rest, w = fr :: rest /\ rest <> [] /\ fmatch (cl st) fr /\ fmatch (cg st) (last rest [])
  end.

Lemma fmatch_nil : forall fr, fmatch [] fr.
Proof. intros fr x v H. discriminate. Qed.

Lemma wmatch_init : wmatch None (mkc [] []) [[]].
Proof. exists []. split; [reflexivity | apply fmatch_nil]. Qed.

Lemma fmatch_set : forall s fr x v a, fmatch s fr -> gamma a v -> fmatch (sset x v s) (fset x a fr).
Proof.
  intros s fr x v a HM HG y u HL. unfold sset in HL. simpl in HL.
  destruct (x =? y) eqn:E.
  - apply Nat.eqb_eq in E. subst y. injection HL as <-. exists a. split; auto. apply flookup_fset_same.
  - apply Nat.eqb_neq in E. rewrite flookup_fset_other; auto.
Qed.

Lemma wmatch_globals : forall locs st w, wmatch locs st w -> w <> [] /\ fmatch (cg st) (last w []).
Proof.
  intros [L|] st w H; simpl in H.
  - destruct H as [fr [rest [-> [Hne [_ HG]]]]]. split; [discriminate|].
    destruct rest; [congruence|]. exact HG.
  - destruct H as [fr [-> HG]]. split; [discriminate|]. exact HG.
Qed.

Lemma rd_sim : forall locs st w x v,
  wmatch locs st w -> crd locs st x = Some v -> exists a, ard locs w x = Some a /\ gamma a v.
Proof.
  intros locs st w x v HW HR. destruct (wmatch_globals _ _ _ HW) as [_ HG].
  destruct locs as [L|]; simpl in HW, HR; unfold ard.
  - destruct HW as [fr [rest [-> [_ [HL _]]]]].
    destruct (memn x L); [apply HL; exact HR|].
    destruct (HG x v HR) as [a [-> Hga]]. eexists; split; [reflexivity|]. apply discard_concrete_sound, Hga.
  - destruct HW as [fr [-> _]]. apply HG, HR.
Qed.

Lemma wmatch_assign : forall locs st w x v a,
  wmatch locs st w -> gamma a v ->
  wmatch locs (cassign locs st x v) (wassign w x a) /\ tl (wassign w x a) = tl w.
Proof.
  intros [L|] st w x v a HW HG; simpl in *.
  - destruct HW as [fr [rest [-> [Hne [HL HGl]]]]]. simpl. split; auto.
    exists (fset x a fr), rest. repeat split; auto. apply fmatch_set; auto.
  - destruct HW as [fr [-> HGl]]. simpl. split; auto.
    exists (fset x a fr). split; auto. apply fmatch_set; auto.
Qed.

Lemma worlds_in : forall {A} (R : list (world * A)) w x, In (w, x) R -> In w (dedupw (map fst R)).
Proof. intros A R w x H. apply dedupw_in. exact (in_map fst _ _ H). Qed.

Lemma join_rows_in : forall Re R' w a avs,
  In (w, a) Re -> In (w, avs) R' -> In (w, a :: avs) (join_rows Re R').
Proof.
  intros Re R' w a avs Ha Havs. unfold join_rows. apply in_flat_map. exists (w, a). split; [exact Ha|].
  apply in_flat_map. exists (w, avs). split; [exact Havs|]. simpl. rewrite world_eqb_refl. left; reflexivity.
Qed.

Lemma asplit_true : forall lz pt pf R w a,
  In (w, a) R -> pt a = true -> In w (fst (asplit lz pt pf R)).
Proof.
  intros lz pt pf R w a HI HP. unfold asplit.
  assert (HT : In w (dedupw (map fst (filter (fun r => pt (snd r)) R)))).
  { apply worlds_in with a. apply filter_In. auto. }
  destruct lz; simpl; auto.
  destruct (dedupw (map fst (filter (fun r => pt (snd r)) R))); [destruct HT|]. exact (worlds_in _ _ _ HI).
Qed.

Lemma asplit_swap : forall lz pt pf R, snd (asplit lz pt pf R) = fst (asplit lz pf pt R).
Proof. intros lz pt pf R. unfold asplit. destruct lz; reflexivity. Qed.

Lemma asplit_false : forall lz pt pf R w a,
  In (w, a) R -> pf a = true -> In w (snd (asplit lz pt pf R)).
Proof. intros lz pt pf R w a HI HP. rewrite asplit_swap. exact (asplit_true _ _ _ _ _ _ HI HP). Qed.

Lemma asplit_truthy : forall lz R w a v, In (w, a) R -> gamma a v ->
  In w (if truthy v then fst (asplit lz (fun a => compat a true) (fun a => compat a false) R)
        else snd (asplit lz (fun a => compat a true) (fun a => compat a false) R)).
Proof.
  intros lz R w a v HI Hg. pose proof (compat_sound_lemma a v Hg) as C.
  destruct (truthy v); [eapply asplit_true | eapply asplit_false]; eauto.
Qed.

Lemma asplit_none : forall lz R w a v, In (w, a) R -> gamma a v ->
  In w (if is_vnone v then fst (asplit lz compat_none compat_notnone R)
        else snd (asplit lz compat_none compat_notnone R)).
Proof.
  intros lz R w a v HI Hg. pose proof (compat_none_sound_lemma a v Hg) as C.
  destruct (is_vnone v); [eapply asplit_true | eapply asplit_false]; eauto.
Qed.

Lemma aside_in : forall lz p R w a, In (w, a) R -> p a = true -> In (w, a) (aside lz p R).
Proof.
  intros lz p R w a HI HP. unfold aside. destruct lz.
  - assert (E : existsb (fun r => p (snd r)) R = true) by (apply existsb_exists; exists (w, a); auto).
    rewrite E. auto.
  - apply filter_In. auto.
Qed.

Lemma set_add_incl : forall vs acc, incl (fold_left set_add vs acc) (acc ++ vs).
Proof.
  induction vs as [|v vs IH]; intros acc x H; simpl in *.
  - rewrite app_nil_r. exact H.
  - apply IH in H. unfold set_add in H. destruct (existsb (veq v) acc).
    + apply in_app_or in H. apply in_or_app. simpl. tauto.
    + rewrite <- app_assoc in H. exact H.
Qed.

Lemma dict_add_incl : forall ks vs k v,
  incl (fst (dict_add ks vs k v)) (k :: ks) /\ incl (snd (dict_add ks vs k v)) (v :: vs).
Proof.
  induction ks as [|k0 ks IH]; intros vs k v; simpl.
  - split; intros x [<-|[]]; left; reflexivity.
  - destruct vs as [|v0 vs]; [split; intros x [<-|[]]; left; reflexivity|].
    destruct (veq k k0); simpl.
    + split; [apply incl_tl, incl_refl | intros x [<-|H]; simpl; auto].
    + specialize (IH vs k v). destruct (dict_add ks vs k v) as [ks2 vs2]. destruct IH as [I1 I2].
      split; intros x [<-|H]; simpl; auto; [destruct (I1 x H) | destruct (I2 x H)]; simpl; auto.
Qed.

Lemma dict_add_nonempty : forall ks vs k v, fst (dict_add ks vs k v) <> [].
Proof.
  intros [|k0 ks] vs k v; simpl; [discriminate|].
  destruct vs; simpl; [discriminate|].
  destruct (veq k k0); simpl; [discriminate|].
  destruct (dict_add ks vs k v); simpl; discriminate.
Qed.

Lemma mkdict_incl : forall kvs ks vs,
  incl (fst (mkdict kvs ks vs)) (ks ++ map fst kvs) /\ incl (snd (mkdict kvs ks vs)) (vs ++ map snd kvs).
Proof.
  induction kvs as [|[k v] kvs IH]; intros ks vs; simpl.
  - rewrite !app_nil_r. split; apply incl_refl.
  - destruct (dict_add_incl ks vs k v) as [D1 D2]. destruct (dict_add ks vs k v) as [ks2 vs2].
    destruct (IH ks2 vs2) as [I1 I2].
    split.
    + apply (incl_tran I1), incl_app; [apply (incl_tran D1) | apply incl_appr, incl_tl, incl_refl].
      intros x [<-|H]; apply in_or_app; simpl; auto.
    + apply (incl_tran I2), incl_app; [apply (incl_tran D2) | apply incl_appr, incl_tl, incl_refl].
      intros x [<-|H]; apply in_or_app; simpl; auto.
Qed.

Lemma mkdict_nonempty : forall kvs ks vs, (ks <> [] \/ kvs <> []) -> fst (mkdict kvs ks vs) <> [].
Proof.
  induction kvs as [|[k v] kvs IH]; intros ks vs H; simpl.
  - destruct H; auto.
  - pose proof (dict_add_nonempty ks vs k v) as D. destruct (dict_add ks vs k v) as [ks2 vs2]. apply IH. left. exact D.
Qed.

(* the i-th column of the argument rows contains the i-th binding of every row *)
Lemma columns_sound : forall rows avs vs,
  In avs rows -> Forall2 gamma avs vs -> Forall2 any_gamma (columns (length avs) rows) vs.
Proof.
  intros rows avs vs HI HF. unfold columns.
  assert (G : forall k pre suf vs', avs = pre ++ suf -> length pre = k -> Forall2 gamma suf vs' ->
              Forall2 any_gamma (map (column rows) (seq k (length suf))) vs').
  { intros k pre suf. revert k pre. induction suf as [|a suf IH]; intros k pre vs' E L F; inversion F; subst; simpl.
    - constructor.
    - constructor.
      + exists a. split; auto. unfold column. apply dedupa_in. apply in_flat_map. exists (pre ++ a :: suf).
        split; auto. rewrite nth_error_app2 by lia. rewrite Nat.sub_diag. simpl. auto.
      + apply (IH (S (length pre)) (pre ++ [a])); auto.
        * rewrite <- app_assoc. reflexivity.
        * rewrite app_length. simpl. lia. }
  apply (G 0 [] avs vs); auto.
Qed.

Lemma flat_rows_sound : forall (R : list (world * list aval)) w avs vs,
  In (w, avs) R -> Forall2 gamma avs vs -> Forall (any_gamma (dedupa (flat_map snd R))) vs.
Proof.
  intros R w avs vs HI HF. apply Forall_forall. intros x Hx.
  destruct (forall2_in_r _ _ _ _ HF Hx) as [a [Ha Hg]].
  exists a. split; [|exact Hg]. apply dedupa_in, in_flat_map. exists (w, avs); auto.
Qed.

Lemma gamma_bool_neg : forall o b, gamma (ABool o) (VBool b) -> gamma (ABool (option_map negb o)) (VBool (negb b)).
Proof. intros [x|] b H; simpl in *; eauto. inversion H; subst; auto. Qed.

Lemma idx_of_sound : forall ai vi z, gamma ai vi -> idx_of ai = Some z -> idx_val vi = Some z.
Proof.
  intros ai vi z HG HI. destruct ai as [[c|]| |k|c|[b|]| | | | | |]; simpl in HI; try discriminate.
  - inversion HI; subst. simpl in HG. subst. reflexivity.
  - inversion HI; subst. simpl in HG. subst. reflexivity.
Qed.

(* subscripts of a sequence: the element selected at run time is described by the element variable the binding of the
   index resolves to, if it resolves, and in any case by the bindings of all elements *)
Lemma seq_sub_sound : forall a v el xs ai vi r,
  sub_elems a = Some el -> seq_items v = Some xs -> Forall2 any_gamma el xs -> gamma ai vi ->
  csub v vi = Some r ->
  (forall bs, sub_resolved a ai = Some bs -> any_gamma bs r) /\ any_gamma (all_elems a) r.
Proof.
  intros a v el xs ai vi r Ea Ev HF HG HC. unfold csub in HC. unfold sub_resolved, all_elems. rewrite Ea. rewrite Ev in HC.
  destruct (idx_val vi) as [z|] eqn:EV; [|discriminate].
  destruct (norm_idx z (length xs)) as [k|] eqn:EK; [|discriminate].
  destruct (forall2_nth_r _ _ _ _ _ HF HC) as [bs0 [HN [b [Hb Hgb]]]].
  pose proof (Forall2_length HF) as EL.
  split.
  - intros bs HB. destruct (idx_of ai) as [z'|] eqn:EI; [|discriminate].
    pose proof (idx_of_sound _ _ _ HG EI) as E2. rewrite EV in E2. inversion E2; subst z'.
    rewrite EL, EK, HN in HB. inversion HB; subst. exists b; auto.
  - exists b. split; auto. apply dedupa_in, in_concat. exists bs0. split; [exact (nth_error_In _ _ HN) | exact Hb].
Qed.

Lemma asub_sound : forall lz idxs a ai v vi r,
  gamma a v -> gamma ai vi -> csub v vi = Some r -> any_gamma (asub lz idxs a ai) r.
Proof.
  intros lz idxs a ai v vi r HA HG HC. pose proof (gamma_shape _ _ HA) as S.
  (* only a list, a tuple or Any describes a value that can be subscripted *)
  destruct a as [c| |k|c|c| |el|el|bs|kd ks vs|]; simpl in S; shape_cases S; try discriminate HC.
  - apply gamma_list_iff in HA.
    destruct (seq_sub_sound (AList el) (VList x) el x ai vi r eq_refl eq_refl HA HG HC) as [S1 S2].
    unfold asub.
    destruct (lz && negb (forallb (fun j => is_some (sub_resolved (AList el) j)) idxs)); [exact S2|].
    destruct (sub_resolved (AList el) ai) as [bs|]; [exact (S1 _ eq_refl) | exact S2].
  - apply gamma_tuple_iff in HA.
    destruct (seq_sub_sound (ATuple el) (VTuple x) el x ai vi r eq_refl eq_refl HA HG HC) as [S1 S2].
    unfold asub.
    assert (ANY : any_gamma [AAny] r) by (exists AAny; simpl; auto).
    destruct lz.
    + destruct idxs as [|j [|j2 idxs]]; try exact ANY.
      destruct (sub_resolved (ATuple el) ai) as [bs|]; [exact (S1 _ eq_refl) | exact ANY].
    + destruct (sub_resolved (ATuple el) ai) as [bs|]; [exact (S1 _ eq_refl) | exact S2].
  - exists AAny. simpl. auto.
Qed.

(* Python's index normalisation: the totalised [norm_idx] answers exactly on the in-range indices *)
Lemma norm_idx_spec : forall z n k,
  norm_idx z n = Some k <->
  ((0 <= z < Z.of_nat n)%Z /\ Z.of_nat k = z) \/ ((- Z.of_nat n <= z < 0)%Z /\ Z.of_nat k = (z + Z.of_nat n)%Z).
Proof.
  intros z n k. unfold norm_idx.
  destruct ((0 <=? z) && (z <? Z.of_nat n))%Z eqn:E1.
  - apply andb_true_iff in E1 as [A B]. apply Z.leb_le in A. apply Z.ltb_lt in B.
    split; [intros H; injection H as <-; left; lia | intros [[_ H]|[H _]]; [f_equal; lia | lia]].
  - destruct ((z <? 0) && (- Z.of_nat n <=? z))%Z eqn:E2.
    + apply andb_true_iff in E2 as [A B]. apply Z.ltb_lt in A. apply Z.leb_le in B.
      split; [intros H; injection H as <-; right; lia | intros [[H _]|[_ H]]; [lia | f_equal; lia]].
    + apply andb_false_iff in E1, E2. rewrite Z.leb_gt, Z.ltb_ge in E1. rewrite Z.ltb_ge, Z.leb_gt in E2.
      split; [discriminate | lia].
Qed.

Definition call_sim (ccall : ftable -> store -> fname -> list value -> option value)
                    (acall : ftable -> fname -> list (world * list aval) -> list (world * aval)) : Prop :=
  forall ft g f vs v, ccall ft g f vs = Some v ->
  forall R w avs, In (w, avs) R -> Forall2 gamma avs vs -> w <> [] -> fmatch g (last w []) ->
  exists a, In (w, a) (acall ft f R) /\ gamma a v.

Section Sim.
  Variable lz : bool.
  Variable ccall : ftable -> store -> fname -> list value -> option value.
  Variable acall : ftable -> fname -> list (world * list aval) -> list (world * aval).
  Variable ft : ftable.
  Hypothesis Hcall : call_sim ccall acall.

  Definition expr_sim_at (e : expr) : Prop :=
    forall locs st v W w,
      ceval_expr ccall ft locs st e = Some v -> In w W -> wmatch locs st w ->
      exists a, In (w, a) (aexpr lz acall ft locs W e) /\ gamma a v.

  Definition cond_sim_at (c : expr) : Prop :=
    forall locs st v W w,
      ceval_expr ccall ft locs st c = Some v -> In w W -> wmatch locs st w ->
      In w (if truthy v then fst (acond lz acall ft locs W c) else snd (acond lz acall ft locs W c)).

  Lemma args_sim : forall es, Forall expr_sim_at es ->
    forall locs st vs W w,
      cevals ccall ft locs st es = Some vs -> In w W -> wmatch locs st w ->
      exists avs, In (w, avs) (aargs lz acall ft locs W es) /\ Forall2 gamma avs vs.
  Proof.
    induction es as [|e es IH]; intros HF locs st vs W w HE HI HW; unfold cevals in HE; simpl in HE.
    - injection HE as <-. exists []. split; [|constructor]. exact (in_map (fun w0 => (w0, [])) _ _ HI).
    - inversion HF as [|? ? He Hes]; subst.
      apply obind_some in HE as [v [Ev HE]]. apply obind_some in HE as [vs' [Evs HE]]. injection HE as <-.
      destruct (He locs st v W w Ev HI HW) as [a [Ha Hg]].
      destruct (IH Hes locs st vs' _ w Evs (worlds_in _ _ _ Ha) HW) as [avs [Havs HF2]].
      exists (a :: avs). split; [|constructor; auto]. exact (join_rows_in _ _ _ _ _ Ha Havs).
  Qed.

  Lemma sim_lit : forall e a v,
    (forall locs st, ceval_expr ccall ft locs st e = Some v) ->
    (forall locs W, aexpr lz acall ft locs W e = map (fun w => (w, a)) W) -> gamma a v -> expr_sim_at e.
  Proof.
    intros e a v HC HA Hg locs st v' W w HE HI _. rewrite HC in HE. injection HE as <-.
    exists a. rewrite HA. split; [exact (in_map (fun w0 => (w0, a)) _ _ HI) | exact Hg].
  Qed.

  Lemma sim_name : forall x, expr_sim_at (EName x).
  Proof.
    intros x locs st v W w HE HI HW. destruct (rd_sim _ _ _ _ _ HW HE) as [a [Ha Hg]].
    exists a. split; [|exact Hg]. simpl. apply in_flat_map. exists w. split; [exact HI|]. rewrite Ha. left; reflexivity.
  Qed.

  Lemma display_sim : forall es, Forall expr_sim_at es ->
    forall locs st vs W w,
      cevals ccall ft locs st es = Some vs -> In w W -> wmatch locs st w ->
      In w (dedupw (map fst (aargs lz acall ft locs W es))) /\
      Forall2 any_gamma (columns (length es) (map snd (aargs lz acall ft locs W es))) vs /\
      Forall (any_gamma (dedupa (flat_map snd (aargs lz acall ft locs W es)))) vs.
  Proof.
    intros es HF locs st vs W w HE HI HW.
    destruct (args_sim es HF locs st vs W w HE HI HW) as [avs [Havs HF2]].
    split; [exact (worlds_in _ _ _ Havs)|]. split; [|exact (flat_rows_sound _ _ _ _ Havs HF2)].
    rewrite <- (cevals_length _ _ _ HE), <- (Forall2_length HF2).
    apply columns_sound; [exact (in_map snd _ _ Havs) | exact HF2].
  Qed.

  Lemma sim_list : forall es, Forall expr_sim_at es -> expr_sim_at (EList es).
  Proof.
    intros es HF locs st v W w HE HI HW. simpl in HE. apply obind_some in HE as [vs [Evs HE]]. injection HE as <-.
    destruct (display_sim es HF locs st vs W w Evs HI HW) as [Hw [Hc _]].
    simpl. eexists. split; [exact (in_map _ _ _ Hw)|]. apply gamma_list_iff, Hc.
  Qed.

  Lemma sim_tuple : forall es, Forall expr_sim_at es -> expr_sim_at (ETuple es).
  Proof.
    intros es HF locs st v W w HE HI HW. simpl in HE. apply obind_some in HE as [vs [Evs HE]]. injection HE as <-.
    destruct (display_sim es HF locs st vs W w Evs HI HW) as [Hw [Hc _]].
    simpl. eexists. split; [exact (in_map _ _ _ Hw)|]. apply gamma_tuple_iff, Hc.
  Qed.

  Lemma sim_set : forall es, Forall expr_sim_at es -> expr_sim_at (ESet es).
  Proof.
    intros es HF locs st v W w HE HI HW. simpl in HE. apply obind_some in HE as [vs [Evs HE]].
    destruct (forallb hashable vs); [|discriminate]. injection HE as <-.
    destruct (display_sim es HF locs st vs W w Evs HI HW) as [Hw [_ Ha]].
    simpl. eexists. split; [exact (in_map _ _ _ Hw)|].
    apply gamma_set_iff. exact (incl_Forall (set_add_incl vs []) Ha).
  Qed.

  Lemma sim_dict : forall ks vs, Forall expr_sim_at ks -> Forall expr_sim_at vs -> expr_sim_at (EDict ks vs).
  Proof.
    intros ks vs HFk HFv locs st v W w HE HI HW. simpl in HE.
    apply obind_some in HE as [kvs [Eks HE]]. apply obind_some in HE as [vvs [Evs HE]].
    destruct (forallb hashable kvs); [|discriminate].
    destruct (mkdict_incl (combine kvs vvs) [] []) as [MK MV].
    pose proof (mkdict_nonempty (combine kvs vvs) [] []) as NE.
    destruct (mkdict (combine kvs vvs) [] []) as [dk dv]. injection HE as <-. simpl in MK, MV, NE.
    destruct (display_sim ks HFk locs st kvs W w Eks HI HW) as [Hwk [_ Hak]].
    destruct (display_sim vs HFv locs st vvs _ w Evs Hwk HW) as [Hwv [_ Hav]].
    simpl. eexists. split; [exact (in_map _ _ _ Hwv)|].
    apply gamma_dict_iff. split; [|split].
    - apply (incl_Forall MK), (incl_Forall (l1 := kvs)); [|exact Hak].
      intros x Hx. apply in_map_iff in Hx as [[k0 v0] [<- Hkv]]. exact (in_combine_l _ _ _ _ Hkv).
    - apply (incl_Forall MV), (incl_Forall (l1 := vvs)); [|exact Hav].
      intros x Hx. apply in_map_iff in Hx as [[k0 v0] [<- Hkv]]. exact (in_combine_r _ _ _ _ Hkv).
    - (* the kind: a display with no items is empty, any other has a key *)
      apply cevals_length in Eks, Evs. set (b := forallb is_astr _). clearbody b. clear - Eks Evs MK NE.
      destruct ks, kvs; try discriminate Eks; [exact (incl_l_nil MK)|].
      destruct vs, vvs; try discriminate Evs; [exact (incl_l_nil MK)|]. simpl in NE |- *.
      destruct b; [|exact I]. apply NE. right. discriminate.
  Qed.

  Lemma sim_not : forall e, expr_sim_at e -> expr_sim_at (ENot e).
  Proof.
    intros e IH locs st v W w HE HI HW. simpl in HE. apply obind_some in HE as [v' [Ev HE]]. injection HE as <-.
    simpl. destruct (lit_truth e) as [b|] eqn:HL.
    - rewrite (lit_truth_sound _ _ _ _ _ _ _ HL Ev). exists (ABool (Some (negb b))). split; [|exact eq_refl].
      exact (in_map (fun w0 => (w0, ABool (Some (negb b)))) _ _ HI).
    - destruct (IH locs st v' W w Ev HI HW) as [a [Ha Hg]].
      destruct (forallb _ (aexpr lz acall ft locs W e)).
      + exists (ABool None). split; [|simpl; eauto].
        apply dedupr_in. exact (in_map (fun r => (fst r, ABool None)) _ _ Ha).
      + pose proof (compat_sound_lemma a v' Hg) as C. exists (ABool (Some (negb (truthy v')))). split; [|exact eq_refl].
        apply dedupr_in, in_flat_map. exists (w, a). split; [exact Ha|]. apply in_or_app. simpl.
        destruct (truthy v'); rewrite C; simpl; auto.
  Qed.

  (* `is None`, `is not None`, isinstance: a test [G] of the value, answered from the binding by [F] *)
  Lemma sim_test : forall e e' (F : aval -> option bool) (G : value -> bool),
    expr_sim_at e ->
    (forall locs st, ceval_expr ccall ft locs st e' =
                     obind (ceval_expr ccall ft locs st e) (fun v => Some (VBool (G v)))) ->
    (forall locs W, aexpr lz acall ft locs W e' =
                    dedupr (map (fun r => (fst r, ABool (F (snd r)))) (aexpr lz acall ft locs W e))) ->
    (forall a v, gamma a v -> gamma (ABool (F a)) (VBool (G v))) -> expr_sim_at e'.
  Proof.
    intros e e' F G IH HC HA HFG locs st v W w HE HI HW.
    rewrite HC in HE. apply obind_some in HE as [v' [Ev HE]]. injection HE as <-.
    destruct (IH locs st v' W w Ev HI HW) as [a [Ha Hg]].
    exists (ABool (F a)). split; [|exact (HFG a v' Hg)].
    rewrite HA. apply dedupr_in. exact (in_map (fun r => (fst r, ABool (F (snd r)))) _ _ Ha).
  Qed.

  Lemma sim_and : forall a b, expr_sim_at a -> expr_sim_at b -> expr_sim_at (EAnd a b).
  Proof.
    intros e1 e2 IH1 IH2 locs st v W w HE HI HW. simpl in HE. apply obind_some in HE as [va [Ea HE]].
    simpl. destruct (lit_truth e1) as [[|]|] eqn:HL.
    - rewrite (lit_truth_sound _ _ _ _ _ _ _ HL Ea) in HE. exact (IH2 _ _ _ _ _ HE HI HW).
    - rewrite (lit_truth_sound _ _ _ _ _ _ _ HL Ea) in HE. injection HE as <-. exact (IH1 _ _ _ _ _ Ea HI HW).
    - destruct (IH1 locs st va W w Ea HI HW) as [a [Ha Hg]].
      pose proof (compat_sound_lemma a va Hg) as C. pose proof (asplit_truthy lz _ _ _ _ Ha Hg) as S.
      destruct (asplit lz _ _ (aexpr lz acall ft locs W e1)) as [tw fw]. destruct (truthy va).
      + destruct (IH2 locs st v tw w HE S HW) as [b [Hb Hgb]].
        exists b. split; [|exact Hgb]. apply dedupr_in, in_or_app. right. exact Hb.
      + injection HE as <-. exists a. split; [|exact Hg]. apply dedupr_in, in_or_app. left.
        apply aside_in; assumption.
  Qed.

  Lemma sim_or : forall a b, expr_sim_at a -> expr_sim_at b -> expr_sim_at (EOr a b).
  Proof.
    intros e1 e2 IH1 IH2 locs st v W w HE HI HW. simpl in HE. apply obind_some in HE as [va [Ea HE]].
    simpl. destruct (lit_truth e1) as [[|]|] eqn:HL.
    - rewrite (lit_truth_sound _ _ _ _ _ _ _ HL Ea) in HE. injection HE as <-. exact (IH1 _ _ _ _ _ Ea HI HW).
    - rewrite (lit_truth_sound _ _ _ _ _ _ _ HL Ea) in HE. exact (IH2 _ _ _ _ _ HE HI HW).
    - destruct (IH1 locs st va W w Ea HI HW) as [a [Ha Hg]].
      pose proof (compat_sound_lemma a va Hg) as C. pose proof (asplit_truthy lz _ _ _ _ Ha Hg) as S.
      destruct (asplit lz _ _ (aexpr lz acall ft locs W e1)) as [tw fw]. destruct (truthy va).
      + injection HE as <-. exists a. split; [|exact Hg]. apply dedupr_in, in_or_app. left.
        apply aside_in; assumption.
      + destruct (IH2 locs st v fw w HE S HW) as [b [Hb Hgb]].
        exists b. split; [|exact Hgb]. apply dedupr_in, in_or_app. right. exact Hb.
  Qed.

  Lemma sim_if : forall c a b, cond_sim_at c -> expr_sim_at a -> expr_sim_at b -> expr_sim_at (EIf c a b).
  Proof.
    intros c e2 e3 IHc IH2 IH3 locs st v W w HE HI HW. simpl in HE. apply obind_some in HE as [vc [Ec HE]].
    specialize (IHc locs st vc W w Ec HI HW). unfold acond in IHc. simpl.
    destruct (acond_with _ _ W c) as [tw fw]. simpl in IHc. destruct (truthy vc).
    - destruct (IH2 locs st v tw w HE IHc HW) as [a [Ha Hg]]. exists a. split; [|exact Hg].
      apply dedupr_in, in_or_app. left. exact Ha.
    - destruct (IH3 locs st v fw w HE IHc HW) as [a [Ha Hg]]. exists a. split; [|exact Hg].
      apply dedupr_in, in_or_app. right. exact Ha.
  Qed.

  Lemma sim_call : forall f es, Forall expr_sim_at es -> expr_sim_at (ECall f es).
  Proof.
    intros f es HF locs st v W w HE HI HW. simpl in HE. apply obind_some in HE as [vs [Evs HE]].
    destruct (args_sim es HF locs st vs W w Evs HI HW) as [avs [Havs HF2]].
    destruct (wmatch_globals _ _ _ HW) as [Hne HG].
    exact (Hcall _ _ _ _ _ HE _ _ _ Havs HF2 Hne HG).
  Qed.

  Lemma sim_sub : forall e i, expr_sim_at e -> expr_sim_at i -> expr_sim_at (ESub e i).
  Proof.
    intros e1 e2 IH1 IH2 locs st v W w HE HI HW. simpl in HE.
    apply obind_some in HE as [v1 [E1 HE]]. apply obind_some in HE as [v2 [E2 HE]].
    destruct (IH1 locs st v1 W w E1 HI HW) as [a [Ha Hga]].
    destruct (IH2 locs st v2 _ w E2 (worlds_in _ _ _ Ha) HW) as [ai [Hai Hgi]].
    simpl. set (idxs := dedupa _).
    destruct (asub_sound lz idxs a ai v1 v2 v Hga Hgi HE) as [b [Hb Hgb]].
    exists b. split; [|exact Hgb].
    apply dedupr_in, in_flat_map. exists (w, a). split; [exact Ha|].
    apply in_flat_map. exists (w, ai). split; [exact Hai|].
    simpl. rewrite world_eqb_refl. exact (in_map (fun b0 => (w, b0)) _ _ Hb).
  Qed.

  (* what [acond] does with a test that CPython does not fold *)
  Definition acond_struct (locs : option (list name)) (W : list world) (c : expr) : list world * list world :=
    match c with
    | ENot c' => let (t, f') := acond lz acall ft locs W c' in (f', t)
    | EAnd a b => let (t1, f1) := acond lz acall ft locs W a in
                  let (t2, f2) := acond lz acall ft locs t1 b in (t2, dedupw (f1 ++ f2))
    | EOr a b => let (t1, f1) := acond lz acall ft locs W a in
                 let (t2, f2) := acond lz acall ft locs f1 b in (dedupw (t1 ++ t2), f2)
    | EIf c0 a b => let (tc, fc) := acond lz acall ft locs W c0 in
                    let (t1, f1) := acond lz acall ft locs tc a in
                    let (t2, f2) := acond lz acall ft locs fc b in (dedupw (t1 ++ t2), dedupw (f1 ++ f2))
    | EIsNone e => asplit lz compat_none compat_notnone (aexpr lz acall ft locs W e)
    | EIsNotNone e => asplit lz compat_notnone compat_none (aexpr lz acall ft locs W e)
    | _ => asplit lz (fun a => compat a true) (fun a => compat a false) (aexpr lz acall ft locs W c)
    end.

  Lemma acond_unfold : forall locs W c,
    acond lz acall ft locs W c =
    match lit_truth c with
    | Some true => (W, [])
    | Some false => ([], W)
    | None => acond_struct locs W c
    end.
  Proof. intros locs W c. destruct c; reflexivity. Qed.

  Lemma cond_lit : forall c b, lit_truth c = Some b -> cond_sim_at c.
  Proof.
    intros c b HL locs st v W w HE HI _.
    rewrite acond_unfold, HL, (lit_truth_sound _ _ _ _ _ _ _ HL HE). destruct b; exact HI.
  Qed.

  Lemma cond_nonlit : forall c,
    (forall locs st v W w, ceval_expr ccall ft locs st c = Some v -> In w W -> wmatch locs st w ->
       In w (if truthy v then fst (acond_struct locs W c) else snd (acond_struct locs W c))) ->
    cond_sim_at c.
  Proof.
    intros c H. destruct (lit_truth c) as [b|] eqn:HL; [exact (cond_lit c b HL)|].
    intros locs st v W w. rewrite acond_unfold, HL. apply H.
  Qed.

  (* a test whose value is computed and then split on truthiness *)
  Lemma cond_default : forall c, expr_sim_at c ->
    (forall locs W, acond_struct locs W c
                    = asplit lz (fun a => compat a true) (fun a => compat a false) (aexpr lz acall ft locs W c)) ->
    cond_sim_at c.
  Proof.
    intros c He Hc. apply cond_nonlit. intros locs st v W w HE HI HW. rewrite Hc.
    destruct (He locs st v W w HE HI HW) as [a [Ha Hg]]. exact (asplit_truthy _ _ _ _ _ Ha Hg).
  Qed.

  Lemma cond_not : forall e, cond_sim_at e -> cond_sim_at (ENot e).
  Proof.
    intros e IH. apply cond_nonlit. intros locs st v W w HE HI HW.
    simpl in HE. apply obind_some in HE as [v' [Ev HE]]. injection HE as <-.
    specialize (IH locs st v' W w Ev HI HW). simpl.
    destruct (acond lz acall ft locs W e) as [t f]. destruct (truthy v'); exact IH.
  Qed.

  Lemma cond_isnone : forall e, expr_sim_at e -> cond_sim_at (EIsNone e).
  Proof.
    intros e IH. apply cond_nonlit. intros locs st v W w HE HI HW.
    simpl in HE. apply obind_some in HE as [v' [Ev HE]]. injection HE as <-.
    destruct (IH locs st v' W w Ev HI HW) as [a [Ha Hg]]. exact (asplit_none _ _ _ _ _ Ha Hg).
  Qed.

  Lemma cond_isnotnone : forall e, expr_sim_at e -> cond_sim_at (EIsNotNone e).
  Proof.
    intros e IH. apply cond_nonlit. intros locs st v W w HE HI HW.
    simpl in HE. apply obind_some in HE as [v' [Ev HE]]. injection HE as <-.
    destruct (IH locs st v' W w Ev HI HW) as [a [Ha Hg]]. pose proof (asplit_none lz _ _ _ _ Ha Hg) as S.
    (* `is not None` is `is None` with the two sides exchanged *)
    simpl. rewrite (asplit_swap lz compat_notnone compat_none), <- (asplit_swap lz compat_none compat_notnone).
    destruct v'; exact S.
  Qed.

  Lemma cond_and : forall a b, cond_sim_at a -> cond_sim_at b -> cond_sim_at (EAnd a b).
  Proof.
    intros e1 e2 IH1 IH2. apply cond_nonlit. intros locs st v W w HE HI HW.
    simpl in HE. apply obind_some in HE as [va [Ea HE]].
    specialize (IH1 locs st va W w Ea HI HW). simpl.
    destruct (acond lz acall ft locs W e1) as [t1 f1]. destruct (truthy va) eqn:Ta.
    - specialize (IH2 locs st v t1 w HE IH1 HW). destruct (acond lz acall ft locs t1 e2) as [t2 f2].
      destruct (truthy v); [exact IH2 | apply dedupw_in, in_or_app; right; exact IH2].
    - injection HE as <-. rewrite Ta. destruct (acond lz acall ft locs t1 e2) as [t2 f2].
      apply dedupw_in, in_or_app. left. exact IH1.
  Qed.

  Lemma cond_or : forall a b, cond_sim_at a -> cond_sim_at b -> cond_sim_at (EOr a b).
  Proof.
    intros e1 e2 IH1 IH2. apply cond_nonlit. intros locs st v W w HE HI HW.
    simpl in HE. apply obind_some in HE as [va [Ea HE]].
    specialize (IH1 locs st va W w Ea HI HW). simpl.
    destruct (acond lz acall ft locs W e1) as [t1 f1]. destruct (truthy va) eqn:Ta.
    - injection HE as <-. rewrite Ta. destruct (acond lz acall ft locs f1 e2) as [t2 f2].
      apply dedupw_in, in_or_app. left. exact IH1.
    - specialize (IH2 locs st v f1 w HE IH1 HW). destruct (acond lz acall ft locs f1 e2) as [t2 f2].
      destruct (truthy v); [apply dedupw_in, in_or_app; right; exact IH2 | exact IH2].
  Qed.

  Lemma cond_if : forall c a b, cond_sim_at c -> cond_sim_at a -> cond_sim_at b -> cond_sim_at (EIf c a b).
  Proof.
    intros e1 e2 e3 IH1 IH2 IH3. apply cond_nonlit. intros locs st v W w HE HI HW.
    simpl in HE. apply obind_some in HE as [vc [Ec HE]].
    specialize (IH1 locs st vc W w Ec HI HW). simpl.
    destruct (acond lz acall ft locs W e1) as [tc fc]. destruct (truthy vc).
    - specialize (IH2 locs st v tc w HE IH1 HW).
      destruct (acond lz acall ft locs tc e2) as [t1 f1]. destruct (acond lz acall ft locs fc e3) as [t2 f2].
      destruct (truthy v); apply dedupw_in, in_or_app; left; exact IH2.
    - specialize (IH3 locs st v fc w HE IH1 HW).
      destruct (acond lz acall ft locs tc e2) as [t1 f1]. destruct (acond lz acall ft locs fc e3) as [t2 f2].
      destruct (truthy v); apply dedupw_in, in_or_app; right; exact IH3.
  Qed.

  Lemma sim_both : forall e, expr_sim_at e /\ cond_sim_at e.
  Proof.
    assert (F1 : forall es, Forall (fun e => expr_sim_at e /\ cond_sim_at e) es -> Forall expr_sim_at es).
    { intros es H. eapply Forall_impl; [|exact H]. intros a Ha. apply Ha. }
    pose proof (fun c (X : expr_sim_at c) H => conj X (cond_default c X H)) as D.
    induction e using expr_ind'.
    - split; [apply (sim_lit _ (a_int z) (VInt z)); auto using a_int_sound | eapply cond_lit; reflexivity].
    - split; [apply (sim_lit _ AFloat (VFloat k)); simpl; eauto | eapply cond_lit; reflexivity].
    - split; [apply (sim_lit _ (AStr k) (VStr k)); simpl; auto | eapply cond_lit; reflexivity].
    - split; [apply (sim_lit _ (ABytes (Some k)) (VBytes k)); simpl; auto | eapply cond_lit; reflexivity].
    - split; [apply (sim_lit _ (ABool (Some b)) (VBool b)); simpl; auto | eapply cond_lit; reflexivity].
    - split; [apply (sim_lit _ ANone VNone); simpl; auto | eapply cond_lit; reflexivity].
    - apply D; [apply sim_name | reflexivity].
    - apply D; [apply sim_list; auto | reflexivity].
    - apply D; [apply sim_tuple; auto | reflexivity].
    - apply D; [apply sim_set; auto | reflexivity].
    - apply D; [apply sim_dict; auto | reflexivity].
    - destruct IHe as [X C]. split; [exact (sim_not e X) | exact (cond_not e C)].
    - destruct IHe as [X _]. split; [|exact (cond_isnone e X)].
      apply (sim_test e _ a_isnone is_vnone X); auto using a_isnone_sound_lemma.
    - destruct IHe as [X _]. split; [|exact (cond_isnotnone e X)].
      apply (sim_test e _ (fun a => option_map negb (a_isnone a))
                      (fun v => match v with VNone => false | _ => true end) X); auto.
      intros a v Hg. pose proof (gamma_bool_neg _ _ (a_isnone_sound_lemma a v Hg)) as S. destruct v; exact S.
    - destruct IHe as [X _]. apply D; [|reflexivity].
      apply (sim_test e _ (fun a => a_isinst a c) (fun v => isinst v c) X); auto.
      intros a v. apply a_isinst_sound_lemma.
    - destruct IHe1 as [X1 C1], IHe2 as [X2 C2]. split; [exact (sim_and _ _ X1 X2) | exact (cond_and _ _ C1 C2)].
    - destruct IHe1 as [X1 C1], IHe2 as [X2 C2]. split; [exact (sim_or _ _ X1 X2) | exact (cond_or _ _ C1 C2)].
    - destruct IHe1 as [_ C1], IHe2 as [X2 C2], IHe3 as [X3 C3].
      split; [exact (sim_if _ _ _ C1 X2 X3) | exact (cond_if _ _ _ C1 C2 C3)].
    - apply D; [apply sim_call; auto | reflexivity].
    - destruct IHe1 as [X1 _], IHe2 as [X2 _]. apply D; [exact (sim_sub _ _ X1 X2) | reflexivity].
  Qed.

  Lemma expr_sim : forall e, expr_sim_at e.
  Proof. intros e. apply sim_both. Qed.
  Lemma cond_sim : forall e, cond_sim_at e.
  Proof. intros e. apply sim_both. Qed.

  Definition out_sim (locs : option (list name)) (w : world) (out : outcome)
             (res : list world * list (world * aval)) : Prop :=
    match out with
    | Normal st' => exists w', In w' (fst res) /\ wmatch locs st' w' /\ tl w' = tl w
    | Returned v => exists w' a, In (w', a) (snd res) /\ tl w' = tl w /\ gamma a v
    end.

  Lemma out_sim_step : forall locs w1 w out W1 r1 W2 r2,
    tl w1 = tl w -> incl W1 W2 -> incl r1 r2 -> out_sim locs w1 out (W1, r1) -> out_sim locs w out (W2, r2).
  Proof.
    intros locs w1 w [st'|v] W1 r1 W2 r2 Htl HW Hr; simpl.
    - intros [w' [Hw' [M T]]]. exists w'. split; [apply HW, Hw' | split; [exact M | congruence]].
    - intros [w' [a [Hw' [T G]]]]. exists w', a. split; [apply Hr, Hw' | split; [congruence | exact G]].
  Qed.

  (* what a call returns: the value of a `return`, or None when the body falls off its end *)
  Lemma out_sim_result : forall locs w out cont rets, out_sim locs w out (cont, rets) ->
    exists w' a, In (w', a) (rets ++ map (fun w0 => (w0, ANone)) cont) /\ tl w' = tl w /\
                 gamma a match out with Normal _ => VNone | Returned v => v end.
  Proof.
    intros locs w [st'|v] cont rets; simpl.
    - intros [w' [Hw' [_ T]]]. exists w', ANone. split; [|split; [exact T | reflexivity]].
      apply in_or_app. right. exact (in_map (fun w0 => (w0, ANone)) _ _ Hw').
    - intros [w' [a [Hw' R]]]. exists w', a. split; [apply in_or_app; left; exact Hw' | exact R].
  Qed.

  Definition stmt_sim_at (s : stmt) : Prop :=
    forall locs st out W w,
      cexec_stmt ccall ft locs st s = Some out -> In w W -> wmatch locs st w ->
      out_sim locs w out (astmt lz acall ft locs W s).

  Definition block_sim_at (ss : list stmt) : Prop :=
    forall locs st out W w,
      cexec_block ccall ft locs st ss = Some out -> In w W -> wmatch locs st w ->
      out_sim locs w out (ablock lz acall ft locs W ss).

  Lemma block_sim : forall ss, Forall stmt_sim_at ss -> block_sim_at ss.
  Proof.
    induction ss as [|s ss IH]; intros HF locs st out W w HE HI HW.
    - injection HE as <-. exists w. auto.
    - inversion HF as [|? ? Hs Hss]; subst. unfold cexec_block in HE. simpl in HE. unfold ablock. simpl.
      destruct (cexec_stmt ccall ft locs st s) as [[st1|v1]|] eqn:Es; [| |discriminate];
        pose proof (Hs locs st _ W w Es HI HW) as S1; destruct (astmt lz acall ft locs W s) as [W1 r1].
      + destruct S1 as [w1 [Hw1 [HW1 Htl1]]].
        pose proof (IH Hss locs st1 out W1 w1 HE Hw1 HW1) as S2. unfold ablock in S2.
        destruct (ablock_with _ W1 ss) as [W2 r2].
        revert S2. apply out_sim_step; [exact Htl1 | apply incl_refl | apply incl_appr, incl_refl].
      + injection HE as <-. destruct (ablock_with _ W1 ss) as [W2 r2].
        destruct S1 as [w' [a [Hw' R]]]. exists w', a. split; [apply in_or_app; left; exact Hw' | exact R].
  Qed.

  Lemma stmt_sim : forall s, stmt_sim_at s.
  Proof.
    induction s using stmt_ind'; intros locs st out W w HE HI HW.
    - simpl in HE. apply obind_some in HE as [v [Ev HE]]. injection HE as <-.
      destruct (expr_sim e locs st v W w Ev HI HW) as [a [Ha Hg]].
      destruct (wmatch_assign locs st w x v a HW Hg) as [HW' Htl].
      exists (wassign w x a). split; [|split; assumption].
      apply dedupw_in. exact (in_map (fun r => wassign (fst r) x (snd r)) _ _ Ha).
    - (* if: the world follows the branch the concrete run takes *)
      simpl in HE. apply obind_some in HE as [vc [Ec HE]].
      pose proof (cond_sim c locs st vc W w Ec HI HW) as C. simpl.
      destruct (acond lz acall ft locs W c) as [tw fw]. simpl in C.
      assert (S : out_sim locs w out (if truthy vc then ablock lz acall ft locs tw th
                                      else ablock lz acall ft locs fw el)).
      { destruct (truthy vc); [exact (block_sim th H _ _ _ _ _ HE C HW) | exact (block_sim el H0 _ _ _ _ _ HE C HW)]. }
      unfold ablock in S. destruct (ablock_with _ tw th) as [w1 r1], (ablock_with _ fw el) as [w2 r2].
      destruct (truthy vc); revert S; apply out_sim_step; try reflexivity.
      + intros x Hx. apply dedupw_in, in_or_app. left; exact Hx.
      + apply incl_appl, incl_refl.
      + intros x Hx. apply dedupw_in, in_or_app. right; exact Hx.
      + apply incl_appr, incl_refl.
    - injection HE as <-. exists w. auto.
    - simpl in HE. destruct locs as [L|]; [|discriminate].
      apply obind_some in HE as [v [Ev HE]]. injection HE as <-.
      destruct (expr_sim e (Some L) st v W w Ev HI HW) as [a [Ha Hg]]. exists w, a. auto.
  Qed.

  Lemma block_sim' : forall ss, block_sim_at ss.
  Proof. intros ss. apply block_sim. apply Forall_forall. intros s _. apply stmt_sim. Qed.
End Sim.

Lemma bind_params_match : forall params avs vs s fr,
  fmatch s fr -> Forall2 gamma avs vs ->
  fmatch (fold_left (fun s pa => sset (fst pa) (snd pa) s) (combine params vs) s)
         (fold_left (fun fr pa => fset (fst pa) (snd pa) fr) (combine params avs) fr).
Proof.
  induction params as [|p params IH]; intros avs vs s fr HM HF; simpl; auto.
  inversion HF; subst; simpl; auto.
  apply IH; auto. apply fmatch_set; auto.
Qed.

Lemma wmatch_call : forall L g params vs avs w,
  Forall2 gamma avs vs -> w <> [] -> fmatch g (last w []) ->
  wmatch (Some L) (mkc g (bind_params params vs)) (mkframe params avs :: w).
Proof.
  intros L g params vs avs w HF Hne HG. exists (mkframe params avs), w. repeat split; auto.
  apply bind_params_match; [apply fmatch_nil | exact HF].
Qed.

Lemma acall_n_S : forall lz m ft f R,
  acall_n lz (S m) ft f R =
  match flook ft f with
  | None => []
  | Some (params, body) =>
      let R' := filter (fun r => length params =? length (snd r)) R in
      let W2 := dedupw (map (fun r => mkframe params (snd r) :: fst r) R') in
      let (cont, rets) := ablock lz (acall_n lz m) ft (Some (params ++ assigned_block body)) W2 body in
      dedupr (map (fun r => (tl (fst r), snd r)) (rets ++ map (fun w => (w, ANone)) cont))
  end.
Proof. reflexivity. Qed.

(* every concrete call is described by one of the abstract return bindings of the analysed call *)
Lemma call_sim_n : forall lz n m, call_sim (ccall_n n) (acall_n lz m).
Proof.
  intros lz. induction n as [|n IH]; intros m ft g f vs v HC R w avs HI HF Hne HG; [discriminate|].
  destruct m as [|m].
  - (* depth cut-off: Any *)
    exists AAny. split; [exact (in_map (fun w0 => (w0, AAny)) _ _ (worlds_in _ _ _ HI)) | exact I].
  - simpl in HC. rewrite acall_n_S.
    destruct (flook ft f) as [[params body]|]; [|discriminate]. cbv zeta.
    destruct (length params =? length vs) eqn:EL; [|discriminate]. simpl in HC.
    assert (ELa : length params =? length avs = true) by (rewrite (Forall2_length HF); exact EL).
    set (L := params ++ assigned_block body) in *. set (W2 := dedupw _).
    assert (HW2 : In (mkframe params avs :: w) W2).
    { apply dedupw_in, (in_map (fun r => mkframe params (snd r) :: fst r) _ (w, avs)), filter_In. auto. }
    pose proof (wmatch_call L g params vs avs w HF Hne HG) as HM.
    destruct (cexec_block (ccall_n n) ft (Some L) _ body) as [out|] eqn:EB; [|discriminate].
    pose proof (block_sim' lz _ _ ft (IH m) _ _ _ _ _ _ EB HW2 HM) as S.
    destruct (ablock lz (acall_n lz m) ft (Some L) W2 body) as [cont rets].
    destruct (out_sim_result _ _ _ _ _ S) as [w' [a [Hin [Htl Hg]]]].
    exists a. split; [|destruct out; injection HC as <-; exact Hg].
    apply dedupr_in. simpl in Htl. rewrite <- Htl. exact (in_map _ _ (w', a) Hin).
Qed.

Lemma run_sim : forall lz fuel p ft g sigma W w,
  crun fuel ft g p = Some sigma -> In w W -> wmatch None (mkc g []) w ->
  exists w', In w' (arun lz ft W p) /\ wmatch None (mkc sigma []) w'.
Proof.
  intros lz fuel. induction p as [|[f ps b|s] p IH]; intros ft g sigma W w HR HI HW; cbn [crun] in HR; cbn [arun].
  - injection HR as <-. exists w. auto.
  - exact (IH _ _ _ _ _ HR HI HW).
  - destruct (cexec_stmt (ccall_n fuel) ft None (mkc g []) s) as [[st|rv]|] eqn:Es; try discriminate.
    destruct (stmt_sim lz _ _ ft (call_sim_n lz fuel MAX_DEPTH) s None _ _ W w Es HI HW) as [w' [Hw' [HW' _]]].
    exact (IH _ _ _ _ _ HR Hw' HW').
Qed.

Lemma values_of_in : forall x Ws w a, In w Ws -> flookup x (hd [] w) = Some a -> In a (values_of x Ws).
Proof.
  intros x Ws w a HI HL. unfold values_of. apply dedupa_in. apply in_flat_map. exists w. split; auto.
  rewrite HL. left; auto.
Qed.

(* the inferred type (either mode) of a module-level name admits the value the name holds when the module
   has run to completion *)
Lemma infer_mode_sound_lemma : forall lz fuel p sigma x v,
  ceval fuel p = Some sigma -> slook sigma x = Some v -> admits (infer_mode lz p x) v.
Proof.
  intros lz fuel p sigma x v HC HS.
  destruct (run_sim lz fuel p [] [] sigma W0 [[]] HC (or_introl eq_refl) wmatch_init) as [w' [Hw' [fr [-> HM]]]].
  destruct (HM x v HS) as [a [Ha Hg]].
  apply (printed_sound _ a v); [|exact Hg]. apply values_of_in with (w := [fr]); [|exact Ha].
  apply in_or_app. left. exact Hw'.
Qed.
