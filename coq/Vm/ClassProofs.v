(* C01, fragment L1 (classes): soundness of the abstract interpreter of Vm/ClassModel.v w.r.t. its concrete
   semantics, by simulation on top of the L0 simulation of Vm/Proofs.v. *)
From Coq Require Import List ZArith Arith Bool.
From PV Require Import Vm.Model Vm.Lemmas Vm.TypesProofs Vm.Proofs Vm.ClassModel.
From PV Require Mro.Model Mro.Proofs.
Import ListNotations.
Open Scope nat_scope.

Section LStmtInd.
  Variable P : lstmt -> Prop.
  Hypothesis HAssign : forall x e, P (LAssign x e).
  Hypothesis HGet : forall x o a, P (LGet x o a).
  Hypothesis HSet : forall o a e, P (LSet o a e).
  Hypothesis HNew : forall o c args, P (LNew o c args).
  Hypothesis HCall : forall x o m args, P (LCall x o m args).
  Hypothesis HSuper : forall x m args, P (LSuper x m args).
  Hypothesis HIf : forall c th el, Forall P th -> Forall P el -> P (LIf c th el).
  Hypothesis HPass : P LPass.
  Hypothesis HReturn : forall e, P (LReturn e).

  Fixpoint lstmt_ind' (s : lstmt) : P s :=
    let fl := fix fl (ss : list lstmt) : Forall P ss :=
                match ss with
                | [] => Forall_nil P
                | s' :: ss' => Forall_cons s' (lstmt_ind' s') (fl ss')
                end in
    match s with
    | LAssign x e => HAssign x e
    | LGet x o a => HGet x o a
    | LSet o a e => HSet o a e
    | LNew o c args => HNew o c args
    | LCall x o m args => HCall x o m args
    | LSuper x m args => HSuper x m args
    | LIf c th el => HIf c th el (fl th) (fl el)
    | LPass => HPass
    | LReturn e => HReturn e
    end.
End LStmtInd.

Lemma pair_eqb_eq : forall p q, pair_eqb p q = true -> p = q.
Proof.
  intros [a b] [c d] H. unfold pair_eqb in H. simpl in H. apply andb_true_iff in H as [H1 H2].
  apply Nat.eqb_eq in H1. apply Nat.eqb_eq in H2. subst. reflexivity.
Qed.

Lemma hent_eqb_eq : forall p q, hent_eqb p q = true -> p = q.
Proof.
  intros [a b] [c d] H. unfold hent_eqb in H. simpl in H. apply andb_true_iff in H as [H1 H2].
  apply Nat.eqb_eq in H1. apply frame_eqb_eq in H2. subst. reflexivity.
Qed.

Lemma lworld_eqb_eq : forall a b, lworld_eqb a b = true -> a = b.
Proof.
  intros [w1 o1 h1 b1] [w2 o2 h2 b2] H. unfold lworld_eqb in H. simpl in H.
  apply andb_true_iff in H as [H H4]. apply andb_true_iff in H as [H H3]. apply andb_true_iff in H as [H1 H2].
  apply world_eqb_eq in H1.
  apply list_eqb_eq in H2; [|apply Forall_forall; intros; apply pair_eqb_eq; auto].
  apply list_eqb_eq in H3; [|apply Forall_forall; intros; apply hent_eqb_eq; auto].
  apply eqb_prop in H4. subst. reflexivity.
Qed.

Lemma lres_eqb_eq : forall p q, lres_eqb p q = true -> p = q.
Proof.
  intros [a b] [c d] H. unfold lres_eqb in H. simpl in H. apply andb_true_iff in H as [H1 H2].
  apply lworld_eqb_eq in H1. apply aval_eqb_eq in H2. subst. reflexivity.
Qed.

Lemma key_eqb_eq : forall p q, key_eqb p q = true -> p = q.
Proof.
  intros [a b] [c d] H. unfold key_eqb in H. simpl in H. apply andb_true_iff in H as [H1 H2].
  apply Nat.eqb_eq in H1.
  apply list_eqb_eq in H2; [|apply Forall_forall; intros ? _ ? E; apply Nat.eqb_eq; auto].
  subst. reflexivity.
Qed.

Lemma key_eqb_refl : forall k, key_eqb k k = true.
Proof.
  intros [a b]. unfold key_eqb. simpl. rewrite Nat.eqb_refl. simpl.
  induction b as [|x b IH]; simpl; auto. rewrite Nat.eqb_refl. auto.
Qed.

Lemma dedupl_in : forall l W, In W l -> In W (dedupl l).
Proof. intros. apply dedup_in; auto. apply lworld_eqb_eq. Qed.
Lemma deduplr_in : forall l r, In r l -> In r (deduplr l).
Proof. intros. apply dedup_in; auto. apply lres_eqb_eq. Qed.

(* the abstract instance dict has no attribute that the concrete one lacks, so a read that falls through to
   the class does so on both sides *)
Definition fdom (s : store) (fr : frame) : Prop := forall a, slook s a = None -> flookup a fr = None.
Definition hent_rel (cs : cname * store) (cf : cname * frame) : Prop :=
  fst cs = fst cf /\ fmatch (snd cs) (snd cf) /\ fdom (snd cs) (snd cf).

(* unless the world is havocked, the object environments coincide and the heaps agree object by object *)
Definition hrel (h : bool) (co : list (oname * nat)) (ch : list (cname * store))
                (aob : list (oname * nat)) (ahp : list (cname * frame)) : Prop :=
  h = true \/ (co = aob /\ Forall2 hent_rel ch ahp).

Definition lmatch (locs : option (list name)) (st : lstate) (W : lworld) : Prop :=
  wmatch locs (lv st) (aw W) /\ hrel (hv W) (lo st) (lh st) (ao W) (ah W).

Lemma hrel_cases : forall h co ch aob ahp, hrel h co ch aob ahp ->
  h = true \/ (h = false /\ co = aob /\ Forall2 hent_rel ch ahp).
Proof. intros [|] co ch aob ahp [H|H]; auto; discriminate. Qed.

Lemma forall2_upd : forall {A B} (P : A -> B -> Prop) l1 l2 i x y,
  Forall2 P l1 l2 -> P x y -> Forall2 P (upd i x l1) (upd i y l2).
Proof.
  intros A B P l1 l2 i x y H. revert i. induction H; intros [|i] HP; simpl; constructor; auto.
Qed.

Lemma upd_length : forall {A} i (x : A) l, length (upd i x l) = length l.
Proof. intros A i x l. revert i. induction l; intros [|i]; simpl; auto. Qed.

Lemma flookup_nil : forall a, flookup a [] = None.
Proof. reflexivity. Qed.

Lemma fdom_set : forall s fr a v av, fdom s fr -> fdom (sset a v s) (fset a av fr).
Proof.
  intros s fr a v av H b Hb. unfold sset in Hb. simpl in Hb.
  destruct (a =? b) eqn:E; [discriminate|]. apply Nat.eqb_neq in E.
  rewrite flookup_fset_other; auto.
Qed.

Lemma lmatch_alloc : forall locs st W c,
  lmatch locs st W ->
  lmatch locs (mkl (lv st) (lo st) (lh st ++ [(c, [])])) (mkw (aw W) (ao W) (ah W ++ [(c, [])]) (hv W)).
Proof.
  intros locs st W c [HW [HH|[Ho Hh]]]; (split; [exact HW|]); [left; exact HH|].
  right. split; [exact Ho|]. apply Forall2_app; [exact Hh|]. constructor; [|constructor].
  repeat split. apply fmatch_nil.
Qed.

Lemma lmatch_bind : forall locs st W o i,
  lmatch locs st W -> (hv W = false -> i = pred (length (ah W))) ->
  lmatch locs (mkl (lv st) ((o, i) :: lo st) (lh st)) (mkw (aw W) ((o, pred (length (ah W))) :: ao W) (ah W) (hv W)).
Proof.
  intros locs st W o i [HW HH] Hi. split; [exact HW|]. simpl.
  destruct (hrel_cases _ _ _ _ _ HH) as [E|[E [Ho Hh]]]; [left; exact E|].
  right. split; [|exact Hh]. rewrite (Hi E), Ho. reflexivity.
Qed.

Lemma worlds0_in : forall Ws W, In W Ws -> In (aw W) (worlds0 Ws).
Proof. intros. unfold worlds0. apply dedupw_in. apply in_map. auto. Qed.

Lemma lift_in : forall {A} Ws (R : list (world * A)) W x, In W Ws -> In (aw W, x) R -> In (W, x) (lift Ws R).
Proof.
  intros A Ws R W x HW HR. unfold lift. apply in_flat_map. exists W. split; auto.
  apply in_flat_map. exists (aw W, x). split; auto. simpl. rewrite world_eqb_refl. left; auto.
Qed.

Lemma sel_in : forall Ws ws W, In W Ws -> In (aw W) ws -> In W (sel Ws ws).
Proof.
  intros Ws ws W HW Hw. unfold sel. apply filter_In. split; auto.
  apply existsb_exists. exists (aw W). split; auto. apply world_eqb_refl.
Qed.

Lemma bind_res_in : forall x R W a, In (W, a) R -> In (set_aw W (wassign (aw W) x a)) (bind_res x R).
Proof.
  intros x R W a H. apply dedupl_in. exact (in_map (fun r => set_aw (fst r) (wassign (aw (fst r)) x (snd r))) _ _ H).
Qed.

Lemma lmatch_assign : forall locs st W x v a,
  lmatch locs st W -> gamma a v ->
  lmatch locs (lassign locs st x v) (set_aw W (wassign (aw W) x a))
  /\ tl (aw (set_aw W (wassign (aw W) x a))) = tl (aw W).
Proof.
  intros locs st W x v a [HW HH] HG.
  destruct (wmatch_assign locs (lv st) (aw W) x v a HW HG) as [HW' Htl].
  split; [split|]; simpl; auto.
Qed.

(* a method invocation leaves the caller's names and object names alone and allocates nothing *)
Definition mpres (mcall : ftable -> lstate -> nat -> list cname -> mname -> list value -> option (lstate * value))
  : Prop :=
  forall ft st i cands m vs st' v, mcall ft st i cands m vs = Some (st', v) ->
    lv st' = lv st /\ lo st' = lo st /\ length (lh st') = length (lh st).

Definition out_state (o : loutcome) : lstate := match o with LNormal st => st | LReturned st _ => st end.

Definition msim (mcall : ftable -> lstate -> nat -> list cname -> mname -> list value -> option (lstate * value))
                (amcall : ftable -> list (lworld * list aval) -> nat -> list cname -> mname -> list (lworld * aval))
  : Prop :=
  forall ft st i cands m vs st' v, mcall ft st i cands m vs = Some (st', v) ->
    forall rows W avs, In (W, avs) rows -> Forall2 gamma avs vs ->
      aw W <> [] -> fmatch (cg (lv st)) (last (aw W) []) -> hv W = false ->
      lo st = ao W -> Forall2 hent_rel (lh st) (ah W) ->
      exists W' a, In (W', a) (amcall ft rows i cands m) /\ gamma a v /\ aw W' = aw W
                   /\ hrel (hv W') (lo st') (lh st') (ao W') (ah W').

Section LSim.
  Variable lz : bool.
  Variable ce : cenv.
  Variable fuel0 : nat.
  Variable acall : ftable -> fname -> list (world * list aval) -> list (world * aval).
  Variable mcall : ftable -> lstate -> nat -> list cname -> mname -> list value -> option (lstate * value).
  Variable amcall : ftable -> list (lworld * list aval) -> nat -> list cname -> mname -> list (lworld * aval).
  Variable ft : ftable.
  Hypothesis Hcall : call_sim (ccall_n fuel0) acall.
  Hypothesis Hp : mpres mcall.
  Hypothesis Hm : msim mcall amcall.

  (* inside a method ([slf] is set) the object environment and the number of objects do not change *)
  Definition pres_at (s : lstmt) : Prop :=
    forall slf0 locs st out, lexec ce fuel0 mcall ft (Some slf0) locs st s = Some out ->
      lo (out_state out) = lo st /\ length (lh (out_state out)) = length (lh st).

  Definition pres_block_at (ss : list lstmt) : Prop :=
    forall slf0 locs st out, lexec_block ce fuel0 mcall ft (Some slf0) locs st ss = Some out ->
      lo (out_state out) = lo st /\ length (lh (out_state out)) = length (lh st).

  Lemma pres_block : forall ss, Forall pres_at ss -> pres_block_at ss.
  Proof.
    induction ss as [|s ss IH]; intros HF slf0 locs st out HE.
    - injection HE as <-. split; reflexivity.
    - inversion HF as [|? ? Hs Hss]; subst. unfold lexec_block in HE. simpl in HE.
      destruct (lexec ce fuel0 mcall ft (Some slf0) locs st s) as [[st1|st1 v1]|] eqn:Es; try discriminate.
      + destruct (Hs slf0 locs st _ Es) as [A B]. simpl in A, B.
        destruct (IH Hss slf0 locs st1 out HE) as [C D]. split; congruence.
      + injection HE as <-. exact (Hs slf0 locs st _ Es).
  Qed.

  Lemma pres_stmt : forall s, pres_at s.
  Proof.
    induction s using lstmt_ind'; intros slf0 locs st out HE; simpl in HE.
    - apply obind_some in HE as [v [_ HE]]. injection HE as <-. split; reflexivity.
    - apply obind_some in HE as [i [_ HE]]. apply obind_some in HE as [cs [_ HE]].
      apply obind_some in HE as [v [_ HE]]. injection HE as <-. split; reflexivity.
    - apply obind_some in HE as [v [_ HE]]. apply obind_some in HE as [i [_ HE]].
      apply obind_some in HE as [cs [_ HE]]. injection HE as <-. split; [reflexivity | apply upd_length].
    - discriminate.
    - apply obind_some in HE as [vs [_ HE]]. apply obind_some in HE as [i [_ HE]].
      apply obind_some in HE as [cs [_ HE]]. apply obind_some in HE as [[st' v] [Em HE]]. injection HE as <-.
      apply (Hp _ _ _ _ _ _ _ _ Em).
    - destruct slf0 as [i k]. apply obind_some in HE as [vs [_ HE]].
      apply obind_some in HE as [cs [_ HE]]. apply obind_some in HE as [[st' v] [Em HE]]. injection HE as <-.
      apply (Hp _ _ _ _ _ _ _ _ Em).
    - apply obind_some in HE as [vc [_ HE]].
      destruct (truthy vc); [exact (pres_block th H _ _ _ _ HE) | exact (pres_block el H0 _ _ _ _ HE)].
    - injection HE as <-. split; reflexivity.
    - destruct locs; [|discriminate]. apply obind_some in HE as [v [_ HE]]. injection HE as <-. split; reflexivity.
  Qed.

  Lemma pres_block' : forall ss, pres_block_at ss.
  Proof. intros ss. apply pres_block. apply Forall_forall. intros s _. apply pres_stmt. Qed.

  Lemma cattr_sim : forall cands a v, cattr_val ce cands a = Some v ->
    exists av, In av (acattr lz ce cands a) /\ gamma av v.
  Proof.
    intros cands a v H. unfold cattr_val in H. unfold acattr.
    destruct (find_cattr ce cands a) as [e|]; [|discriminate].
    destruct (expr_sim lz (ccall_n 0) (acall_n lz 0) [] (call_sim_n lz 0 0) e None _ v W0 [[]] H
                (or_introl eq_refl) wmatch_init) as [av [Hin Hg]].
    exists av. split; [|exact Hg]. apply dedupa_in. exact (in_map snd _ _ Hin).
  Qed.

  Lemma group_call_in : forall rows kf m W avs k r,
    In (W, avs) rows -> kf W = Some k ->
    In r (amcall ft (filter (fun r0 => okey_is k (kf (fst r0))) rows) (fst k) (snd k) m) ->
    In r (group_call amcall ft rows kf m).
  Proof.
    intros rows kf m W avs k r HI HK HR. unfold group_call. apply in_flat_map. exists k. split; auto.
    apply dedup_in; [apply key_eqb_eq|]. apply in_flat_map. exists (W, avs). split; auto.
    simpl. rewrite HK. left; auto.
  Qed.

  Lemma call_rows_sim : forall st i cands m vs st' v rows W avs kf,
    mcall ft st i cands m vs = Some (st', v) -> In (W, avs) rows -> Forall2 gamma avs vs ->
    aw W <> [] -> fmatch (cg (lv st)) (last (aw W) []) -> hrel (hv W) (lo st) (lh st) (ao W) (ah W) ->
    (hv W = false -> kf W = Some (i, cands)) ->
    exists W' a, In (W', a) (call_rows amcall ft rows kf m) /\ gamma a v /\ aw W' = aw W
                 /\ hrel (hv W') (lo st') (lh st') (ao W') (ah W').
  Proof.
    intros st i cands m vs st' v rows W avs kf HC HI HF Hne Hg HH HK.
    unfold call_rows. destruct (hrel_cases _ _ _ _ _ HH) as [Ehv|[Ehv [Ho Hh]]].
    - (* havocked: the call is not analysed *)
      exists W, AAny. repeat split; [|left; exact Ehv].
      apply in_or_app. left. apply (in_map (fun r => (fst r, AAny)) _ (W, avs)). apply filter_In. auto.
    - set (rows1 := filter (fun r => negb (hv (fst r))) rows).
      assert (HI1 : In (W, avs) rows1) by (apply filter_In; simpl; rewrite Ehv; auto).
      specialize (HK Ehv).
      assert (HI2 : In (W, avs) (filter (fun r0 => okey_is (i, cands) (kf (fst r0))) rows1)).
      { apply filter_In. split; [exact HI1|]. simpl. rewrite HK. apply key_eqb_refl. }
      destruct (Hm _ _ _ _ _ _ _ _ HC _ W avs HI2 HF Hne Hg Ehv Ho Hh) as [W' [a [Hin R]]].
      exists W', a. split; [|exact R].
      apply in_or_app. right. exact (group_call_in _ _ _ _ _ (i, cands) _ HI1 HK Hin).
  Qed.

  Lemma call_rows_lmatch : forall st i cands m vs st' v rows W avs kf locs,
    mcall ft st i cands m vs = Some (st', v) -> In (W, avs) rows -> Forall2 gamma avs vs ->
    lmatch locs st W -> (hv W = false -> kf W = Some (i, cands)) ->
    exists W' a, In (W', a) (call_rows amcall ft rows kf m) /\ gamma a v /\ aw W' = aw W /\ lmatch locs st' W'.
  Proof.
    intros st i cands m vs st' v rows W avs kf locs HC HI HF [HW HH] HK.
    destruct (wmatch_globals _ _ _ HW) as [Hne Hg].
    destruct (call_rows_sim _ _ _ _ _ _ _ _ _ _ _ HC HI HF Hne Hg HH HK) as [W' [a [Hin [Hga [Haw Hrel]]]]].
    destruct (Hp _ _ _ _ _ _ _ _ HC) as [P1 _].
    exists W', a. repeat split; auto. rewrite P1, Haw. exact HW.
  Qed.

  Definition lout_sim (locs : option (list name)) (W : lworld) (out : loutcome)
             (res : list lworld * list (lworld * aval)) : Prop :=
    match out with
    | LNormal st' => exists W', In W' (fst res) /\ lmatch locs st' W' /\ tl (aw W') = tl (aw W)
    | LReturned st' v => exists W' a, In (W', a) (snd res) /\ tl (aw W') = tl (aw W) /\ gamma a v
                                      /\ lmatch locs st' W'
    end.

  Lemma lout_sim_step : forall locs W1 W out Ws1 r1 Ws2 r2,
    tl (aw W1) = tl (aw W) -> incl Ws1 Ws2 -> incl r1 r2 ->
    lout_sim locs W1 out (Ws1, r1) -> lout_sim locs W out (Ws2, r2).
  Proof.
    intros locs W1 W [st'|st' v] Ws1 r1 Ws2 r2 Htl HW Hr; simpl.
    - intros [W' [Hw' [M T]]]. exists W'. split; [apply HW, Hw' | split; [exact M | congruence]].
    - intros [W' [a [Hw' [T G]]]]. exists W', a. split; [apply Hr, Hw' | split; [congruence | exact G]].
  Qed.

  Lemma lout_sim_result : forall locs W out cont rets, lout_sim locs W out (cont, rets) ->
    exists W' a, In (W', a) (rets ++ map (fun W0 => (W0, ANone)) cont) /\ tl (aw W') = tl (aw W) /\
                 gamma a match out with LNormal _ => VNone | LReturned _ v => v end /\
                 lmatch locs (out_state out) W'.
  Proof.
    intros locs W [st'|st' v] cont rets; simpl.
    - intros [W' [Hw' [M T]]]. exists W', ANone. split; [|split; [exact T | split; [reflexivity | exact M]]].
      apply in_or_app. right. exact (in_map (fun W0 => (W0, ANone)) _ _ Hw').
    - intros [W' [a [Hw' R]]]. exists W', a. split; [apply in_or_app; left; exact Hw' | exact R].
  Qed.

  Definition lstmt_sim_at (s : lstmt) : Prop :=
    forall slf locs st out Ws W,
      lexec ce fuel0 mcall ft slf locs st s = Some out -> In W Ws -> lmatch locs st W ->
      lout_sim locs W out (lastmt lz ce acall amcall ft slf locs Ws s).

  Definition lblock_sim_at (ss : list lstmt) : Prop :=
    forall slf locs st out Ws W,
      lexec_block ce fuel0 mcall ft slf locs st ss = Some out -> In W Ws -> lmatch locs st W ->
      lout_sim locs W out (lablock lz ce acall amcall ft slf locs Ws ss).

  Lemma lblock_sim : forall ss, Forall lstmt_sim_at ss -> lblock_sim_at ss.
  Proof.
    induction ss as [|s ss IH]; intros HF slf locs st out Ws W HE HI HW.
    - injection HE as <-. exists W. auto.
    - inversion HF as [|? ? Hs Hss]; subst. unfold lexec_block in HE. simpl in HE. unfold lablock. simpl.
      destruct (lexec ce fuel0 mcall ft slf locs st s) as [[st1|st1 v1]|] eqn:Es; [| |discriminate];
        pose proof (Hs slf locs st _ Ws W Es HI HW) as S1;
        destruct (lastmt lz ce acall amcall ft slf locs Ws s) as [Ws1 r1].
      + destruct S1 as [W1 [HW1 [HM1 Htl1]]].
        pose proof (IH Hss slf locs st1 out Ws1 W1 HE HW1 HM1) as S2. unfold lablock in S2.
        destruct (lablock_with _ Ws1 ss) as [Ws2 r2].
        revert S2. apply lout_sim_step; [exact Htl1 | apply incl_refl | apply incl_appr, incl_refl].
      + injection HE as <-. destruct (lablock_with _ Ws1 ss) as [Ws2 r2].
        destruct S1 as [W' [a [Hw' R]]]. exists W', a. split; [apply in_or_app; left; exact Hw' | exact R].
  Qed.

  Lemma ex_sim : forall e locs st v Ws W,
    ceval_expr (ccall_n fuel0) ft locs (lv st) e = Some v -> In W Ws -> lmatch locs st W ->
    exists a, In (W, a) (lift Ws (aexpr lz acall ft locs (worlds0 Ws) e)) /\ gamma a v.
  Proof.
    intros e locs st v Ws W HE HI [HW _].
    destruct (expr_sim lz _ _ ft Hcall e locs _ v (worlds0 Ws) (aw W) HE (worlds0_in _ _ HI) HW) as [a [Ha Hg]].
    exists a. split; auto. apply lift_in; auto.
  Qed.

  Lemma exs_sim : forall es locs st vs Ws W,
    cevals (ccall_n fuel0) ft locs (lv st) es = Some vs -> In W Ws -> lmatch locs st W ->
    exists avs, In (W, avs) (lift Ws (aargs lz acall ft locs (worlds0 Ws) es)) /\ Forall2 gamma avs vs.
  Proof.
    intros es locs st vs Ws W HE HI [HW _].
    assert (HF : Forall (expr_sim_at lz (ccall_n fuel0) acall ft) es).
    { apply Forall_forall. intros e _. apply expr_sim. exact Hcall. }
    destruct (args_sim lz _ _ ft es HF locs _ vs (worlds0 Ws) (aw W) HE (worlds0_in _ _ HI) HW) as [avs [Ha Hg]].
    exists avs. split; auto. apply lift_in; auto.
  Qed.

  Lemma bind_sim : forall locs st W x v a R W0,
    lmatch locs st W -> gamma a v -> In (W, a) R -> tl (aw W) = tl (aw W0) ->
    lout_sim locs W0 (LNormal (lassign locs st x v)) (bind_res x R, []).
  Proof.
    intros locs st W x v a R W0 HM Hg Hin Htl.
    destruct (lmatch_assign locs st W x v a HM Hg) as [HM' Htl'].
    exists (set_aw W (wassign (aw W) x a)). split; [exact (bind_res_in _ _ _ _ Hin)|]. split; [exact HM' | congruence].
  Qed.

  Lemma sim_assign : forall x e, lstmt_sim_at (LAssign x e).
  Proof.
    intros x e slf locs st out Ws W HE HI HW. simpl in HE. apply obind_some in HE as [v [Ev HE]]. injection HE as <-.
    destruct (ex_sim e locs st v Ws W Ev HI HW) as [a [Ha Hg]]. exact (bind_sim _ _ _ _ _ _ _ _ HW Hg Ha eq_refl).
  Qed.

  (* x = o.a: the instance dict first, else the class attribute through the MRO *)
  Lemma sim_get : forall x o a, lstmt_sim_at (LGet x o a).
  Proof.
    intros x o a slf locs st out Ws W HE HI HW. simpl in HE.
    apply obind_some in HE as [i [Er HE]]. apply obind_some in HE as [cs [En HE]].
    apply obind_some in HE as [v [Ea HE]]. injection HE as <-.
    simpl. set (R := flat_map _ Ws).
    assert (H : exists av, gamma av v /\ In (W, av) R).
    { destruct (hrel_cases _ _ _ _ _ (proj2 HW)) as [Ehv|[Ehv [Ho Hh]]].
      - exists AAny. split; [exact I|]. apply in_flat_map. exists W. split; [exact HI|]. rewrite Ehv. left; reflexivity.
      - destruct (forall2_nth_l _ _ _ _ _ Hh En) as [cf [Hcf [Hc [Hfm Hfd]]]].
        destruct (slook (snd cs) a) as [v0|] eqn:Es.
        + injection Ea as ->. destruct (Hfm a v Es) as [av [Hl Hg]].
          exists av. split; [exact Hg|]. apply in_flat_map. exists W. split; [exact HI|].
          rewrite Ehv, <- Ho, Er, Hcf, Hl. left; reflexivity.
        + destruct (cattr_sim _ _ _ Ea) as [av [Hin Hg]].
          exists av. split; [exact Hg|]. apply in_flat_map. exists W. split; [exact HI|].
          rewrite Ehv, <- Ho, Er, Hcf, (Hfd a Es), <- Hc.
          destruct (acattr lz ce (mro_of ce (fst cs)) a) as [|a0 l0]; [destruct Hin|].
          exact (in_map (fun av0 => (W, av0)) _ _ Hin). }
    destruct H as [av [Hg Hin]]. exact (bind_sim _ _ _ _ _ _ _ _ HW Hg Hin eq_refl).
  Qed.

  (* o.a = e: a strong update of the one abstract object *)
  Lemma sim_set_attr : forall o a e, lstmt_sim_at (LSet o a e).
  Proof.
    intros o a e slf locs st out Ws W HE HI HW. simpl in HE.
    apply obind_some in HE as [v [Ev HE]]. apply obind_some in HE as [i [Er HE]].
    apply obind_some in HE as [cs [En HE]]. injection HE as <-.
    destruct (ex_sim e locs st v Ws W Ev HI HW) as [av [Ha Hg]]. destruct HW as [HW0 HH]. simpl.
    destruct (hrel_cases _ _ _ _ _ HH) as [Ehv|[Ehv [Ho Hh]]].
    - exists W. split; [|split; [split; [exact HW0 | left; exact Ehv] | reflexivity]].
      apply dedupl_in, in_flat_map. exists (W, av). split; [exact Ha|]. simpl. rewrite Ehv. left; reflexivity.
    - destruct (forall2_nth_l _ _ _ _ _ Hh En) as [cf [Hcf [Hc [Hfm Hfd]]]].
      exists (mkw (aw W) (ao W) (upd i (fst cf, fset a av (snd cf)) (ah W)) (hv W)).
      split; [|split; [split; [exact HW0|] | reflexivity]].
      + apply dedupl_in, in_flat_map. exists (W, av). split; [exact Ha|]. simpl.
        rewrite Ehv, <- Ho, Er, Hcf. left; reflexivity.
      + right. split; [exact Ho|]. apply forall2_upd; [exact Hh|].
        repeat split; [exact Hc | apply fmatch_set; assumption | apply fdom_set; exact Hfd].
  Qed.

  (* o = C(args): allocate, run __init__ if the MRO has one, bind the object name *)
  Lemma sim_new : forall o c args, lstmt_sim_at (LNew o c args).
  Proof.
    intros o c args slf locs st out Ws W HE HI HW. simpl in HE. destruct slf as [sf|]; [discriminate|].
    apply obind_some in HE as [vs [Ev HE]]. simpl. set (rows := map _ (lift Ws _)).
    destruct (c <? length (eclasses ce)); [|discriminate].
    destruct (exs_sim args locs st vs Ws W Ev HI HW) as [avs [Ha Hg]].
    set (W1 := mkw (aw W) (ao W) (ah W ++ [(c, [])]) (hv W)).
    pose proof (in_map _ _ _ Ha : In (W1, avs) rows) as Hrow.
    pose proof (lmatch_alloc _ _ _ c HW : lmatch _ _ W1) as HM1.
    (* the fresh object is the last one of every heap that describes a concrete heap of this length *)
    assert (Hlast : forall (st' : lstate) W', lmatch locs st' W' -> length (lh st') = length (lh st ++ [(c, [])]) ->
                      hv W' = false -> length (lh st) = pred (length (ah W'))).
    { intros st' W' [_ HH'] HL E. destruct (hrel_cases _ _ _ _ _ HH') as [E'|[_ [_ Hh']]]; [congruence|].
      rewrite <- (Forall2_length Hh'), HL, app_length, Nat.add_1_r. reflexivity. }
    destruct (find_meth ce (mro_of ce c) INIT) as [kd|].
    - apply obind_some in HE as [[st' v] [Em HE]]. simpl in HE. destruct v; try discriminate. injection HE as <-.
      destruct (call_rows_lmatch _ _ _ INIT vs st' VNone _ W1 avs
                  (fun W2 : lworld => Some (pred (length (ah W2)), mro_of ce c)) locs Em Hrow Hg HM1)
        as [W' [a [Hin [_ [Haw HM']]]]].
      { intros E. cbv beta. rewrite <- (Hlast _ _ HM1 eq_refl E). reflexivity. }
      destruct (Hp _ _ _ _ _ _ _ _ Em) as [_ [_ P3]].
      eexists. split; [apply dedupl_in; exact (in_map _ _ _ Hin)|].
      split; [exact (lmatch_bind _ _ _ o _ HM' (Hlast _ _ HM' P3)) | simpl; rewrite Haw; reflexivity].
    - destruct vs; [|discriminate]. injection HE as <-. inversion Hg; subst.
      eexists. split; [apply dedupl_in; apply (in_map _ _ (W1, [])), filter_In; split; [exact Hrow | reflexivity]|].
      split; [exact (lmatch_bind _ _ _ o _ HM1 (Hlast _ _ HM1 eq_refl)) | reflexivity].
  Qed.

  (* a method call whose result is bound to [x]; [kf] finds the receiver and the candidate classes *)
  Lemma call_bind_sim : forall locs st Ws W x m args vs i cands st' v kf,
    cevals (ccall_n fuel0) ft locs (lv st) args = Some vs -> In W Ws -> lmatch locs st W ->
    mcall ft st i cands m vs = Some (st', v) -> (hv W = false -> kf W = Some (i, cands)) ->
    lout_sim locs W (LNormal (lassign locs st' x v))
             (bind_res x (call_rows amcall ft (lift Ws (aargs lz acall ft locs (worlds0 Ws) args)) kf m), []).
  Proof.
    intros locs st Ws W x m args vs i cands st' v kf Ev HI HW Em HK.
    destruct (exs_sim args locs st vs Ws W Ev HI HW) as [avs [Ha Hg]].
    destruct (call_rows_lmatch _ _ _ _ _ _ _ _ _ _ _ locs Em Ha Hg HW HK) as [W' [a [Hin [Hga [Haw HM']]]]].
    apply (bind_sim locs st' W' x v a _ W HM' Hga Hin). rewrite Haw. reflexivity.
  Qed.

  Lemma sim_lcall : forall x o m args, lstmt_sim_at (LCall x o m args).
  Proof.
    intros x o m args slf locs st out Ws W HE HI HW. simpl in HE.
    apply obind_some in HE as [vs [Ev HE]]. apply obind_some in HE as [i [Er HE]].
    apply obind_some in HE as [cs [En HE]]. apply obind_some in HE as [[st' v] [Em HE]]. injection HE as <-.
    apply (call_bind_sim _ _ _ _ _ _ _ _ _ _ _ _ _ Ev HI HW Em).
    intros Ehv. destruct (hrel_cases _ _ _ _ _ (proj2 HW)) as [E|[_ [Ho Hh]]]; [congruence|].
    destruct (forall2_nth_l _ _ _ _ _ Hh En) as [cf [Hcf [Hc _]]].
    unfold obj_key. rewrite <- Ho, Er, Hcf, Hc. reflexivity.
  Qed.

  Lemma sim_super : forall x m args, lstmt_sim_at (LSuper x m args).
  Proof.
    intros x m args slf locs st out Ws W HE HI HW. simpl in HE. destruct slf as [[i k]|]; [|discriminate].
    apply obind_some in HE as [vs [Ev HE]]. apply obind_some in HE as [cs [En HE]].
    apply obind_some in HE as [[st' v] [Em HE]]. injection HE as <-.
    apply (call_bind_sim _ _ _ _ _ _ _ _ _ _ _ _ _ Ev HI HW Em).
    intros Ehv. destruct (hrel_cases _ _ _ _ _ (proj2 HW)) as [E|[_ [Ho Hh]]]; [congruence|].
    destruct (forall2_nth_l _ _ _ _ _ Hh En) as [cf [Hcf [Hc _]]].
    unfold super_key. rewrite Hcf, Hc. reflexivity.
  Qed.

  Lemma sim_lif : forall c th el, Forall lstmt_sim_at th -> Forall lstmt_sim_at el -> lstmt_sim_at (LIf c th el).
  Proof.
    intros c th el Hth Hel slf locs st out Ws W HE HI HW. simpl in HE. apply obind_some in HE as [vc [Ec HE]].
    pose proof (cond_sim lz _ _ ft Hcall c locs _ vc (worlds0 Ws) (aw W) Ec (worlds0_in _ _ HI) (proj1 HW)) as C.
    simpl. destruct (acond lz acall ft locs (worlds0 Ws) c) as [tw fw]. simpl in C.
    assert (S : lout_sim locs W out (if truthy vc then lablock lz ce acall amcall ft slf locs (sel Ws tw) th
                                     else lablock lz ce acall amcall ft slf locs (sel Ws fw) el)).
    { destruct (truthy vc); [exact (lblock_sim th Hth _ _ _ _ _ _ HE (sel_in _ _ _ HI C) HW)
                            | exact (lblock_sim el Hel _ _ _ _ _ _ HE (sel_in _ _ _ HI C) HW)]. }
    unfold lablock in S.
    destruct (lablock_with _ (sel Ws tw) th) as [w1 r1], (lablock_with _ (sel Ws fw) el) as [w2 r2].
    destruct (truthy vc); revert S; apply lout_sim_step; try reflexivity.
    - intros x Hx. apply dedupl_in, in_or_app. left; exact Hx.
    - apply incl_appl, incl_refl.
    - intros x Hx. apply dedupl_in, in_or_app. right; exact Hx.
    - apply incl_appr, incl_refl.
  Qed.

  Lemma lstmt_sim : forall s, lstmt_sim_at s.
  Proof.
    induction s using lstmt_ind'.
    - apply sim_assign.
    - apply sim_get.
    - apply sim_set_attr.
    - apply sim_new.
    - apply sim_lcall.
    - apply sim_super.
    - apply sim_lif; assumption.
    - intros slf locs st out Ws W HE HI HW. injection HE as <-. exists W. auto.
    - intros slf locs st out Ws W HE HI HW. simpl in HE. destruct locs as [L|]; [|discriminate].
      apply obind_some in HE as [v [Ev HE]]. injection HE as <-.
      destruct (ex_sim e (Some L) st v Ws W Ev HI HW) as [a [Ha Hg]]. exists W, a. auto.
  Qed.

  Lemma lblock_sim' : forall ss, lblock_sim_at ss.
  Proof. intros ss. apply lblock_sim. apply Forall_forall. intros s _. apply lstmt_sim. Qed.
End LSim.

Lemma mcall_n_pres : forall ce fuel0 n, mpres (mcall_n ce fuel0 n).
Proof.
  intros ce fuel0. induction n as [|n IH]; intros ft st i cands m vs st' v HC; [discriminate|].
  simpl in HC. destruct (find_meth ce cands m) as [[k [params body]]|]; [|discriminate].
  destruct (negb (length params =? length vs)); [discriminate|].
  destruct (lexec_block ce fuel0 _ ft _ _ _ body) as [out|] eqn:EB; [|discriminate].
  destruct (pres_block' ce fuel0 _ ft IH body (i, k) _ _ _ EB) as [A B].
  destruct out; injection HC as <- <-; simpl in *; auto.
Qed.

Lemma amcall_n_S : forall lz ce m ft rows i cands mn,
  amcall_n lz ce (S m) ft rows i cands mn =
  match find_meth ce cands mn with
  | None => []
  | Some (k, (params, body)) =>
      let R' := filter (fun r => length params =? length (snd r)) rows in
      let W2 := dedupl (map (fun r => set_aw (fst r) (mkframe params (snd r) :: aw (fst r))) R') in
      let (cont, rets) := lablock lz ce (acall_n lz m) (amcall_n lz ce m) ft (Some (i, k))
                                  (Some (params ++ lassigned_block body)) W2 body in
      deduplr (map (fun r => (set_aw (fst r) (tl (aw (fst r))), snd r))
                   (rets ++ map (fun W => (W, ANone)) cont))
  end.
Proof. reflexivity. Qed.

(* every concrete method invocation is described by one of the abstract results of the analysed invocation *)
Lemma msim_n : forall lz ce fuel0 n m, msim (mcall_n ce fuel0 n) (amcall_n lz ce m).
Proof.
  intros lz ce fuel0. induction n as [|n IH]; intros m ft st i cands mn vs st' v HC rows W avs HI HF Hne HG Ehv Ho Hh;
    [discriminate|].
  destruct m as [|m].
  - (* depth cut-off: Any, heap havocked *)
    exists (mkw (aw W) (ao W) (ah W) true), AAny. repeat split; [|left; reflexivity].
    apply (in_map (fun W0 => (mkw (aw W0) (ao W0) (ah W0) true, AAny))). apply dedupl_in. exact (in_map fst _ _ HI).
  - simpl in HC. rewrite amcall_n_S.
    destruct (find_meth ce cands mn) as [[k [params body]]|]; [|discriminate]. cbv zeta.
    destruct (length params =? length vs) eqn:EL; [|discriminate]. simpl in HC.
    assert (ELa : length params =? length avs = true) by (rewrite (Forall2_length HF); exact EL).
    set (L := params ++ lassigned_block body) in *.
    set (st0 := mkl (mkc (cg (lv st)) (bind_params params vs)) (lo st) (lh st)) in *.
    set (Wp := set_aw W (mkframe params avs :: aw W)). set (W2 := dedupl _).
    assert (HW2 : In Wp W2).
    { apply dedupl_in, (in_map (fun r => set_aw (fst r) (mkframe params (snd r) :: aw (fst r))) _ (W, avs)), filter_In.
      auto. }
    assert (HM : lmatch (Some L) st0 Wp).
    { split; [exact (wmatch_call L _ params vs avs (aw W) HF Hne HG) | right; auto]. }
    destruct (lexec_block ce fuel0 _ ft (Some (i, k)) (Some L) st0 body) as [out|] eqn:EB; [|discriminate].
    pose proof (lblock_sim' lz ce fuel0 _ _ _ ft (call_sim_n lz fuel0 m) (mcall_n_pres ce fuel0 n) (IH m)
                  _ _ _ _ _ _ _ EB HW2 HM) as S.
    destruct (pres_block' ce fuel0 _ ft (mcall_n_pres ce fuel0 n) body (i, k) _ _ _ EB) as [A _].
    destruct (lablock lz ce (acall_n lz m) (amcall_n lz ce m) ft (Some (i, k)) (Some L) W2 body) as [cont rets].
    destruct (lout_sim_result _ _ _ _ _ S) as [W' [a [Hin [Htl [Hg [_ Hr]]]]]].
    exists (set_aw W' (tl (aw W'))), a. split; [|split; [|split; [exact Htl|]]].
    + apply deduplr_in. exact (in_map _ _ (W', a) Hin).
    + destruct out; injection HC as <- <-; exact Hg.
    + destruct Hr as [Hr|[Hr1 Hr2]]; [left; exact Hr|]. right.
      destruct out; injection HC as <- <-; simpl in *; split; congruence.
Qed.

Lemma lrun_sim : forall lz ce fuel p ft st st' Ws W,
  lrun ce fuel ft st p = Some st' -> In W Ws -> lmatch None st W ->
  exists W', In W' (larun lz ce ft Ws p) /\ lmatch None st' W'.
Proof.
  intros lz ce fuel. induction p as [|[f ps b|s] p IH]; intros ft st st' Ws W HR HI HW;
    cbn [lrun] in HR; cbn [larun].
  - injection HR as <-. exists W. auto.
  - exact (IH _ _ _ _ _ HR HI HW).
  - destruct (lexec ce fuel (mcall_n ce fuel fuel) ft None None st s) as [[st1|st1 rv]|] eqn:Es; try discriminate.
    destruct (lstmt_sim lz ce fuel (acall_n lz MAX_DEPTH) (mcall_n ce fuel fuel) (amcall_n lz ce MAX_DEPTH) ft
                (call_sim_n lz fuel MAX_DEPTH) (mcall_n_pres ce fuel fuel) (msim_n lz ce fuel fuel MAX_DEPTH)
                s None None st _ Ws W Es HI HW) as [W1 [HW1 [HM1 _]]].
    exact (IH _ _ _ _ _ HR HW1 HM1).
Qed.

Lemma acenv_agree : forall p M,
  Mro.Model.wf_table (bases_table p) = true -> Mro.Model.mros_c (bases_table p) = Mro.Model.TableOk M ->
  acenv p = mkce (pclasses p) M.
Proof.
  intros p M Hwf HM. unfold acenv. rewrite Mro.Proofs.mro_agree_fixed_lemma by auto. rewrite HM. reflexivity.
Qed.

Lemma leval_sim : forall lz fuel p st,
  leval fuel p = Some st -> exists W', In W' (exit_lworlds lz p) /\ lmatch None st W'.
Proof.
  intros lz fuel p st HE. unfold leval in HE.
  destruct (Mro.Model.wf_table (bases_table p)) eqn:Hwf; simpl in HE; [|discriminate].
  destruct (cattrs_ok (pclasses p)); [|discriminate].
  destruct (Mro.Model.mros_c (bases_table p)) as [M|M f|M f] eqn:HM; try discriminate.
  unfold exit_lworlds. rewrite (acenv_agree p M Hwf HM).
  apply (lrun_sim lz _ fuel (pbody p) [] st_init st LW0 _ HE (or_introl eq_refl)).
  split; [exact wmatch_init | right; split; constructor].
Qed.

Lemma attr_vals_in : forall c a Ws W cf i av,
  In W Ws -> hv W = false -> nth_error (ah W) i = Some cf -> fst cf = c -> flookup a (snd cf) = Some av ->
  In av (attr_vals c a Ws).
Proof.
  intros c a Ws W cf i av HI Ehv Hn Hc Hl. unfold attr_vals. apply dedupa_in. apply in_flat_map.
  exists W. split; auto. rewrite Ehv. apply in_flat_map. exists cf. split.
  - eapply nth_error_In; eauto.
  - destruct cf as [c0 fr]. simpl in *. subst c. rewrite Nat.eqb_refl, Hl. left; auto.
Qed.

Lemma attr_vals_sound : forall Ws W lo0 lh0 i c s a v,
  In W Ws -> hrel (hv W) lo0 lh0 (ao W) (ah W) -> nth_error lh0 i = Some (c, s) -> slook s a = Some v ->
  exists av, In av (attr_vals c a Ws) /\ gamma av v.
Proof.
  intros Ws W lo0 lh0 i c s a v Hin HH Hn Hs.
  destruct (hrel_cases _ _ _ _ _ HH) as [Ehv|[Ehv [Ho Hh]]].
  - exists AAny. split; [|exact I].
    apply dedupa_in, in_flat_map. exists W. split; [exact Hin|]. rewrite Ehv. left; reflexivity.
  - destruct (forall2_nth_l _ _ _ _ _ Hh Hn) as [cf [Hcf [Hc [Hfm _]]]].
    destruct (Hfm a v Hs) as [av [Hl Hg]].
    exists av. split; [|exact Hg]. exact (attr_vals_in _ _ _ _ _ _ _ Hin Ehv Hcf (eq_sym Hc) Hl).
Qed.

Lemma anys_gamma : forall n vs, length vs = n -> Forall2 gamma (anys n) vs.
Proof. intros n vs <-. induction vs; simpl; constructor; simpl; auto. Qed.
