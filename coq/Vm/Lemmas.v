(* C01 — facts about the model's data: the boolean equalities decide equality, de-duplication keeps every member,
   frames, [gamma] through the standard list predicates, and the soundness of the compatibility tests. *)
From Coq Require Import List ZArith Arith Bool.
From PV Require Import Vm.Model.
Import ListNotations.
Open Scope nat_scope.

Section AvalInd.
  Variable P : aval -> Prop.
  Hypothesis HInt : forall c, P (AInt c).
  Hypothesis HFloat : P AFloat.
  Hypothesis HStr : forall k, P (AStr k).
  Hypothesis HBytes : forall c, P (ABytes c).
  Hypothesis HBool : forall c, P (ABool c).
  Hypothesis HNone : P ANone.
  Hypothesis HList : forall el, Forall (Forall P) el -> P (AList el).
  Hypothesis HTuple : forall el, Forall (Forall P) el -> P (ATuple el).
  Hypothesis HSet : forall el, Forall P el -> P (ASet el).
  Hypothesis HDict : forall k ks vs, Forall P ks -> Forall P vs -> P (ADict k ks vs).
  Hypothesis HAny : P AAny.

  Fixpoint aval_ind' (a : aval) : P a :=
    let fl := (fix fl (l : list aval) : Forall P l :=
                 match l with [] => Forall_nil _ | x :: l' => Forall_cons x (aval_ind' x) (fl l') end) in
    let fll := (fix fll (ll : list (list aval)) : Forall (Forall P) ll :=
                  match ll with
                  | [] => Forall_nil _
                  | l :: ll' =>
                      Forall_cons l ((fix fl2 (l : list aval) : Forall P l :=
                                        match l with
                                        | [] => Forall_nil _
                                        | x :: l' => Forall_cons x (aval_ind' x) (fl2 l')
                                        end) l) (fll ll')
                  end) in
    match a with
    | AInt c => HInt c
    | AFloat => HFloat
    | AStr k => HStr k
    | ABytes c => HBytes c
    | ABool c => HBool c
    | ANone => HNone
    | AList el => HList el (fll el)
    | ATuple el => HTuple el (fll el)
    | ASet el => HSet el (fl el)
    | ADict k ks vs => HDict k ks vs (fl ks) (fl vs)
    | AAny => HAny
    end.
End AvalInd.

Lemma list_eqb_eq : forall {A} (eqb : A -> A -> bool) (xs ys : list A),
  Forall (fun x => forall y, eqb x y = true -> x = y) xs ->
  list_eqb eqb xs ys = true -> xs = ys.
Proof.
  intros A eqb xs. induction xs as [|x xs IH]; intros [|y ys] HF H; simpl in H; try discriminate; auto.
  inversion HF as [|? ? Hx Hxs]; subst. apply andb_true_iff in H as [E1 E2].
  f_equal; auto.
Qed.

Lemma opt_eqb_eq : forall {A} (eqb : A -> A -> bool) (a b : option A),
  (forall x y, eqb x y = true -> x = y) -> opt_eqb eqb a b = true -> a = b.
Proof. intros A eqb [x|] [y|] H E; simpl in E; try discriminate; auto. f_equal; auto. Qed.

Lemma list_eqb_refl : forall {A} (eqb : A -> A -> bool) (xs : list A),
  Forall (fun x => eqb x x = true) xs -> list_eqb eqb xs xs = true.
Proof. induction xs; simpl; intros H; auto. inversion H as [|? ? Hx Hxs]; subst. rewrite Hx; simpl; auto. Qed.

(* the list comparisons that [aval_eqb] carries inline are [list_eqb] *)
Lemma aval_leqb_unfold : forall (xs ys : list aval),
  (fix leqb (xs ys : list aval) : bool :=
     match xs, ys with
     | [], [] => true
     | x :: xs', y :: ys' => aval_eqb x y && leqb xs' ys'
     | _, _ => false
     end) xs ys = list_eqb aval_eqb xs ys.
Proof. induction xs as [|x xs IH]; intros [|y ys]; simpl; try reflexivity. f_equal. apply IH. Qed.

Lemma aval_lleqb_unfold : forall (xs ys : list (list aval)),
  (fix lleqb (xs ys : list (list aval)) : bool :=
     match xs, ys with
     | [], [] => true
     | x :: xs', y :: ys' =>
         (fix leqb2 (p q : list aval) : bool :=
            match p, q with
            | [], [] => true
            | u :: p', v :: q' => aval_eqb u v && leqb2 p' q'
            | _, _ => false
            end) x y && lleqb xs' ys'
     | _, _ => false
     end) xs ys = list_eqb (list_eqb aval_eqb) xs ys.
Proof.
  induction xs as [|x xs IH]; intros [|y ys]; simpl; try reflexivity.
  f_equal; [apply aval_leqb_unfold | apply IH].
Qed.

Lemma aval_eqb_eq : forall a b, aval_eqb a b = true -> a = b.
Proof.
  assert (LL : forall xs ys, Forall (Forall (fun x => forall y, aval_eqb x y = true -> x = y)) xs ->
                             list_eqb (list_eqb aval_eqb) xs ys = true -> xs = ys).
  { intros xs ys H. apply list_eqb_eq. eapply Forall_impl; [|exact H].
    intros x Hx y. apply list_eqb_eq. exact Hx. }
  induction a using aval_ind'; intros b E; destruct b; try discriminate E; simpl in E; auto.
  - f_equal. apply (opt_eqb_eq Z.eqb); auto. intros; apply Z.eqb_eq; auto.
  - f_equal. apply Nat.eqb_eq; auto.
  - f_equal. apply (opt_eqb_eq Nat.eqb); auto. intros; apply Nat.eqb_eq; auto.
  - f_equal. apply (opt_eqb_eq Bool.eqb); auto. intros; apply eqb_prop; auto.
  - f_equal. rewrite aval_lleqb_unfold in E. auto.
  - f_equal. rewrite aval_lleqb_unfold in E. auto.
  - f_equal. rewrite aval_leqb_unfold in E. apply (list_eqb_eq _ _ _ H E).
  - rewrite !aval_leqb_unfold in E.
    apply andb_true_iff in E as [E E3]. apply andb_true_iff in E as [E1 E2].
    f_equal.
    + destruct k, kind; simpl in E1; try discriminate; auto.
    + apply (list_eqb_eq _ _ _ H E2).
    + apply (list_eqb_eq _ _ _ H0 E3).
Qed.

Lemma frame_eqb_eq : forall a b, frame_eqb a b = true -> a = b.
Proof.
  intros a b. unfold frame_eqb. apply list_eqb_eq.
  apply Forall_forall. intros [x u] _ [y v] H. simpl in H.
  apply andb_true_iff in H as [H1 H2]. apply Nat.eqb_eq in H1. apply aval_eqb_eq in H2. congruence.
Qed.

Lemma world_eqb_eq : forall a b, world_eqb a b = true -> a = b.
Proof.
  intros a b. unfold world_eqb. apply list_eqb_eq.
  apply Forall_forall. intros x _ y. apply frame_eqb_eq.
Qed.

Lemma res_eqb_eq : forall a b, res_eqb a b = true -> a = b.
Proof.
  intros [w a] [w' a'] H. unfold res_eqb in H. simpl in H. apply andb_true_iff in H as [H1 H2].
  apply world_eqb_eq in H1. apply aval_eqb_eq in H2. congruence.
Qed.

Lemma aval_eqb_refl : forall a, aval_eqb a a = true.
Proof.
  assert (LL : forall xs, Forall (Forall (fun x => aval_eqb x x = true)) xs ->
                          list_eqb (list_eqb aval_eqb) xs xs = true).
  { intros xs H. apply list_eqb_refl. eapply Forall_impl; [|exact H]. intros x. apply list_eqb_refl. }
  induction a using aval_ind'; simpl; auto.
  - destruct c; simpl; auto. apply Z.eqb_refl.
  - apply Nat.eqb_refl.
  - destruct c; simpl; auto. apply Nat.eqb_refl.
  - destruct c; simpl; auto. apply eqb_reflx.
  - rewrite aval_lleqb_unfold. auto.
  - rewrite aval_lleqb_unfold. auto.
  - rewrite aval_leqb_unfold. apply list_eqb_refl, H.
  - rewrite !aval_leqb_unfold, !list_eqb_refl by assumption. destruct k; reflexivity.
Qed.

Lemma world_eqb_refl : forall w, world_eqb w w = true.
Proof.
  intros w. unfold world_eqb. apply list_eqb_refl. apply Forall_forall. intros fr _.
  unfold frame_eqb. apply list_eqb_refl. apply Forall_forall. intros [x a] _. simpl.
  rewrite Nat.eqb_refl, aval_eqb_refl. reflexivity.
Qed.

Lemma dedup_in : forall {A} (eqb : A -> A -> bool) (Heq : forall x y, eqb x y = true -> x = y)
  (l : list A) (x : A), In x l -> In x (dedup eqb l).
Proof.
  intros A eqb Heq l. induction l as [|y l IH]; intros x H; simpl in *; auto.
  destruct H as [->|H].
  - destruct (existsb (eqb x) (dedup eqb l)) eqn:E.
    + apply existsb_exists in E as [z [Hz Ez]]. apply Heq in Ez. subst. auto.
    + left; auto.
  - destruct (existsb (eqb y) (dedup eqb l)); [|right]; auto.
Qed.

Lemma dedupw_in : forall l w, In w l -> In w (dedupw l).
Proof. intros. apply dedup_in; auto. apply world_eqb_eq. Qed.
Lemma dedupa_in : forall l a, In a l -> In a (dedupa l).
Proof. intros. apply dedup_in; auto. apply aval_eqb_eq. Qed.
Lemma dedupr_in : forall l r, In r l -> In r (dedupr l).
Proof. intros. apply dedup_in; auto. apply res_eqb_eq. Qed.

Lemma flookup_fset_same : forall x a fr, flookup x (fset x a fr) = Some a.
Proof.
  intros x a fr. induction fr as [|[y b] fr IH]; simpl.
  - rewrite Nat.eqb_refl; auto.
  - destruct (x <? y) eqn:L; simpl.
    + rewrite Nat.eqb_refl; auto.
    + destruct (x =? y) eqn:E; simpl.
      * rewrite Nat.eqb_refl; auto.
      * rewrite Nat.eqb_sym, E. auto.
Qed.

Lemma flookup_fset_other : forall x y a fr, y <> x -> flookup y (fset x a fr) = flookup y fr.
Proof.
  intros x y a fr N. induction fr as [|[z b] fr IH]; simpl.
  - destruct (x =? y) eqn:E; auto. apply Nat.eqb_eq in E. congruence.
  - destruct (x <? z) eqn:L; simpl.
    + destruct (x =? y) eqn:E; auto. apply Nat.eqb_eq in E. congruence.
    + destruct (x =? z) eqn:E; simpl.
      * apply Nat.eqb_eq in E. subst z.
        destruct (x =? y) eqn:E2; auto. apply Nat.eqb_eq in E2. congruence.
      * destruct (z =? y); auto.
Qed.

Definition any_gamma (bs : list aval) (x : value) : Prop := exists b, In b bs /\ gamma b x.

Lemma any_of_iff : forall bs x,
  (fix any_of (bs : list aval) (x : value) : Prop :=
     match bs with [] => False | b :: bs' => gamma b x \/ any_of bs' x end) bs x <-> any_gamma bs x.
Proof.
  induction bs as [|b bs IH]; intros x; simpl.
  - split; [tauto|]. intros [b [[] _]].
  - rewrite IH. split.
    + intros [H|[c [Hc Hg]]]; [exists b|exists c]; simpl; auto.
    + intros [c [[->|Hc] Hg]]; [left|right; exists c]; auto.
Qed.

Lemma gamma_list_iff : forall el xs,
  gamma (AList el) (VList xs) <-> Forall2 any_gamma el xs.
Proof.
  intros el. simpl. induction el as [|bs el IH]; intros [|x xs]; simpl.
  - split; auto.
  - split; [tauto|]. intros H; inversion H.
  - split; [tauto|]. intros H; inversion H.
  - rewrite any_of_iff, IH. split.
    + intros [H1 H2]. constructor; auto.
    + intros H. inversion H; subst. auto.
Qed.

(* the list and the tuple clause of [gamma] are the same term *)
Lemma gamma_tuple_iff : forall el xs,
  gamma (ATuple el) (VTuple xs) <-> Forall2 any_gamma el xs.
Proof. exact gamma_list_iff. Qed.

Lemma all_any_iff : forall bs xs,
  (fix all (xs : list value) : Prop :=
     match xs with
     | [] => True
     | x :: xs' =>
         (fix any_of (bs : list aval) (x : value) : Prop :=
            match bs with [] => False | b :: bs' => gamma b x \/ any_of bs' x end) bs x /\ all xs'
     end) xs <-> Forall (any_gamma bs) xs.
Proof.
  intros bs. induction xs as [|x xs IH]; simpl.
  - split; auto.
  - rewrite any_of_iff, IH. split.
    + intros [H1 H2]; constructor; auto.
    + intros H; inversion H; subst; auto.
Qed.

Lemma gamma_set_iff : forall bs xs, gamma (ASet bs) (VSet xs) <-> Forall (any_gamma bs) xs.
Proof. intros. simpl. apply all_any_iff. Qed.

Lemma gamma_dict_iff : forall kind ks vs cks cvs,
  gamma (ADict kind ks vs) (VDict cks cvs) <->
  Forall (any_gamma ks) cks /\ Forall (any_gamma vs) cvs /\
  match kind with DEmpty => cks = [] | DStr => cks <> [] | DAmb => True end.
Proof. intros. simpl. rewrite !all_any_iff. tauto. Qed.

Lemma forall2_in_r : forall {A B} (P : A -> B -> Prop) l1 l2 y,
  Forall2 P l1 l2 -> In y l2 -> exists x, In x l1 /\ P x y.
Proof.
  intros A B P l1 l2 y H. induction H; intros HI; [destruct HI|].
  destruct HI as [->|HI]; [exists x; simpl; auto|].
  destruct (IHForall2 HI) as [x' [Hx' HP]]. exists x'; simpl; auto.
Qed.

Lemma Forall2_length : forall {A B} {P : A -> B -> Prop} {l1 l2}, Forall2 P l1 l2 -> length l1 = length l2.
Proof. intros A B P l1 l2 H. induction H; simpl; auto. Qed.

Lemma forall2_nth_r : forall {A B} (P : A -> B -> Prop) l1 l2 k y,
  Forall2 P l1 l2 -> nth_error l2 k = Some y -> exists x, nth_error l1 k = Some x /\ P x y.
Proof.
  intros A B P l1 l2 k y H. revert k. induction H; intros k HN.
  - destruct k; discriminate.
  - destruct k; simpl in *.
    + inversion HN; subst. eauto.
    + auto.
Qed.

Lemma forall2_nth_l : forall {A B} (P : A -> B -> Prop) l1 l2 i x,
  Forall2 P l1 l2 -> nth_error l1 i = Some x -> exists y, nth_error l2 i = Some y /\ P x y.
Proof.
  intros A B P l1 l2 i x H. revert i. induction H; intros [|i] Hn; simpl in *; try discriminate.
  - injection Hn as <-. eauto.
  - auto.
Qed.

Lemma gamma_list_inv : forall el v, gamma (AList el) v -> exists xs, v = VList xs /\ Forall2 any_gamma el xs.
Proof. intros el v H. destruct v; try (simpl in H; tauto). exists vs. split; auto. apply gamma_list_iff; auto. Qed.
Lemma gamma_tuple_inv : forall el v, gamma (ATuple el) v -> exists xs, v = VTuple xs /\ Forall2 any_gamma el xs.
Proof. intros el v H. destruct v; try (simpl in H; tauto). exists vs. split; auto. apply gamma_tuple_iff; auto. Qed.
Lemma gamma_set_inv : forall bs v, gamma (ASet bs) v -> exists xs, v = VSet xs /\ Forall (any_gamma bs) xs.
Proof. intros bs v H. destruct v; try (simpl in H; tauto). exists vs. split; auto. apply gamma_set_iff; auto. Qed.
Lemma gamma_dict_inv : forall kind ks vs v, gamma (ADict kind ks vs) v ->
  exists cks cvs, v = VDict cks cvs /\ Forall (any_gamma ks) cks /\ Forall (any_gamma vs) cvs /\
  match kind with DEmpty => cks = [] | DStr => cks <> [] | DAmb => True end.
Proof.
  intros kind ks vs v H. destruct v; try (simpl in H; tauto). exists ks0, vs0. split; auto.
  apply gamma_dict_iff; auto.
Qed.

Definition is_vnone (v : value) : bool := match v with VNone => true | _ => false end.

(* compare.compatible_with: the binding of a value is compatible with the value's actual truthiness *)
Lemma compat_sound_lemma : forall a v, gamma a v -> compat a (truthy v) = true.
Proof.
  intros a v H. destruct a as [[z|]| |k|[k|]|[b|]| |el|el|bs|kd ks vs|];
    try reflexivity; try (simpl in H; subst v; simpl; solve [apply eqb_reflx | reflexivity]).
  - apply gamma_list_inv in H as [xs [-> H]]. simpl. inversion H; subst; reflexivity.
  - apply gamma_tuple_inv in H as [xs [-> H]]. simpl. inversion H; subst; reflexivity.
  - apply gamma_set_inv in H as [xs [-> H]]. simpl.
    destruct xs as [|x xs]; simpl; auto. inversion H; subst. destruct H2 as [b [Hb _]].
    destruct bs; [destruct Hb | reflexivity].
  - apply gamma_dict_inv in H as [cks [cvs [-> [_ [_ H]]]]]. simpl.
    destruct kd; simpl.
    + subst. reflexivity.
    + destruct cks; [congruence | reflexivity].
    + reflexivity.
Qed.

(* the class of a value is the class of its binding *)
Definition shape (a : aval) (v : value) : Prop :=
  match a with
  | AInt _ => exists z, v = VInt z
  | AFloat => exists k, v = VFloat k
  | AStr _ => exists k, v = VStr k
  | ABytes _ => exists k, v = VBytes k
  | ABool _ => exists b, v = VBool b
  | ANone => v = VNone
  | AList _ => exists xs, v = VList xs
  | ATuple _ => exists xs, v = VTuple xs
  | ASet _ => exists xs, v = VSet xs
  | ADict _ _ _ => exists ks vs, v = VDict ks vs
  | AAny => True
  end.

Lemma gamma_shape : forall a v, gamma a v -> shape a v.
Proof.
  intros a v H. destruct a; simpl.
  - destruct c; simpl in H; eauto.
  - exact H.
  - simpl in H; eauto.
  - destruct c; simpl in H; eauto.
  - destruct c; simpl in H; eauto.
  - exact H.
  - apply gamma_list_inv in H as [xs [-> _]]; eauto.
  - apply gamma_tuple_inv in H as [xs [-> _]]; eauto.
  - apply gamma_set_inv in H as [xs [-> _]]; eauto.
  - apply gamma_dict_inv in H as [cks [cvs [-> _]]]; eauto.
  - exact I.
Qed.

Ltac shape_cases H :=
  match type of H with
  | exists _, _ => let x := fresh "x" in destruct H as [x H]; shape_cases H
  | _ = _ => subst
  | True => idtac
  end.

(* None tests (POP_JUMP_IF_NONE / NOT_NONE): state._match_condition *)
Lemma compat_none_sound_lemma : forall a v, gamma a v ->
  if is_vnone v then compat_none a = true else compat_notnone a = true.
Proof.
  intros a v H. apply gamma_shape in H.
  destruct a; simpl in H; shape_cases H; try reflexivity; destruct v; reflexivity.
Qed.

(* IS_OP against None: state._is_or_is_not_cmp *)
Lemma a_isnone_sound_lemma : forall a v, gamma a v ->
  gamma (ABool (a_isnone a)) (VBool (is_vnone v)).
Proof.
  intros a v H. apply gamma_shape in H.
  destruct a; simpl in H; shape_cases H; simpl; eauto.
Qed.

(* special_builtins.IsInstance *)
Lemma a_isinst_sound_lemma : forall a v c, gamma a v ->
  gamma (ABool (a_isinst a c)) (VBool (isinst v c)).
Proof.
  intros a v c H. apply gamma_shape in H.
  destruct a; simpl in H; shape_cases H; simpl; eauto; destruct c; reflexivity.
Qed.

Lemma discard_concrete_sound : forall a v, gamma a v -> gamma (discard_concrete a) v.
Proof.
  intros a v H. destruct a; simpl in *; auto; destruct c; simpl in *; subst; eauto.
Qed.

Lemma a_int_sound : forall z, gamma (a_int z) (VInt z).
Proof. intros z. unfold a_int. destruct ((-1 <=? z)%Z && (z <=? 12)%Z); simpl; eauto. Qed.

Lemma obind_some : forall {A B} (o : option A) (f : A -> option B) b,
  obind o f = Some b -> exists a, o = Some a /\ f a = Some b.
Proof. intros A B [a|] f b H; [eauto|discriminate]. Qed.

Lemma cevals_length : forall f es vs, cevals_with f es = Some vs -> length vs = length es.
Proof.
  intros f. induction es as [|e es IH]; intros vs H; simpl in H.
  - injection H as <-. reflexivity.
  - apply obind_some in H as [v [_ H]]. apply obind_some in H as [vs' [Hvs H]].
    injection H as <-. simpl. f_equal. auto.
Qed.

(* a constant in a jump position has the truth value CPython folds it to *)
Lemma lit_truth_sound : forall ccall ft locs st e b v,
  lit_truth e = Some b -> ceval_expr ccall ft locs st e = Some v -> truthy v = b.
Proof.
  intros ccall ft locs st e. induction e; intros b0 v0 HL HE; simpl in HL; try discriminate.
  1-6: injection HL as <-; injection HE as <-; reflexivity.
  - (* tuple of constants: truthiness is the length *)
    match type of HL with (if ?c then _ else _) = _ => destruct c end; [|discriminate].
    injection HL as <-. simpl in HE. apply obind_some in HE as [vs [Es HE]]. injection HE as <-.
    apply cevals_length in Es. destruct es, vs; try discriminate Es; reflexivity.
  - destruct (lit_truth e) as [b'|]; [|discriminate]. injection HL as <-.
    simpl in HE. apply obind_some in HE as [v' [E' HE]]. injection HE as <-.
    simpl. f_equal. eapply IHe; eauto.
Qed.
