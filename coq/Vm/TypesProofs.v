(* C01 — the printed type of a binding admits the values the binding stands for, and the modelled optimiser
   passes only ever widen. *)
From Coq Require Import List ZArith Arith Bool.
From PV Require Import Vm.Model Vm.Lemmas.
Import ListNotations.
Open Scope nat_scope.

Lemma admits_union_iff : forall ts v, admits (TUnion ts) v <-> Exists (fun t => admits t v) ts.
Proof.
  intros ts v. simpl. induction ts as [|t ts IH]; simpl.
  - rewrite Exists_nil. tauto.
  - rewrite Exists_cons, IH. tauto.
Qed.

Lemma admits_tuple_iff : forall ts vs, admits (TTuple ts) (VTuple vs) <-> Forall2 admits ts vs.
Proof.
  intros ts. simpl. induction ts as [|t ts IH]; intros [|v vs]; simpl.
  - split; auto.
  - split; [tauto|]. intros H; inversion H.
  - split; [tauto|]. intros H; inversion H.
  - rewrite IH. split.
    + intros [H1 H2]; constructor; auto.
    + intros H; inversion H; subst; auto.
Qed.

Section TyInd.
  Variable P : ty -> Prop.
  Hypothesis HAny : P TAny.
  Hypothesis HNothing : P TNothing.
  Hypothesis HNone : P TNone.
  Hypothesis HInt : P TInt.
  Hypothesis HFloat : P TFloat.
  Hypothesis HStr : P TStr.
  Hypothesis HBytes : P TBytes.
  Hypothesis HBool : P TBool.
  Hypothesis HList : forall t, P t -> P (TList t).
  Hypothesis HSet : forall t, P t -> P (TSet t).
  Hypothesis HDict : forall k v, P k -> P v -> P (TDict k v).
  Hypothesis HTuple : forall ts, Forall P ts -> P (TTuple ts).
  Hypothesis HHom : forall t, P t -> P (THomTuple t).
  Hypothesis HUnion : forall ts, Forall P ts -> P (TUnion ts).

  Fixpoint ty_ind' (t : ty) : P t :=
    let fl := (fix fl (l : list ty) : Forall P l :=
                 match l with [] => Forall_nil _ | x :: l' => Forall_cons x (ty_ind' x) (fl l') end) in
    match t with
    | TAny => HAny | TNothing => HNothing | TNone => HNone | TInt => HInt | TFloat => HFloat
    | TStr => HStr | TBytes => HBytes | TBool => HBool
    | TList x => HList x (ty_ind' x)
    | TSet x => HSet x (ty_ind' x)
    | TDict k v => HDict k v (ty_ind' k) (ty_ind' v)
    | TTuple ts => HTuple ts (fl ts)
    | THomTuple x => HHom x (ty_ind' x)
    | TUnion ts => HUnion ts (fl ts)
    end.
End TyInd.

(* the list comparison that [ty_eqb] carries inline is [list_eqb] *)
Lemma ty_leqb_unfold : forall (xs ys : list ty),
  (fix leqb (xs ys : list ty) : bool :=
     match xs, ys with
     | [], [] => true
     | x :: xs', y :: ys' => ty_eqb x y && leqb xs' ys'
     | _, _ => false
     end) xs ys = list_eqb ty_eqb xs ys.
Proof. induction xs as [|x xs IH]; intros [|y ys]; simpl; try reflexivity. f_equal. apply IH. Qed.

Lemma ty_eqb_eq : forall a b, ty_eqb a b = true -> a = b.
Proof.
  induction a using ty_ind'; intros b E; destruct b; try discriminate E; simpl in E; auto.
  - f_equal; auto.
  - f_equal; auto.
  - apply andb_true_iff in E as [E1 E2]. f_equal; auto.
  - f_equal. rewrite ty_leqb_unfold in E. exact (list_eqb_eq _ _ _ H E).
  - f_equal; auto.
  - f_equal. rewrite ty_leqb_unfold in E. exact (list_eqb_eq _ _ _ H E).
Qed.

Lemma tflat1_admits : forall t v, admits t v -> Exists (fun m => admits m v) (tflat1 t).
Proof.
  intros t v H. destruct t; try (left; exact H).
  - destruct H.
  - apply admits_union_iff, H.
Qed.

Lemma tjoin_members : forall ts v, Exists (fun m => admits m v) (flat_map tflat1 ts) -> admits (tjoin ts) v.
Proof.
  intros ts v H. unfold tjoin.
  apply (incl_Exists (l2 := dedup ty_eqb (flat_map tflat1 ts))) in H; [|intros x; apply dedup_in, ty_eqb_eq].
  destruct (existsb is_tany _); [exact I|].
  destruct (dedup ty_eqb (flat_map tflat1 ts)) as [|t1 [|t2 rest]].
  - inversion H.
  - inversion H as [? ? Ha|? ? Hn]; [exact Ha | inversion Hn].
  - apply admits_union_iff, H.
Qed.

Lemma tjoin_admits : forall ts t v, In t ts -> admits t v -> admits (tjoin ts) v.
Proof.
  intros ts t v Hin Ha. apply tjoin_members, Exists_flat_map, Exists_exists.
  exists t. split; [exact Hin | apply tflat1_admits, Ha].
Qed.

Lemma ty_of_list_eq : forall el, ty_of (AList el) = TList (tjoin (flat_map (map ty_of) el)).
Proof.
  intros el. simpl. do 2 f_equal.
Qed.

Lemma ty_of_tuple_eq : forall el, ty_of (ATuple el) = TTuple (map (fun l => tjoin (map ty_of l)) el).
Proof.
  intros el. simpl. f_equal.
Qed.

Lemma tys_eq : forall l,
  (fix tys (l : list aval) : list ty := match l with [] => [] | x :: l' => ty_of x :: tys l' end) l
  = map ty_of l.
Proof. reflexivity. Qed.

Lemma ty_of_set_eq : forall el, ty_of (ASet el) = TSet (tjoin (map ty_of el)).
Proof. intros. reflexivity. Qed.

Lemma ty_of_dict_eq : forall k ks vs, ty_of (ADict k ks vs) = TDict (tjoin (map ty_of ks)) (tjoin (map ty_of vs)).
Proof. intros. reflexivity. Qed.

Lemma any_gamma_admits : forall bs x,
  Forall (fun a => forall v, gamma a v -> admits (ty_of a) v) bs ->
  any_gamma bs x -> admits (tjoin (map ty_of bs)) x.
Proof.
  intros bs x HF [b [Hb Hg]]. rewrite Forall_forall in HF.
  apply tjoin_admits with (t := ty_of b); auto. apply in_map; auto.
Qed.

(* output.value_to_pytd_type is sound: the printed type of a binding admits every value it stands for *)
Lemma ty_of_sound_lemma : forall a v, gamma a v -> admits (ty_of a) v.
Proof.
  induction a using aval_ind'; intros v Hg.
  1-6: apply gamma_shape in Hg; simpl in Hg; shape_cases Hg; simpl; auto.
  - apply gamma_list_inv in Hg as [xs [-> HF2]]. rewrite ty_of_list_eq.
    change (Forall (admits (tjoin (flat_map (map ty_of) el))) xs). apply Forall_forall. intros x Hx.
    destruct (forall2_in_r _ _ _ _ HF2 Hx) as [bs [Hbs [b [Hb Hgb]]]].
    rewrite Forall_forall in H. specialize (H bs Hbs). rewrite Forall_forall in H.
    apply tjoin_admits with (t := ty_of b); [|exact (H b Hb x Hgb)].
    apply in_flat_map. exists bs. split; [exact Hbs | apply in_map, Hb].
  - apply gamma_tuple_inv in Hg as [xs [-> HF2]]. rewrite ty_of_tuple_eq. apply admits_tuple_iff.
    revert xs HF2. induction H as [|bs el Hbs Hel IH]; intros xs HF2;
      inversion HF2 as [|? x ? xs' Hx Hxs]; subst; simpl; constructor; auto.
    apply any_gamma_admits; auto.
  - apply gamma_set_inv in Hg as [xs [-> HF]]. rewrite ty_of_set_eq.
    change (Forall (admits (tjoin (map ty_of el))) xs).
    eapply Forall_impl; [|exact HF]. intros x Hx. apply any_gamma_admits; auto.
  - apply gamma_dict_inv in Hg as [cks [cvs [-> [HK [HV _]]]]]. rewrite ty_of_dict_eq.
    change (Forall (admits (tjoin (map ty_of ks))) cks /\ Forall (admits (tjoin (map ty_of vs))) cvs).
    split; (eapply Forall_impl; [|eassumption]); intros x Hx; apply any_gamma_admits; auto.
  - exact I.
Qed.

(* [admits] is monotone in the parameters of a container type *)
Lemma admits_list_mono : forall t t' v, (forall x, admits t x -> admits t' x) -> admits (TList t) v -> admits (TList t') v.
Proof. intros t t' v H. destruct v; simpl; auto. apply Forall_impl, H. Qed.

Lemma admits_set_mono : forall t t' v, (forall x, admits t x -> admits t' x) -> admits (TSet t) v -> admits (TSet t') v.
Proof. intros t t' v H. destruct v; simpl; auto. apply Forall_impl, H. Qed.

Lemma admits_hom_mono : forall t t' v,
  (forall x, admits t x -> admits t' x) -> admits (THomTuple t) v -> admits (THomTuple t') v.
Proof. intros t t' v H. destruct v; simpl; auto. apply Forall_impl, H. Qed.

Lemma admits_dict_mono : forall k k' e e' v, (forall x, admits k x -> admits k' x) -> (forall x, admits e x -> admits e' x) ->
  admits (TDict k e) v -> admits (TDict k' e') v.
Proof.
  intros k k' e e' v Hk He. destruct v; simpl; auto.
  intros [H1 H2]. split; [exact (Forall_impl _ Hk H1) | exact (Forall_impl _ He H2)].
Qed.

Lemma admits_tuple_mono : forall ts ts' v,
  Forall2 (fun t t' => forall x, admits t x -> admits t' x) ts ts' -> admits (TTuple ts) v -> admits (TTuple ts') v.
Proof.
  intros ts ts' v H. destruct v; try (simpl; tauto). rewrite !admits_tuple_iff.
  revert vs. induction H; intros vs Hv; inversion Hv; subst; constructor; auto.
Qed.

Lemma tjoin2_l : forall a b v, admits a v -> admits (tjoin [a; b]) v.
Proof. intros. apply tjoin_admits with (t := a); simpl; auto. Qed.
Lemma tjoin2_r : forall a b v, admits b v -> admits (tjoin [a; b]) v.
Proof. intros. apply tjoin_admits with (t := b); simpl; auto. Qed.

Lemma homogenise_widens : forall t v, admits t v -> admits (homogenise t) v.
Proof.
  intros t v H. destruct t; simpl; auto.
  destruct v; try (simpl in H; tauto). apply admits_tuple_iff in H.
  change (Forall (admits (tjoin ts)) vs). apply Forall_forall. intros x Hx.
  destruct (forall2_in_r _ _ _ _ H Hx) as [t [Ht Ha]]. exact (tjoin_admits _ _ _ Ht Ha).
Qed.

Lemma merge2_widens : forall a b m v, merge2 a b = Some m -> admits a v \/ admits b v -> admits m v.
Proof.
  intros a b m v HM H.
  destruct a; try discriminate HM; destruct b; try discriminate HM; simpl in HM.
  - injection HM as <-. destruct H as [H|H]; revert H; apply admits_list_mono; [apply tjoin2_l | apply tjoin2_r].
  - injection HM as <-. destruct H as [H|H]; revert H; apply admits_set_mono; [apply tjoin2_l | apply tjoin2_r].
  - injection HM as <-. destruct H as [H|H]; revert H; apply admits_dict_mono;
      solve [apply tjoin2_l | apply tjoin2_r].
  - destruct (length ts =? length ts0) eqn:EL; [|discriminate]. injection HM as <-.
    apply Nat.eqb_eq in EL. destruct H as [H|H]; revert H; apply admits_tuple_mono.
    + revert ts0 EL. induction ts as [|t ts IH]; intros [|u us] EL; try discriminate; constructor.
      * apply tjoin2_l.
      * apply IH. injection EL as EL. exact EL.
    + revert ts EL. induction ts0 as [|u us IH]; intros [|t ts] EL; try discriminate; constructor.
      * apply tjoin2_r.
      * apply IH. injection EL as EL. exact EL.
  - injection HM as <-. destruct H as [H|H]; revert H; apply admits_hom_mono; [apply tjoin2_l | apply tjoin2_r].
Qed.

Lemma combine_into_widens : forall acc t v,
  Exists (fun m => admits m v) (t :: acc) -> Exists (fun m => admits m v) (combine_into acc t).
Proof.
  induction acc as [|a acc IH]; intros t v H; simpl; [exact H|].
  apply Exists_cons in H as [Ht|H]; [|apply Exists_cons in H as [Ha|Hacc]];
    destruct (merge2 a t) as [mm|] eqn:EM.
  - left. exact (merge2_widens _ _ _ _ EM (or_intror Ht)).
  - right. apply IH. left. exact Ht.
  - left. exact (merge2_widens _ _ _ _ EM (or_introl Ha)).
  - left. exact Ha.
  - right. exact Hacc.
  - right. apply IH. right. exact Hacc.
Qed.

Lemma combine_members_widens : forall ms v,
  Exists (fun m => admits m v) ms -> Exists (fun m => admits m v) (combine_members ms).
Proof.
  intros ms v. unfold combine_members.
  assert (G : forall ms acc, Exists (fun m => admits m v) (acc ++ ms) ->
                             Exists (fun m => admits m v) (fold_left combine_into ms acc)).
  { induction ms0 as [|t ms0 IH]; intros acc H; simpl.
    - rewrite app_nil_r in H. exact H.
    - apply IH, Exists_app. apply Exists_app in H as [H|H]; [|apply Exists_cons in H as [H|H]].
      + left. apply combine_into_widens. right. exact H.
      + left. apply combine_into_widens. left. exact H.
      + right. exact H. }
  apply (G ms []).
Qed.

Lemma absorb_bool_widens : forall ms v,
  Exists (fun m => admits m v) ms -> Exists (fun m => admits m v) (absorb_bool ms).
Proof.
  intros ms v H. unfold absorb_bool. destruct (existsb is_tint ms) eqn:E; [|exact H].
  apply Exists_exists in H as [m [Hm Ha]]. apply Exists_exists.
  destruct (is_tbool m) eqn:EB.
  - apply existsb_exists in E as [i [Hi Ei]]. destruct i; try discriminate.
    exists TInt. split; [apply filter_In; auto|].
    destruct m; try discriminate. destruct v; simpl in *; tauto.
  - exists m. split; [|exact Ha]. apply filter_In. rewrite EB. auto.
Qed.

Lemma map_widens : forall (f : ty -> ty) ms v, (forall t, admits t v -> admits (f t) v) ->
  Exists (fun m => admits m v) ms -> Exists (fun m => admits m v) (map f ms).
Proof. intros f ms v Hf H. apply Exists_map. revert H. apply Exists_impl, Hf. Qed.

(* pytd/optimize.py (the modelled passes): a type is only ever widened *)
Lemma optimize_widens_lemma : forall n t v, admits t v -> admits (optimize n t) v.
Proof.
  induction n as [|n IH]; intros t v H; simpl; auto.
  destruct t; auto.
  - revert H. apply admits_list_mono, IH.
  - revert H. apply admits_set_mono, IH.
  - revert H. apply admits_dict_mono; apply IH.
  - revert H. apply admits_tuple_mono. induction ts; constructor; auto.
  - revert H. apply admits_hom_mono, IH.
  - (* union: every pass keeps a member that admits v *)
    apply admits_union_iff in H. set (r := tjoin _).
    assert (Hr : admits r v).
    { apply tjoin_members, Exists_flat_map. eapply Exists_impl; [intros t; apply tflat1_admits|].
      apply absorb_bool_widens, map_widens, combine_members_widens; [intros t; apply IH|].
      assert (H0 : Exists (fun m => admits m v) (flat_map tflat1 ts)).
      { apply Exists_flat_map. revert H. apply Exists_impl. intros t. apply tflat1_admits. }
      destruct (should_merge_tuples _); [|exact H0].
      revert H0. apply map_widens. intros t. apply homogenise_widens. }
    destruct r; auto. destruct (_ <? _); [exact I | exact Hr].
Qed.

Lemma opt_widens : forall t v, admits t v -> admits (opt t) v.
Proof. intros. unfold opt. apply optimize_widens_lemma. auto. Qed.

(* the type printed for a name or attribute with the bindings [bs] admits whatever one of them describes *)
Lemma printed_sound : forall bs a v, In a bs -> gamma a v -> admits (opt (tjoin (map ty_of bs))) v.
Proof.
  intros bs a v Hin Hg. apply opt_widens, tjoin_admits with (t := ty_of a); [|apply ty_of_sound_lemma, Hg].
  apply in_map, Hin.
Qed.
