(* Lemmas about the terms of pytd/booleq.py as modelled in Booleq/Model.v: __eq__, the constructors And/Or/Eq
   (simplify_exprs), the normal form, .simplify(assignments). *)
From Coq Require Import List Bool String Ascii Arith Lia.
From PV Require Import Booleq.Model.
Import ListNotations.
Open Scope string_scope.

(* the induction principle that Coq does not derive for the nested [list term] *)
Section TermInd.
  Variable P : term -> Prop.
  Hypothesis hT : P T.
  Hypothesis hF : P F.
  Hypothesis hEq : forall l r, P (TEq l r).
  Hypothesis hOp : forall k es, Forall P es -> P (Op k es).
  Fixpoint term_ind' (t : term) : P t :=
    match t with
    | T => hT
    | F => hF
    | TEq l r => hEq l r
    | Op k es =>
        hOp k es ((fix go (l : list term) : Forall P l :=
                     match l with
                     | [] => Forall_nil P
                     | x :: r => Forall_cons x (term_ind' x) (go r)
                     end) es)
    end.
End TermInd.

Lemma kind_eqb_eq : forall a b, kind_eqb a b = true <-> a = b.
Proof. destruct a, b; simpl; split; congruence. Qed.

Lemma kind_eqb_refl : forall a, kind_eqb a a = true.
Proof. destruct a; reflexivity. Qed.

Lemma ltb_flip : forall a b,
  String.ltb b a = match String.compare a b with Gt => true | _ => false end.
Proof. intros. unfold String.ltb. rewrite (String.compare_antisym a b). destruct (String.compare b a); reflexivity. Qed.

Lemma ltb_irrefl : forall s, String.ltb s s = false.
Proof.
  intro s. pose proof (ltb_flip s s) as A. unfold String.ltb in *.
  destruct (String.compare s s); [reflexivity | discriminate A | reflexivity].
Qed.

Lemma ltb_neq : forall a b, String.ltb a b = true -> a <> b.
Proof. intros a b H E. subst. rewrite ltb_irrefl in H. discriminate. Qed.

Lemma ltb_total : forall a b, a <> b -> String.ltb a b = false -> String.ltb b a = true.
Proof.
  intros a b Hne H. rewrite ltb_flip. unfold String.ltb in H.
  destruct (String.compare a b) eqn:E; [|discriminate H|reflexivity].
  apply String.compare_eq_iff in E. contradiction.
Qed.

Lemma ltb_asym : forall a b, String.ltb a b = true -> String.ltb b a = false.
Proof.
  intros a b H. rewrite ltb_flip. unfold String.ltb in H.
  destruct (String.compare a b); [discriminate H|reflexivity|discriminate H].
Qed.

Lemma evl_incl : forall k sigma xs ys,
  (forall x, In x xs -> exists y, In y ys /\ eval sigma x = eval sigma y) ->
  (forall y, In y ys -> exists x, In x xs /\ eval sigma x = eval sigma y) ->
  evl k sigma xs = evl k sigma ys.
Proof.
  intros k sigma xs ys F1 F2. apply eq_true_iff_eq. destruct k; simpl.
  - rewrite !forallb_forall. split; intros G z Hz.
    + destruct (F2 z Hz) as [x [Hx E]]. rewrite <- E. apply G. exact Hx.
    + destruct (F1 z Hz) as [y [Hy E]]. rewrite E. apply G. exact Hy.
  - rewrite !existsb_exists. split; intros [z [Hz E]].
    + destruct (F1 z Hz) as [y [Hy E']]. exists y. split; [exact Hy|]. rewrite <- E'. exact E.
    + destruct (F2 z Hz) as [x [Hx E']]. exists x. split; [exact Hx|]. rewrite E'. exact E.
Qed.

Lemma eval_Op : forall k sigma es, eval sigma (Op k es) = evl k sigma es.
Proof. destruct k; reflexivity. Qed.

(* terms that __eq__ identifies have the same truth value *)
Lemma teq_sound : forall sigma a b, teq a b = true -> eval sigma a = eval sigma b.
Proof.
  intros sigma a. induction a as [| |l r|k xs IH] using term_ind'; intros b H; destruct b as [| |l' r'|k' ys];
    simpl in H; try discriminate; try reflexivity.
  - apply andb_true_iff in H. destruct H as [H1 H2].
    apply String.eqb_eq in H1, H2. subst. reflexivity.
  - apply andb_true_iff in H. destruct H as [H H2].
    apply andb_true_iff in H. destruct H as [Hk H1].
    apply kind_eqb_eq in Hk. subst k'.
    rewrite forallb_forall in H1, H2. rewrite Forall_forall in IH. rewrite !eval_Op.
    apply evl_incl.
    + intros x Hx. specialize (H1 x Hx). apply existsb_exists in H1. destruct H1 as [y [Hy E]].
      exists y. split; [exact Hy | apply IH; assumption].
    + intros y Hy. specialize (H2 y Hy). apply existsb_exists in H2. destruct H2 as [x [Hx E]].
      exists x. split; [exact Hx | apply IH; assumption].
Qed.

Lemma teq_refl : forall a, teq a a = true.
Proof.
  induction a as [| |l r|k xs IH] using term_ind'; simpl; try reflexivity.
  - rewrite !String.eqb_refl. reflexivity.
  - rewrite kind_eqb_refl. simpl. rewrite Forall_forall in IH.
    apply andb_true_iff. split; apply forallb_forall; intros x Hx; apply existsb_exists; exists x;
      (split; [exact Hx | apply IH; exact Hx]).
Qed.

Definition comb (k : kind) (a b : bool) : bool := match k with KAnd => a && b | KOr => a || b end.

Lemma evl_nil : forall k sigma, evl k sigma [] = eval sigma (skip_of k).
Proof. destruct k; reflexivity. Qed.

Lemma evl_cons : forall k sigma e es, evl k sigma (e :: es) = comb k (eval sigma e) (evl k sigma es).
Proof. destruct k; reflexivity. Qed.

Lemma evl_app : forall k sigma xs ys, evl k sigma (xs ++ ys) = comb k (evl k sigma xs) (evl k sigma ys).
Proof. destruct k; simpl; intros; [apply forallb_app | apply existsb_app]. Qed.

Lemma comb_assoc : forall k a b c, comb k (comb k a b) c = comb k a (comb k b c).
Proof. destruct k, a, b, c; reflexivity. Qed.

Lemma comb_skip_r : forall k sigma a, comb k a (eval sigma (skip_of k)) = a.
Proof. destruct k, a; reflexivity. Qed.

Lemma comb_skip_l : forall k sigma a, comb k (eval sigma (skip_of k)) a = a.
Proof. destruct k, a; reflexivity. Qed.

Lemma comb_stop_l : forall k sigma a, comb k (eval sigma (stop_of k)) a = eval sigma (stop_of k).
Proof. destruct k, a; reflexivity. Qed.

Lemma comb_stop_r : forall k sigma a, comb k a (eval sigma (stop_of k)) = eval sigma (stop_of k).
Proof. destruct k, a; reflexivity. Qed.

Lemma comb_absorb : forall k a b, comb k (comb k a b) a = comb k a b.
Proof. destruct k, a, b; reflexivity. Qed.

Lemma evl_mem_absorb : forall k sigma s a,
  In a s -> comb k (evl k sigma s) (eval sigma a) = evl k sigma s.
Proof.
  intros k sigma s a Hin. induction s as [|x s IH]; [destruct Hin|].
  rewrite evl_cons. destruct Hin as [->|Hin].
  - apply comb_absorb.
  - rewrite comb_assoc, IH by assumption. reflexivity.
Qed.

Lemma set_add_evl : forall k sigma s e,
  evl k sigma (set_add s e) = comb k (evl k sigma s) (eval sigma e).
Proof.
  intros. unfold set_add, set_mem. destruct (existsb (fun a => teq a e) s) eqn:M.
  - apply existsb_exists in M. destruct M as [a [Ha E]].
    rewrite <- (teq_sound sigma a e E). symmetry. apply evl_mem_absorb. exact Ha.
  - rewrite evl_app. rewrite evl_cons, evl_nil, comb_skip_r. reflexivity.
Qed.

Lemma set_union_evl : forall k sigma es s,
  evl k sigma (set_union s es) = comb k (evl k sigma s) (evl k sigma es).
Proof.
  intros k sigma es. unfold set_union. induction es as [|e es IH]; intro s; simpl fold_left.
  - rewrite evl_nil, comb_skip_r. reflexivity.
  - rewrite IH, set_add_evl, evl_cons, comb_assoc. reflexivity.
Qed.

Lemma se_finish_evl : forall k sigma acc, eval sigma (se_finish k (skip_of k) acc) = evl k sigma acc.
Proof.
  intros. destruct acc as [|a [|b acc]]; simpl se_finish.
  - symmetry. apply evl_nil.
  - rewrite evl_cons, evl_nil, comb_skip_r. reflexivity.
  - apply eval_Op.
Qed.

Lemma is_ident_eq : forall e c, is_ident e c = true -> e = c.
Proof. destruct e, c; simpl; intro; try discriminate; reflexivity. Qed.

Lemma se_loop_stop_hd : forall k acc xs, se_loop k (stop_of k) (skip_of k) acc (stop_of k :: xs) = None.
Proof. destruct k; reflexivity. Qed.

Lemma se_loop_skip_hd : forall k acc xs,
  se_loop k (stop_of k) (skip_of k) acc (skip_of k :: xs) = se_loop k (stop_of k) (skip_of k) acc xs.
Proof. destruct k; reflexivity. Qed.

Lemma se_loop_flat_hd : forall k acc ys xs,
  se_loop k (stop_of k) (skip_of k) acc (Op k ys :: xs) = se_loop k (stop_of k) (skip_of k) (set_union acc ys) xs.
Proof. destruct k; reflexivity. Qed.

Lemma se_loop_keep_hd : forall k acc e xs,
  child_ok k e = true ->
  se_loop k (stop_of k) (skip_of k) acc (e :: xs) = se_loop k (stop_of k) (skip_of k) (set_add acc e) xs.
Proof. intros k acc e xs H. destruct k, e as [| |l r|[|] ys]; try discriminate H; reflexivity. Qed.

Lemma se_classify : forall k e,
  e = stop_of k \/ e = skip_of k \/ (exists ys, e = Op k ys) \/ child_ok k e = true.
Proof. destruct k, e as [| |l r|[|] ys]; simpl; auto; right; right; left; exists ys; reflexivity. Qed.

(* induction over the run of the loop: [P acc xs r] for the result [r] of the loop started with [acc] on [xs] *)
Lemma se_loop_ind : forall k (P : list term -> list term -> option (list term) -> Prop),
  (forall acc, P acc [] (Some acc)) ->
  (forall acc xs, P acc (stop_of k :: xs) None) ->
  (forall acc xs r, P acc xs r -> P acc (skip_of k :: xs) r) ->
  (forall acc ys xs r, P (set_union acc ys) xs r -> P acc (Op k ys :: xs) r) ->
  (forall acc e xs r, child_ok k e = true -> P (set_add acc e) xs r -> P acc (e :: xs) r) ->
  forall xs acc, P acc xs (se_loop k (stop_of k) (skip_of k) acc xs).
Proof.
  intros k P Hnil Hstop Hskip Hflat Hkeep. induction xs as [|e xs IH]; intro acc; [apply Hnil|].
  destruct (se_classify k e) as [->|[->|[[ys ->]|C]]].
  - rewrite se_loop_stop_hd. apply Hstop.
  - rewrite se_loop_skip_hd. apply Hskip, IH.
  - rewrite se_loop_flat_hd. apply Hflat, IH.
  - rewrite se_loop_keep_hd by exact C. apply Hkeep; [exact C | apply IH].
Qed.

Lemma se_loop_evl : forall k sigma xs acc,
  eval sigma (match se_loop k (stop_of k) (skip_of k) acc xs with
              | None => stop_of k
              | Some acc' => se_finish k (skip_of k) acc'
              end)
  = comb k (evl k sigma acc) (evl k sigma xs).
Proof.
  intros k sigma.
  apply (se_loop_ind k (fun acc xs r =>
    eval sigma (match r with None => stop_of k | Some acc' => se_finish k (skip_of k) acc' end)
    = comb k (evl k sigma acc) (evl k sigma xs))).
  - intro acc. rewrite se_finish_evl, evl_nil, comb_skip_r. reflexivity.
  - intros acc xs. rewrite evl_cons, comb_stop_l, comb_stop_r. reflexivity.
  - intros acc xs r IH. rewrite evl_cons, comb_skip_l. exact IH.
  - intros acc ys xs r IH. rewrite IH, set_union_evl, evl_cons, eval_Op, comb_assoc. reflexivity.
  - intros acc e xs r _ IH. rewrite IH, set_add_evl, evl_cons, comb_assoc. reflexivity.
Qed.

Lemma opc_equiv_lemma : forall k sigma es, eval sigma (OpC k es) = evl k sigma es.
Proof.
  intros. unfold OpC, simplify_exprs.
  rewrite (se_loop_evl k sigma es []). rewrite evl_nil, comb_skip_l. reflexivity.
Qed.

Lemma eq_shape_lemma : forall l r,
  (l = r /\ EqC l r = T) \/
  (l <> r /\ exists a b, EqC l r = TEq a b /\ String.ltb b a = true /\
                         ((a = l /\ b = r) \/ (a = r /\ b = l))).
Proof.
  intros. unfold EqC. destruct (String.eqb l r) eqn:E.
  - left. apply String.eqb_eq in E. auto.
  - right. apply String.eqb_neq in E. split; [exact E|].
    destruct (String.ltb r l) eqn:L.
    + exists l, r. auto.
    + exists r, l. split; [reflexivity|]. split; [|auto].
      apply ltb_total; [congruence | exact L].
Qed.

Lemma stop_not_skip : forall k, stop_of k <> skip_of k.
Proof. destruct k; discriminate. Qed.

Lemma se_loop_stop : forall k xs acc, In (stop_of k) xs -> se_loop k (stop_of k) (skip_of k) acc xs = None.
Proof.
  intro k. apply (se_loop_ind k (fun _ xs r => In (stop_of k) xs -> r = None)).
  - intros _ [].
  - reflexivity.
  - intros _ xs r IH [E|H]; [destruct (stop_not_skip k); symmetry; exact E | exact (IH H)].
  - intros _ ys xs r IH [E|H]; [destruct k; discriminate E | exact (IH H)].
  - intros _ e xs r C IH [E|H]; [subst e; destruct k; discriminate C | exact (IH H)].
Qed.

Lemma opc_stop_lemma : forall k es, In (stop_of k) es -> OpC k es = stop_of k.
Proof. intros. unfold OpC, simplify_exprs. rewrite se_loop_stop by assumption. reflexivity. Qed.

Lemma se_loop_skip : forall k xs acc,
  se_loop k (stop_of k) (skip_of k) acc xs
  = se_loop k (stop_of k) (skip_of k) acc (filter (fun e => negb (is_ident e (skip_of k))) xs).
Proof.
  intro k. apply (se_loop_ind k (fun acc xs r =>
    r = se_loop k (stop_of k) (skip_of k) acc (filter (fun e => negb (is_ident e (skip_of k))) xs))).
  - reflexivity.
  - intros acc xs. destruct k; reflexivity.
  - intros acc xs r IH. rewrite IH. destruct k; reflexivity.
  - intros acc ys xs r IH. rewrite IH. destruct k; reflexivity.
  - intros acc e xs r C IH. rewrite IH. simpl filter.
    replace (is_ident e (skip_of k)) with false by (destruct k, e; try discriminate C; reflexivity).
    symmetry. apply se_loop_keep_hd. exact C.
Qed.

Lemma opc_skip_lemma : forall k es,
  OpC k es = OpC k (filter (fun e => negb (is_ident e (skip_of k))) es).
Proof. intros. unfold OpC, simplify_exprs. rewrite <- se_loop_skip. reflexivity. Qed.

Lemma dupfree_snoc : forall s e,
  dupfree (s ++ [e]) = dupfree s && negb (existsb (fun a => teq a e) s).
Proof.
  induction s as [|x s IH]; intro e; simpl.
  - reflexivity.
  - rewrite existsb_app, IH. simpl. rewrite orb_false_r.
    destruct (existsb (fun y => teq x y) s); [reflexivity|].
    destruct (teq x e); simpl; [symmetry; apply andb_false_r | reflexivity].
Qed.

Lemma set_add_dupfree : forall s e, dupfree s = true -> dupfree (set_add s e) = true.
Proof.
  intros. unfold set_add, set_mem. destruct (existsb (fun a => teq a e) s) eqn:M; [assumption|].
  rewrite dupfree_snoc, M, H. reflexivity.
Qed.

Lemma set_union_dupfree : forall es s, dupfree s = true -> dupfree (set_union s es) = true.
Proof.
  unfold set_union. induction es as [|e es IH]; intros s H; simpl; [assumption|].
  apply IH. apply set_add_dupfree. assumption.
Qed.

Lemma set_add_in : forall s e x, In x (set_add s e) -> In x s \/ x = e.
Proof.
  intros s e x. unfold set_add. destruct (set_mem e s); [auto|].
  intro H. apply in_app_or in H. destruct H as [H|[H|[]]]; auto.
Qed.

Lemma set_union_in : forall es s x, In x (set_union s es) -> In x s \/ In x es.
Proof.
  unfold set_union. induction es as [|e es IH]; intros s x H; simpl in *; [auto|].
  apply IH in H. destruct H as [H|H]; [|auto].
  apply set_add_in in H. destruct H as [H|H]; auto.
Qed.

Lemma set_add_length : forall s e, List.length s <= List.length (set_add s e).
Proof.
  intros. unfold set_add. destruct (set_mem e s); [lia|]. rewrite app_length. lia.
Qed.

Lemma se_loop_inv : forall k all xs acc acc',
  (forall x, In x xs -> In x all) ->
  dupfree acc = true -> (forall x, In x acc -> origin k all x) ->
  se_loop k (stop_of k) (skip_of k) acc xs = Some acc' ->
  dupfree acc' = true /\ (forall x, In x acc' -> origin k all x).
Proof.
  intros k all xs acc acc'. revert xs acc.
  apply (se_loop_ind k (fun acc xs r =>
    (forall x, In x xs -> In x all) -> dupfree acc = true -> (forall x, In x acc -> origin k all x) ->
    r = Some acc' -> dupfree acc' = true /\ (forall x, In x acc' -> origin k all x))).
  - intros acc _ Hd Ho H. injection H as <-. auto.
  - discriminate.
  - intros acc xs r IH Hsub. apply IH. intros x Hx. apply Hsub. right. exact Hx.
  - intros acc ys xs r IH Hsub Hd Ho. apply IH.
    + intros x Hx. apply Hsub. right. exact Hx.
    + apply set_union_dupfree. exact Hd.
    + intros x Hx. apply set_union_in in Hx. destruct Hx as [Hx|Hx]; [exact (Ho x Hx)|].
      right. exists ys. split; [apply Hsub; left; reflexivity | exact Hx].
  - intros acc e xs r C IH Hsub Hd Ho. apply IH.
    + intros x Hx. apply Hsub. right. exact Hx.
    + apply set_add_dupfree. exact Hd.
    + intros x Hx. apply set_add_in in Hx. destruct Hx as [Hx| ->]; [exact (Ho x Hx)|].
      left. split; [apply Hsub; left; reflexivity | exact C].
Qed.

(* The exact guarantee of simplify_exprs on arbitrary input lists: the result is stop, skip, one element,
   or an Op k node with >= 2 pairwise different children, each of which is an input that is not
   TRUE/FALSE/same-class or an immediate child of a same-class input. *)
Lemma opc_shape_lemma : forall k es,
  match OpC k es with
  | Op k' xs => (k' = k /\ 2 <= List.length xs /\ dupfree xs = true /\ forall x, In x xs -> origin k es x)
                \/ origin k es (Op k' xs)
  | T | F => True
  | TEq l r => origin k es (TEq l r)
  end.
Proof.
  intros. unfold OpC, simplify_exprs.
  destruct (se_loop k (stop_of k) (skip_of k) [] es) as [acc|] eqn:H.
  - destruct (se_loop_inv k es es [] acc (fun x h => h) eq_refl (fun x h => match h with end) H)
      as [Hd Ho].
    destruct acc as [|a [|b acc]]; simpl se_finish.
    + destruct k; exact I.
    + assert (Ha : origin k es a) by (apply Ho; left; reflexivity).
      destruct a; auto.
    + left. repeat split; auto. simpl. lia.
  - destruct k; exact I.
Qed.

(* the same, as a rule: what holds of TRUE, FALSE, every term with an origin and every fresh node holds of
   the result *)
Lemma opc_elim : forall (P : term -> Prop) k es,
  P T -> P F -> (forall x, origin k es x -> P x) ->
  (forall xs, 2 <= List.length xs -> dupfree xs = true -> (forall x, In x xs -> origin k es x) -> P (Op k xs)) ->
  P (OpC k es).
Proof.
  intros P k es PT PF Po Pn. pose proof (opc_shape_lemma k es) as S.
  destruct (OpC k es) as [| |l r|k' xs]; auto.
  destruct S as [[-> [S1 [S2 S3]]]|S]; auto.
Qed.

Lemma opc_forallb_lemma : forall (P : term -> bool) k es,
  (forall k' ys, P (Op k' ys) = forallb P ys) -> P T = true -> P F = true ->
  forallb P es = true -> P (OpC k es) = true.
Proof.
  intros P k es HP PT PF H. rewrite forallb_forall in H.
  assert (O : forall x, origin k es x -> P x = true).
  { intros x [[Hx _]|[ys [Hy Hx]]]; [apply H; exact Hx|].
    specialize (H _ Hy). rewrite HP in H. rewrite forallb_forall in H. apply H. exact Hx. }
  apply (opc_elim (fun t => P t = true)); auto.
  intros xs _ _ S. rewrite HP. apply forallb_forall. intros x Hx. apply O, S, Hx.
Qed.

Lemma opc_oriented_lemma : forall k es, forallb oriented es = true -> oriented (OpC k es) = true.
Proof. intros. apply opc_forallb_lemma; auto. Qed.

Lemma normal_Op : forall k es,
  normal (Op k es) = Nat.leb 2 (List.length es) && dupfree es && forallb (fun e => child_ok k e && normal e) es.
Proof. reflexivity. Qed.

Lemma opc_normal_lemma : forall k es, forallb normal es = true -> normal (OpC k es) = true.
Proof.
  intros k es H. rewrite forallb_forall in H.
  assert (O : forall x, origin k es x -> child_ok k x && normal x = true).
  { intros x [[Hx C]|[ys [Hy Hx]]]; [rewrite C; apply H; exact Hx|].
    specialize (H _ Hy). rewrite normal_Op in H. apply andb_true_iff in H. destruct H as [_ H].
    rewrite forallb_forall in H. apply H. exact Hx. }
  apply (opc_elim (fun t => normal t = true)); auto.
  - intros x Hx. apply O in Hx. apply andb_true_iff in Hx. apply Hx.
  - intros xs L D S. apply Nat.leb_le in L. rewrite normal_Op, L, D.
    apply forallb_forall. intros x Hx. apply O, S, Hx.
Qed.

Lemma eqc_oriented : forall l r, oriented (EqC l r) = true.
Proof.
  intros. destruct (eq_shape_lemma l r) as [[_ ->]|[_ [a [b [-> [L _]]]]]]; [reflexivity | exact L].
Qed.

Lemma eqc_normal : forall l r, normal (EqC l r) = true.
Proof. intros. unfold EqC. destruct (String.eqb l r); [reflexivity|]. destruct (String.ltb r l); reflexivity. Qed.

Lemma has_key_true : forall tbl k, has_key tbl k = true <-> exists v, lookup tbl k = Some v.
Proof.
  intros. unfold has_key. destruct (lookup tbl k).
  - split; [eauto | reflexivity].
  - split; [discriminate | intros [v H]; discriminate].
Qed.

Lemma lookup_in : forall tbl p pv, lookup tbl p = Some pv -> In (p, pv) tbl.
Proof.
  induction tbl as [|[k0 v0] r IH]; intros p pv H; simpl in H; [discriminate|].
  destruct (String.eqb p k0) eqn:E.
  - apply String.eqb_eq in E. inversion H. subst. left. reflexivity.
  - right. apply IH. exact H.
Qed.

Lemma mem_name_true : forall x vs, mem_name x vs = true <-> In x vs.
Proof.
  intros x vs. unfold mem_name. rewrite existsb_exists. split.
  - intros [y [Hy E]]. apply String.eqb_eq in E. subst y. exact Hy.
  - intro H. exists x. split; [exact H | apply String.eqb_refl].
Qed.

Lemma consistentb_ok : forall sigma tbl,
  forallb (fun kv => mem_name (sigma (fst kv)) (snd kv)) tbl = true -> consistent sigma tbl.
Proof.
  intros sigma tbl H v vs L _. rewrite forallb_forall in H.
  apply mem_name_true. exact (H _ (lookup_in _ _ _ L)).
Qed.

Lemma gen_take_evl : forall k sigma (f : term -> option term) es pre,
  (forall x, In x es -> forall r, f x = Some r -> eval sigma r = eval sigma x) ->
  gen_take (stop_of k) (map f es) = Some pre ->
  evl k sigma pre = evl k sigma es.
Proof.
  intros k sigma f es. induction es as [|a es IH]; intros pre Hf H; simpl in H.
  - injection H as <-. reflexivity.
  - destruct (f a) as [e|] eqn:Fa; [|discriminate].
    assert (Ea : eval sigma e = eval sigma a) by (apply Hf; [left; reflexivity | exact Fa]).
    destruct (is_ident e (stop_of k)) eqn:Es.
    + injection H as <-. apply is_ident_eq in Es. subst e.
      rewrite !evl_cons, evl_nil, comb_skip_r, <- Ea, comb_stop_l. reflexivity.
    + destruct (gen_take (stop_of k) (map f es)) as [l|] eqn:G; [|discriminate].
      injection H as <-. rewrite !evl_cons, Ea. f_equal.
      apply IH; [|reflexivity]. intros x Hx. apply Hf. right. exact Hx.
Qed.

Lemma gen_take_forallb : forall (P : term -> bool) stop (f : term -> option term) es pre,
  (forall x, In x es -> forall r, f x = Some r -> P r = true) ->
  gen_take stop (map f es) = Some pre -> forallb P pre = true.
Proof.
  intros P stop f es. induction es as [|a es IH]; intros pre Hf H; simpl in H.
  - injection H as <-. reflexivity.
  - destruct (f a) as [e|] eqn:Fa; [|discriminate].
    assert (Pe : P e = true) by (apply (Hf a); [left; reflexivity | exact Fa]).
    destruct (is_ident e stop).
    + injection H as <-. simpl. rewrite Pe. reflexivity.
    + destruct (gen_take stop (map f es)) as [l|] eqn:G; [|discriminate].
      injection H as <-. simpl. rewrite Pe. apply IH; [|reflexivity].
      intros x Hx. apply Hf. right. exact Hx.
Qed.

Lemma gen_take_some : forall stop (f : term -> option term) es,
  (forall x, In x es -> exists r, f x = Some r) -> exists pre, gen_take stop (map f es) = Some pre.
Proof.
  intros stop f es. induction es as [|a es IH]; intro Hf; simpl.
  - eauto.
  - destruct (Hf a (or_introl eq_refl)) as [e ->].
    destruct (is_ident e stop); [eauto|].
    destruct IH as [l ->]; [intros; apply Hf; right; assumption|]. eauto.
Qed.

(* a relation between a term and its simplification, case by case of [simplify] *)
Lemma simplify_cases : forall tbl (R : term -> term -> Prop),
  R T T -> R F F ->
  (forall l r, has_key tbl r = true -> R (TEq l r) (TEq l r)) ->
  (forall l r vs, has_key tbl r = false -> lookup tbl l = Some vs ->
     R (TEq l r) (if mem_name r vs then TEq l r else F)) ->
  (forall k es pre, gen_take (stop_of k) (map (simplify tbl) es) = Some pre ->
     (forall x, In x es -> forall y, simplify tbl x = Some y -> R x y) -> R (Op k es) (OpC k pre)) ->
  forall t r, simplify tbl t = Some r -> R t r.
Proof.
  intros tbl R RT RF Rk Rv Ro t. induction t as [| |l r0|k es IH] using term_ind'; intros r H; simpl in H.
  - injection H as <-. exact RT.
  - injection H as <-. exact RF.
  - destruct (has_key tbl r0) eqn:K; [injection H as <-; apply Rk; exact K|].
    destruct (lookup tbl l) as [vs|] eqn:L; [|discriminate]. injection H as <-. apply Rv; assumption.
  - destruct (gen_take (stop_of k) (map (simplify tbl) es)) as [pre|] eqn:G; [|discriminate].
    injection H as <-. apply (Ro k es pre G). rewrite Forall_forall in IH. exact IH.
Qed.

Lemma simplify_equiv_lemma : forall sigma tbl t r,
  covers tbl t = true -> consistent sigma tbl ->
  simplify tbl t = Some r -> eval sigma r = eval sigma t.
Proof.
  intros sigma tbl t r Hc Hs H. revert Hc. revert t r H.
  apply (simplify_cases tbl (fun t r => covers tbl t = true -> eval sigma r = eval sigma t)); try reflexivity.
  - intros l r vs Kr Ll Hc. destruct (mem_name r vs) eqn:M; [reflexivity|].
    (* the equality was pruned: r is a value that l cannot take *)
    simpl. symmetry. apply String.eqb_neq.
    simpl in Hc. rewrite Kr, orb_false_r in Hc.
    apply andb_true_iff in Hc. destruct Hc as [_ Hcr].
    apply negb_true_iff in Hcr. unfold val. rewrite Hcr.
    destruct (is_var l) eqn:Vl; intro E.
    + rewrite <- E in M. apply (Hs l vs Ll), mem_name_true in Vl. congruence.
    + subst r. unfold has_key in Kr. rewrite Ll in Kr. discriminate.
  - intros k es pre G IH Hc. rewrite opc_equiv_lemma, eval_Op.
    simpl in Hc. rewrite forallb_forall in Hc.
    eapply gen_take_evl; [|exact G]. intros x Hx y Hy. apply (IH x Hx y Hy). apply Hc. exact Hx.
Qed.

Lemma simplify_preserves : forall (P : term -> bool),
  (forall k ys, P (Op k ys) = forallb P ys) -> P T = true -> P F = true ->
  forall tbl t r, P t = true -> simplify tbl t = Some r -> P r = true.
Proof.
  intros P HP PT PF tbl t r Hp H. revert Hp. revert t r H.
  apply (simplify_cases tbl (fun t r => P t = true -> P r = true)); auto.
  - intros l r vs _ _ Hp. destruct (mem_name r vs); assumption.
  - intros k es pre G IH Hp. apply opc_forallb_lemma; try assumption.
    eapply gen_take_forallb; [|exact G].
    rewrite HP, forallb_forall in Hp. intros x Hx y Hy. exact (IH x Hx y Hy (Hp x Hx)).
Qed.

