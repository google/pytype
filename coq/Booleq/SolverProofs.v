(* Lemmas about Booleq/Solver.v: the pivots and the equalities of a term, one round of Solver.solve, the loop, the
   completed implications; boolean checks and witnesses for the refutations of Props/C17.v. *)
From Coq Require Import List Bool String Ascii Arith Lia.
From PV Require Import Booleq.Model Booleq.Proofs Booleq.Solver.
Import ListNotations.
Open Scope string_scope.
Open Scope list_scope.

Lemma fold_left_inv : forall (S A : Type) (f : S -> A -> S) (Q : S -> Prop) l,
  (forall s a, In a l -> Q s -> Q (f s a)) -> forall s, Q s -> Q (fold_left f l s).
Proof.
  intros S A f Q l. induction l as [|a l IH]; intros Hf s Hs; simpl; [exact Hs|].
  apply IH; [intros s' b Hb; apply Hf; right; exact Hb | apply Hf; [left; reflexivity | exact Hs]].
Qed.

Lemma fold_left_reaches : forall (S A : Type) (f : S -> A -> S) (Q : S -> Prop) a l,
  (forall s b, Q s -> Q (f s b)) -> (forall s, Q (f s a)) -> In a l -> forall s, Q (fold_left f l s).
Proof.
  intros S A f Q a l Hk Ha. induction l as [|b l IH]; intros Hin s; [destruct Hin|]. simpl.
  destruct Hin as [->|Hin]; [|apply IH; exact Hin].
  apply fold_left_inv; [intros; apply Hk; assumption | apply Ha].
Qed.

(* the loops of the Solver thread an [option] state: [None] is an exception and is final *)
Lemma fold_opt_none : forall (S A : Type) (f : option S -> A -> option S) l,
  (forall a, f None a = None) -> fold_left f l None = None.
Proof. intros S A f l Hn. induction l as [|a l IH]; simpl; [reflexivity | rewrite Hn; exact IH]. Qed.

(* [P rest s]: the invariant when [rest] is still to be processed *)
Lemma fold_opt_inv : forall (S A : Type) (f : option S -> A -> option S) (P : list A -> S -> Prop),
  (forall a, f None a = None) ->
  (forall a l s s', P (a :: l) s -> f (Some s) a = Some s' -> P l s') ->
  forall l s s', P l s -> fold_left f l (Some s) = Some s' -> P [] s'.
Proof.
  intros S A f P Hn Hf l. induction l as [|a l IH]; intros s s' Hp H; simpl in H.
  - inversion H. subst. exact Hp.
  - destruct (f (Some s) a) as [s1|] eqn:E; [exact (IH s1 s' (Hf a l s s1 Hp E) H)|].
    rewrite fold_opt_none in H by exact Hn. discriminate.
Qed.

Lemma in_ninter : forall x a b, In x (ninter a b) <-> In x a /\ In x b.
Proof. intros. unfold ninter. rewrite filter_In, mem_name_true. tauto. Qed.

Lemma in_nadd : forall x a y, In x (nadd a y) <-> In x a \/ y = x.
Proof.
  intros x a y. unfold nadd. destruct (mem_name y a) eqn:M.
  - apply mem_name_true in M. split; [tauto | intros [H| <-]; assumption].
  - rewrite in_app_iff. simpl. tauto.
Qed.

Lemma in_nunion : forall b a x, In x (nunion a b) <-> In x a \/ In x b.
Proof.
  unfold nunion. induction b as [|y b IH]; intros a x; simpl.
  - tauto.
  - rewrite IH, in_nadd. apply or_assoc.
Qed.

Lemma in_nremove : forall x a y, In x (nremove a y) <-> In x a /\ x <> y.
Proof.
  intros. unfold nremove. rewrite filter_In, negb_true_iff, String.eqb_neq.
  split; intros [H1 H2]; split; auto.
Qed.

Lemma filter_length_le : forall (A : Type) (f : A -> bool) l, List.length (filter f l) <= List.length l.
Proof. intros A f l. induction l as [|a l IH]; simpl; [lia|]. destruct (f a); simpl; lia. Qed.

Lemma filter_length_eq : forall (A : Type) (f : A -> bool) l, List.length (filter f l) = List.length l -> filter f l = l.
Proof.
  intros A f l. induction l as [|a l IH]; intro H; simpl in *; [reflexivity|].
  destruct (f a); simpl in H.
  - f_equal. apply IH. lia.
  - pose proof (filter_length_le A f l). lia.
Qed.

Lemma nremove_length : forall l x, In x l -> List.length (nremove l x) < List.length l.
Proof.
  induction l as [|a l IH]; intros x H; [destruct H|]. unfold nremove in *. simpl.
  destruct (String.eqb x a) eqn:E; simpl.
  - apply Nat.lt_succ_r. apply filter_length_le.
  - destruct H as [H|H]; [subst; rewrite String.eqb_refl in E; discriminate|].
    specialize (IH x H). lia.
Qed.

Lemma alookup_aset : forall (A : Type) (l : list (name * A)) k v k',
  alookup (aset l k v) k' = if String.eqb k' k then Some v else alookup l k'.
Proof.
  intros A l. induction l as [|[k0 v0] r IH]; intros k v k'; simpl.
  - destruct (String.eqb k' k); reflexivity.
  - destruct (String.eqb k k0) eqn:E; simpl.
    + apply String.eqb_eq in E. subst k0. destruct (String.eqb k' k); reflexivity.
    + rewrite IH. destruct (String.eqb k' k0) eqn:E0; [|reflexivity].
      apply String.eqb_eq in E0. subst k0. rewrite String.eqb_sym, E. reflexivity.
Qed.

Lemma alookup_in : forall (A : Type) (l : list (name * A)) k v, alookup l k = Some v -> In (k, v) l.
Proof.
  intros A l. induction l as [|[k0 v0] r IH]; intros k v H; simpl in H; [discriminate|].
  destruct (String.eqb k k0) eqn:E.
  - apply String.eqb_eq in E. inversion H. subst. left. reflexivity.
  - right. apply IH. exact H.
Qed.

(* a [table] is read and written like any other dict *)
Lemma lookup_alookup : forall tbl k, lookup tbl k = alookup tbl k.
Proof. induction tbl as [|[k' v] r IH]; intro k; simpl; [|rewrite IH]; reflexivity. Qed.

Lemma tset_aset : forall tbl k v, tset tbl k v = aset tbl k v.
Proof. induction tbl as [|[k' v'] r IH]; intros k v; simpl; [|rewrite IH]; reflexivity. Qed.

Lemma lookup_tset : forall tbl k v k',
  lookup (tset tbl k v) k' = if String.eqb k' k then Some v else lookup tbl k'.
Proof. intros. rewrite tset_aset, !lookup_alookup. apply alookup_aset. Qed.

Lemma has_key_tset_present : forall t k old v k', lookup t k = Some old -> has_key (tset t k v) k' = has_key t k'.
Proof.
  intros t k old v k' L. unfold has_key. rewrite lookup_tset. destruct (String.eqb k' k) eqn:E; [|reflexivity].
  apply String.eqb_eq in E. subst. rewrite L. reflexivity.
Qed.

Lemma tset_same_id : forall tbl k v, lookup tbl k = Some v -> tset tbl k v = tbl.
Proof.
  induction tbl as [|[k0 v0] r IH]; intros k v L; simpl in L; [discriminate|].
  simpl. destruct (String.eqb k k0) eqn:E.
  - inversion L. reflexivity.
  - f_equal. apply IH. exact L.
Qed.

Lemma tsize_tset : forall tbl k old v,
  lookup tbl k = Some old -> tsize (tset tbl k v) + List.length old = tsize tbl + List.length v.
Proof.
  induction tbl as [|[k0 v0] r IH]; intros k old v L; simpl in L; [discriminate|].
  simpl. destruct (String.eqb k k0) eqn:E.
  - inversion L. subst. simpl. lia.
  - simpl. specialize (IH k old v L). lia.
Qed.

Lemma keys_tset : forall tbl k v x, In x (map fst (tset tbl k v)) -> x = k \/ In x (map fst tbl).
Proof.
  induction tbl as [|[k0 v0] r IH]; intros k v x H; simpl in H.
  - destruct H as [H|[]]. auto.
  - destruct (String.eqb k k0); [right; exact H|].
    destruct H as [H|H]; [right; left; exact H|]. apply IH in H. simpl. tauto.
Qed.

Lemma nodup_tset : forall tbl k v, NoDup (map fst tbl) -> NoDup (map fst (tset tbl k v)).
Proof.
  induction tbl as [|[k0 v0] r IH]; intros k v H; simpl.
  - constructor; [simpl; tauto | constructor].
  - inversion H as [|? ? Hn Hr]. subst. destruct (String.eqb k k0) eqn:E; simpl.
    + constructor; assumption.
    + constructor; [|apply IH; exact Hr].
      intro Hin. apply keys_tset in Hin. destruct Hin as [Hin|Hin]; [|exact (Hn Hin)].
      subst. rewrite String.eqb_refl in E. discriminate.
Qed.

Lemma nodup_in_lookup : forall tbl p pv, NoDup (map fst tbl) -> In (p, pv) tbl -> lookup tbl p = Some pv.
Proof.
  induction tbl as [|[k0 v0] r IH]; intros p pv N H; [destruct H|].
  simpl in N. inversion N as [|? ? Hn Hr]. subst. simpl. destruct H as [H|H].
  - inversion H. subst. rewrite String.eqb_refl. reflexivity.
  - destruct (String.eqb p k0) eqn:E.
    + apply String.eqb_eq in E. subst. exfalso. apply Hn. apply in_map_iff. exists (k0, pv). auto.
    + apply IH; assumption.
Qed.

Lemma nodup_filter_keys : forall (f : name * nset -> bool) l, NoDup (map fst l) -> NoDup (map fst (filter f l)).
Proof.
  induction l as [|a l IH]; intro H; simpl; [constructor|].
  simpl in H. inversion H as [|? ? Hn Hr]. subst.
  destruct (f a); simpl; [|apply IH; exact Hr].
  constructor; [|apply IH; exact Hr].
  intro Hin. apply Hn. apply in_map_iff in Hin. destruct Hin as [x [E Hx]].
  apply filter_In in Hx. apply in_map_iff. exists x. tauto.
Qed.

Lemma lookup_filter : forall (f : name * nset -> bool) l p pv,
  NoDup (map fst l) -> lookup (filter f l) p = Some pv -> lookup l p = Some pv.
Proof.
  intros f l p pv N H. apply lookup_in, filter_In in H. apply nodup_in_lookup; tauto.
Qed.

Definition pstep (k : kind) (piv : table) (nv : name * nset) : table :=
  match lookup piv (fst nv) with
  | Some old => tset piv (fst nv) (pcomb k old (snd nv))
  | None => tset piv (fst nv) (snd nv)
  end.

Lemma pmerge_fold : forall k piv ep, pmerge k piv ep = fold_left (pstep k) ep piv.
Proof. reflexivity. Qed.

Definition pfold (tbl : table) (k : kind) (es : list term) (acc : table) : table :=
  fold_left (fun piv e => pmerge k piv (extract_pivots tbl e)) es acc.

Lemma extract_pivots_op : forall tbl k es,
  extract_pivots tbl (Op k es) =
  match k with
  | KAnd => filter (fun nv => negb (is_nil (snd nv))) (pfold tbl k es [])
  | KOr => pfold tbl k es []
  end.
Proof. reflexivity. Qed.

Lemma lookup_pstep : forall k piv n vals p,
  lookup (pstep k piv (n, vals)) p =
  if String.eqb p n then Some (match lookup piv n with Some old => pcomb k old vals | None => vals end)
  else lookup piv p.
Proof. intros. unfold pstep. simpl. destruct (lookup piv n); apply lookup_tset. Qed.

Lemma nodup_pstep : forall k piv nv, NoDup (map fst piv) -> NoDup (map fst (pstep k piv nv)).
Proof. intros. unfold pstep. destruct (lookup piv (fst nv)); apply nodup_tset; assumption. Qed.

Lemma nodup_pfold : forall tbl k es acc, NoDup (map fst acc) -> NoDup (map fst (pfold tbl k es acc)).
Proof.
  intros tbl k es acc H. unfold pfold. apply fold_left_inv; [|exact H].
  intros piv e _ N. rewrite pmerge_fold. apply fold_left_inv; [|exact N].
  intros. apply nodup_pstep. assumption.
Qed.

Lemma nodup_extract_pivots : forall tbl t, NoDup (map fst (extract_pivots tbl t)).
Proof.
  intros tbl t. destruct t as [| |l r|k es].
  - constructor.
  - constructor.
  - cbn [extract_pivots]. destruct (lookup tbl l), (lookup tbl r); repeat apply nodup_tset; constructor.
  - rewrite extract_pivots_op.
    assert (N : NoDup (map fst (pfold tbl k es []))) by (apply nodup_pfold; constructor).
    destruct k; [apply nodup_filter_keys; exact N | exact N].
Qed.

(* [psound], read through [lookup]; the same thing for a dict without repeated keys *)
Definition lsound (sigma : name -> name) (tbl piv : table) : Prop :=
  forall p pv, lookup piv p = Some pv -> has_key tbl p = true -> In (sigma p) pv.

(* conjunction: intersections of sound pivot sets are sound *)
Lemma pstep_and_sound : forall sigma tbl piv n vals,
  lsound sigma tbl piv -> (has_key tbl n = true -> In (sigma n) vals) ->
  lsound sigma tbl (pstep KAnd piv (n, vals)).
Proof.
  intros sigma tbl piv n vals Hp Hn p pv L Hk. rewrite lookup_pstep in L.
  destruct (String.eqb p n) eqn:E; [|exact (Hp p pv L Hk)].
  apply String.eqb_eq in E. subst p. inversion L. subst pv.
  destruct (lookup piv n) as [old|] eqn:Lo; [|exact (Hn Hk)].
  apply in_ninter. split; [exact (Hp n old Lo Hk) | exact (Hn Hk)].
Qed.

Lemma pfold_and_sound : forall sigma tbl es acc,
  lsound sigma tbl acc -> (forall e, In e es -> lsound sigma tbl (extract_pivots tbl e)) ->
  lsound sigma tbl (pfold tbl KAnd es acc).
Proof.
  intros sigma tbl es acc Ha He. unfold pfold. apply fold_left_inv; [|exact Ha].
  intros piv e Hin Hp. rewrite pmerge_fold. apply fold_left_inv; [|exact Hp].
  intros piv' [n vals] Hnv Hp'. apply pstep_and_sound; [exact Hp'|].
  apply (He e Hin). apply nodup_in_lookup; [apply nodup_extract_pivots | exact Hnv].
Qed.

(* disjunction: the entry of a name only grows, and contains what every disjunct that mentions it offers *)
Definition holds_at (piv : table) (p : name) (s : nset) : Prop :=
  exists s', lookup piv p = Some s' /\ incl s s'.

Lemma pstep_or_keeps : forall piv nv p s, holds_at piv p s -> holds_at (pstep KOr piv nv) p s.
Proof.
  intros piv [n vals] p s [s' [L I]]. unfold holds_at. rewrite lookup_pstep.
  destruct (String.eqb p n) eqn:E; [|exists s'; auto].
  apply String.eqb_eq in E. subst n. rewrite L. eexists. split; [reflexivity|].
  intros x Hx. apply in_nunion. left. apply I. exact Hx.
Qed.

Lemma pstep_or_adds : forall piv n vals, holds_at (pstep KOr piv (n, vals)) n vals.
Proof.
  intros. unfold holds_at. rewrite lookup_pstep, String.eqb_refl. eexists. split; [reflexivity|].
  destruct (lookup piv n); [intros x Hx; apply in_nunion; right; exact Hx | apply incl_refl].
Qed.

Lemma pmerge_or_keeps : forall ep piv p s, holds_at piv p s -> holds_at (pmerge KOr piv ep) p s.
Proof.
  intros. rewrite pmerge_fold. apply fold_left_inv; [|assumption]. intros. apply pstep_or_keeps. assumption.
Qed.

Lemma pfold_or_includes : forall tbl es acc e p pv,
  In e es -> In (p, pv) (extract_pivots tbl e) -> holds_at (pfold tbl KOr es acc) p pv.
Proof.
  intros tbl es acc e p pv Hin Hp. unfold pfold.
  apply (fold_left_reaches _ _ _ (fun piv => holds_at piv p pv) e); [ | |exact Hin].
  - intros piv e' H. apply pmerge_or_keeps. exact H.
  - intro piv. rewrite pmerge_fold.
    apply (fold_left_reaches _ _ _ (fun piv => holds_at piv p pv) (p, pv)); [ | |exact Hp].
    + intros. apply pstep_or_keeps. assumption.
    + intro. apply pstep_or_adds.
Qed.

(* the dict display {l: x, r: y} *)
Lemma lookup_pair : forall l r (x y : nset) p pv,
  lookup (tset (tset [] l x) r y) p = Some pv -> (p = r /\ pv = y) \/ (p = l /\ pv = x).
Proof.
  intros l r x y p pv L. rewrite !lookup_tset in L.
  destruct (String.eqb p r) eqn:Er; [apply String.eqb_eq in Er; inversion L; auto|].
  destruct (String.eqb p l) eqn:El; [apply String.eqb_eq in El; inversion L; auto | discriminate L].
Qed.

Lemma is_var_key : forall tbl n,
  keys_vars tbl -> negb (is_var n) || has_key tbl n = true -> is_var n = has_key tbl n.
Proof.
  intros tbl n Hkv C. destruct (has_key tbl n) eqn:K; [apply Hkv; exact K|].
  destruct (is_var n); [discriminate | reflexivity].
Qed.

Lemma pivots_sound_lookup : forall sigma tbl t,
  keys_vars tbl -> consistent sigma tbl -> covers tbl t = true -> guarded tbl t = true ->
  eval sigma t = true -> lsound sigma tbl (extract_pivots tbl t).
Proof.
  intros sigma tbl t Hkv Hs. induction t as [| |l r|k es IH] using term_ind'; intros Hc Hg He.
  - intros p pv L. discriminate L.
  - intros p pv L. discriminate L.
  - simpl in Hc. apply andb_true_iff in Hc. destruct Hc as [Cl Cr].
    simpl in He. unfold val in He. rewrite (is_var_key tbl l Hkv Cl), (is_var_key tbl r Hkv Cr) in He.
    apply String.eqb_eq in He.
    assert (S : forall n a, lookup tbl n = Some a -> In (sigma n) a).
    { intros n a L. apply (Hs n a L). apply Hkv, has_key_true. eauto. }
    intros p pv L Hk. cbn [extract_pivots] in L. unfold has_key in He, Hk.
    destruct (lookup tbl l) as [a|] eqn:Ll; [destruct (lookup tbl r) as [b|] eqn:Lr|];
      apply lookup_pair in L; destruct L as [[-> ->]|[-> ->]].
    (* both keys: each gets the intersection, and sigma l = sigma r *)
    + apply in_ninter. split; [rewrite <- He; exact (S l a Ll) | exact (S r b Lr)].
    + apply in_ninter. split; [exact (S l a Ll) | rewrite He; exact (S r b Lr)].
    (* only l a key: the pivot r is no key; l gets [r], and sigma l = r *)
    + rewrite Lr in Hk. discriminate Hk.
    + left. symmetry. exact He.
    (* l no key: r gets [l], and l = sigma r; the pivot l is no key *)
    + destruct (lookup tbl r); [left; exact He | discriminate Hk].
    + rewrite Ll in Hk. discriminate Hk.
  - rewrite Forall_forall in IH. simpl in Hc. rewrite forallb_forall in Hc.
    cbn [guarded] in Hg. apply andb_true_iff in Hg. destruct Hg as [Hg1 Hg2]. rewrite forallb_forall in Hg1.
    rewrite extract_pivots_op. pose proof (nodup_pfold tbl k es [] (NoDup_nil _)) as N. destruct k.
    + simpl in He. rewrite forallb_forall in He.
      intros p pv L. apply lookup_filter in L; [revert p pv L | exact N].
      apply pfold_and_sound; [intros p pv L; discriminate L|]. intros e Hin. apply IH; auto.
    + simpl in He. apply existsb_exists in He. destruct He as [e0 [Hin0 He0]].
      intros p pv L Hk. apply lookup_in in L.
      rewrite forallb_forall in Hg2. specialize (Hg2 (p, pv)). rewrite extract_pivots_op in Hg2.
      specialize (Hg2 L). simpl in Hg2. rewrite Hk in Hg2. simpl in Hg2.
      rewrite forallb_forall in Hg2. specialize (Hg2 e0 Hin0).
      apply has_key_true in Hg2. destruct Hg2 as [pv0 L0].
      destruct (pfold_or_includes tbl es [] e0 p pv0 Hin0 (lookup_in _ _ _ L0)) as [s' [L' I']].
      rewrite (nodup_in_lookup _ _ _ N L) in L'. inversion L'. subst s'. apply I'.
      exact (IH e0 Hin0 (Hc e0 Hin0) (Hg1 e0 Hin0) He0 p pv0 L0 Hk).
Qed.

(* on a dict, [lsound] is [psound] *)
Lemma lsound_psound : forall sigma tbl piv, NoDup (map fst piv) -> lsound sigma tbl piv -> psound sigma tbl piv.
Proof. intros sigma tbl piv N H p pv Hin. apply H. apply nodup_in_lookup; assumption. Qed.

Lemma occurs_eq_op : forall l r k es, occurs_eq l r (Op k es) <-> exists x, In x es /\ occurs_eq l r x.
Proof.
  intros l r k es. simpl. induction es as [|e es IH].
  - split; [intros [] | intros [x [[] _]]].
  - rewrite IH. split.
    + intros [H|[x [Hx H]]]; [exists e; simpl; auto | exists x; simpl; auto].
    + intros [x [[E|Hx] H]]; [subst; auto | right; exists x; auto].
Qed.

Lemma forallb_ext_in : forall (A : Type) (f g : A -> bool) l,
  (forall x, In x l -> f x = g x) -> forallb f l = forallb g l.
Proof.
  intros A f g l. induction l as [|a l IH]; intro H; simpl; [reflexivity|].
  rewrite (H a (or_introl eq_refl)). f_equal. apply IH. intros x Hx. apply H. right. exact Hx.
Qed.

Lemma covers_ext : forall a b t, (forall k, has_key a k = has_key b k) -> covers a t = covers b t.
Proof.
  intros a b t E. induction t as [| |l r|k es IH] using term_ind'; simpl; try reflexivity.
  - rewrite !E. reflexivity.
  - rewrite Forall_forall in IH. apply forallb_ext_in. exact IH.
Qed.

Lemma simplify_covers : forall tbl0 tbl t r,
  covers tbl0 t = true -> simplify tbl t = Some r -> covers tbl0 r = true.
Proof. intros tbl0. apply (simplify_preserves (covers tbl0)); reflexivity. Qed.

Lemma opc_covers : forall tbl k es, forallb (covers tbl) es = true -> covers tbl (OpC k es) = true.
Proof. intros. apply opc_forallb_lemma; auto. Qed.

Definition ap_step (tc : table * bool) (nv : name * nset) : table * bool :=
  match lookup (fst tc) (fst nv) with
  | None => tc
  | Some before =>
      let after := ninter before (snd nv) in
      (tset (fst tc) (fst nv) after, snd tc || negb (Nat.eqb (List.length before) (List.length after)))
  end.

Lemma apply_pivots_fold : forall tbl piv, apply_pivots tbl piv = fold_left ap_step piv (tbl, false).
Proof. reflexivity. Qed.

(* how steps of a round take (table, changed flag) from (t0, c0) to (t1, c1): the table only shrinks, a raised flag
   stays raised, and the flag is raised when the table has shrunk *)
Definition step_rel (t0 : table) (c0 : bool) (t1 : table) (c1 : bool) : Prop :=
  tsize t1 <= tsize t0 /\
  (c1 = true -> c0 = true \/ tsize t1 < tsize t0) /\
  (c1 = false -> t1 = t0 /\ c0 = false) /\
  tbl_le t1 t0 /\
  (forall k, has_key t1 k = has_key t0 k).

Lemma tbl_le_refl : forall t, tbl_le t t.
Proof. intros t k vs H. exists vs. split; [exact H | apply incl_refl]. Qed.

Lemma tbl_le_trans : forall a b c, tbl_le a b -> tbl_le b c -> tbl_le a c.
Proof.
  intros a b c H1 H2 k vs L. destruct (H1 k vs L) as [ws [L1 I1]]. destruct (H2 k ws L1) as [us [L2 I2]].
  exists us. split; [exact L2 | eapply incl_tran; eassumption].
Qed.

Lemma tbl_le_tset : forall t k old v, lookup t k = Some old -> incl v old -> tbl_le (tset t k v) t.
Proof.
  intros t k old v L I k' vs H. rewrite lookup_tset in H. destruct (String.eqb k' k) eqn:E.
  - apply String.eqb_eq in E. subst. inversion H. subst. exists old. auto.
  - exists vs. split; [exact H | apply incl_refl].
Qed.

Lemma step_rel_refl : forall t c, step_rel t c t c.
Proof. intros. unfold step_rel. repeat split; auto. apply tbl_le_refl. Qed.

Lemma step_rel_trans : forall t0 c0 t1 c1 t2 c2, step_rel t0 c0 t1 c1 -> step_rel t1 c1 t2 c2 -> step_rel t0 c0 t2 c2.
Proof.
  intros t0 c0 t1 c1 t2 c2 [A1 [A2 [A3 [A4 A5]]]] [B1 [B2 [B3 [B4 B5]]]]. repeat split.
  - exact (Nat.le_trans _ _ _ B1 A1).
  - intro H. destruct (B2 H) as [H1|H1]; [destruct (A2 H1) as [H0|H0]|]; [left; exact H0 | right | right].
    + exact (Nat.le_lt_trans _ _ _ B1 H0).
    + exact (Nat.lt_le_trans _ _ _ H1 A1).
  - destruct (B3 H) as [E1 E2]. destruct (A3 E2) as [E3 E4]. congruence.
  - destruct (B3 H) as [E1 E2]. destruct (A3 E2) as [E3 E4]. exact E4.
  - eapply tbl_le_trans; eassumption.
  - intro k. rewrite B5. apply A5.
Qed.

Lemma step_rel_tset : forall t c k old v c',
  lookup t k = Some old -> incl v old -> List.length v <= List.length old ->
  (c' = true -> c = true \/ List.length v < List.length old) ->
  (c' = false -> v = old /\ c = false) ->
  step_rel t c (tset t k v) c'.
Proof.
  intros t c k old v c' L I Hl Ht Hf. pose proof (tsize_tset t k old v L) as S.
  split; [lia|]. split; [intro H; destruct (Ht H); [auto | right; lia]|].
  split; [intro H; destruct (Hf H) as [-> ->]; split; [apply tset_same_id; exact L | reflexivity]|].
  split; [apply (tbl_le_tset t k old); assumption | intro k'; apply (has_key_tset_present t k old); exact L].
Qed.

Lemma ap_step_rel : forall t c nv, step_rel t c (fst (ap_step (t, c) nv)) (snd (ap_step (t, c) nv)).
Proof.
  intros t c [n pv]. unfold ap_step. simpl. destruct (lookup t n) as [before|] eqn:L; simpl; [|apply step_rel_refl].
  pose proof (filter_length_le _ (fun x => mem_name x pv) before) as Fl. fold (ninter before pv) in Fl.
  apply (step_rel_tset t c n before); [exact L | intros x Hx; apply in_ninter in Hx; tauto | exact Fl | |]; intro H.
  - apply orb_true_iff in H. destruct H as [H|H]; [auto|]. right.
    apply negb_true_iff, Nat.eqb_neq in H. lia.
  - apply orb_false_iff in H. destruct H as [Hc H]. apply negb_false_iff, Nat.eqb_eq in H.
    split; [apply filter_length_eq; symmetry; exact H | exact Hc].
Qed.

Lemma apply_pivots_rel : forall tbl piv,
  step_rel tbl false (fst (apply_pivots tbl piv)) (snd (apply_pivots tbl piv)).
Proof.
  intros tbl piv. rewrite apply_pivots_fold.
  apply (fold_left_inv _ _ ap_step (fun tc => step_rel tbl false (fst tc) (snd tc))); [|apply step_rel_refl].
  intros [t1 c1] nv _ R. eapply step_rel_trans; [exact R | apply ap_step_rel].
Qed.

Lemma step_rel_flag : forall t1 c1 t2 c2, step_rel t1 false t2 c2 -> step_rel t1 c1 t2 (c1 || c2).
Proof.
  intros t1 c1 t2 c2 [B1 [B2 [B3 [B4 B5]]]]. split; [exact B1|]. split; [|split; [|split; assumption]]; intro H.
  - apply orb_true_iff in H. destruct H as [H|H]; [left; exact H|]. destruct (B2 H); [discriminate | right; assumption].
  - apply orb_false_iff in H. destruct H as [H1 H2]. split; [apply (B3 H2) | exact H1].
Qed.

Lemma consistent_tset : forall sigma t k v,
  consistent sigma t -> (is_var k = true -> In (sigma k) v) -> consistent sigma (tset t k v).
Proof.
  intros sigma t k v Hc Hv x vs L Vx. rewrite lookup_tset in L.
  destruct (String.eqb x k) eqn:E; [|exact (Hc x vs L Vx)].
  apply String.eqb_eq in E. subst x. inversion L. subst vs. exact (Hv Vx).
Qed.

Lemma apply_pivots_consistent : forall sigma tbl piv,
  psound sigma tbl piv -> consistent sigma tbl -> consistent sigma (fst (apply_pivots tbl piv)).
Proof.
  intros sigma tbl piv Hp Hc. rewrite apply_pivots_fold.
  apply (fold_left_inv _ _ ap_step
           (fun tc => (forall k, has_key (fst tc) k = has_key tbl k) /\ consistent sigma (fst tc))); [|auto].
  intros [t1 c1] [n pv] Hin [Hk1 Hc1]. unfold ap_step. simpl.
  destruct (lookup t1 n) as [before|] eqn:L; simpl; [|auto]. split.
  - intro k. rewrite (has_key_tset_present t1 n before); [apply Hk1 | exact L].
  - apply consistent_tset; [exact Hc1|]. intro Vn. apply in_ninter. split; [exact (Hc1 n before L Vn)|].
    apply (Hp n pv Hin). rewrite <- Hk1. apply has_key_true. eauto.
Qed.

Lemma value_step_rel : forall var st value st',
  value_step var (Some st) value = Some st' ->
  step_rel (r_tbl st) (r_changed st) (r_tbl st') (r_changed st').
Proof.
  intros var st value st' H. unfold value_step in H.
  destruct (alookup (adict (r_im st) var) value) as [imp|]; [|discriminate].
  destruct (simplify (r_tbl st) imp) as [imp'|]; [|discriminate].
  destruct (is_ident imp' F); [|injection H as <-; apply step_rel_refl].
  destruct (mem_name value (hget (r_tbl st) var)) eqn:M; [|discriminate].
  injection H as <-. simpl. apply mem_name_true in M.
  unfold hget in *. destruct (lookup (r_tbl st) var) as [old|] eqn:L; [|destruct M].
  pose proof (nremove_length old value M) as Nl.
  apply (step_rel_tset _ _ var old); [exact L | intros x Hx; apply in_nremove in Hx; tauto | lia | auto | discriminate].
Qed.

Lemma fold_value_rel : forall var vs st st',
  fold_left (value_step var) vs (Some st) = Some st' ->
  step_rel (r_tbl st) (r_changed st) (r_tbl st') (r_changed st').
Proof.
  intros var vs st st'.
  apply (fold_opt_inv _ _ (value_step var) (fun _ s => step_rel (r_tbl st) (r_changed st) (r_tbl s) (r_changed s)));
    [reflexivity | | apply step_rel_refl].
  intros a l s s' R E. eapply step_rel_trans; [exact R | eapply value_step_rel; exact E].
Qed.

Lemma var_step_rel : forall ord st var st',
  var_step ord (Some st) var = Some st' ->
  step_rel (l_tbl st) (l_changed st) (l_tbl st') (l_changed st').
Proof.
  intros ord st var st' H. unfold var_step in H.
  destruct (lookup (l_tbl st) var) as [values|]; [|discriminate].
  match type of H with context [fold_left ?f ?l ?a] => destruct (fold_left f l a) as [r|] eqn:E end; [|discriminate].
  injection H as <-. simpl. apply fold_value_rel in E. exact E.
Qed.

Lemma fold_var_rel : forall ord vs st st',
  fold_left (var_step ord) vs (Some st) = Some st' ->
  step_rel (l_tbl st) (l_changed st) (l_tbl st') (l_changed st').
Proof.
  intros ord vs st st'.
  apply (fold_opt_inv _ _ (var_step ord) (fun _ s => step_rel (l_tbl st) (l_changed st) (l_tbl s) (l_changed s)));
    [reflexivity | | apply step_rel_refl].
  intros a l s s' R E. eapply step_rel_trans; [exact R | eapply var_step_rel; exact E].
Qed.

Lemma round_rel : forall ord variables tbl im tbl' im' ch site,
  round ord variables tbl im = Some (tbl', im', ch, site) -> step_rel tbl false tbl' ch.
Proof.
  intros ord variables tbl im tbl' im' ch site H. unfold round in H.
  match type of H with context [fold_left ?f ?l ?a] => destruct (fold_left f l a) as [st|] eqn:E end; [|discriminate].
  apply fold_var_rel in E. simpl in E. injection H as <- <- <- <-.
  eapply step_rel_trans; [exact E | apply step_rel_flag, apply_pivots_rel].
Qed.

Lemma solve_loop_fuel : forall fuel ord variables tbl im tr,
  tsize tbl < fuel -> solve_loop fuel ord variables tbl im tr <> OutOfFuel.
Proof.
  induction fuel as [|f IH]; intros ord variables tbl im tr Hf; [lia|].
  cbn [solve_loop]. destruct (round ord variables tbl im) as [[[[tbl' im'] ch] site]|] eqn:R; [|discriminate].
  destruct ch; [|discriminate].
  apply round_rel in R. destruct R as [_ [R _]]. destruct (R eq_refl); [discriminate|].
  apply IH. lia.
Qed.

(* the iterations of a finished run, with their pivot sites: all but the last report a change *)
Inductive rounds (ord : nset -> nset) (variables : nset) : table -> imap -> table -> imap -> trace -> Prop :=
| rounds_last : forall tbl im tbl' im' site,
    round ord variables tbl im = Some (tbl', im', false, site) -> rounds ord variables tbl im tbl' im' [site]
| rounds_more : forall tbl im tbl1 im1 site tbl' im' sites,
    round ord variables tbl im = Some (tbl1, im1, true, site) ->
    rounds ord variables tbl1 im1 tbl' im' sites -> rounds ord variables tbl im tbl' im' (site :: sites).

Lemma solve_loop_rounds : forall fuel ord variables tbl im tr tbl' im' tr',
  solve_loop fuel ord variables tbl im tr = Done (tbl', im', tr') ->
  exists sites, tr' = tr ++ sites /\ rounds ord variables tbl im tbl' im' sites.
Proof.
  induction fuel as [|f IH]; intros ord variables tbl im tr tbl' im' tr' H; [discriminate|].
  cbn [solve_loop] in H. destruct (round ord variables tbl im) as [[[[tbl1 im1] ch] site]|] eqn:R; [|discriminate].
  destruct ch.
  - apply IH in H. destruct H as [sites [-> H]]. exists (site :: sites).
    split; [rewrite <- app_assoc; reflexivity | eapply rounds_more; eassumption].
  - injection H as <- <- <-. exists [site]. split; [reflexivity | apply rounds_last; exact R].
Qed.

Lemma rounds_result : forall ord variables tbl im tbl' im' sites,
  rounds ord variables tbl im tbl' im' sites ->
  tbl_le tbl' tbl /\ (forall k, has_key tbl' k = has_key tbl k) /\
  exists im0 site, round ord variables tbl' im0 = Some (tbl', im', false, site).
Proof.
  intros ord variables tbl im tbl' im' sites H.
  induction H as [tbl im tbl' im' site R | tbl im tbl1 im1 site tbl' im' sites R _ IH].
  - destruct (round_rel _ _ _ _ _ _ _ _ R) as [_ [_ [R3 _]]]. destruct (R3 eq_refl) as [-> _].
    split; [apply tbl_le_refl|]. split; [reflexivity|]. exists im, site. exact R.
  - destruct (round_rel _ _ _ _ _ _ _ _ R) as [_ [_ [_ [R4 R5]]]]. destruct IH as [H1 [H2 H3]].
    split; [eapply tbl_le_trans; eassumption|]. split; [intro k; rewrite H2; apply R5 | exact H3].
Qed.

Lemma adict_iset2 : forall im var value t v x,
  alookup (adict (iset2 im var value t) v) x =
  if String.eqb v var && String.eqb x value then Some t else alookup (adict im v) x.
Proof.
  intros. unfold iset2, adict at 1. rewrite alookup_aset. destruct (String.eqb v var) eqn:E; simpl.
  - apply String.eqb_eq in E. subst v. rewrite alookup_aset. reflexivity.
  - reflexivity.
Qed.

(* the invariant of the rounds in the statement of Props/C17.round_preserves_solutions: sigma is drawn from the
   table, the keys are those of [tbl0], and every variable's implication at the value sigma gives it is true *)
Definition sinv (sigma : name -> name) (variables : nset) (tbl0 tbl : table) (im : imap) : Prop :=
  consistent sigma tbl /\
  (forall k, has_key tbl k = has_key tbl0 k) /\
  (forall v, In v variables -> exists imp, alookup (adict im v) (sigma v) = Some imp /\ eval sigma imp = true) /\
  (forall var value imp, alookup (adict im var) value = Some imp -> covers tbl0 imp = true).

Section RoundSound.
  (* [tbl0]: a table whose keys are registered variables ([Hk]), which are "~"-names ([Hv]) *)
  Variables (sigma : name -> name) (ord : nset -> nset) (variables : nset) (tbl0 : table).
  Hypothesis Ho : ord_ok ord.
  Hypothesis Hv : forall v, In v variables -> is_var v = true.
  Hypothesis Hk : forall k, has_key tbl0 k = true -> In k variables.

  (* the two parts of [sinv] that speak of the implications *)
  Definition im_ok (im : imap) : Prop :=
    (forall v, In v variables -> exists imp, alookup (adict im v) (sigma v) = Some imp /\ eval sigma imp = true) /\
    (forall var value imp, alookup (adict im var) value = Some imp -> covers tbl0 imp = true).

  Lemma im_ok_iset2 : forall im var value imp imp',
    alookup (adict im var) value = Some imp -> eval sigma imp' = eval sigma imp -> covers tbl0 imp' = true ->
    im_ok im -> im_ok (iset2 im var value imp').
  Proof.
    intros im var value imp imp' Li Ev C [I3 I4]. split.
    - intros v Hin. destruct (I3 v Hin) as [impv [Lv Evv]]. rewrite adict_iset2.
      destruct (String.eqb v var && String.eqb (sigma v) value) eqn:B; [|exists impv; auto].
      apply andb_true_iff in B. destruct B as [B1 B2]. apply String.eqb_eq in B1, B2. subst var value.
      exists imp'. split; [reflexivity|]. rewrite Ev. rewrite Lv in Li. inversion Li. subst. exact Evv.
    - intros v x i Lx. rewrite adict_iset2 in Lx.
      destruct (String.eqb v var && String.eqb x value); [inversion Lx; subst; exact C | eapply I4; exact Lx].
  Qed.

  Definition hit (ors : list term) : Prop := existsb (eval sigma) ors = true.

  (* invariant of `for value in assignments[var].copy()` *)
  Definition rinv (st : rstate) : Prop :=
    sinv sigma variables tbl0 (r_tbl st) (r_im st) /\ forallb (covers tbl0) (r_ors st) = true.

  Lemma value_step_sound : forall var st value st',
    is_var var = true -> In var variables -> rinv st ->
    value_step var (Some st) value = Some st' ->
    rinv st' /\ (hit (r_ors st) \/ sigma var = value -> hit (r_ors st')).
  Proof.
    intros var st value st' Vv Hin [[I1 [I2 I34]] Co] H. unfold value_step in H.
    destruct (alookup (adict (r_im st) var) value) as [imp|] eqn:Li; [|discriminate].
    destruct (simplify (r_tbl st) imp) as [imp'|] eqn:Si; [|discriminate].
    assert (C0 : covers tbl0 imp = true) by (eapply (proj2 I34); exact Li).
    assert (C1 : covers (r_tbl st) imp = true) by (rewrite (covers_ext _ tbl0); [exact C0 | exact I2]).
    assert (Ev : eval sigma imp' = eval sigma imp) by (eapply simplify_equiv_lemma; eassumption).
    assert (C2 : covers tbl0 imp' = true) by (eapply simplify_covers; eassumption).
    pose proof (im_ok_iset2 _ _ _ _ _ Li Ev C2 I34) as I34'.
    (* the implication at the value sigma gives [var] is true *)
    assert (Tv : sigma var = value -> eval sigma imp' = true).
    { intro E. destruct (proj1 I34 var Hin) as [imp0 [L0 E0]]. subst value.
      rewrite L0 in Li. inversion Li. subst imp0. rewrite Ev. exact E0. }
    destruct (is_ident imp' F) eqn:Id.
    - destruct (mem_name value (hget (r_tbl st) var)) eqn:M; [|discriminate].
      injection H as <-. unfold rinv. simpl.
      apply is_ident_eq in Id. subst imp'.
      assert (Ne : sigma var <> value) by (intro E; apply Tv in E; discriminate E).
      unfold hget in *. destruct (lookup (r_tbl st) var) as [old|] eqn:L; [|discriminate M].
      split; [|intros [Hh|E]; [exact Hh | destruct (Ne E)]].
      split; [|exact Co]. split; [|split; [|exact I34']].
      + apply consistent_tset; [exact I1|]. intros _. apply in_nremove. split; [exact (I1 var old L Vv) | exact Ne].
      + intro k. rewrite (has_key_tset_present _ var old); [apply I2 | exact L].
    - injection H as <-. unfold rinv. simpl.
      split; [split; [exact (conj I1 (conj I2 I34'))|]|].
      + rewrite forallb_app, Co. simpl. rewrite C2. reflexivity.
      + unfold hit. rewrite existsb_app. intros [Hh|E]; [rewrite Hh; reflexivity|].
        simpl. rewrite (Tv E). apply orb_true_r.
  Qed.

  Lemma fold_value_sound : forall var vs st st',
    is_var var = true -> In var variables -> rinv st ->
    fold_left (value_step var) vs (Some st) = Some st' ->
    rinv st' /\ (In (sigma var) vs -> hit (r_ors st')).
  Proof.
    intros var vs st st' Vv Hin Hs H.
    (* once the loop has passed the value sigma gives [var], a disjunct is true *)
    apply (fold_opt_inv _ _ (value_step var)
             (fun rest s => rinv s /\ (In (sigma var) vs -> hit (r_ors s) \/ In (sigma var) rest))) in H.
    - destruct H as [S1 H1]. split; [exact S1|]. intro Hi. destruct (H1 Hi) as [Hh|[]]. exact Hh.
    - reflexivity.
    - intros a l s s' [S1 H1] E. destruct (value_step_sound _ _ _ _ Vv Hin S1 E) as [S2 H2].
      split; [exact S2|]. intro Hi.
      destruct (H1 Hi) as [Hh|[Ea|Hl]]; [left; apply H2; left; exact Hh | left; apply H2; right; symmetry; exact Ea | right; exact Hl].
    - split; [exact Hs|]. intro Hi. right. exact Hi.
  Qed.

  (* invariant of `for var in self.variables` *)
  Definition linv (st : lstate) : Prop :=
    sinv sigma variables tbl0 (l_tbl st) (l_im st) /\ forallb (covers tbl0) (l_ands st) = true /\
    forallb (eval sigma) (l_ands st) = true.

  Lemma var_step_sound : forall st var st',
    In var variables -> linv st -> var_step ord (Some st) var = Some st' -> linv st'.
  Proof.
    intros st var st' Hin [Hs [Ca Ea]] H. unfold var_step in H. pose proof (Hv var Hin) as Vv.
    destruct (lookup (l_tbl st) var) as [values|] eqn:L; [|discriminate].
    match type of H with context [fold_left ?f ?l ?a] => destruct (fold_left f l a) as [r|] eqn:E end; [|discriminate].
    injection H as <-.
    apply fold_value_sound in E; [|exact Vv|exact Hin|split; [exact Hs | reflexivity]].
    destruct E as [[S1 C1] H1]. simpl in S1.
    assert (Hh : hit (r_ors r)).
    { apply H1. apply Ho. destruct Hs as [I1 _]. apply (I1 var values L Vv). }
    split; [exact S1|]. simpl. rewrite !forallb_app. rewrite Ca, Ea. simpl.
    change (OrC (r_ors r)) with (OpC KOr (r_ors r)).
    rewrite opc_covers by exact C1. rewrite opc_equiv_lemma. unfold hit in Hh. simpl. rewrite Hh. auto.
  Qed.

  (* a pivot site: a guarded term that sigma satisfies, its pivots applied to the table it was extracted against *)
  Lemma pivot_site_sound : forall tbl d,
    consistent sigma tbl -> (forall k, has_key tbl k = has_key tbl0 k) ->
    covers tbl0 d = true -> guarded tbl d = true -> eval sigma d = true ->
    let tbl' := fst (apply_pivots tbl (extract_pivots tbl d)) in
    consistent sigma tbl' /\ (forall k, has_key tbl' k = has_key tbl0 k).
  Proof.
    intros tbl d I1 I2 Cd G Ed tbl'.
    assert (Kv : keys_vars tbl) by (intros k Hkk; apply Hv, Hk; rewrite <- I2; exact Hkk).
    rewrite <- (covers_ext tbl tbl0 d I2) in Cd.
    destruct (apply_pivots_rel tbl (extract_pivots tbl d)) as [_ [_ [_ [_ R5]]]].
    split; [apply apply_pivots_consistent; [|exact I1]|].
    - apply lsound_psound; [apply nodup_extract_pivots | apply pivots_sound_lookup; assumption].
    - intro k. unfold tbl'. rewrite R5. apply I2.
  Qed.

  Lemma round_sound : forall tbl im tbl' im' ch site,
    sinv sigma variables tbl0 tbl im ->
    round ord variables tbl im = Some (tbl', im', ch, site) ->
    guarded (fst site) (snd site) = true ->
    sinv sigma variables tbl0 tbl' im'.
  Proof.
    intros tbl im tbl' im' ch site Hs H G. unfold round in H.
    match type of H with context [fold_left ?f ?l ?a] => destruct (fold_left f l a) as [st|] eqn:E end; [|discriminate].
    apply (fold_opt_inv _ _ (var_step ord) (fun rest s => incl rest variables /\ linv s)) in E.
    2: reflexivity.
    2: { intros a l s s' [Hi Hl] Ea. split; [intros x Hx; apply Hi; right; exact Hx|].
         exact (var_step_sound _ _ _ (Hi a (or_introl eq_refl)) Hl Ea). }
    2: { split; [intros x Hx; apply Ho; exact Hx|]. split; [exact Hs|]. simpl. auto. }
    injection H as <- <- <- <-. simpl in G.
    destruct E as [_ [[I1 [I2 I34]] [Ca Ea]]].
    destruct (pivot_site_sound (l_tbl st) (AndC (l_ands st)) I1 I2) as [C1 K1];
      [apply opc_covers; exact Ca | exact G | exact (eq_trans (opc_equiv_lemma KAnd sigma _) Ea) |].
    exact (conj C1 (conj K1 I34)).
  Qed.

  Lemma rounds_sound : forall tbl im tbl' im' sites,
    rounds ord variables tbl im tbl' im' sites -> trace_guarded sites = true ->
    sinv sigma variables tbl0 tbl im -> sinv sigma variables tbl0 tbl' im'.
  Proof.
    intros tbl im tbl' im' sites R.
    induction R as [tbl im tbl' im' site R | tbl im tbl1 im1 site tbl' im' sites R _ IH]; intros G Hs;
      unfold trace_guarded in G; simpl in G; apply andb_true_iff in G; destruct G as [G1 G2].
    - eapply round_sound; eassumption.
    - apply IH; [exact G2|]. eapply round_sound; eassumption.
  Qed.
End RoundSound.

Lemma lookup_map_keys : forall (f : name -> nset) l k,
  lookup (map (fun v => (v, f v)) l) k = if mem_name k l then Some (f k) else None.
Proof.
  intros f l k. induction l as [|a l IH]; simpl; [reflexivity|].
  destruct (String.eqb k a) eqn:E; simpl.
  - apply String.eqb_eq in E. subst. reflexivity.
  - exact IH.
Qed.

Lemma has_key_map_keys : forall (f : name -> nset) l k, has_key (map (fun v => (v, f v)) l) k = mem_name k l.
Proof. intros. unfold has_key. rewrite lookup_map_keys. destruct (mem_name k l); reflexivity. Qed.

Lemma mem_name_ord : forall ord l k, ord_ok ord -> mem_name k (ord l) = mem_name k l.
Proof.
  intros ord l k Ho. apply eq_true_iff_eq. rewrite !mem_name_true. apply Ho.
Qed.

Lemma in_nonfalse : forall im v x imp,
  alookup (adict im v) x = Some imp -> is_ident imp F = false -> In x (nonfalse_values im v).
Proof.
  intros im v x imp L N. unfold nonfalse_values. apply in_map_iff. exists (x, imp). split; [reflexivity|].
  apply filter_In. split; [apply alookup_in; exact L | simpl; rewrite N; reflexivity].
Qed.

Definition start_table (ord : nset -> nset) (variables : nset) (im : imap) : table :=
  map (fun v => (v, nonfalse_values im v)) (ord variables).

Lemma has_key_start_table : forall ord variables im k,
  ord_ok ord -> has_key (start_table ord variables im) k = has_key (vars_tbl variables) k.
Proof. intros. unfold start_table, vars_tbl. rewrite !has_key_map_keys. apply mem_name_ord. assumption. Qed.

Lemma has_key_vars_tbl : forall vs k, has_key (vars_tbl vs) k = true <-> In k vs.
Proof. intros. unfold vars_tbl. rewrite has_key_map_keys. apply mem_name_true. Qed.

Definition wf_im (variables : nset) (im : imap) : Prop :=
  forall var value imp, alookup (adict im var) value = Some imp -> covers (vars_tbl variables) imp = true.

(* _complete keeps the registered implications and only adds TRUE *)
Definition im_ext (im0 im : imap) : Prop :=
  (forall var value imp, alookup (adict im0 var) value = Some imp -> alookup (adict im var) value = Some imp) /\
  (forall var value imp, alookup (adict im var) value = Some imp ->
     alookup (adict im0 var) value = Some imp \/ imp = T).

Lemma im_ext_refl : forall im, im_ext im im.
Proof. intro im. split; auto. Qed.

Lemma im_ext_add : forall im0 im var value,
  im_ext im0 im -> alookup (adict im var) value = None -> im_ext im0 (iset2 im var value T).
Proof.
  intros im0 im var value [A B] N. split.
  - intros v x i L. rewrite adict_iset2. destruct (String.eqb v var && String.eqb x value) eqn:E; [|apply A; exact L].
    apply andb_true_iff in E. destruct E as [E1 E2]. apply String.eqb_eq in E1, E2. subst.
    apply A in L. congruence.
  - intros v x i L. rewrite adict_iset2 in L. destruct (String.eqb v var && String.eqb x value).
    + inversion L. auto.
    + apply B. exact L.
Qed.

Lemma complete_var_ext : forall im0 vv im, im_ext im0 im -> im_ext im0 (complete_var im vv).
Proof.
  intros im0 [var values] im H. unfold complete_var. simpl.
  match goal with |- context [is_nil (adict ?m var)] => set (im1 := m) end.
  assert (X : im_ext im0 im1).
  { apply fold_left_inv; [|exact H]. intros im2 x _ H2.
    destruct (alookup (adict im2 var) x) eqn:L; [exact H2 | apply im_ext_add; assumption]. }
  destruct (adict im1 var) as [|p d] eqn:D; simpl; [|exact X].
  apply im_ext_add; [exact X|]. rewrite D. reflexivity.
Qed.

Lemma complete_ext_lemma : forall ord eord s im, complete ord eord s = Some im -> im_ext (imps s) im.
Proof.
  intros ord eord s im H. unfold complete in H. destruct (first_approximation ord eord s) as [fa|]; [|discriminate].
  injection H as <-. apply fold_left_inv; [|apply im_ext_refl].
  intros im1 vv _ H1. apply complete_var_ext. exact H1.
Qed.

Lemma wf_complete_lemma : forall ord eord s im,
  wf_solver s -> complete ord eord s = Some im -> wf_im (vars s) im.
Proof.
  intros ord eord s im [_ [_ W]] H var value imp L.
  destruct (complete_ext_lemma _ _ _ _ H) as [_ B]. destruct (B _ _ _ L) as [L0|E]; [|subst; reflexivity].
  apply (W var value imp). unfold iter_implications. apply in_flat_map.
  unfold adict in L0. destruct (alookup (imps s) var) as [d|] eqn:Ld; [|discriminate].
  exists (var, d). split; [apply alookup_in; exact Ld|]. simpl. apply in_map_iff.
  exists (value, imp). split; [reflexivity | apply alookup_in; exact L0].
Qed.

(* a finished run: the ground truth simplified against the start table, its pivots applied, then the rounds *)
Lemma solve_done_spec : forall ord eord s im tbl im' tr,
  complete ord eord s = Some im -> solve ord eord s = Done (tbl, im', tr) ->
  let T0 := start_table ord (vars s) im in
  exists g sites,
    simplify T0 (ground s) = Some g /\ tr = (T0, g) :: sites /\
    rounds ord (vars s) (fst (apply_pivots T0 (extract_pivots T0 g))) im tbl im' sites.
Proof.
  intros ord eord s im tbl im' tr Hc H T0. unfold solve in H. rewrite Hc in H.
  fold (start_table ord (vars s) im) in H. fold T0 in H.
  destruct (simplify T0 (ground s)) as [g|]; [|discriminate]. cbv zeta in H.
  apply solve_loop_rounds in H. destruct H as [sites [-> H]]. exists g, sites. auto.
Qed.

Lemma solve_sound_lemma : forall sigma ord eord s im tbl im' tr,
  ord_ok ord -> wf_solver s ->
  complete ord eord s = Some im ->
  solution sigma (vars s) (ground s) im ->
  solve ord eord s = Done (tbl, im', tr) -> trace_guarded tr = true ->
  forall v, In v (vars s) -> exists vs, lookup tbl v = Some vs /\ In (sigma v) vs.
Proof.
  intros sigma ord eord s im tbl im' tr Ho W Hc [Sg Si] H G.
  pose proof (wf_complete_lemma _ _ _ _ W Hc) as Wi. destruct W as [Hv [Cg _]].
  destruct (solve_done_spec _ _ _ _ _ _ _ Hc H) as [g [sites [Sg' [-> R]]]].
  set (T0 := start_table ord (vars s) im) in *.
  set (R0 := vars_tbl (vars s)) in *.
  unfold trace_guarded in G. simpl in G. apply andb_true_iff in G. destruct G as [Gg G].
  assert (K0 : forall k, has_key T0 k = has_key R0 k) by (intro k; apply has_key_start_table; exact Ho).
  assert (KR : forall k, has_key R0 k = true -> In k (vars s)) by (intro k; apply has_key_vars_tbl).
  assert (C0 : consistent sigma T0).
  { intros v vs L Vv. unfold T0, start_table in L. rewrite lookup_map_keys in L.
    destruct (mem_name v (ord (vars s))) eqn:M; [|discriminate]. injection L as <-.
    apply mem_name_true in M. apply (proj1 (Ho _ _)) in M. destruct (Si v M) as [imp [Li Ei]].
    apply (in_nonfalse im v _ imp Li). destruct imp; try reflexivity. discriminate Ei. }
  assert (CT : covers T0 (ground s) = true) by (rewrite (covers_ext _ R0); [exact Cg | exact K0]).
  assert (Eg : eval sigma g = true) by (rewrite (simplify_equiv_lemma sigma T0 (ground s) g CT C0 Sg'); exact Sg).
  assert (Cg' : covers R0 g = true) by (eapply simplify_covers; eassumption).
  destruct (pivot_site_sound sigma (vars s) R0 Hv KR T0 g C0 K0 Cg' Gg Eg) as [C1 K1].
  assert (S1 : sinv sigma (vars s) R0 (fst (apply_pivots T0 (extract_pivots T0 g))) im)
    by exact (conj C1 (conj K1 (conj Si Wi))).
  destruct (rounds_sound sigma ord (vars s) R0 Ho Hv KR _ im tbl im' sites R G S1) as [F1 [F2 _]].
  intros v Hin.
  assert (Hk : has_key tbl v = true) by (rewrite F2; apply has_key_vars_tbl; exact Hin).
  apply has_key_true in Hk. destruct Hk as [vs L]. exists vs. split; [exact L|].
  apply (F1 v vs L). apply Hv. exact Hin.
Qed.

Lemma solve_shape_lemma : forall ord eord s im tbl im' tr,
  complete ord eord s = Some im -> solve ord eord s = Done (tbl, im', tr) ->
  (forall v vs, lookup tbl v = Some vs -> incl vs (nonfalse_values im v)) /\
  (forall k, has_key tbl k = mem_name k (ord (vars s))) /\
  exists im0 site, round ord (vars s) tbl im0 = Some (tbl, im', false, site).
Proof.
  intros ord eord s im tbl im' tr Hc H.
  destruct (solve_done_spec _ _ _ _ _ _ _ Hc H) as [g [sites [_ [_ R]]]].
  set (T0 := start_table ord (vars s) im) in *.
  destruct (apply_pivots_rel T0 (extract_pivots T0 g)) as [_ [_ [_ [R4 R5]]]].
  apply rounds_result in R. destruct R as [H1 [H2 H3]].
  split; [|split; [|exact H3]].
  - intros v vs L. destruct (H1 v vs L) as [ws [L1 I1]]. destruct (R4 v ws L1) as [us [L2 I2]].
    unfold T0, start_table in L2. rewrite lookup_map_keys in L2.
    destruct (mem_name v (ord (vars s))); [|discriminate]. injection L2 as <-.
    eapply incl_tran; eassumption.
  - intro k. rewrite H2, R5. unfold T0, start_table. apply has_key_map_keys.
Qed.

Definition wf_solverb (s : solver) : bool :=
  forallb is_var (vars s) && covers (vars_tbl (vars s)) (ground s)
  && forallb (fun x => covers (vars_tbl (vars s)) (snd x)) (iter_implications (imps s)).

Lemma wf_solverb_ok : forall s, wf_solverb s = true -> wf_solver s.
Proof.
  intros s H. unfold wf_solverb in H. apply andb_true_iff in H. destruct H as [H H3].
  apply andb_true_iff in H. destruct H as [H1 H2]. rewrite forallb_forall in H1, H3.
  split; [exact H1|]. split; [exact H2|]. intros var value imp Hin. apply (H3 (var, value, imp) Hin).
Qed.

Definition solutionb (sigma : name -> name) (variables : nset) (gr : term) (im : imap) : bool :=
  eval sigma gr &&
  forallb (fun v => match alookup (adict im v) (sigma v) with Some imp => eval sigma imp | None => false end) variables.

Lemma solutionb_ok : forall sigma variables gr im, solutionb sigma variables gr im = true -> solution sigma variables gr im.
Proof.
  intros sigma variables gr im H. unfold solutionb in H. apply andb_true_iff in H. destruct H as [H1 H2].
  split; [exact H1|]. rewrite forallb_forall in H2. intros v Hv. specialize (H2 v Hv).
  destruct (alookup (adict im v) (sigma v)) as [imp|]; [|discriminate]. exists imp. auto.
Qed.

Lemma keys_varsb_ok : forall tbl, forallb (fun kv => is_var (fst kv)) tbl = true -> keys_vars tbl.
Proof.
  intros tbl H k Hk. apply has_key_true in Hk. destruct Hk as [v L].
  rewrite forallb_forall in H. exact (H _ (lookup_in _ _ _ L)).
Qed.

Definition entry_dec (p q : name * nset) : {p = q} + {p <> q}.
Proof. decide equality; [apply (list_eq_dec string_dec) | apply string_dec]. Defined.

Definition table_eqb (a b : table) : bool := if list_eq_dec entry_dec a b then true else false.

Lemma table_eqb_eq : forall a b, table_eqb a b = true -> a = b.
Proof. intros a b. unfold table_eqb. destruct (list_eq_dec entry_dec a b); [trivial | discriminate]. Qed.

(* A whole run checked by one evaluation.  The results of [complete] and [solve] reach the proofs below as
   variables constrained by [chk]: written out, each is a large term that every later step would carry. *)
Lemma solve_run_spec : forall ord eord s (chk : imap -> table -> trace -> bool),
  match complete ord eord s, solve ord eord s with
  | Some im, Done (tbl, _, tr) => chk im tbl tr
  | _, _ => false
  end = true ->
  exists im tbl im' tr,
    complete ord eord s = Some im /\ solve ord eord s = Done (tbl, im', tr) /\ chk im tbl tr = true.
Proof.
  intros ord eord s chk H.
  destruct (complete ord eord s) as [im|]; [|discriminate].
  destruct (solve ord eord s) as [[[tbl im'] tr]| |]; try discriminate.
  exists im, tbl, im', tr. auto.
Qed.

(* the identity orders, for the examples *)
Definition oid (l : nset) : nset := l.
Definition eid (l : list (name * name)) : list (name * name) := l.
Lemma oid_ok : ord_ok oid. Proof. intros l x. reflexivity. Qed.

(* the pivots of a disjunction are unsound for a variable that only some disjuncts mention *)
Definition w_tbl : table := [("~a", ["x"; "z"]); ("~b", ["y"])].
Definition w_sigma (n : name) : name := if String.eqb n "~a" then "z" else "y".
Definition w_term : term := OrC [EqC "~a" "x"; EqC "~b" "y"].

Lemma pivots_refuted_lemma :
  keys_vars w_tbl /\ consistent w_sigma w_tbl /\ covers w_tbl w_term = true /\ eval w_sigma w_term = true /\
  ~ psound w_sigma w_tbl (extract_pivots w_tbl w_term).
Proof.
  assert (E : extract_pivots w_tbl w_term = [("~a", ["x"]); ("x", ["~a"]); ("~b", ["y"]); ("y", ["~b"])])
    by (vm_compute; reflexivity).
  split; [apply keys_varsb_ok; reflexivity|]. split; [apply consistentb_ok; reflexivity|].
  split; [vm_compute; reflexivity|]. split; [vm_compute; reflexivity|].
  rewrite E. intro P. destruct (P "~a" ["x"] (or_introl eq_refl) eq_refl) as [X|[]]. discriminate X.
Qed.

(* soundness fails without [guarded] ([u_script]); completeness fails even with it ([i_script]) *)
Definition u_script : list call := [CReg "~a"; CReg "~b"; CReg "~c";
  CImp (EqC "~a" "x") (EqC "~b" "p"); CImp (EqC "~a" "y") (EqC "~c" "q");
  CImp (EqC "~b" "p") T; CImp (EqC "~b" "r") T; CImp (EqC "~c" "q") T; CImp (EqC "~c" "s") T].
Definition u_solver : solver := match run_script u_script with Some s => s | None => new_solver end.
Definition u_sigma (n : name) : name :=
  if String.eqb n "~a" then "y" else if String.eqb n "~b" then "r" else "q".

Lemma solve_refuted_lemma :
  exists im tbl im' tr,
    wf_solver u_solver /\ complete oid eid u_solver = Some im /\
    solution u_sigma (vars u_solver) (ground u_solver) im /\
    solve oid eid u_solver = Done (tbl, im', tr) /\
    exists v vs, In v (vars u_solver) /\ lookup tbl v = Some vs /\ ~ In (u_sigma v) vs.
Proof.
  destruct (solve_run_spec oid eid u_solver (fun im tbl tr =>
              wf_solverb u_solver && solutionb u_sigma (vars u_solver) (ground u_solver) im
              && table_eqb tbl [("~a", ["x"; "y"]); ("~b", ["p"]); ("~c", ["q"])]))
    as [im [tbl [im' [tr [Hc [Hs H]]]]]]; [vm_compute; reflexivity|].
  apply andb_true_iff in H. destruct H as [H H3]. apply table_eqb_eq in H3.
  apply andb_true_iff in H. destruct H as [H1 H2].
  exists im, tbl, im', tr.
  split; [apply wf_solverb_ok; exact H1|]. split; [exact Hc|]. split; [apply solutionb_ok; exact H2|].
  split; [exact Hs|]. exists "~b", ["p"].
  split; [vm_compute; auto|]. split; [rewrite H3; reflexivity|]. intros [X|[]]. discriminate X.
Qed.

Definition i_script : list call := [CReg "~a"; CReg "~b";
  CImp (EqC "~a" "x") (EqC "~b" "x"); CImp (EqC "~a" "y") (EqC "~b" "y");
  CImp (EqC "~b" "x") (EqC "~a" "y"); CImp (EqC "~b" "y") (EqC "~a" "x")].
Definition i_solver : solver := match run_script i_script with Some s => s | None => new_solver end.

Lemma eval_eq_var_value : forall sigma l r,
  is_var l = true -> is_var r = false -> eval sigma (TEq l r) = true -> sigma l = r.
Proof. intros sigma l r Vl Vr H. simpl in H. unfold val in H. rewrite Vl, Vr in H. apply String.eqb_eq. exact H. Qed.

(* ~a's implications force ~b = ~a, ~b's force ~a <> ~b *)
Lemma i_unsolvable : forall sigma im,
  complete oid eid i_solver = Some im -> ~ solution sigma (vars i_solver) (ground i_solver) im.
Proof.
  intros sigma im Hc [_ H].
  assert (V : vars i_solver = ["~a"; "~b"]) by (vm_compute; reflexivity). rewrite V in H.
  pose proof (H "~a" (or_introl eq_refl)) as [ia [La Ea]].
  pose proof (H "~b" (or_intror (or_introl eq_refl))) as [ib [Lb Eb]]. clear H V.
  apply alookup_in in La, Lb.
  (* [im] is evaluated after [H] has been instantiated: every step before it would carry the value *)
  vm_compute in Hc. injection Hc as <-. vm_compute in La, Lb.
  assert (E : sigma "~b" = sigma "~a").
  { destruct La as [La|[La|[]]]; injection La as <- <-; apply eval_eq_var_value in Ea; auto. }
  destruct Lb as [Lb|[Lb|[]]]; injection Lb as Hb <-; apply eval_eq_var_value in Eb; auto;
    rewrite <- E, <- Hb in Eb; discriminate Eb.
Qed.

Lemma solve_incomplete_lemma :
  exists im tbl im' tr,
    wf_solver i_solver /\ complete oid eid i_solver = Some im /\
    solve oid eid i_solver = Done (tbl, im', tr) /\ trace_guarded tr = true /\
    lookup tbl "~a" = Some ["x"; "y"] /\
    forall sigma, ~ solution sigma (vars i_solver) (ground i_solver) im.
Proof.
  destruct (solve_run_spec oid eid i_solver (fun im tbl tr =>
              wf_solverb i_solver && trace_guarded tr && table_eqb tbl [("~a", ["x"; "y"]); ("~b", ["x"; "y"])]))
    as [im [tbl [im' [tr [Hc [Hs H]]]]]]; [vm_compute; reflexivity|].
  apply andb_true_iff in H. destruct H as [H H2]. apply table_eqb_eq in H2.
  apply andb_true_iff in H. destruct H as [H1 H3].
  exists im, tbl, im', tr.
  split; [apply wf_solverb_ok; exact H1|]. split; [exact Hc|]. split; [exact Hs|]. split; [exact H3|].
  split; [rewrite H2; reflexivity|]. intro sigma. apply i_unsolvable. exact Hc.
Qed.
