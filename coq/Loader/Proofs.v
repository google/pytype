(* The loader model (Loader/Model.v): import_name as a memo (Loader._import_name_cache) over the uncached import,
   and three universes on which the module map makes an answer depend on what was imported before. *)
From Coq Require Import List Bool Arith.
From PV Require Import Loader.Model.
Import ListNotations.

Lemma name_eqb_refl n : name_eqb n n = true.
Proof. unfold name_eqb. destruct (list_eq_dec Nat.eq_dec n n); congruence. Qed.

Lemma name_eqb_true a b : name_eqb a b = true -> a = b.
Proof. unfold name_eqb. destruct (list_eq_dec Nat.eq_dec a b); congruence. Qed.

Lemma lookup_set_same {A} n (v : A) l : lookup n (set n v l) = Some v.
Proof.
  induction l as [|[k w] t IH]; cbn.
  - rewrite name_eqb_refl. reflexivity.
  - destruct (name_eqb n k) eqn:E; cbn; rewrite E; [reflexivity|exact IH].
Qed.

Lemma lookup_set_other {A} n m (v : A) l : name_eqb m n = false -> lookup m (set n v l) = lookup m l.
Proof.
  intro H. induction l as [|[k w] t IH]; cbn.
  - rewrite H. reflexivity.
  - destruct (name_eqb n k) eqn:E; cbn.
    + apply name_eqb_true in E. subst k. rewrite H. reflexivity.
    + destruct (name_eqb m k); [reflexivity|exact IH].
Qed.

Definition ores_of (r : option entry) : ores := match r with Some e => OOk e | None => ONone end.

Lemma import_name_hit fuel U st n v :
  lookup n (st_cache st) = Some v -> import_name fuel U st n = (st, ores_of v).
Proof. intros H. unfold import_name. rewrite H. destruct v; reflexivity. Qed.

(* a miss runs the uncached import and memoises an AST or "no such module", never an error *)
Lemma import_name_miss fuel U st n :
  lookup n (st_cache st) = None ->
  import_name fuel U st n =
  (mkState (fst (import_slow fuel U n (st_mods st)))
           match snd (import_slow fuel U n (st_mods st)) with
           | ONone => set n None (st_cache st)
           | OOk e => set n (Some e) (st_cache st)
           | _ => st_cache st
           end,
   snd (import_slow fuel U n (st_mods st))).
Proof.
  intros H. unfold import_name. rewrite H.
  destruct (import_slow fuel U n (st_mods st)) as [s' [| | |e]]; reflexivity.
Qed.

Section Memo.
  Variables (fuel : nat) (U : universe).
  Variable Good : mods -> Prop.
  (* what the memo layer needs of the module map: an uncached import from a reachable map answers like one from
     the empty map, and keeps the map reachable.  (For the real code this is refuted in general - see below.) *)
  Hypothesis good_slow : forall n s, Good s ->
    Good (fst (import_slow fuel U n s)) /\ snd (import_slow fuel U n s) = snd (import_slow fuel U n []).

  Definition cache_ok (c : list (name * option entry)) : Prop :=
    forall n r, lookup n c = Some r -> snd (import_name fuel U fresh n) = ores_of r.

  Lemma fresh_is_slow n : snd (import_name fuel U fresh n) = snd (import_slow fuel U n []).
  Proof. rewrite import_name_miss by reflexivity. reflexivity. Qed.

  Lemma cache_ok_set c n v :
    cache_ok c -> snd (import_name fuel U fresh n) = ores_of v -> cache_ok (set n v c).
  Proof.
    intros Hc Hv m rm Hm. destruct (name_eqb m n) eqn:E.
    - apply name_eqb_true in E. subst m. rewrite lookup_set_same in Hm. injection Hm as <-. exact Hv.
    - rewrite (lookup_set_other n m v _ E) in Hm. exact (Hc m rm Hm).
  Qed.

  Lemma import_name_step st n : Good (st_mods st) -> cache_ok (st_cache st) ->
    Good (st_mods (fst (import_name fuel U st n))) /\
    cache_ok (st_cache (fst (import_name fuel U st n))) /\
    snd (import_name fuel U st n) = snd (import_name fuel U fresh n).
  Proof.
    intros Hg Hc. destruct (lookup n (st_cache st)) as [v|] eqn:Hl.
    - rewrite (import_name_hit _ _ _ _ _ Hl). cbn [fst snd].
      split; [exact Hg|]. split; [exact Hc|]. symmetry. exact (Hc n v Hl).
    - rewrite (import_name_miss _ _ _ _ Hl). cbn [fst snd st_mods st_cache].
      destruct (good_slow n (st_mods st) Hg) as [Hg' He]. rewrite fresh_is_slow, <- He.
      split; [exact Hg'|]. split; [|reflexivity].
      destruct (snd (import_slow fuel U n (st_mods st))) as [| | |e]; try exact Hc.
      + apply (cache_ok_set _ _ None Hc). rewrite fresh_is_slow, <- He. reflexivity.
      + apply (cache_ok_set _ _ (Some e) Hc). rewrite fresh_is_slow, <- He. reflexivity.
  Qed.

  Lemma run_coherent ops : forall st, Good (st_mods st) -> cache_ok (st_cache st) ->
    run fuel U st ops = fresh_answers fuel U ops.
  Proof.
    induction ops as [|n t IH]; intros st Hg Hc; [reflexivity|].
    cbn [run fresh_answers map].
    destruct (import_name_step st n Hg Hc) as [Hg' [Hc' He]].
    destruct (import_name fuel U st n) as [st' r]. cbn [fst snd] in *.
    rewrite He. f_equal. apply IH; assumption.
  Qed.
End Memo.

Lemma cached_answer_is_repeated_lemma fuel U st n st' r :
  import_name fuel U st n = (st', r) -> (r = ONone \/ exists e, r = OOk e) ->
  forall mods', import_name fuel U (mkState mods' (st_cache st')) n = (mkState mods' (st_cache st'), r).
Proof.
  intros H Hr mods'.
  assert (exists v, lookup n (st_cache st') = Some v /\ r = ores_of v) as (v & Hv & ->).
  { destruct (lookup n (st_cache st)) as [v|] eqn:Hl.
    - rewrite (import_name_hit _ _ _ _ _ Hl) in H. injection H as <- <-. eauto.
    - rewrite (import_name_miss _ _ _ _ Hl) in H. injection H as <- <-. cbn [st_cache].
      destruct (snd (import_slow fuel U n (st_mods st))) as [| | |e].
      + exists None. rewrite lookup_set_same. auto.
      + destruct Hr as [Hr|[e Hr]]; discriminate.
      + destruct Hr as [Hr|[e Hr]]; discriminate.
      + exists (Some e). rewrite lookup_set_same. auto. }
  apply import_name_hit, Hv.
Qed.

(* no request below runs out of fuel, so the answers compared are those of complete runs *)
Definition no_out (l : list ores) : Prop := Forall (fun r => r <> OOut) l.

(* (1) package 0 defines class 10 and has a sub-module 0.10; module 1 says  v0: n0.n10.
       Fresh: the class.  After import_name("n0.n10"): `t.name in module_map` leaves the NamedType unresolved. *)
Definition U_shadow : universe :=
  [([0], mkRaw true [10] []); ([0; 10], mkRaw false [11] []); ([1], mkRaw false [] [(0, ([0], 10))])].

Lemma shadow_refuted :
  no_out (run 10 U_shadow fresh [[0; 10]; [1]]) /\
  run 10 U_shadow fresh [[0; 10]; [1]] <> fresh_answers 10 U_shadow [[0; 10]; [1]].
Proof. split; [vm_compute; repeat constructor; discriminate|vm_compute; discriminate]. Qed.

(* (2) modules 0 and 1 refer to each other, module 0 also to a class module 1 does not define.
       import_name("n0") fails, but module 1 - linked while 0 was half-loaded - stays in the map;
       import_name("n1") then succeeds, while a fresh loader fails (it has to load 0, which fails). *)
Definition U_cycle : universe :=
  [([0], mkRaw false [12] [(0, ([1], 10))]); ([1], mkRaw false [] [(0, ([0], 12))])].

Lemma cycle_refuted :
  no_out (run 10 U_cycle fresh [[0]; [1]]) /\
  run 10 U_cycle fresh [[0]; [1]] = [OErr; OOk (mkEntry false [] [(0, TCls [0] 12)])] /\
  fresh_answers 10 U_cycle [[0]; [1]] = [OErr; OErr].
Proof. split; [vm_compute; repeat constructor; discriminate|split; vm_compute; reflexivity]. Qed.

(* (3) the other direction of (1): package 0 defines class 12, has a sub-module 0.12 and says  v0: n0.n12.n12.
       collect_dependencies drops the dependency "n0.n12" (it is the name of a class of the module), so a fresh
       loader leaves the reference unresolved and fails; after import_name("n0.n12") the same request succeeds. *)
Definition U_own : universe :=
  [([0], mkRaw true [12] [(0, ([0; 12], 12))]); ([0; 12], mkRaw false [12] [])].

Lemma own_class_refuted :
  no_out (run 10 U_own fresh [[0; 12]; [0]]) /\
  run 10 U_own fresh [[0; 12]; [0]] <> fresh_answers 10 U_own [[0; 12]; [0]].
Proof. split; [vm_compute; repeat constructor; discriminate|vm_compute; discriminate]. Qed.
